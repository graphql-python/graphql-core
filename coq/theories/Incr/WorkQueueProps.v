(* C05 - general facts about the work-queue model: the stopped flag, termination exactly once. *)
From GV Require Import Base.Prelude Base.ListFacts Incr.Protocol Incr.WorkQueue.

Definition is_term (e : wqevent) : bool := match e with Termination => true | _ => false end.
Definition no_term (l : list wqevent) : bool := forallb (fun e => negb (is_term e)) l.

Lemma no_term_app a b : no_term (a ++ b) = no_term a && no_term b.
Proof. unfold no_term. apply forallb_app. Qed.

Lemma fold_no_term {A S} (f : S -> A -> S) (ev : S -> list wqevent) l : forall s0,
  no_term (ev s0) = true ->
  (forall s a, no_term (ev s) = true -> no_term (ev (f s a)) = true) ->
  no_term (ev (fold_left f l s0)) = true.
Proof. intros s0 H0 Hf. apply (fold_pres (fun s => no_term (ev s) = true)); assumption. Qed.

(* The stopped flag is only set by run_batch. *)
(* Every graph operation is a composition of folds whose bodies leave the flag alone; the state is
   either the accumulator or its last component. *)
Lemma fold_stopped {A} (f : state -> A -> state) l :
  (forall s a, stopped (f s a) = stopped s) -> forall s, stopped (fold_left f l s) = stopped s.
Proof.
  intros Hf s. apply (fold_pres (fun x => stopped x = stopped s)); [|reflexivity].
  intros s' a H. rewrite Hf. exact H.
Qed.

Lemma fold_stopped_snd {A B} (f : B * state -> A -> B * state) l :
  (forall b s a, stopped (snd (f (b, s) a)) = stopped s) ->
  forall b s, stopped (snd (fold_left f l (b, s))) = stopped s.
Proof.
  intros Hf b s. apply (fold_pres (fun x => stopped (snd x) = stopped s)); [|reflexivity].
  intros [b' s'] a H. rewrite Hf. exact H.
Qed.

Lemma stopped_start_task t s : stopped (start_task t s) = stopped s.
Proof. unfold start_task. destruct (ahas t (tnodes s)); reflexivity. Qed.

Lemma stopped_start_group g s : stopped (start_group g s) = stopped s.
Proof.
  unfold start_group. destruct (aget g (gnodes s)) as [n|]; [|reflexivity].
  apply fold_stopped. intros s' t. apply stopped_start_task.
Qed.

Lemma stopped_start_new_work ngs nss s : stopped (start_new_work ngs nss s) = stopped s.
Proof.
  unfold start_new_work. rewrite fold_stopped; [|reflexivity].
  apply fold_stopped. intros s' g. rewrite stopped_start_group. reflexivity.
Qed.

Lemma stopped_add_task E t s : stopped (add_task E t s) = stopped s.
Proof.
  unfold add_task. apply fold_stopped. intros s' g. destruct (aget g (gnodes s')) as [n|]; [|reflexivity].
  destruct (memN g _); [rewrite stopped_start_task|]; reflexivity.
Qed.

Lemma stopped_integrate E w pt s : stopped (snd (integrate E w pt s)) = stopped s.
Proof.
  unfold integrate.
  destruct (match w_groups w with [] => _ | _ => _ end) as [nr gn].
  assert (H1 : stopped (fold_left (fun s t => add_task E t s) (w_tasks w) (set_gnodes gn s)) = stopped s).
  { rewrite fold_stopped; [reflexivity|]. intros s' t. apply stopped_add_task. }
  destruct (w_streams w) as [|x xs]; [exact H1|].
  unfold add_streams. destruct pt as [t|]; [|exact H1].
  destruct (aget t (tnodes _)); exact H1.
Qed.

Lemma stopped_remove_task E t s : stopped (remove_task E t s) = stopped s.
Proof. reflexivity. Qed.

Lemma stopped_collect E oo n vals nss s :
  stopped (snd (collect_completed E oo n (vals, nss, s))) = stopped s.
Proof.
  unfold collect_completed. apply fold_stopped_snd. intros [v x] s' t.
  destruct (oo && _); destruct (aget t (tnodes s')); reflexivity.
Qed.

Lemma stopped_prune E flush : forall fuel gs ne vals nss s,
  stopped (snd (prune fuel E flush gs (ne, vals, nss, s))) = stopped s.
Proof.
  induction fuel as [|f IH]; intros gs ne vals nss s; cbn [prune].
  - destruct gs; reflexivity.
  - apply fold_stopped_snd. intros [[ne' v'] x'] s' g.
    destruct (aget g (gnodes s')) as [n|]; [|reflexivity].
    destruct (gn_pending n); [|reflexivity].
    destruct flush; [|rewrite IH; reflexivity].
    pose proof (stopped_collect E (match gn_children n with [] => true | _ :: _ => false end) n v' x'
                  (set_gnodes (adel g (gnodes s')) s')) as Hc.
    destruct (collect_completed E _ n _) as [[v1 x1] s2]. rewrite IH. exact Hc.
Qed.

Lemma stopped_prune_groups E gs s : stopped (snd (prune_groups E gs s)) = stopped s.
Proof.
  unfold prune_groups.
  pose proof (stopped_prune E false (S (length (gnodes s))) gs [] [] [] s) as H.
  destruct (prune _ E false gs _) as [[[ne v] x] s1]. exact H.
Qed.

Lemma stopped_remove_group E : forall fuel g n s, stopped (remove_group fuel E g n s) = stopped s.
Proof.
  induction fuel as [|f IH]; intros g n s; cbn [remove_group]; [reflexivity|].
  rewrite fold_stopped.
  - rewrite fold_stopped; [reflexivity|]. intros s' t. destruct (forallb _ _); reflexivity.
  - intros s' c. destruct (aget c (gnodes s')); [apply IH|reflexivity].
Qed.

Lemma stopped_rescue E g n s : stopped (snd (rescue E g n s)) = stopped s.
Proof.
  unfold rescue. apply fold_stopped_snd. intros v s' t. destruct (aget t (tnodes s')) as [tn|]; [|reflexivity].
  destruct (tn_owed tn && tn_done tn && _); reflexivity.
Qed.

(* The handlers leave the flag alone and emit no termination event. *)
Lemma finish_quiet E g n s :
  let '(evs, _, _, s') := finish_group_success E g n s in stopped s' = stopped s /\ no_term evs = true.
Proof.
  unfold finish_group_success.
  pose proof (stopped_collect E false n [] [] (set_gnodes (adel g (gnodes s)) s)) as H1.
  destruct (collect_completed E false n _) as [[v0 n0] s2].
  pose proof (stopped_prune E true (S (length (gnodes s2))) (gn_children n) [] v0 n0 s2) as H2.
  destruct (prune _ E true _ _) as [[[ngs vals] nss] s3]. cbn in *.
  split; [congruence|]. destruct vals; reflexivity.
Qed.

Lemma task_success_quiet E t s :
  let '(evs, s') := task_success E t s in stopped s' = stopped s /\ no_term evs = true.
Proof.
  unfold task_success.
  set (s0 := set_settled _ s).
  set (s1 := match aget t (tnodes s0) with Some tn => _ | None => s0 end).
  assert (H1 : stopped s1 = stopped s) by (subst s1; destruct (aget t (tnodes s0)); reflexivity).
  pose proof (stopped_integrate E (twork E t) (Some t) s1) as H2.
  destruct (integrate E (twork E t) (Some t) s1) as [[a b] s2]. cbn in H2.
  match goal with |- context [fold_left ?f (tgroups E t) s2] => set (s2' := fold_left f (tgroups E t) s2) end.
  assert (H3 : stopped s2' = stopped s).
  { subst s2'. rewrite fold_stopped; [congruence|]. intros s' g. destruct (aget g (gnodes s')); reflexivity. }
  match goal with |- context [fold_left ?f ?l (?e0, ?n1, ?n2, s2')] =>
    assert (H4 : (fun st => stopped (snd st) = stopped s /\ no_term (fst (fst (fst st))) = true)
                   (fold_left f l (e0, n1, n2, s2'))) end.
  { apply fold_pres; [|split; [exact H3|reflexivity]].
    intros [[[e' g'] x'] s'] g [Hs Hn]. cbn [fst snd] in *.
    destruct (aget g (gnodes s')) as [n|]; [|split; assumption].
    destruct (memN g (roots s') && Nat.eqb (gn_pending n) 0); [|split; assumption].
    pose proof (finish_quiet E g n s') as Hf.
    destruct (finish_group_success E g n s') as [[[e cg] cs] s'']. cbn [fst snd]. destruct Hf as [Hf1 Hf2].
    split; [congruence|]. rewrite no_term_app, Hn, Hf2. reflexivity. }
  match goal with |- context [fold_left ?f ?l ?i] => destruct (fold_left f l i) as [[[evs ngs] nss] s3] end.
  cbn [fst snd] in H4. rewrite stopped_start_new_work. exact H4.
Qed.

Lemma task_failure_quiet E t s :
  let '(evs, s') := task_failure E t s in stopped s' = stopped s /\ no_term evs = true.
Proof.
  unfold task_failure.
  match goal with |- context [fold_left ?f ?l ?i] =>
    assert (H : (fun st => stopped (snd st) = stopped s /\ no_term (fst st) = true) (fold_left f l i)) end.
  { apply fold_pres; [|split; reflexivity].
    intros [evs s'] g [Hs Hn]. cbn [fst snd] in *. destruct (aget g (gnodes s')) as [n|]; [|split; assumption].
    assert (Hr : stopped (snd (if memN g (roots s') then rescue E g n s' else ([], s'))) = stopped s').
    { destruct (memN g (roots s')); [apply stopped_rescue|reflexivity]. }
    destruct (if memN g (roots s') then rescue E g n s' else ([], s')) as [vals sr]. cbn [fst snd] in *.
    split.
    - unfold remove_group_top. cbn [set_roots stopped]. rewrite stopped_remove_group. congruence.
    - rewrite !no_term_app, Hn. destruct vals; reflexivity. }
  match goal with |- context [fold_left ?f ?l ?i] => destruct (fold_left f l i) as [evs s'] end. exact H.
Qed.

Lemma stream_items_quiet E x n b s :
  let '(evs, s') := stream_items E x n b s in stopped s' = stopped s /\ no_term evs = true.
Proof.
  unfold stream_items.
  match goal with |- context [fold_left ?f ?l (?a0, ?b0, ?s0)] =>
    assert (H : stopped (snd (fold_left f l (a0, b0, s0))) = stopped s) end.
  { rewrite fold_stopped_snd; [reflexivity|]. intros [a' b'] s' w.
    pose proof (stopped_integrate E w None s') as Hi.
    destruct (integrate E w None s') as [[ig is_] s2]. cbn in Hi.
    pose proof (stopped_prune_groups E ig s2) as Hp.
    destruct (prune_groups E ig s2) as [ne s3]. cbn in Hp |- *.
    rewrite stopped_start_new_work. congruence. }
  match goal with |- context [fold_left ?f ?l ?i] => destruct (fold_left f l i) as [[ngs nss] s1] end.
  destruct b; split; solve [exact H | reflexivity].
Qed.

Lemma step_quiet E s e :
  let '(s', evs) := step E s e in stopped s' = stopped s /\ no_term evs = true.
Proof.
  destruct e as [t|t|x n b|x|x]; cbn [step].
  - pose proof (task_success_quiet E t s). destruct (task_success E t s); assumption.
  - pose proof (task_failure_quiet E t s). destruct (task_failure E t s); assumption.
  - pose proof (stream_items_quiet E x n b s). destruct (stream_items E x n b s); assumption.
  - destruct (memN _ _); split; reflexivity.
  - split; reflexivity.
Qed.

(* the body of the loop of run_batch *)
Definition batch_step (E : env) (st : state * list wqevent) (e : gevent) : state * list wqevent :=
  let '(s, out) := st in let '(s', o) := step E s e in (s', out ++ o).

Lemma run_batch_eq E s evs :
  run_batch E s evs =
  if stopped s then (s, []) else
  let '(s1, out) := fold_left (batch_step E) evs (s, []) in
  match roots s1, rstreams s1 with
  | [], [] => (set_stopped true s1, out ++ [Termination])
  | _, _ => (s1, out)
  end.
Proof. reflexivity. Qed.

Lemma steps_quiet E evs : forall s out,
  no_term out = true ->
  let '(s', out') := fold_left (batch_step E) evs (s, out) in
  stopped s' = stopped s /\ no_term out' = true.
Proof.
  induction evs as [|e evs IH]; intros s out H; cbn [fold_left]; [split; [reflexivity|exact H]|].
  unfold batch_step at 2.
  pose proof (step_quiet E s e) as Hs. destruct (step E s e) as [s' o]. destruct Hs as [Hs Ho].
  specialize (IH s' (out ++ o)). rewrite no_term_app, H, Ho in IH. specialize (IH eq_refl).
  destruct (fold_left _ evs (s', out ++ o)) as [s'' out']. rewrite <- Hs. exact IH.
Qed.

(* one batch: the termination event is emitted iff the batch leaves no root work; it is the last
   event of the batch and it stops the queue *)
Lemma run_batch_term E s evs s' out :
  stopped s = false -> run_batch E s evs = (s', out) ->
  (stopped s' = true /\ roots s' = [] /\ rstreams s' = [] /\
     exists pre, out = pre ++ [Termination] /\ no_term pre = true)
  \/ (stopped s' = false /\ no_term out = true).
Proof.
  intros Hs H. rewrite run_batch_eq, Hs in H.
  pose proof (steps_quiet E evs s [] eq_refl) as Hq.
  destruct (fold_left _ evs (s, [])) as [s1 o1]. destruct Hq as [Hst Hn]. rewrite Hs in Hst.
  destruct (roots s1) eqn:R; destruct (rstreams s1) eqn:RS; inversion H; subst; clear H.
  - left. cbn. repeat split; auto. exists o1. auto.
  - right. auto.
  - right. auto.
  - right. auto.
Qed.

Lemma run_batches_stopped E : forall bs s, stopped s = true -> run_batches E s bs = (s, []).
Proof.
  induction bs as [|b bs IH]; intros s Hs; cbn [run_batches]; [reflexivity|].
  destruct b as [|e b].
  - rewrite (IH s Hs). reflexivity.
  - unfold run_batch. rewrite Hs. rewrite (IH s Hs). reflexivity.
Qed.

(* The termination event is emitted at most once, as the very last event, exactly when a batch
   leaves no root group and no root stream; afterwards the queue is stopped and emits nothing. *)
Theorem terminates_exactly_once E : forall bs s s' outs,
  stopped s = false -> run_batches E s bs = (s', outs) ->
  (stopped s' = true /\ roots s' = [] /\ rstreams s' = [] /\
     exists pre, concat outs = pre ++ [Termination] /\ no_term pre = true)
  \/ (stopped s' = false /\ no_term (concat outs) = true).
Proof.
  induction bs as [|b bs IH]; intros s s' outs Hs H; cbn [run_batches] in H.
  - inversion H; subst. right. split; [exact Hs|reflexivity].
  - destruct b as [|e b].
    + destruct (run_batches E s bs) as [s2 o2] eqn:R. inversion H; subst; clear H.
      exact (IH _ _ _ Hs R).
    + destruct (run_batch E s (e :: b)) as [s1 out] eqn:B.
      destruct (run_batch_term E s (e :: b) s1 out Hs B) as [(St & R1 & R2 & pre & -> & Hp) | (St & Hn)].
      * rewrite (run_batches_stopped E bs s1 St) in H. inversion H; subst; clear H.
        left. repeat split; auto. exists pre. split; [|exact Hp].
        destruct (pre ++ [Termination]) eqn:X; [destruct pre; discriminate|].
        cbn. rewrite app_nil_r. reflexivity.
      * destruct (run_batches E s1 bs) as [s2 o2] eqn:R. inversion H; subst; clear H.
        assert (Hc : concat (match out with [] => o2 | _ :: _ => out :: o2 end) = out ++ concat o2)
          by (destruct out; reflexivity).
        rewrite Hc.
        destruct (IH _ _ _ St R) as [(S2 & A & B2 & pre & Hc2 & Hp) | (S2 & Hn2)].
        -- left. repeat split; auto. exists (out ++ pre). rewrite Hc2, app_assoc. split; [reflexivity|].
           rewrite no_term_app, Hn, Hp. reflexivity.
        -- right. split; [exact S2|]. rewrite no_term_app, Hn, Hn2. reflexivity.
Qed.
