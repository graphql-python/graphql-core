(* When does a collection repeat a deferred fragment visit?  [rev] (DeferExec.c_rev) is set exactly when a
   named fragment that was collected through a deferred spread is met again through a non-deferred spread in
   the same selection-set collection (collect_fields.py: visited_fragment_names[frag] is True).  Static
   sufficient condition, proved here: if no fragment name is spread both with an active @defer and without
   one anywhere in the document, no run ever sets the flag. *)
From GV Require Import Base.Prelude Exec.Value Exec.Schema Exec.Spec Exec.ValueFacts Incr.DeferExec Incr.DeferLib Incr.DeferUnfold.

Section NoMixed.
  Variable s : schema.
  Variable frags : list fragment.
  Variable cv : list (str * value).
  Variables DN NN : list str.
  Hypothesis Hdisj : forall n, In n DN -> ~ In n NN.

  Definition okS (sels : list selection) : Prop :=
    (forall n, In n (flat_map (spread_names cv true) sels) -> In n DN) /\
    (forall n, In n (flat_map (spread_names cv false) sels) -> In n NN).

  Hypothesis Hfrags : forall fr, In fr frags -> okS (fr_sels fr).

  Lemma okS_cons x r : okS (x :: r) -> okS [x] /\ okS r.
  Proof.
    intros [H1 H2]. split; split; intros n Hn.
    - apply H1. cbn [flat_map] in *. rewrite app_nil_r in Hn. apply in_or_app. left. exact Hn.
    - apply H2. cbn [flat_map] in *. rewrite app_nil_r in Hn. apply in_or_app. left. exact Hn.
    - apply H1. cbn [flat_map]. apply in_or_app. right. exact Hn.
    - apply H2. cbn [flat_map]. apply in_or_app. right. exact Hn.
  Qed.

  Definition okF (f : dfield) : Prop := okS (fs_sels (df_fs f)).

  Definition Cst (st : cstate) : Prop :=
    c_rev st = false /\ (forall name, lookup name (c_vis st) = Some true -> In name DN) /\
    Forall (fun e => Forall okF (snd e)) (c_g st).

  Lemma add_dfield_ok k f g :
    Forall (fun e => Forall okF (snd e)) g -> okF f -> Forall (fun e : str * list dfield => Forall okF (snd e)) (add_dfield k f g).
  Proof.
    intros H Hf. induction H as [|[k' fs] r He HF IH]; cbn [add_dfield].
    - constructor; [|constructor]. cbn. constructor; [exact Hf|constructor].
    - destruct (str_eqb k k').
      + constructor; [|exact HF]. cbn [snd] in *. apply Forall_app. split; [exact He|]. constructor; [exact Hf|constructor].
      + constructor; assumption.
  Qed.

  Section Collect.
    Variable tn : str.
    Variable base : N.
    Variable depth : nat.

    Lemma dcollect_list_nm rec :
      (forall du sels st st', okS sels -> Cst st -> rec du sels st = Some st' -> Cst st') ->
      forall sels du st st', okS sels -> Cst st ->
        dcollect_list s frags cv tn base depth rec du sels st = Some st' -> Cst st'.
    Proof.
      intro Hrec. induction sels as [|sel rest IH]; intros du st st' Hok HC H; cbn [dcollect_list] in H.
      - inversion H; subst. exact HC.
      - destruct (okS_cons _ _ Hok) as [Hx Hrest]. destruct Hx as [Hx1 Hx2]. cbn [flat_map] in Hx1, Hx2.
        rewrite app_nil_r in Hx1, Hx2.
        destruct sel as [al name args dirs sub | name dirs | tc dirs sub]; cbn [spread_names] in Hx1, Hx2.
        + destruct (should_include cv dirs); [|eapply IH; eauto].
          eapply IH; [exact Hrest| |exact H].
          destruct HC as [C1 [C2 C3]]. repeat split; try assumption.
          cbn [c_g]. apply add_dfield_ok; [exact C3|]. split; assumption.
        + destruct (negb (should_include cv dirs)); [eapply IH; eauto|].
          destruct (find_frag name frags) as [fr|] eqn:Ef; [|eapply IH; eauto].
          destruct (negb (cond_matches s (fr_cond fr) tn)); [eapply IH; eauto|].
          pose proof (Hfrags fr (find_frag_In _ _ _ Ef)) as Hbody.
          destruct HC as [C1 [C2 C3]].
          assert (HC : Cst st) by (repeat split; assumption).
          destruct (defer_active cv dirs) as [lab|] eqn:Eda, (lookup name (c_vis st)) as [[|]|] eqn:El;
            [exact (IH _ _ _ Hrest HC H)|exact (IH _ _ _ Hrest HC H)| | |exact (IH _ _ _ Hrest HC H)|].
          * (* deferred, first visit *)
            destruct (rec _ (fr_sels fr) _) as [st1|] eqn:E1; [|discriminate].
            eapply IH; [exact Hrest| |exact H]. eapply Hrec; [exact Hbody| |exact E1].
            repeat split; cbn [c_rev c_vis c_g]; try assumption.
            intros x Hl. cbn [lookup] in Hl. destruct (str_eqb x name) eqn:Ex; [|apply C2; exact Hl].
            apply str_eqb_eq in Ex. subst x. apply Hx1. left. reflexivity.
          * (* a non-deferred spread of a fragment collected as deferred: excluded by the condition *)
            exfalso. apply (Hdisj name); [apply C2; exact El|apply Hx2; left; reflexivity].
          * destruct (rec _ (fr_sels fr) _) as [st1|] eqn:E1; [|discriminate].
            eapply IH; [exact Hrest| |exact H]. eapply Hrec; [exact Hbody| |exact E1].
            repeat split; cbn [c_rev c_vis c_g]; try assumption.
            -- rewrite C1. reflexivity.
            -- intros x Hl. cbn [lookup] in Hl. destruct (str_eqb x name); [discriminate|apply C2; exact Hl].
        + destruct (should_include cv dirs && match tc with Some c => cond_matches s c tn | None => true end);
            [|eapply IH; eauto].
          assert (Hsub : okS sub) by (split; assumption).
          destruct HC as [C1 [C2 C3]].
          destruct (defer_active cv dirs) as [lab|];
            match type of H with
            | match rec ?d ?b ?x with _ => _ end = _ =>
                destruct (rec d b x) as [st1|] eqn:E1; [|discriminate];
                eapply IH; [exact Hrest| |exact H]; eapply Hrec; [exact Hsub| |exact E1];
                repeat split; assumption
            end.
    Qed.

    Lemma dcollect_nm fuel : forall du sels st st', okS sels -> Cst st ->
      dcollect s frags cv tn base depth fuel du sels st = Some st' -> Cst st'.
    Proof.
      induction fuel as [|f IH]; intros du sels st st' Hok HC H; cbn [dcollect] in H; [discriminate|].
      eapply dcollect_list_nm; eauto.
    Qed.

    Lemma dcollect_srcs_nm fuel srcs : forall st st', Forall (fun x => okS (snd x)) srcs -> Cst st ->
      dcollect_srcs s frags cv tn base depth fuel srcs st = Some st' -> Cst st'.
    Proof.
      induction srcs as [|[du sels] r IH]; intros st st' Hs HC H; cbn [dcollect_srcs] in H.
      - inversion H; subst. exact HC.
      - inversion Hs as [|x l Hx Hr]; subst. cbn [snd] in Hx.
        destruct (dcollect s frags cv tn base depth fuel du sels st) as [st1|] eqn:E; [|discriminate].
        eapply IH; [exact Hr| |exact H]. eapply dcollect_nm; eauto.
    Qed.
  End Collect.

  Lemma Cst_init : Cst cs0.
  Proof. repeat split; [intros name H; discriminate|constructor]. Qed.

  Definition NoRevS (f : nat) : Prop :=
    forall tn obj srcs par b dp o pl rv, Forall (fun x : duchain * list selection => okS (snd x)) srcs ->
      dexec_sels s frags cv false f tn obj srcs par b dp = Some (o, pl, rv) -> rv = false.
  Definition NoRevF (f : nat) : Prop :=
    forall tn obj par b dp fs o pl rv, Forall okF fs ->
      dexec_field s frags cv false f tn obj par b dp fs = Some (XRes (o, pl, rv)) -> rv = false.
  Definition NoRevC (f : nat) : Prop :=
    forall t fs d par b dp o pl rv, Forall okF fs ->
      dcomplete s frags cv false f t fs d par b dp = Some (o, pl, rv) -> rv = false.

  Lemma srcs_of_ok fs : Forall okF fs -> Forall (fun x : duchain * list selection => okS (snd x)) (srcs_of fs).
  Proof. intro H. unfold srcs_of. apply Forall_map. exact H. Qed.

  Definition no_rev (a : option xout) : Prop := forall o pl rv, a = Some (o, pl, rv) -> rv = false.

  Lemma stepR_S f : NoRevF f -> NoRevS (S f).
  Proof.
    intros HF tn obj srcs par b dp o pl rv Hs H. unfold dexec_sels in H. rewrite gexec_sels_S in H.
    destruct (dcollect_srcs s frags cv tn b dp f srcs cs0) as [st|] eqn:Ec; [|discriminate].
    cbv zeta in H. cbn [fst snd dexec_deferred] in H.
    destruct (dcollect_srcs_nm tn b dp f srcs cs0 st Hs Cst_init Ec) as [C1 [_ C3]].
    destruct (dexec_groups _ (c_g st)) as [[[[[r es] cs] pls] rv1]|] eqn:Eg; [|discriminate].
    assert (Hrv : rv1 = false).
    { eapply dexec_groups_rv; [|exact Eg]. intros e o1 pl1 rv2 He Hx.
      rewrite Forall_forall in C3. eapply HF; [exact (C3 e He)|exact Hx]. }
    subst rv1. destruct r; inversion H; subst; rewrite C1; reflexivity.
  Qed.

  Lemma stepR_F f : NoRevC f -> NoRevF (S f).
  Proof.
    intros HC tn obj par b dp fs o pl rv Hfs H. unfold dexec_field in H. rewrite gexec_field_S in H.
    destruct fs as [|d1 fs']; [discriminate|]. revert o pl rv H.
    apply (field_shape_ind (fun a => forall o pl rv, a = Some (XRes (o, pl, rv)) -> rv = false)).
    - discriminate.
    - intros o pl rv H. inversion H; reflexivity.
    - intros fd o pl rv H. inversion H; reflexivity.
    - intros fd args o pl rv H. unfold field_res in H.
      destruct (gcomplete false s frags cv false f _ _ _ par b (S dp)) as [[[[[r es] cs] pls] rv1]|] eqn:Ecp;
        [|discriminate].
      pose proof (HC _ _ _ _ _ _ _ _ _ Hfs Ecp) as ->. inversion H; reflexivity.
  Qed.

  Lemma stepR_C f : NoRevC f -> NoRevS f -> NoRevC (S f).
  Proof.
    intros HC HS t fs d par b dp o pl rv Hfs. unfold dcomplete. rewrite gcomplete_S. revert o pl rv.
    apply (complete_shape_ind no_rev).
    - intros c o pl rv H. inversion H; reflexivity.
    - intros j o pl rv H. inversion H; reflexivity.
    - intros t' [[r es] cs] pl rv H.
      apply nn_wrap_inv in H as [[es1 [pls1 [H _]]]|[H _]]; exact (HC _ _ _ _ _ _ _ _ _ Hfs H).
    - intros it items o pl rv H.
      destruct (dcomplete_items _ items 0) as [[[[[r es] cs] pls] rv1]|] eqn:Ei; [|discriminate].
      assert (Hrv : rv1 = false).
      { eapply dcomplete_items_rv; [|exact Ei]. intros x o1 pl1 rv2 Hx. cbn beta in Hx.
        destruct (gcomplete false s frags cv false f it fs x par b (S dp)) as [[[[[r1 es1] cs1] pls1] rv3]|] eqn:Ecp;
          [|discriminate].
        pose proof (HC _ _ _ _ _ _ _ _ _ Hfs Ecp) as ->. inversion Hx; reflexivity. }
      subst rv1. destruct r; inversion H; reflexivity.
    - intros rt flds o pl rv H. exact (HS _ _ _ _ _ _ _ _ _ (srcs_of_ok _ Hfs) H).
  Qed.

  Theorem no_mixed_all : forall f, NoRevS f /\ NoRevF f /\ NoRevC f.
  Proof.
    induction f as [|f [IHs [IHf IHc]]].
    - repeat split; intros; discriminate.
    - split; [apply stepR_S; exact IHf|]. split; [apply stepR_F; exact IHc|apply stepR_C; assumption].
  Qed.
End NoMixed.

Theorem no_mixed_rev_false fuel s d vars root j es cs pl rv :
  (forall cv, coerce_variable_values s (d_vars d) vars = Some cv -> no_mixed_spreads cv d = true) ->
  dexecute_fuel false fuel s d vars root = DResp j es cs pl rv -> rv = false.
Proof.
  intros Hnm. rewrite dexecute_fuel_deliver.
  destruct (gexecute_fuel false false fuel s d vars root) as [| |j1 es1 cs1 pl1 rv1] eqn:E; try discriminate.
  intro H. inversion H; subst; clear H.
  destruct (gexecute_fuel_run _ _ _ _ _ _ _ _ _ _ _ _ E) as [cv [tn [Hcv [_ [_ Hrun]]]]].
  rewrite Hrun in E. apply resp_of_inv in E as [r [pls0 [Hp _]]].
  specialize (Hnm cv Hcv). unfold no_mixed_spreads in Hnm. rewrite forallb_forall in Hnm.
  set (DN := doc_spread_names cv true d) in *. set (NN := doc_spread_names cv false d) in *.
  assert (Hdisj : forall n, In n DN -> ~ In n NN).
  { intros n Hn Hn'. specialize (Hnm n Hn). apply negb_true_iff in Hnm. apply mem_not_In in Hnm. contradiction. }
  assert (Hfr : forall fr, In fr (d_frags d) -> okS cv DN NN (fr_sels fr)).
  { intros fr Hfr. split; intros n Hn; unfold DN, NN, doc_spread_names; apply in_or_app; right;
      apply in_flat_map; exists fr; split; assumption. }
  assert (Hroot : okS cv DN NN (d_sels d)).
  { split; intros n Hn; unfold DN, NN, doc_spread_names; apply in_or_app; left; exact Hn. }
  destruct (no_mixed_all s (d_frags d) cv DN NN Hdisj Hfr fuel) as [HS _].
  eapply HS; [|exact Hp]. constructor; [exact Hroot|constructor].
Qed.

(* when every @defer is disabled nothing is spread with an active @defer *)
Lemma inactive_spread_names cv : forall x, inactive_sel cv x = true -> spread_names cv true x = [].
Proof.
  assert (Hsub : forall sub, Forall (fun y => inactive_sel cv y = true -> spread_names cv true y = []) sub ->
                   forallb (inactive_sel cv) sub = true -> flat_map (spread_names cv true) sub = []).
  { induction 1 as [|y r Hy _ IHr]; cbn; [reflexivity|]. intro H. apply andb_true_iff in H as [H1 H2].
    rewrite Hy, IHr by assumption. reflexivity. }
  induction x as [al name args dirs sub H | name dirs | tc dirs sub H] using selection_sub_ind;
    cbn [inactive_sel spread_names]; intro Hx.
  - exact (Hsub _ H Hx).
  - destruct (defer_active cv dirs); [discriminate|reflexivity].
  - apply andb_true_iff in Hx as [_ Hx]. exact (Hsub _ H Hx).
Qed.

Lemma inactive_no_mixed cv d : inactive_doc cv d = true -> no_mixed_spreads cv d = true.
Proof.
  intro H. unfold no_mixed_spreads.
  assert (E : forall l, inactive_sels cv l = true -> flat_map (spread_names cv true) l = []).
  { induction l as [|x r IH]; cbn; [reflexivity|]. intro Hl. apply andb_true_iff in Hl as [H1 H2].
    rewrite (inactive_spread_names cv x H1), (IH H2). reflexivity. }
  unfold inactive_doc in H. apply andb_true_iff in H as [Hs Hf].
  assert (Hd : doc_spread_names cv true d = []).
  { unfold doc_spread_names. rewrite (E _ Hs). cbn [app].
    rewrite forallb_forall in Hf. induction (d_frags d) as [|fr r IH]; [reflexivity|]. cbn [flat_map].
    rewrite (E _ (Hf fr (or_introl eq_refl))), IH; [reflexivity|]. intros x Hx. apply Hf. right. exact Hx. }
  rewrite Hd. reflexivity.
Qed.
