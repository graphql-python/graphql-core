(* Properties of the execution plan Incr/Plan.v (build_execution_plan): the plan is a partition of the
   grouped field set, and the initial part holds exactly the keys whose filtered defer-usage set is the
   parent set.  Stated as C04 in Properties/C04.v. *)
From GV Require Import Base.Prelude Incr.Plan.
From Coq Require Import Permutation.

(* all (key, details) entries of a plan, initial first then group by group *)
Definition entries (p : gfs * list (list du * gfs)) : list (N * details) :=
  fst p ++ flat_map snd (snd p).

Lemma add_to_group_entries s k fs groups :
  Permutation (flat_map snd (add_to_group s k fs groups)) (flat_map snd groups ++ [(k, fs)]).
Proof.
  induction groups as [|[s' g] r IH]; cbn; [reflexivity|].
  destruct (set_eq (ids s') (ids s)); cbn.
  - rewrite <- !app_assoc. apply Permutation_app_head. apply Permutation_app_comm.
  - rewrite <- app_assoc. apply Permutation_app_head. exact IH.
Qed.

Lemma plan_entries orig : forall parent init groups,
  Permutation (entries (plan orig parent init groups)) (init ++ flat_map snd groups ++ orig).
Proof.
  induction orig as [|[k fs] r IH]; intros parent init groups; cbn [plan].
  - unfold entries. cbn. rewrite app_nil_r. reflexivity.
  - destruct (set_eq (ids (filtered_set fs)) parent).
    + rewrite IH. rewrite <- app_assoc. apply Permutation_app_head.
      cbn [app]. apply Permutation_middle.
    + rewrite IH. apply Permutation_app_head.
      rewrite add_to_group_entries. rewrite <- app_assoc. reflexivity.
Qed.

(* Partition: every response key of the original grouped field set, with its complete field
   list, occurs exactly once in the plan (the plan's entries are a permutation of the original). *)
Theorem plan_partition orig parent :
  Permutation (entries (build_execution_plan orig parent)) orig.
Proof. unfold build_execution_plan. rewrite plan_entries. reflexivity. Qed.

(* the initial part keeps the original order and contains exactly the keys whose filtered
   defer-usage set equals the parent set *)
Lemma plan_init orig : forall parent init groups,
  fst (plan orig parent init groups)
  = init ++ filter (fun e => set_eq (ids (filtered_set (snd e))) parent) orig.
Proof.
  induction orig as [|[k fs] r IH]; intros parent init groups; cbn [plan filter snd].
  - rewrite app_nil_r. reflexivity.
  - destruct (set_eq (ids (filtered_set fs)) parent).
    + rewrite IH, <- app_assoc. reflexivity.
    + apply IH.
Qed.

Theorem initial_iff_parent_set orig parent :
  fst (build_execution_plan orig parent)
  = filter (fun e => set_eq (ids (filtered_set (snd e))) parent) orig.
Proof. unfold build_execution_plan. rewrite plan_init. reflexivity. Qed.

(* a group with a non-deferred field is never deferred: its filtered set is empty *)
Theorem non_deferred_field_empty_set fs : In None fs -> filtered_set fs = [].
Proof.
  unfold filtered_set.
  assert (G : forall acc, In None fs -> collect_dus fs acc = None).
  { induction fs as [|[d|] r IH]; intros acc H; cbn; [destruct H| |reflexivity].
    destruct H as [H|H]; [discriminate|]. apply IH. exact H. }
  intros H. rewrite (G [] H). reflexivity.
Qed.

(* every entry of a new group carries that group's defer-usage set *)
Lemma add_to_group_sets s k fs groups :
  (forall s' g e, In (s', g) groups -> In e g -> set_eq (ids s') (ids (filtered_set (snd e))) = true) ->
  set_eq (ids s) (ids s) = true -> s = filtered_set fs ->
  forall s' g e, In (s', g) (add_to_group s k fs groups) -> In e g ->
    set_eq (ids s') (ids (filtered_set (snd e))) = true.
Proof.
  intros Hinv Hrefl Hs. induction groups as [|[s0 g0] r IH]; cbn; intros s' g e Hin He.
  - destruct Hin as [Hin|[]]. inversion Hin; subst. destruct He as [<-|[]]. cbn. exact Hrefl.
  - destruct (set_eq (ids s0) (ids s)) eqn:E; cbn in Hin.
    + destruct Hin as [Hin|Hin].
      * inversion Hin; subst. apply in_app_or in He as [He|[<-|[]]].
        -- eapply Hinv; [left; reflexivity|exact He].
        -- cbn. exact E.
      * eapply Hinv; [right; exact Hin|exact He].
    + destruct Hin as [Hin|Hin].
      * inversion Hin; subst. eapply Hinv; [left; reflexivity|exact He].
      * eapply IH; eauto. intros s1 g1 e1 H1 H2. eapply Hinv; [right; exact H1|exact H2].
Qed.
