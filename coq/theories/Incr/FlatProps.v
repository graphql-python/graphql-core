(* C05 - the work-queue model produces node-level well-formed event traces (NodeProtocol.wq_wf) for
   every enabled run, by induction with a graph invariant preserved by every step - for FLAT work:
   groups with parents, tasks in any number of groups, root streams, but no nested work carried by
   task results or stream items (named _partial in Properties/C05.v for that reason). *)
From GV Require Import Base.Prelude Base.ListFacts Incr.Protocol Incr.WorkQueue Incr.Publisher Incr.NodeProtocol Incr.ProtocolProps
  Incr.Explore Incr.Flat Incr.WorkQueueFacts Incr.PublisherProps Incr.WorkQueueProps.

Inductive shrink : list (N * gnode) -> list (N * gnode) -> Prop :=
| shrink_nil : shrink [] []
| shrink_keep k n n' l l' :
    shrink l l' -> gn_children n = gn_children n' -> shrink ((k, n) :: l) ((k, n') :: l')
| shrink_drop k n l l' : shrink l l' -> shrink ((k, n) :: l) l'.

Lemma shrink_refl l : shrink l l.
Proof. induction l as [|[k n] l IH]; [constructor|]. apply shrink_keep; auto. Qed.

Lemma shrink_trans a b c : shrink a b -> shrink b c -> shrink a c.
Proof.
  intro H. revert c. induction H as [|k n n' l l' H IH E|k n l l' H IH]; intros c Hc.
  - exact Hc.
  - inversion Hc as [|k2 n2 n3 l2 l3 H3 E3|k2 n2 l2 l3 H3]; subst.
    + apply shrink_keep; [apply IH; exact H3|congruence].
    + apply shrink_drop. apply IH. exact H3.
  - apply shrink_drop. apply IH. exact Hc.
Qed.

Lemma shrink_adel k l : shrink l (adel k l).
Proof.
  unfold adel. induction l as [|[k' n] l IH]; cbn [filter fst]; [constructor|].
  destruct (k' =? k); cbn [negb]; [apply shrink_drop|apply shrink_keep]; auto.
Qed.

Lemma shrink_aset k n n' l :
  aget k l = Some n -> gn_children n = gn_children n' -> shrink l (aset k n' l).
Proof.
  induction l as [|[k' m] l IH]; cbn [aget aset]; [discriminate|].
  destruct (N.eqb_spec k k') as [<-|_]; intros H Hc.
  - inversion H; subst. apply shrink_keep; [apply shrink_refl|exact Hc].
  - apply shrink_keep; [apply IH; assumption|reflexivity].
Qed.

Lemma shrink_in l l' : shrink l l' -> forall k n', In (k, n') l' ->
  exists n, In (k, n) l /\ gn_children n = gn_children n'.
Proof.
  induction 1 as [|k0 n0 n0' l l' H IH E|k0 n0 l l' H IH]; intros k n' Hin; cbn [In] in *.
  - contradiction.
  - destruct Hin as [Hin|Hin].
    + inversion Hin; subst. exists n0. split; [left; reflexivity|exact E].
    + destruct (IH _ _ Hin) as (n & Hn & Hc). exists n. split; [right; exact Hn|exact Hc].
  - destruct (IH _ _ Hin) as (n & Hn & Hc). exists n. split; [right; exact Hn|exact Hc].
Qed.

Lemma shrink_none l l' k : shrink l l' -> aget k l = None -> aget k l' = None.
Proof.
  intros Sh H. destruct (aget k l') as [n'|] eqn:A; [|reflexivity].
  destruct (shrink_in _ _ Sh _ _ (aget_in _ _ _ A)) as (n & Hin & _). exfalso. exact (in_aget_some _ _ _ Hin H).
Qed.

Lemma shrink_keys l l' : shrink l l' -> incl (map fst l') (map fst l).
Proof.
  intros Sh k Hk. apply in_map_iff in Hk as [[k' n'] [<- Hin]].
  destruct (shrink_in _ _ Sh _ _ Hin) as (n & Hn & _). exact (in_fst _ _ _ Hn).
Qed.

Lemma shrink_nodup_keys l l' : shrink l l' -> NoDup (map fst l) -> NoDup (map fst l').
Proof.
  induction 1 as [|k0 n0 n0' l l' H IH E|k0 n0 l l' H IH]; intro Hnd; cbn [map fst] in *.
  - constructor.
  - inversion Hnd as [|? ? Hn Hnd']; subst. constructor; [|auto].
    intro X. apply Hn. exact (shrink_keys _ _ H _ X).
  - inversion Hnd; subst. auto.
Qed.

Lemma shrink_livech_incl l l' : shrink l l' -> incl (livech l') (livech l).
Proof.
  induction 1 as [|k0 n0 n0' l l' H IH E|k0 n0 l l' H IH]; unfold livech in *; cbn [flat_map snd].
  - intros x [].
  - rewrite E. intros x Hx. apply in_app_or in Hx as [Hx|Hx]; apply in_or_app; [left; exact Hx|right; auto].
  - intros x Hx. apply in_or_app. right. auto.
Qed.

Lemma shrink_nodup_livech l l' : shrink l l' -> NoDup (livech l) -> NoDup (livech l').
Proof.
  induction 1 as [|k0 n0 n0' l l' H IH E|k0 n0 l l' H IH]; unfold livech in *; cbn [flat_map snd]; intro Hnd.
  - constructor.
  - rewrite <- E. apply NoDup_app_intro.
    + exact (NoDup_app_l _ _ Hnd).
    + apply IH. exact (NoDup_app_r _ _ Hnd).
    + intros x Hx1 Hx2. apply (NoDup_app_disj _ _ x Hnd Hx1). exact (shrink_livech_incl _ _ H _ Hx2).
  - apply IH. exact (NoDup_app_r _ _ Hnd).
Qed.

Lemma in_aget_nodup {A} k (l : list (N * A)) v :
  NoDup (map fst l) -> In (k, v) l -> aget k l = Some v.
Proof.
  intros Hnd Hin. induction l as [|[k' v'] l IH]; cbn [In aget] in *; [contradiction|].
  inversion Hnd as [|? ? Hn Hnd']; subst. destruct Hin as [Hin|Hin].
  - inversion Hin; subst. rewrite N.eqb_refl. reflexivity.
  - destruct (N.eqb_spec k k') as [->|_]; [exfalso; exact (Hn (in_fst _ _ _ Hin))|auto].
Qed.

Record GI (E : env) (seen : list N) (s : state) : Prop := mkGI {
  gi_keys : NoDup (map fst (gnodes s));
  gi_livech : NoDup (livech (gnodes s));
  gi_child : forall g n c, In (g, n) (gnodes s) -> In c (gn_children n) ->
             ~ In (gkey c) seen /\ parent E c = Some g;
  gi_tstreams : forall t tn, In (t, tn) (tnodes s) -> tn_streams tn = []
}.

Definition no_tstreams (s : state) : Prop := forall t tn, In (t, tn) (tnodes s) -> tn_streams tn = [].

(* what every graph operation of the flat fragment does to the rest of the state *)
Record frame (s s' : state) : Prop := mkFrame {
  fr_shrink : shrink (gnodes s) (gnodes s');
  fr_rstreams : rstreams s' = rstreams s;
  fr_spos : spos s' = spos s;
  fr_tst : no_tstreams s -> no_tstreams s'
}.

Lemma frame_refl s : frame s s.
Proof. constructor; auto. apply shrink_refl. Qed.

Lemma frame_trans a b c : frame a b -> frame b c -> frame a c.
Proof.
  intros [A1 A2 A3 A4] [B1 B2 B3 B4]. constructor; [eapply shrink_trans; eassumption|congruence..|auto].
Qed.

Lemma GI_frame E seen s s' : GI E seen s -> frame s s' -> GI E seen s'.
Proof.
  intros [K L C T] [Sh _ _ Ft]. constructor.
  - exact (shrink_nodup_keys _ _ Sh K).
  - exact (shrink_nodup_livech _ _ Sh L).
  - intros g n' c Hin Hc. destruct (shrink_in _ _ Sh _ _ Hin) as (n & Hn & E').
    rewrite <- E' in Hc. exact (C _ _ _ Hn Hc).
  - exact (Ft T).
Qed.

(* the invariant only looks at the group and task nodes *)
Lemma GI_ext E seen s s' : gnodes s' = gnodes s -> tnodes s' = tnodes s -> GI E seen s -> GI E seen s'.
Proof. intros G T [K L C Ts]. constructor; unfold no_tstreams in *; rewrite ?G, ?T; assumption. Qed.

Lemma frame_adel s g : frame s (set_gnodes (adel g (gnodes s)) s).
Proof. constructor; cbn; auto. apply shrink_adel. Qed.

Lemma frame_set_oof s : frame s (set_oof s).
Proof. constructor; cbn; auto. apply shrink_refl. Qed.

(* ... and the operations that delete no group node and leave the root groups alone *)
Definition keeps (s s' : state) : Prop :=
  forall k, aget k (gnodes s) <> None -> aget k (gnodes s') <> None.

Record stable (s s' : state) : Prop := mkStable {
  st_frame : frame s s';
  st_keeps : keeps s s';
  st_roots : roots s' = roots s
}.

Lemma stable_refl s : stable s s.
Proof. constructor; [apply frame_refl|intros k Hk; exact Hk|reflexivity]. Qed.

Lemma stable_trans a b c : stable a b -> stable b c -> stable a c.
Proof.
  intros [F1 K1 R1] [F2 K2 R2]. constructor; [eapply frame_trans; eassumption|intros k Hk; apply K2, K1, Hk|congruence].
Qed.

Lemma fold_stable {A} (f : state -> A -> state) l :
  (forall s a, stable s (f s a)) -> forall s, stable s (fold_left f l s).
Proof. apply fold_rel; [exact stable_refl|exact stable_trans]. Qed.

(* the state is the last component of the accumulator *)
Lemma fold_stable_snd {A B} (f : B * state -> A -> B * state) l :
  (forall b s a, stable s (snd (f (b, s) a))) -> forall b s, stable s (snd (fold_left f l (b, s))).
Proof.
  intros Hf b s. apply (fold_pres (fun x => stable s (snd x))); [|apply stable_refl].
  intros [b' s'] a H. exact (stable_trans _ _ _ H (Hf b' s' a)).
Qed.

(* the group nodes keep their keys and children; task nodes may go or change except for their streams *)
Lemma stable_nodes s s' :
  shrink (gnodes s) (gnodes s') -> keeps s s' -> roots s' = roots s -> rstreams s' = rstreams s ->
  spos s' = spos s -> (no_tstreams s -> no_tstreams s') -> stable s s'.
Proof. intros; repeat constructor; assumption. Qed.

Lemma no_tstreams_aset s t tn :
  no_tstreams s -> tn_streams tn = [] -> forall t' tn', In (t', tn') (aset t tn (tnodes s)) -> tn_streams tn' = [].
Proof. intros H Htn t' tn' Hin. apply aset_in in Hin as [[_ ->]|Hin]; [exact Htn|exact (H _ _ Hin)]. Qed.

(* replacing a task node by one with the same streams *)
Lemma stable_set_tnode s t tn tn' :
  aget t (tnodes s) = Some tn -> tn_streams tn' = tn_streams tn ->
  stable s (set_tnodes (aset t tn' (tnodes s)) s).
Proof.
  intros A Hs. apply stable_nodes; cbn; auto; [apply shrink_refl|intros k Hk; exact Hk|].
  intro H. refine (no_tstreams_aset s t tn' H _). rewrite Hs. exact (H _ _ (aget_in _ _ _ A)).
Qed.

Lemma remove_task_stable E t s : stable s (remove_task E t s).
Proof.
  unfold remove_task. apply stable_nodes; cbn [gnodes set_tnodes set_gnodes rstreams spos roots tnodes]; auto.
  - apply (fold_rel shrink); [exact shrink_refl|exact shrink_trans|].
    intros gn g. destruct (aget g gn) as [n|] eqn:A; [|apply shrink_refl].
    eapply shrink_aset; [exact A|reflexivity].
  - intros k. apply (fold_pres (fun gn => aget k gn <> None)).
    intros gn g H. destruct (aget g gn) as [n|]; [apply aset_keeps|]; exact H.
  - intros H t' tn Hin. apply adel_in in Hin. exact (H _ _ Hin).
Qed.

(* the values and streams of the completed tasks of a group: in the flat fragment there are no streams *)
Lemma collect_stable E oo n vals nss s :
  let r := collect_completed E oo n (vals, nss, s) in
  stable s (snd r) /\ (no_tstreams s -> snd (fst r) = nss).
Proof.
  unfold collect_completed.
  apply (fold_pres (fun r : list N * list N * state => stable s (snd r) /\ (no_tstreams s -> snd (fst r) = nss)));
    [|split; [apply stable_refl|reflexivity]].
  intros [[v x] s'] t [St Hx]. cbn [fst snd] in *.
  assert (Hno : no_tstreams s -> no_tstreams s') by exact (fr_tst _ _ (st_frame _ _ St)).
  destruct (oo && existsb (fun g => ahas g (gnodes s')) (tgroups E t)); destruct (aget t (tnodes s')) as [tn|] eqn:A;
    cbn [fst snd]; try (split; assumption).
  - split; [|exact Hx]. eapply stable_trans; [exact St|]. eapply stable_set_tnode; [exact A|reflexivity].
  - split; [exact (stable_trans _ _ _ St (remove_task_stable E t s'))|].
    intro H. rewrite (Hno H _ _ (aget_in _ _ _ A)), app_nil_r. exact (Hx H).
Qed.

Definition anc (E : env) (g : N) : list N := ancestors (S (length (e_parent E))) (e_parent E) g.

Lemma anc_mono parents : forall f x a, In a (ancestors f parents x) -> In a (ancestors (S f) parents x).
Proof.
  induction f as [|f IH]; intros x a H; [contradiction|].
  cbn [ancestors] in *. destruct (agetN x parents) as [p|]; [|contradiction].
  destruct H as [H|H]; [left; exact H|right; apply IH; exact H].
Qed.

Lemma anc_step E c d a : parent E c = Some d -> In a (anc E c) -> a = d \/ In a (anc E d).
Proof.
  unfold anc, parent. intros Hp H. cbn [ancestors] in H. rewrite Hp in H.
  destruct H as [H|H]; [left; symmetry; exact H|right; apply anc_mono; exact H].
Qed.

Lemma in_livech gn r : In r (livech gn) <-> exists g n, In (g, n) gn /\ In r (gn_children n).
Proof.
  unfold livech. rewrite in_flat_map. split.
  - intros [[g n] [Hin Hc]]. exists g, n. auto.
  - intros (g & n & Hin & Hc). exists (g, n). auto.
Qed.

Lemma children_nodup gn g n : In (g, n) gn -> NoDup (livech gn) -> NoDup (gn_children n).
Proof.
  unfold livech. induction gn as [|[k m] gn IH]; cbn [In flat_map snd]; [contradiction|].
  intros [H|H] Hnd.
  - inversion H; subst. exact (NoDup_app_l _ _ Hnd).
  - apply IH; [exact H|exact (NoDup_app_r _ _ Hnd)].
Qed.

(* once the node of g is deleted, no live node lists a child of g *)
Lemma livech_adel_notin gn g n x :
  NoDup (map fst gn) -> NoDup (livech gn) -> In (g, n) gn -> In x (gn_children n) ->
  ~ In x (livech (adel g gn)).
Proof.
  unfold livech, adel. induction gn as [|[k m] gn IH]; cbn [In map fst flat_map snd filter]; [contradiction|].
  intros Hk Hl Hin Hx. inversion Hk as [|? ? Hnk Hk']; subst.
  destruct Hin as [Hin|Hin].
  - inversion Hin; subst. rewrite N.eqb_refl. cbn [negb].
    intro X. apply (NoDup_app_disj _ _ x Hl Hx).
    apply in_flat_map in X as [e [He Hxe]]. apply filter_In in He as [He _]. apply in_flat_map. eauto.
  - destruct (N.eqb_spec k g) as [->|_]; [exfalso; exact (Hnk (in_fst _ _ _ Hin))|].
    cbn [negb flat_map snd]. intro X. apply in_app_or in X as [X|X].
    + apply (NoDup_app_disj _ _ x Hl X). apply in_flat_map. exists (g, n). split; [exact Hin|exact Hx].
    + exact (IH Hk' (NoDup_app_r _ _ Hl) Hin Hx X).
Qed.

(* a group that may be promoted to a root: never announced, no enclosing group left, no parent node *)
Definition candok (E : env) (seen : list N) (s : state) (c : N) : Prop :=
  ~ In (gkey c) seen /\ (forall a, In a (anc E c) -> aget a (gnodes s) = None) /\ ~ In c (livech (gnodes s)).

Lemma candok_frame E seen s s' c : candok E seen s c -> frame s s' -> candok E seen s' c.
Proof.
  intros (A & B & C) F. split; [exact A|]. split.
  - intros a Ha. exact (shrink_none _ _ _ (fr_shrink _ _ F) (B _ Ha)).
  - intro X. apply C. exact (shrink_livech_incl _ _ (fr_shrink _ _ F) _ X).
Qed.

(* every group node deleted between s and s' is one of X or was a child of a live node of s *)
Definition dels (s s' : state) (X : list N) : Prop :=
  forall k, aget k (gnodes s) <> None -> aget k (gnodes s') = None -> In k (X ++ livech (gnodes s)).

Lemma dels_trans s s1 s' X Y :
  shrink (gnodes s) (gnodes s1) -> dels s s1 X -> dels s1 s' Y -> dels s s' (X ++ Y).
Proof.
  intros Sh D1 D2 k H1 H2. rewrite <- app_assoc. destruct (aget k (gnodes s1)) as [n1|] eqn:A.
  - assert (H3 : aget k (gnodes s1) <> None) by (rewrite A; discriminate).
    apply in_or_app. right. specialize (D2 k H3 H2). apply in_app_or in D2 as [D|D]; apply in_or_app;
      [left; exact D|right; exact (shrink_livech_incl _ _ Sh _ D)].
  - specialize (D1 k H1 A). apply in_app_or in D1 as [D|D]; apply in_or_app; [left; exact D|right].
    apply in_or_app. right. exact D.
Qed.

(* pruning the candidates [gs] from [s]: the groups [added] are promoted (appended to [ne]) *)
Record pruned (E : env) (seen gs ne nss : list N) (s : state) (ne' nss' added : list N) (s' : state) : Prop :=
  mkPruned {
  pp_frame : frame s s';
  pp_roots : roots s' = roots s;
  pp_nss : nss' = nss;
  pp_dels : dels s s' gs;
  pp_ne : ne' = ne ++ added;
  pp_nodup : NoDup added;
  pp_incl : incl added (gs ++ livech (gnodes s));
  pp_cand : forall c, In c added -> candok E seen s' c /\ aget c (gnodes s') <> None
}.

Definition prune_post (E : env) (seen gs ne nss : list N) (s : state)
  (r : list N * list N * list N * state) : Prop :=
  let '(ne', vals', nss', s') := r in exists added, pruned E seen gs ne nss s ne' nss' added s'.

Definition prune_spec (E : env) (seen : list N) (flush : bool) (fuel : nat) : Prop :=
  forall gs ne vals nss s,
  GI E seen s -> NoDup gs -> (forall c, In c gs -> candok E seen s c) ->
  prune_post E seen gs ne nss s (prune fuel E flush gs (ne, vals, nss, s)).

Lemma prune_post_same E seen gs ne vals nss s s' :
  frame s s' -> roots s' = roots s -> gnodes s' = gnodes s -> prune_post E seen gs ne nss s (ne, vals, nss, s').
Proof.
  intros F R G. exists []. constructor; try assumption.
  - reflexivity.
  - intros k H1 H2. rewrite G in H2. contradiction.
  - symmetry. apply app_nil_r.
  - constructor.
  - intros x [].
  - intros c [].
Qed.

(* the first candidate, then the others: what the others add or delete is among them or was a child
   of a live node, which the groups added for the first candidate are not *)
Lemma prune_post_cons E seen c rest ne ne1 v1 nss s s3 r :
  ~ In c rest -> (forall x, In x rest -> ~ In x (livech (gnodes s))) ->
  prune_post E seen [c] ne nss s (ne1, v1, nss, s3) -> prune_post E seen rest ne1 nss s3 r ->
  prune_post E seen (c :: rest) ne nss s r.
Proof.
  intros Hcr Hrl (added1 & [F1 R1 _ D1 E1 N1 I1 C1]). destruct r as [[[ne' vals'] nss'] s'].
  intros (added2 & [F2 R2 X2 D2 E2 N2 I2 C2]).
  pose proof (shrink_livech_incl _ _ (fr_shrink _ _ F1)) as Hl.
  assert (Hnew : forall x, In x added1 -> ~ In x (rest ++ livech (gnodes s3))).
  { intros x Hx Hin. apply in_app_or in Hin as [Hin|Hin].
    - destruct (I1 x Hx) as [<-|Hxl]; [exact (Hcr Hin)|exact (Hrl x Hin Hxl)].
    - destruct (C1 x Hx) as ((_ & _ & Z) & _). exact (Z Hin). }
  exists (added1 ++ added2). constructor.
  - exact (frame_trans _ _ _ F1 F2).
  - congruence.
  - exact X2.
  - exact (dels_trans _ _ _ [c] rest (fr_shrink _ _ F1) D1 D2).
  - rewrite E2, E1, app_assoc. reflexivity.
  - apply NoDup_app_intro; [exact N1|exact N2|]. intros x Hx1 Hx2. exact (Hnew x Hx1 (I2 x Hx2)).
  - intros x Hx. apply in_app_or in Hx as [Hx|Hx].
    + destruct (I1 x Hx) as [<-|Hxl]; [left; reflexivity|right; apply in_or_app; right; exact Hxl].
    + right. specialize (I2 x Hx). apply in_app_or in I2 as [I2|I2]; apply in_or_app; [left; exact I2|right; exact (Hl _ I2)].
  - intros x Hx. apply in_app_or in Hx as [Hx|Hx]; [|exact (C2 x Hx)].
    destruct (C1 x Hx) as (Ck & Hn). split; [exact (candok_frame _ _ _ _ _ Ck F2)|].
    intro Hdel. exact (Hnew x Hx (D2 x Hn Hdel)).
Qed.

(* The node of g (no enclosing group of g is left) has been deleted and, maybe, its completed tasks
   collected: pruning its children removes g's subtree or promotes parts of it. *)
Lemma prune_children E seen flush fuel g n s s2 ne vals nss :
  prune_spec E seen flush fuel -> GI E seen s -> aget g (gnodes s) = Some n ->
  (forall a, In a (anc E g) -> aget a (gnodes s) = None) ->
  stable (set_gnodes (adel g (gnodes s)) s) s2 ->
  prune_post E seen [g] ne nss s (prune fuel E flush (gn_children n) (ne, vals, nss, s2)).
Proof.
  intros Hp HGI A Hanc [F12 K12 R12].
  pose proof (frame_trans _ _ _ (frame_adel s g) F12) as F02.
  pose proof (aget_in _ _ _ A) as Hin.
  assert (Hcc : forall c, In c (gn_children n) -> candok E seen s2 c).
  { intros c Hc. destruct (gi_child _ _ _ HGI _ _ _ Hin Hc) as [Hu Hpc].
    split; [exact Hu|]. split.
    - intros a Ha. destruct (anc_step _ _ _ _ Hpc Ha) as [->|Ha'].
      + apply (shrink_none _ _ _ (fr_shrink _ _ F12)). apply aget_adel_same.
      + exact (shrink_none _ _ _ (fr_shrink _ _ F02) (Hanc _ Ha')).
    - intro X. apply (shrink_livech_incl _ _ (fr_shrink _ _ F12)) in X.
      exact (livech_adel_notin _ _ _ _ (gi_keys _ _ _ HGI) (gi_livech _ _ _ HGI) Hin Hc X). }
  pose proof (Hp (gn_children n) ne vals nss s2 (GI_frame _ _ _ _ HGI F02)
                (children_nodup _ _ _ Hin (gi_livech _ _ _ HGI)) Hcc) as P.
  destruct (prune fuel E flush (gn_children n) (ne, vals, nss, s2)) as [[[ne1 v1] x1] s3].
  destruct P as (added & [F3 R3 X3 D3 E1 N1 I1 C1]).
  assert (Hsub : incl (gn_children n ++ livech (gnodes s2)) (livech (gnodes s))).
  { intros x Hx. apply in_app_or in Hx as [Hx|Hx].
    - apply in_livech. eauto.
    - exact (shrink_livech_incl _ _ (fr_shrink _ _ F02) _ Hx). }
  exists added. constructor; try assumption.
  - exact (frame_trans _ _ _ F02 F3).
  - rewrite R3, R12. reflexivity.
  - intros k H1 H2. destruct (N.eq_dec k g) as [->|Hne]; [left; reflexivity|right].
    apply Hsub, (D3 k); [|exact H2]. apply K12. cbn [gnodes set_gnodes]. rewrite (aget_adel_other _ _ _ Hne). exact H1.
  - intros x Hx. right. exact (Hsub _ (I1 x Hx)).
Qed.

Lemma prune_ok E seen flush : forall fuel, prune_spec E seen flush fuel.
Proof.
  induction fuel as [|f IHf]; intros gs ne vals nss s HGI Hnd Hc; cbn [prune].
  - destruct gs as [|g gs]; apply prune_post_same; auto using frame_refl, frame_set_oof.
  - set (F := fun (st : list N * list N * list N * state) g => _).
    revert ne vals nss s HGI Hnd Hc.
    induction gs as [|c rest IHg]; intros ne vals nss s HGI Hnd Hc; cbn [fold_left].
    + apply prune_post_same; auto using frame_refl.
    + inversion Hnd as [|? ? Hcr Hnd']; subst.
      assert (Hc' : forall r, In r rest -> candok E seen s r) by (intros r Hr; apply Hc; right; exact Hr).
      assert (Hrl : forall r, In r rest -> ~ In r (livech (gnodes s))) by (intros r Hr; apply (Hc' r Hr)).
      pose proof (Hc c (or_introl eq_refl)) as Cc. destruct Cc as (Cu & Ca & Cl).
      unfold F at 2. cbn beta iota.
      destruct (aget c (gnodes s)) as [n|] eqn:A.
      2:{ (* no node: skipped *)
          apply (prune_post_cons E seen c rest ne ne vals nss s s); [exact Hcr|exact Hrl| |apply IHg; assumption].
          apply prune_post_same; auto using frame_refl. }
      destruct (gn_pending n) as [|pn] eqn:P.
      * (* empty: pruned, its children are the next candidates *)
        set (s1 := set_gnodes (adel c (gnodes s)) s).
        assert (Hfl : exists vals1 s2,
          (if flush
           then collect_completed E (match gn_children n with [] => true | _ :: _ => false end) n (vals, nss, s1)
           else (vals, nss, s1)) = (vals1, nss, s2) /\ stable s1 s2).
        { destruct flush; [|exists vals, s1; split; [reflexivity|apply stable_refl]].
          destruct (collect_stable E (match gn_children n with [] => true | _ :: _ => false end) n vals nss s1)
            as [St Hx].
          destruct (collect_completed E _ n (vals, nss, s1)) as [[v1 x1] s2]. cbn [fst snd] in St, Hx.
          rewrite Hx by exact (fr_tst _ _ (frame_adel s c) (gi_tstreams _ _ _ HGI)). eauto. }
        destruct Hfl as (vals1 & s2 & -> & St2).
        pose proof (prune_children E seen flush f c n s s2 ne vals1 nss IHf HGI A Ca St2) as P1.
        destruct (prune f E flush (gn_children n) (ne, vals1, nss, s2)) as [[[ne1 v1] x1] s3].
        assert (x1 = nss) as -> by (destruct P1 as (added & P1); exact (pp_nss _ _ _ _ _ _ _ _ _ _ P1)).
        apply (prune_post_cons E seen c rest ne ne1 v1 nss s s3 _ Hcr Hrl P1).
        destruct P1 as (added & P1). pose proof (pp_frame _ _ _ _ _ _ _ _ _ _ P1) as F03.
        apply IHg; [exact (GI_frame _ _ _ _ HGI F03)|exact Hnd'|].
        intros r Hr. exact (candok_frame _ _ _ _ _ (Hc' r Hr) F03).
      * (* non-empty: kept and promoted *)
        apply (prune_post_cons E seen c rest ne (ne ++ [c]) vals nss s s); [exact Hcr|exact Hrl| |apply IHg; assumption].
        exists [c]. constructor; try reflexivity.
        -- apply frame_refl.
        -- intros k H1 H2. contradiction.
        -- constructor; [intros []|constructor].
        -- intros x [<-|[]]. left. reflexivity.
        -- intros x [<-|[]]. split; [exact (conj Cu (conj Ca Cl))|rewrite A; discriminate].
Qed.

Lemma finish_ok E seen g n s :
  GI E seen s -> aget g (gnodes s) = Some n ->
  (forall a, In a (anc E g) -> aget a (gnodes s) = None) ->
  let '(evs, ngs, nss, s') := finish_group_success E g n s in
  frame s s' /\ roots s' = sdel g (roots s) /\ nss = [] /\
  (exists vals, evs = (match vals with [] => [] | _ => [GroupValues g vals] end) ++ [GroupSuccess g ngs []]) /\
  NoDup ngs /\
  (forall c, In c ngs -> candok E seen s' c /\ aget c (gnodes s') <> None) /\
  dels s s' [g].
Proof.
  intros HGI A Hanc. unfold finish_group_success.
  set (s1 := set_gnodes (adel g (gnodes s)) s).
  destruct (collect_stable E false n [] [] s1) as [St Hx].
  destruct (collect_completed E false n ([], [], s1)) as [[vals0 nss0] s2]. cbn [fst snd] in St, Hx.
  rewrite Hx by exact (fr_tst _ _ (frame_adel s g) (gi_tstreams _ _ _ HGI)).
  pose proof (prune_children E seen true (S (length (gnodes s2))) g n s s2 [] vals0 []
                (prune_ok E seen true _) HGI A Hanc St) as P.
  destruct (prune (S (length (gnodes s2))) E true (gn_children n) ([], vals0, [], s2)) as [[[ngs vals] nss] s3].
  destruct P as (added & [F03 R3 -> D3 E1 N1 I1 C1]). cbn [app] in E1. subst ngs.
  split; [destruct F03; constructor; assumption|]. split; [cbn [set_roots roots]; rewrite R3; reflexivity|].
  split; [reflexivity|]. split; [exists vals; reflexivity|]. auto.
Qed.

Lemma n_announce_ok ks : forall nst,
  NoDup ks -> (forall k, In k ks -> ~ In k (n_seen nst)) ->
  exists nst', n_announce ks nst = Some nst' /\ n_open nst' = n_open nst ++ ks /\
    (forall k, In k (n_seen nst') <-> In k ks \/ In k (n_seen nst)) /\
    n_next nst' = n_next nst /\ n_closed nst' = n_closed nst.
Proof.
  induction ks as [|k ks IH]; intros nst Hnd Hf; cbn [n_announce].
  - exists nst. rewrite app_nil_r. split; [reflexivity|]. split; [reflexivity|].
    split; [intro k; split; [intro; right; assumption|intros [[]|H]; exact H]|]. auto.
  - inversion Hnd as [|? ? Hk Hnd']; subst.
    assert (Hm : memN k (n_seen nst) = false) by (apply memN_false_iff; apply Hf; left; reflexivity).
    rewrite Hm.
    destruct (IH (mkNS (k :: n_seen nst) (n_open nst ++ [k]) (n_next nst) (n_closed nst)) Hnd') as (nst' & A & B & C & D & F).
    + intros k' Hk' [X|X]; [subst; contradiction|]. apply (Hf k'); [right; exact Hk'|exact X].
    + exists nst'. split; [exact A|]. split; [rewrite B; cbn [n_open]; rewrite <- app_assoc; reflexivity|].
      split; [|split; [exact D|exact F]].
      intro k'. rewrite C. cbn [n_seen In]. tauto.
Qed.

Lemma sadd_in k x l : In x (sadd k l) <-> In x l \/ x = k.
Proof.
  unfold sadd. destruct (memN k l) eqn:M.
  - apply memN_spec in M. split; [intro; left; assumption|intros [H|H]; [exact H|subst; exact M]].
  - rewrite in_app_iff. cbn [In]. intuition congruence.
Qed.

Lemma sadd_nodup k l : NoDup l -> NoDup (sadd k l).
Proof.
  unfold sadd. intro H. destruct (memN k l) eqn:M; [exact H|].
  apply memN_false_iff in M. apply NoDup_snoc; assumption.
Qed.

(* the open keys of the monitor are the root groups R and the root streams S *)
Definition open_keys (op R S : list N) : Prop :=
  forall k, In k op <-> (exists g, k = gkey g /\ In g R) \/ (exists x, k = skey x /\ In x S).

Lemma open_keys_close_group op R R' S g :
  open_keys op R S -> (forall x, In x R' <-> In x R /\ x <> g) ->
  open_keys (filter (fun x => negb (x =? gkey g)) op) R' S.
Proof.
  intros H HR k. rewrite filter_neq_in, (H k). split.
  - intros [[(g0 & -> & Hg0)|Hx] Hne]; [left|right; exact Hx].
    exists g0. split; [reflexivity|]. apply HR. split; [exact Hg0|]. intros ->. apply Hne. reflexivity.
  - intros [(g0 & -> & Hg0)|(x & -> & Hx)].
    + apply HR in Hg0 as [Hg0 Hne]. split; [left; exists g0; auto|]. intro Y. apply gkey_inj in Y. contradiction.
    + split; [right; exists x; auto|]. intro Y. exact (gkey_skey _ _ (eq_sym Y)).
Qed.

Lemma open_keys_close_stream op R S x :
  open_keys op R S -> open_keys (filter (fun y => negb (y =? skey x)) op) R (sdel x S).
Proof.
  intros H k. rewrite filter_neq_in, (H k). split.
  - intros [[Hg|(y & -> & Hy)] Hne]; [left; exact Hg|right].
    exists y. split; [reflexivity|]. apply sdel_in. split; [exact Hy|]. intros ->. apply Hne. reflexivity.
  - intros [(g0 & -> & Hg0)|(y & -> & Hy)].
    + split; [left; exists g0; auto|]. exact (gkey_skey _ _).
    + apply sdel_in in Hy as [Hy Hne]. split; [right; exists y; auto|]. intro Y. apply skey_inj in Y. contradiction.
Qed.

Lemma open_keys_announce op R S ngs : open_keys op R S -> open_keys (op ++ map gkey ngs) (R ++ ngs) S.
Proof.
  intros H k. rewrite in_app_iff, (H k), in_map_iff. split.
  - intros [[(g & -> & Hg)|Hx]|(g & <- & Hg)]; [left; exists g|right; exact Hx|left; exists g];
      (split; [reflexivity|apply in_or_app; auto]).
  - intros [(g & -> & Hg)|Hx]; [|left; right; exact Hx].
    apply in_app_or in Hg as [Hg|Hg]; [left; left|right]; exists g; auto.
Qed.

Definition agok (E : env) (s : state) (ag : list N) : Prop :=
  forall a, In a ag -> forall p, In p (anc E a) -> aget p (gnodes s) = None.

Lemma agok_shrink E s s' ag : agok E s ag -> shrink (gnodes s) (gnodes s') -> agok E s' ag.
Proof. intros H Sh a Ha p Hp. exact (shrink_none _ _ _ Sh (H a Ha p Hp)). Qed.

Lemma agok_nil E s : agok E s [].
Proof. intros a []. Qed.

(* the invariant tying the graph state to the node-level monitor; P = groups promoted by the
   current handler that are not yet in the root set *)
Record PhiP (E : env) (s : state) (nst : nstate) (P : list N) : Prop := mkPhiP {
  ph_gi : GI E (n_seen nst) s;
  ph_closed : n_closed nst = false;
  ph_roots_nd : NoDup (roots s ++ P);
  ph_rs_nd : NoDup (rstreams s);
  ph_open : forall k, In k (n_open nst) <->
            (exists g, k = gkey g /\ In g (roots s ++ P)) \/ (exists x, k = skey x /\ In x (rstreams s));
  ph_seen : incl (n_open nst) (n_seen nst);
  ph_nodes : forall r, In r (roots s ++ P) -> aget r (gnodes s) <> None;
  ph_anc : forall r, In r (roots s ++ P) -> forall a, In a (anc E r) -> aget a (gnodes s) = None;
  ph_next : forall x, In x (rstreams s) -> next_of (skey x) nst = stream_pos x s
}.

Definition Phi (E : env) (s : state) (nst : nstate) : Prop := PhiP E s nst [].

Lemma ph_open_group E s nst P g : PhiP E s nst P -> In g (roots s ++ P) -> memN (gkey g) (n_open nst) = true.
Proof. intros HP Hg. apply memN_spec, (ph_open _ _ _ _ HP). left. exists g. auto. Qed.

Lemma ph_open_stream E s nst P x : PhiP E s nst P -> In x (rstreams s) -> memN (skey x) (n_open nst) = true.
Proof. intros HP Hx. apply memN_spec, (ph_open _ _ _ _ HP). right. exists x. auto. Qed.

(* a root group is nobody's child: children are not announced yet *)
Lemma root_not_child E s nst P r :
  PhiP E s nst P -> In r (roots s ++ P) -> ~ In r (livech (gnodes s)).
Proof.
  intros HP Hr Hl. apply in_livech in Hl as (g0 & n0 & Hin0 & Hc0).
  destruct (gi_child _ _ _ (ph_gi _ _ _ _ HP) _ _ _ Hin0 Hc0) as [U _]. apply U.
  apply (ph_seen _ _ _ _ HP), memN_spec. exact (ph_open_group _ _ _ _ _ HP Hr).
Qed.

Lemma PhiP_stable E s s' nst P : PhiP E s nst P -> stable s s' -> PhiP E s' nst P.
Proof.
  intros [Hgi Hcl Hrnd Hsnd Hopen Hseen Hnodes Hanc Hnext] [Fr K R]. constructor.
  - eapply GI_frame; eassumption.
  - exact Hcl.
  - rewrite R. exact Hrnd.
  - rewrite (fr_rstreams _ _ Fr). exact Hsnd.
  - intro k. rewrite R, (fr_rstreams _ _ Fr). apply Hopen.
  - exact Hseen.
  - intros r Hr. rewrite R in Hr. apply K. exact (Hnodes r Hr).
  - intros r Hr a Ha. rewrite R in Hr. exact (shrink_none _ _ _ (fr_shrink _ _ Fr) (Hanc r Hr a Ha)).
  - intros x Hx. rewrite (fr_rstreams _ _ Fr) in Hx. unfold stream_pos. rewrite (fr_spos _ _ Fr). exact (Hnext x Hx).
Qed.

(* fields the invariant does not look at *)
Lemma stable_same s s' :
  gnodes s' = gnodes s -> tnodes s' = tnodes s -> roots s' = roots s -> rstreams s' = rstreams s ->
  spos s' = spos s -> stable s s'.
Proof.
  intros G T R RS SP. apply stable_nodes; auto.
  - rewrite G. apply shrink_refl.
  - intros k Hk. rewrite G. exact Hk.
  - unfold no_tstreams. rewrite T. auto.
Qed.

(* a group g that is not among the promoted ones is closed: its node and nodes below it are gone *)
Lemma PhiP_close_group E s s' nst P g :
  PhiP E s nst P -> ~ In g P -> frame s s' -> roots s' = sdel g (roots s) -> dels s s' [g] ->
  PhiP E s' (n_close (gkey g) nst) P.
Proof.
  intros HP HgP Fr R D. pose proof (fun r => root_not_child E s nst P r HP) as Hnc.
  destruct HP as [Hgi Hcl Hrnd Hsnd Hopen Hseen Hnodes Hanc Hnext].
  assert (HR' : forall x, In x (sdel g (roots s) ++ P) <-> In x (roots s ++ P) /\ x <> g).
  { intro x. rewrite !in_app_iff, sdel_in. split; [|tauto]. intros [[H1 H2]|H1]; [tauto|].
    split; [tauto|]. intros ->. contradiction. }
  constructor; cbn [n_close n_seen n_closed n_next n_open]; rewrite ?R, ?(fr_rstreams _ _ Fr).
  - exact (GI_frame _ _ _ _ Hgi Fr).
  - exact Hcl.
  - apply NoDup_sdel_app. exact Hrnd.
  - exact Hsnd.
  - exact (open_keys_close_group _ _ _ _ _ Hopen HR').
  - intros k Hk. apply filter_In in Hk as [Hk _]. exact (Hseen k Hk).
  - intros r Hr. apply HR' in Hr as [Hr Hrg]. intro Hdel.
    destruct (D r (Hnodes r Hr) Hdel) as [<-|Hl]; [exact (Hrg eq_refl)|exact (Hnc r Hr Hl)].
  - intros r Hr a Ha. apply HR' in Hr as [Hr _]. exact (shrink_none _ _ _ (fr_shrink _ _ Fr) (Hanc r Hr a Ha)).
  - intros x Hx. unfold next_of, stream_pos. cbn [n_next]. rewrite (fr_spos _ _ Fr). exact (Hnext x Hx).
Qed.

Lemma announced_finish g vals ngs :
  announced_groups ((match vals with [] => [] | _ :: _ => [GroupValues g vals] end) ++ [GroupSuccess g ngs []]) = ngs.
Proof. destruct vals; cbn; rewrite app_nil_r; reflexivity. Qed.

(* the optional values event of an open group is accepted *)
Lemma nsteps_values nst g vals evs :
  n_closed nst = false -> (vals <> [] -> memN (gkey g) (n_open nst) = true) ->
  nsteps nst ((match vals with [] => [] | _ :: _ => [GroupValues g vals] end) ++ evs) = nsteps nst evs.
Proof.
  intros Hcl Hm. destruct vals; [reflexivity|]. cbn [app nsteps]. unfold nstep. rewrite Hcl, Hm; [reflexivity|discriminate].
Qed.

Lemma finish_step E s nst P g n :
  PhiP E s nst P -> aget g (gnodes s) = Some n -> In g (roots s) ->
  let '(evs, ngs, nss, s') := finish_group_success E g n s in
  exists nst', nsteps nst evs = Some nst' /\ PhiP E s' nst' (P ++ ngs) /\ nss = [] /\
    frame s s' /\ announced_groups evs = ngs /\ agok E s' ngs.
Proof.
  intros HP A Hroot.
  assert (HgR : In g (roots s ++ P)) by (apply in_or_app; left; exact Hroot).
  pose proof (ph_open_group _ _ _ _ _ HP HgR) as Hm.
  pose proof (finish_ok E (n_seen nst) g n s (ph_gi _ _ _ _ HP) A (ph_anc _ _ _ _ HP g HgR)) as FO.
  destruct (finish_group_success E g n s) as [[[evs ngs] nss] s'].
  destruct FO as (Fr & R & X & (vals & Ev) & Nng & Cng & Dng). subst nss evs.
  assert (HgP : ~ In g P) by (intro Y; exact (NoDup_app_disj _ _ g (ph_roots_nd _ _ _ _ HP) Hroot Y)).
  pose proof (ph_closed _ _ _ _ HP) as Hcl0.
  (* g is closed, then the promoted groups are announced *)
  pose proof (PhiP_close_group E s s' nst P g HP HgP Fr R Dng) as HPc. clear HP.
  destruct HPc as [Hgi Hcl Hrnd Hsnd Hopen Hseen Hnodes Hanc Hnext].
  assert (Hfresh : forall k, In k (map gkey ngs) -> ~ In k (n_seen (n_close (gkey g) nst))).
  { intros k Hk. apply in_map_iff in Hk as [c [<- Hc]]. destruct (Cng c Hc) as ((U & _) & _). exact U. }
  destruct (n_announce_ok (map gkey ngs) (n_close (gkey g) nst) (NoDup_map_inj _ _ gkey_inj Nng) Hfresh)
    as (nst' & An & Op & Se & Nx & Cl).
  exists nst'. split.
  { rewrite (nsteps_values _ _ _ _ Hcl0 (fun _ => Hm)). cbn [nsteps]. unfold nstep. rewrite Hcl0, Hm.
    unfold new_keys. cbn [map]. rewrite app_nil_r, An. reflexivity. }
  split.
  - assert (Hnew : forall c, In c ngs -> ~ In c (roots s' ++ P)).
    { intros c Hc Hin. destruct (Cng c Hc) as ((U & _) & _). apply U, Hseen, Hopen. left. exists c. auto. }
    constructor; rewrite ?app_assoc.
    + destruct Hgi as [K L C T]. constructor; auto.
      intros g0 n0 c0 Hin0 Hc0. destruct (C _ _ _ Hin0 Hc0) as [U Pp]. split; [|exact Pp].
      intro Y. apply Se in Y as [Y|Y]; [|contradiction].
      apply in_map_iff in Y as [c [Ec Hc]]. apply gkey_inj in Ec. subst c0.
      destruct (Cng c Hc) as ((_ & _ & Z) & _). apply Z, in_livech. eauto.
    + rewrite Cl. exact Hcl.
    + apply NoDup_app_intro; [exact Hrnd|exact Nng|]. intros x Hx Hn. exact (Hnew x Hn Hx).
    + exact Hsnd.
    + intro k. rewrite Op. exact (open_keys_announce _ _ _ ngs Hopen k).
    + intros k Hk. rewrite Op in Hk. apply Se. apply in_app_or in Hk as [Hk|Hk]; [right; exact (Hseen k Hk)|left; exact Hk].
    + intros r Hr. apply in_app_or in Hr as [Hr|Hr]; [exact (Hnodes r Hr)|]. destruct (Cng r Hr) as (_ & Hn). exact Hn.
    + intros r Hr a Ha. apply in_app_or in Hr as [Hr|Hr]; [exact (Hanc r Hr a Ha)|].
      destruct (Cng r Hr) as ((_ & B & _) & _). exact (B a Ha).
    + intros x Hx. unfold next_of. rewrite Nx. exact (Hnext x Hx).
  - split; [reflexivity|]. split; [exact Fr|]. split; [apply announced_finish|].
    intros a Ha p Hp. destruct (Cng a Ha) as ((_ & B & _) & _). exact (B p Hp).
Qed.

Lemma start_task_stable t s : stable s (start_task t s).
Proof.
  unfold start_task. destruct (ahas t (tnodes s)); [apply stable_refl|].
  apply stable_nodes; cbn; auto; [apply shrink_refl|intros k Hk; exact Hk|].
  intro H. exact (no_tstreams_aset s t (mkT false [] false) H eq_refl).
Qed.

Lemma start_group_stable g s : stable s (start_group g s).
Proof.
  unfold start_group. destruct (aget g (gnodes s)) as [n|]; [|apply stable_refl].
  apply fold_stable. intros s' t. apply start_task_stable.
Qed.

Lemma start_promoted E nst : forall P s,
  PhiP E s nst P ->
  PhiP E (start_new_work P [] s) nst [] /\ shrink (gnodes s) (gnodes (start_new_work P [] s)).
Proof.
  unfold start_new_work. cbn [fold_left].
  induction P as [|g P IH]; intros s H; cbn [fold_left]; [split; [exact H|apply shrink_refl]|].
  set (s1 := set_roots (sadd g (roots s)) s).
  assert (Hsadd : sadd g (roots s) = roots s ++ [g]).
  { unfold sadd. replace (memN g (roots s)) with false; [reflexivity|]. symmetry. apply memN_false_iff.
    intro X. apply (NoDup_app_disj _ _ g (ph_roots_nd _ _ _ _ H) X). left. reflexivity. }
  assert (H1 : PhiP E s1 nst P).
  { destruct H as [Hgi Hcl Hrnd Hsnd Hopen Hseen Hnodes Hanc Hnext].
    constructor; cbn [s1 set_roots roots rstreams gnodes tnodes spos]; rewrite ?Hsadd, <- ?app_assoc; cbn [app]; auto.
    exact (GI_ext _ _ s s1 eq_refl eq_refl Hgi). }
  pose proof (start_group_stable g s1) as St.
  destruct (IH _ (PhiP_stable _ _ _ _ _ H1 St)) as [HP Sh]. split; [exact HP|].
  exact (shrink_trans _ _ _ (fr_shrink _ _ (st_frame _ _ St)) Sh).
Qed.

Lemma nsteps_app a : forall b nst,
  nsteps nst (a ++ b) = match nsteps nst a with Some st => nsteps st b | None => None end.
Proof.
  induction a as [|e a IH]; intros b nst; cbn [app nsteps]; [reflexivity|].
  destruct (nstep nst e); [apply IH|reflexivity].
Qed.

(* the body of the second loop of _task_success: a root group of the task that has become complete
   finishes *)
Definition finish_ready (E : env) (st : list wqevent * list N * list N * state) (g : N) :=
  let '(evs, ngs, nss, s) := st in
  match aget g (gnodes s) with
  | Some n =>
      if memN g (roots s) && Nat.eqb (gn_pending n) 0 then
        let '(e, cg, cs, s'') := finish_group_success E g n s in
        (evs ++ e, ngs ++ cg, nss ++ cs, s'')
      else st
  | None => st
  end.

Lemma finish_fold E l : forall evs ngs s nst,
  PhiP E s nst ngs ->
  let '(evs', ngs', nss', s') := fold_left (finish_ready E) l (evs, ngs, [], s) in
  exists nst' added extra,
    evs' = evs ++ added /\ nsteps nst added = Some nst' /\ PhiP E s' nst' ngs' /\ nss' = [] /\
    frame s s' /\ ngs' = ngs ++ extra /\ announced_groups added = extra /\ agok E s' extra.
Proof.
  induction l as [|g l IH]; intros evs ngs s nst HP; cbn [fold_left].
  - exists nst, [], []. rewrite !app_nil_r. split; [reflexivity|]. split; [reflexivity|]. split; [exact HP|].
    split; [reflexivity|]. split; [apply frame_refl|]. split; [reflexivity|]. split; [reflexivity|]. intros a [].
  - unfold finish_ready at 2.
    destruct (aget g (gnodes s)) as [n|] eqn:A; [|apply IH; assumption].
    destruct (memN g (roots s) && Nat.eqb (gn_pending n) 0) eqn:C; [|apply IH; assumption].
    apply andb_true_iff in C as [C _]. apply memN_spec in C.
    pose proof (finish_step E s nst ngs g n HP A C) as FS.
    destruct (finish_group_success E g n s) as [[[e cg] cs] s''].
    destruct FS as (nst1 & Hs1 & HP1 & Hcs & Fr1 & Hag1 & Hok1). subst cs. cbn [app].
    specialize (IH (evs ++ e) (ngs ++ cg) s'' nst1 HP1).
    destruct (fold_left _ l (evs ++ e, ngs ++ cg, [], s'')) as [[[evs' ngs'] nss'] s'].
    destruct IH as (nst' & added & extra & E1 & S1 & P1 & N1 & F1 & G1 & A1 & O1).
    exists nst', (e ++ added), (cg ++ extra).
    split; [rewrite E1, app_assoc; reflexivity|].
    split; [rewrite nsteps_app, Hs1; exact S1|].
    split; [exact P1|]. split; [exact N1|]. split; [eapply frame_trans; eassumption|].
    split; [rewrite G1, app_assoc; reflexivity|].
    split; [rewrite announced_groups_app, Hag1, A1; reflexivity|].
    intros a Ha. apply in_app_or in Ha as [Ha|Ha]; [|exact (O1 a Ha)].
    intros p Hp. exact (shrink_none _ _ _ (fr_shrink _ _ F1) (Hok1 a Ha p Hp)).
Qed.

Definition flat_tasks (E : env) : Prop := forall t, twork E t = no_work.

Lemma task_success_ok E s nst t :
  flat_tasks E -> Phi E s nst ->
  let '(evs, s') := task_success E t s in
  exists nst', nsteps nst evs = Some nst' /\ Phi E s' nst' /\
    shrink (gnodes s) (gnodes s') /\ agok E s' (announced_groups evs).
Proof.
  intros Hflat HP. unfold task_success. rewrite (Hflat t).
  set (s0 := set_settled (sadd t (settled s)) s).
  set (s1 := match aget t (tnodes s0) with
             | Some tn => set_tnodes (aset t (mkT true (tn_streams tn) (tn_owed tn)) (tnodes s0)) s0
             | None => s0 end).
  assert (H01 : stable s s1).
  { subst s1. destruct (aget t (tnodes s0)) as [tn|] eqn:A; [|apply stable_same; reflexivity].
    eapply stable_trans; [apply (stable_same s s0); reflexivity|]. eapply stable_set_tnode; [exact A|reflexivity]. }
  unfold integrate. cbn [no_work w_groups w_tasks w_streams fold_left].
  set (s2 := set_gnodes (gnodes s1) s1).
  assert (H12 : stable s1 s2) by (apply stable_same; reflexivity).
  (* all counters, then the groups that became complete *)
  match goal with |- context [fold_left ?f (tgroups E t) s2] => set (s2' := fold_left f (tgroups E t) s2) in * end.
  assert (H23 : stable s2 s2').
  { apply fold_stable. intros s' g. destruct (aget g (gnodes s')) as [n|] eqn:A; [|apply stable_refl].
    apply stable_nodes; cbn; auto; [eapply shrink_aset; [exact A|reflexivity]|].
    intros k Hk. apply aset_keeps. exact Hk. }
  pose proof (stable_trans _ _ _ (stable_trans _ _ _ H01 H12) H23) as St.
  pose proof (finish_fold E (tgroups E t) [] [] s2' nst (PhiP_stable _ _ _ _ _ HP St)) as FF.
  fold (finish_ready E).
  destruct (fold_left (finish_ready E) (tgroups E t) ([], [], [], s2')) as [[[evs ngs] nss] s3].
  destruct FF as (nst' & added & extra & E1 & S1 & P1 & N1 & F1 & G1 & A1 & O1).
  cbn [app] in E1, G1. subst evs ngs nss.
  destruct (start_promoted E nst' extra s3 P1) as [HP4 Sh4].
  exists nst'. split; [exact S1|]. split; [exact HP4|]. split.
  - exact (shrink_trans _ _ _ (fr_shrink _ _ (st_frame _ _ St)) (shrink_trans _ _ _ (fr_shrink _ _ F1) Sh4)).
  - rewrite A1. exact (agok_shrink _ _ _ _ O1 Sh4).
Qed.

Lemma remove_group_ok E : forall fuel g n s,
  aget g (gnodes s) = Some n ->
  let s' := remove_group fuel E g n s in
  frame s s' /\ roots s' = roots s /\ dels s s' [g].
Proof.
  induction fuel as [|f IH]; intros g n s A; cbn [remove_group].
  - split; [apply frame_set_oof|]. split; [reflexivity|]. intros k H1 H2. cbn in H2. contradiction.
  - set (s1 := set_gnodes (adel g (gnodes s)) s).
    (* the tasks *)
    match goal with |- context [fold_left ?f (gn_tasks n) s1] => set (s2 := fold_left f (gn_tasks n) s1) end.
    assert (H12 : stable s1 s2).
    { apply fold_stable. intros s0 t. destruct (forallb _ (tgroups E t)); [apply remove_task_stable|apply stable_refl]. }
    destruct H12 as [F12 K12 R12]. pose proof (frame_trans _ _ _ (frame_adel s g) F12) as F02.
    (* the children *)
    pose proof (aget_in _ _ _ A) as Hin.
    assert (Hch : forall l s0,
      let s' := fold_left (fun s c => match aget c (gnodes s) with
                                      | Some cn => remove_group f E c cn s | None => s end) l s0 in
      frame s0 s' /\ roots s' = roots s0 /\ dels s0 s' l).
    { induction l as [|c l IHl]; intros s0; cbn [fold_left].
      - split; [apply frame_refl|]. split; [reflexivity|]. intros k H1 H2. contradiction.
      - destruct (aget c (gnodes s0)) as [cn|] eqn:Ac.
        + destruct (IH c cn s0 Ac) as (Fa & Ra & Da).
          destruct (IHl (remove_group f E c cn s0)) as (Fb & Rb & Db).
          split; [eapply frame_trans; eassumption|]. split; [congruence|].
          exact (dels_trans _ _ _ [c] l (fr_shrink _ _ Fa) Da Db).
        + destruct (IHl s0) as (Fb & Rb & Db).
          split; [exact Fb|]. split; [exact Rb|]. intros k H1 H2. right. exact (Db k H1 H2). }
    destruct (Hch (gn_children n) s2) as (F23 & R23 & D23).
    split; [exact (frame_trans _ _ _ F02 F23)|]. split; [rewrite R23, R12; reflexivity|].
    intros k H1 H2.
    destruct (N.eq_dec k g) as [->|Hne]; [left; reflexivity|right].
    assert (H1' : aget k (gnodes s2) <> None).
    { apply K12. cbn [s1 gnodes set_gnodes]. rewrite (aget_adel_other _ _ _ Hne). exact H1. }
    specialize (D23 k H1' H2). apply in_app_or in D23 as [X|X].
    + apply in_livech. eauto.
    + exact (shrink_livech_incl _ _ (fr_shrink _ _ F02) _ X).
Qed.

(* failure of one group (root or not) *)
Lemma fail_step E s nst g n :
  Phi E s nst -> aget g (gnodes s) = Some n ->
  let s' := remove_group_top E g n s in
  let s'' := set_roots (sdel g (roots s')) s' in
  Phi E s'' (n_close (gkey g) nst) /\ shrink (gnodes s) (gnodes s'').
Proof.
  intros HP A. unfold remove_group_top.
  destruct (remove_group_ok E (S (length (gnodes s))) g n s A) as (Fr & R & D).
  set (s' := remove_group (S (length (gnodes s))) E g n s) in *. cbn zeta.
  split; [|cbn [set_roots gnodes]; exact (fr_shrink _ _ Fr)].
  apply (PhiP_close_group E s _ nst [] g HP (fun X => X)).
  - destruct Fr; constructor; assumption.
  - cbn [set_roots roots]. rewrite R. reflexivity.
  - exact D.
Qed.

Lemma rescue_stable E g n s : stable s (snd (rescue E g n s)).
Proof.
  unfold rescue. apply fold_stable_snd. intros v s0 t. destruct (aget t (tnodes s0)) as [tn|]; [|apply stable_refl].
  destruct (tn_owed tn && tn_done tn && _); [apply remove_task_stable|apply stable_refl].
Qed.

(* failure of one group with the rescue of the values owed to pruned groups *)
Lemma fail_step_rescue E s nst g n :
  Phi E s nst -> aget g (gnodes s) = Some n ->
  let '(vals, sr) := if memN g (roots s) then rescue E g n s else ([], s) in
  let n' := match aget g (gnodes sr) with Some m => m | None => n end in
  let s' := remove_group_top E g n' sr in
  let s'' := set_roots (sdel g (roots s')) s' in
  let evs := (match vals with [] => [] | _ :: _ => [GroupValues g vals] end) ++ [GroupFailure g] in
  nsteps nst evs = Some (n_close (gkey g) nst) /\ Phi E s'' (n_close (gkey g) nst) /\
  shrink (gnodes s) (gnodes s'') /\ announced_groups evs = [].
Proof.
  intros HP A.
  assert (Hsr : exists vals sr, (if memN g (roots s) then rescue E g n s else ([], s)) = (vals, sr) /\
            stable s sr /\ (vals <> [] -> memN g (roots s) = true)).
  { destruct (memN g (roots s)) eqn:M.
    - pose proof (rescue_stable E g n s) as RF. destruct (rescue E g n s) as [vals sr]. eauto.
    - exists [], s. split; [reflexivity|]. split; [apply stable_refl|]. intro X. contradiction. }
  destruct Hsr as (vals & sr & -> & St & Hv).
  pose proof (PhiP_stable E s sr nst [] HP St) as HPr.
  assert (Hn : aget g (gnodes sr) <> None) by (apply (st_keeps _ _ St); rewrite A; discriminate).
  destruct (aget g (gnodes sr)) as [m|] eqn:Am; [|contradiction].
  destruct (fail_step E sr nst g m HPr Am) as (HP3 & Sh3). cbn zeta in HP3, Sh3 |- *.
  assert (HGF : nsteps nst [GroupFailure g] = Some (n_close (gkey g) nst)).
  { cbn [nsteps]. unfold nstep. rewrite (ph_closed _ _ _ _ HP). reflexivity. }
  split.
  - rewrite nsteps_values; [exact HGF|exact (ph_closed _ _ _ _ HP)|]. intro Hne.
    apply (ph_open_group _ _ _ _ _ HP). rewrite app_nil_r. apply memN_spec, Hv, Hne.
  - split; [exact HP3|]. split; [exact (shrink_trans _ _ _ (fr_shrink _ _ (st_frame _ _ St)) Sh3)|].
    destruct vals; reflexivity.
Qed.

Lemma task_failure_ok E s nst t :
  Phi E s nst ->
  let '(evs, s') := task_failure E t s in
  exists nst', nsteps nst evs = Some nst' /\ Phi E s' nst' /\
    shrink (gnodes s) (gnodes s') /\ announced_groups evs = [].
Proof.
  intro HP. unfold task_failure.
  set (s0 := set_settled (sadd t (settled s)) s).
  set (s1 := set_tnodes (adel t (tnodes s0)) s0).
  assert (St : stable s s1).
  { apply stable_nodes; cbn; auto; [apply shrink_refl|intros k Hk; exact Hk|].
    intros H t' tn Hin. apply adel_in in Hin. exact (H _ _ Hin). }
  match goal with |- context [fold_left ?f (tgroups E t) _] => set (FF := f) end.
  assert (H : forall l evs s2 nst2, Phi E s2 nst2 ->
    let '(evs', s') := fold_left FF l (evs, s2) in
    exists nst' added, evs' = evs ++ added /\ nsteps nst2 added = Some nst' /\ Phi E s' nst' /\
      shrink (gnodes s2) (gnodes s') /\ announced_groups added = []).
  { induction l as [|g l IH]; intros evs s2 nst2 HP2; cbn [fold_left].
    - exists nst2, []. rewrite app_nil_r. split; [reflexivity|]. split; [reflexivity|]. split; [exact HP2|].
      split; [apply shrink_refl|reflexivity].
    - unfold FF at 2. cbn beta iota.
      destruct (aget g (gnodes s2)) as [n|] eqn:A; [|apply IH; exact HP2].
      pose proof (fail_step_rescue E s2 nst2 g n HP2 A) as FS.
      destruct (if memN g (roots s2) then rescue E g n s2 else ([], s2)) as [vals sr].
      cbn zeta in FS. destruct FS as (S3 & HP3 & Sh3 & A3).
      specialize (IH (evs ++ (match vals with [] => [] | _ :: _ => [GroupValues g vals] end) ++ [GroupFailure g]) _ _ HP3).
      match goal with |- context [fold_left FF l ?i] => destruct (fold_left FF l i) as [evs' s'] end.
      destruct IH as (nst' & added & E1 & S1 & P1 & Sh1 & A1).
      exists nst', (((match vals with [] => [] | _ :: _ => [GroupValues g vals] end) ++ [GroupFailure g]) ++ added).
      split; [rewrite E1, <- !app_assoc; reflexivity|].
      split; [rewrite nsteps_app, S3; exact S1|].
      split; [exact P1|]. split; [eapply shrink_trans; eassumption|].
      rewrite announced_groups_app, A3, A1. reflexivity. }
  specialize (H (tgroups E t) [] s1 nst (PhiP_stable _ _ _ _ _ HP St)).
  destruct (fold_left FF (tgroups E t) ([], s1)) as [evs s'].
  destruct H as (nst' & added & E1 & S1 & P1 & Sh1 & A1). cbn [app] in E1. subst evs.
  exists nst'. split; [exact S1|]. split; [exact P1|]. split; [|exact A1].
  exact (shrink_trans _ _ _ (fr_shrink _ _ (st_frame _ _ St)) Sh1).
Qed.

Definition flat_items (E : env) : Prop := forall x w, In w (sitems E x) -> w = no_work.

Lemma set_gnodes_id s : set_gnodes (gnodes s) s = s.
Proof. destruct s; reflexivity. Qed.

Lemma stream_items_flat E x n b s :
  flat_items E ->
  let pos := stream_pos x s in
  let cnt := length (firstn n (skipn pos (sitems E x))) in
  stream_items E x n b s =
    (if b then [StreamValues x pos cnt [] []; StreamSuccess x] else [StreamValues x pos cnt [] []],
     let s1 := set_spos (aset x (pos + cnt)%nat (spos s)) s in
     if b then set_rstreams (sdel x (rstreams s1)) s1 else s1).
Proof.
  intro Hf. cbn zeta. unfold stream_items.
  set (items := firstn n (skipn (stream_pos x s) (sitems E x))).
  assert (Hitems : forall w, In w items -> w = no_work).
  { intros w Hw. apply (Hf x). unfold items in Hw.
    assert (H1 : In w (skipn (stream_pos x s) (sitems E x))).
    { rewrite <- (firstn_skipn n (skipn (stream_pos x s) (sitems E x))). apply in_or_app. left. exact Hw. }
    rewrite <- (firstn_skipn (stream_pos x s) (sitems E x)). apply in_or_app. right. exact H1. }
  set (s0 := set_spos (aset x (stream_pos x s + length items)%nat (spos s)) s).
  assert (Hfold : forall l s1, (forall w, In w l -> w = no_work) ->
    fold_left (fun (st : list N * list N * state) w =>
      let '(ngs, nss, s) := st in
      let '(ig, is_, s1) := integrate E w None s in
      let '(ne, s2) := prune_groups E ig s1 in
      (ngs ++ ne, nss ++ is_, start_new_work ne is_ s2)) l ([], [], s1) = ([], [], s1)).
  { induction l as [|w l IH]; intros s1 Hl; cbn [fold_left]; [reflexivity|].
    rewrite (Hl w (or_introl eq_refl)).
    unfold integrate. cbn [no_work w_groups w_tasks w_streams fold_left].
    unfold prune_groups. cbn [prune fold_left]. unfold start_new_work. cbn [fold_left app].
    rewrite !set_gnodes_id. apply IH. intros w' Hw'. apply Hl. right. exact Hw'. }
  rewrite (Hfold items s0 Hitems). destruct b; reflexivity.
Qed.

Lemma phi_stream_values E s nst x cnt :
  Phi E s nst -> In x (rstreams s) ->
  let pos := stream_pos x s in
  let nst' := mkNS (n_seen nst) (n_open nst) (aset (skey x) (pos + cnt)%nat (n_next nst)) (n_closed nst) in
  nstep nst (StreamValues x pos cnt [] []) = Some nst' /\
  Phi E (set_spos (aset x (pos + cnt)%nat (spos s)) s) nst'.
Proof.
  intros HP Hx. pose proof (ph_open_stream _ _ _ _ _ HP Hx) as Hm.
  destruct HP as [Hgi Hcl Hrnd Hsnd Hopen Hseen Hnodes Hanc Hnext]. cbn zeta. split.
  - unfold nstep. rewrite Hcl, Hm, (Hnext x Hx), Nat.eqb_refl. reflexivity.
  - constructor; cbn [set_spos roots rstreams gnodes tnodes spos n_seen n_open n_next n_closed]; auto.
    + apply (GI_ext _ _ s); [reflexivity..|exact Hgi].
    + intros y Hy. unfold next_of, stream_pos. cbn [n_next spos set_spos].
      destruct (N.eq_dec y x) as [->|Hne].
      * rewrite !aget_aset_same. reflexivity.
      * rewrite (aget_aset_other _ _ _ _ Hne).
        assert (Hk : skey y <> skey x) by (intro Y; apply skey_inj in Y; contradiction).
        rewrite (aget_aset_other _ _ _ _ Hk). exact (Hnext y Hy).
Qed.

(* a root stream ends: success or failure *)
Lemma phi_stream_close E s nst x (fail : bool) :
  Phi E s nst -> In x (rstreams s) ->
  nstep nst (if fail then StreamFailure x else StreamSuccess x) = Some (n_close (skey x) nst) /\
  Phi E (set_rstreams (sdel x (rstreams s)) s) (n_close (skey x) nst).
Proof.
  intros HP Hx. pose proof (ph_open_stream _ _ _ _ _ HP Hx) as Hm.
  destruct HP as [Hgi Hcl Hrnd Hsnd Hopen Hseen Hnodes Hanc Hnext]. split.
  { unfold nstep. rewrite Hcl. destruct fail; rewrite Hm; reflexivity. }
  constructor; cbn [set_rstreams roots rstreams gnodes tnodes spos n_close n_seen n_next n_closed n_open]; auto.
  - apply (GI_ext _ _ s); [reflexivity..|exact Hgi].
  - apply sdel_nodup. exact Hsnd.
  - exact (open_keys_close_stream _ _ _ x Hopen).
  - intros k Hk. apply filter_In in Hk as [Hk _]. exact (Hseen k Hk).
  - intros y Hy. apply sdel_in in Hy as [Hy _]. exact (Hnext y Hy).
Qed.

Lemma step_ok E s nst e :
  flat_tasks E -> flat_items E -> Phi E s nst -> enabled1 E s e = true ->
  let '(s', evs) := step E s e in
  exists nst', nsteps nst evs = Some nst' /\ Phi E s' nst' /\
    shrink (gnodes s) (gnodes s') /\ agok E s' (announced_groups evs).
Proof.
  intros Hft Hfi HP Hen. destruct e as [t|t|x n b|x|x]; cbn [step].
  - pose proof (task_success_ok E s nst t Hft HP) as H. destruct (task_success E t s) as [evs s']. exact H.
  - pose proof (task_failure_ok E s nst t HP) as H. destruct (task_failure E t s) as [evs s'].
    destruct H as (nst' & A & B & C & D). exists nst'. rewrite D. auto using agok_nil.
  - rewrite (stream_items_flat E x n b s Hfi). cbn zeta.
    cbn [enabled1] in Hen. repeat (apply andb_true_iff in Hen as [Hen ?]).
    assert (Hx : In x (rstreams s)) by (apply memN_spec; assumption).
    set (pos := stream_pos x s). set (cnt := length (firstn n (skipn pos (sitems E x)))).
    destruct (phi_stream_values E s nst x cnt HP Hx) as (Hs1 & HP1). fold pos in Hs1, HP1.
    destruct b.
    + destruct (phi_stream_close E _ _ x false HP1 Hx) as (Hs2 & HP2).
      eexists. split; [cbn [nsteps]; rewrite Hs1, Hs2; reflexivity|].
      split; [exact HP2|]. split; [cbn; apply shrink_refl|apply agok_nil].
    + eexists. split; [cbn [nsteps]; rewrite Hs1; reflexivity|].
      split; [exact HP1|]. split; [cbn; apply shrink_refl|apply agok_nil].
  - set (s1 := set_sended (sadd x (sended s)) s).
    assert (HP1 : Phi E s1 nst) by (apply (PhiP_stable _ s); [exact HP|apply stable_same; reflexivity]).
    destruct (memN x (rstreams s1)) eqn:M.
    + apply memN_spec in M. destruct (phi_stream_close E s1 nst x false HP1 M) as (Hs2 & HP2).
      eexists. split; [cbn [nsteps]; rewrite Hs2; reflexivity|].
      split; [exact HP2|]. split; [cbn; apply shrink_refl|apply agok_nil].
    + exists nst. split; [reflexivity|]. split; [exact HP1|]. split; [cbn; apply shrink_refl|apply agok_nil].
  - set (s1 := set_sended (sadd x (sended s)) s).
    assert (HP1 : Phi E s1 nst) by (apply (PhiP_stable _ s); [exact HP|apply stable_same; reflexivity]).
    cbn [enabled1] in Hen. repeat (apply andb_true_iff in Hen as [Hen ?]).
    assert (M : In x (rstreams s1)) by (apply memN_spec; assumption).
    destruct (phi_stream_close E s1 nst x true HP1 M) as (Hs2 & HP2).
    eexists. split; [cbn [nsteps]; rewrite Hs2; reflexivity|].
    split; [exact HP2|]. split; [cbn; apply shrink_refl|apply agok_nil].
Qed.

Lemma steps_ok E : forall evs s nst out0 ag,
  flat_tasks E -> flat_items E -> Phi E s nst -> agok E s ag -> enabled_seq E s evs = true ->
  let '(s1, out) := fold_left (batch_step E) evs (s, out0) in
  exists nst1 added, out = out0 ++ added /\ nsteps nst added = Some nst1 /\ Phi E s1 nst1 /\
    agok E s1 (ag ++ announced_groups added).
Proof.
  induction evs as [|e evs IH]; intros s nst out0 ag Hft Hfi HP Hag Hen; cbn [fold_left].
  - exists nst, []. rewrite !app_nil_r. auto.
  - cbn [enabled_seq] in Hen. apply andb_true_iff in Hen as [He1 He2]. unfold batch_step at 2.
    pose proof (step_ok E s nst e Hft Hfi HP He1) as HS.
    destruct (step E s e) as [s' o] eqn:St. cbn [fst] in He2.
    destruct HS as (nst' & S1 & P1 & Sh1 & A1).
    assert (Hag' : agok E s' (ag ++ announced_groups o)).
    { intros a Ha. apply in_app_or in Ha as [Ha|Ha]; [exact (agok_shrink _ _ _ _ Hag Sh1 a Ha)|exact (A1 a Ha)]. }
    specialize (IH s' nst' (out0 ++ o) (ag ++ announced_groups o) Hft Hfi P1 Hag' He2).
    destruct (fold_left _ evs (s', out0 ++ o)) as [s1 out].
    destruct IH as (nst1 & added & E1 & S2 & P2 & A2).
    exists nst1, (o ++ added). split; [rewrite E1, app_assoc; reflexivity|].
    split; [rewrite nsteps_app, S1; exact S2|]. split; [exact P2|].
    rewrite announced_groups_app, app_assoc. exact A2.
Qed.

Lemma nesting_from_agok E s nst ag : Phi E s nst -> agok E s ag -> n_nesting_ok E ag nst = true.
Proof.
  intros HP Hag. unfold n_nesting_ok. apply forallb_forall. intros a Ha. apply forallb_forall. intros p Hp.
  apply negb_true_iff. apply memN_false_iff. intro Hk.
  apply (ph_open _ _ _ _ HP) in Hk as [(g & Eg & Hg)|(x & Ex & _)].
  - apply gkey_inj in Eg. subst g. exact (ph_nodes _ _ _ _ HP p Hg (Hag a Ha p Hp)).
  - exact (gkey_skey _ _ Ex).
Qed.

Lemma open_empty E s nst : Phi E s nst -> roots s = [] -> rstreams s = [] -> n_open nst = [].
Proof.
  intros HP R RS. destruct (n_open nst) as [|k l] eqn:O; [reflexivity|exfalso].
  assert (Hk : In k (n_open nst)) by (rewrite O; left; reflexivity).
  apply (ph_open _ _ _ _ HP) in Hk as [(g & _ & Hg)|(x & _ & Hx)]; [rewrite R in Hg|rewrite RS in Hx]; contradiction.
Qed.

Lemma run_batch_ok E s nst evs :
  flat_tasks E -> flat_items E -> Phi E s nst -> stopped s = false -> enabled_seq E s evs = true ->
  let '(s', out) := run_batch E s evs in
  exists nst', nbatch E nst out = Some nst' /\
    ((stopped s' = false /\ Phi E s' nst') \/ (stopped s' = true /\ out <> [] /\ n_closed nst' = true)).
Proof.
  intros Hft Hfi HP Hst Hen. rewrite run_batch_eq, Hst.
  pose proof (steps_ok E evs s nst [] [] Hft Hfi HP (agok_nil E s) Hen) as HS.
  pose proof (steps_quiet E evs s [] eq_refl) as Hq.
  destruct (fold_left _ evs (s, [])) as [s1 out].
  destruct HS as (nst1 & added & E1 & S1 & P1 & A1). cbn [app] in E1, A1. subst added.
  destruct Hq as [Hst1 _]. rewrite Hst in Hst1.
  unfold nbatch. rewrite (ph_closed _ _ _ _ HP).
  destruct (roots s1) eqn:R; [destruct (rstreams s1) eqn:RS|].
  - (* termination *)
    pose proof (open_empty E s1 nst1 P1 R RS) as Ho.
    rewrite nsteps_app, S1. cbn [nsteps]. unfold nstep. rewrite (ph_closed _ _ _ _ P1), Ho.
    eexists. split.
    + assert (Hn : n_nesting_ok E (announced_groups (out ++ [Termination]))
                     (mkNS (n_seen nst1) [] (n_next nst1) true) = true).
      { unfold n_nesting_ok. apply forallb_forall. intros a _. apply forallb_forall. intros p _. reflexivity. }
      rewrite Hn. reflexivity.
    + right. split; [reflexivity|]. split; [destruct out; discriminate|reflexivity].
  - rewrite S1, (nesting_from_agok E s1 nst1 _ P1 A1). exists nst1. split; [reflexivity|]. left. auto.
  - rewrite S1, (nesting_from_agok E s1 nst1 _ P1 A1). exists nst1. split; [reflexivity|]. left. auto.
Qed.

Lemma nbatch_nil E nst : n_closed nst = false -> nbatch E nst [] = Some nst.
Proof. intro H. unfold nbatch. rewrite H. reflexivity. Qed.

Lemma batches_ok E : forall bs s nst,
  flat_tasks E -> flat_items E -> Phi E s nst -> stopped s = false -> enabled_batches E s bs = true ->
  exists nst', nbatches E nst (snd (run_batches E s bs)) = Some nst' /\
    n_closed nst' = stopped (fst (run_batches E s bs)).
Proof.
  induction bs as [|b bs IH]; intros s nst Hft Hfi HP Hst Hen; cbn [run_batches].
  - exists nst. split; [reflexivity|]. cbn [fst]. rewrite Hst. exact (ph_closed _ _ _ _ HP).
  - destruct b as [|e b].
    + cbn [enabled_batches] in Hen. specialize (IH s nst Hft Hfi HP Hst Hen).
      destruct (run_batches E s bs) as [s2 outs]. exact IH.
    + cbn [enabled_batches] in Hen. apply andb_true_iff in Hen as [Hen He3]. apply andb_true_iff in Hen as [_ He2].
      pose proof (run_batch_ok E s nst (e :: b) Hft Hfi HP Hst He2) as HB.
      destruct (run_batch E s (e :: b)) as [s1 out] eqn:RB. cbn [fst] in He3.
      destruct HB as (nst1 & Hb1 & [[St1 P1]|(St1 & Hne & Hc1)]).
      * specialize (IH s1 nst1 Hft Hfi P1 St1 He3).
        destruct (run_batches E s1 bs) as [s2 outs]. cbn [fst snd] in *.
        destruct IH as (nst' & Hn' & Hc'). exists nst'. split; [|exact Hc'].
        destruct out as [|o out].
        -- rewrite (nbatch_nil E nst (ph_closed _ _ _ _ HP)) in Hb1. inversion Hb1; subst. exact Hn'.
        -- cbn [nbatches]. rewrite Hb1. exact Hn'.
      * rewrite (run_batches_stopped E bs s1 St1). cbn [fst snd].
        destruct out as [|o out]; [contradiction|]. cbn [nbatches]. rewrite Hb1.
        exists nst1. split; [reflexivity|]. rewrite St1. exact Hc1.
Qed.

Lemma nodupb_NoDup l : nodupb l = true -> NoDup l.
Proof.
  induction l as [|x l IH]; cbn; intro H; [constructor|].
  apply andb_true_iff in H as [H1 H2]. constructor; [|auto].
  apply negb_true_iff in H1. apply memN_false_iff in H1. exact H1.
Qed.

Lemma is_no_work_eq w : is_no_work w = true -> w = no_work.
Proof. destruct w as [[|? ?] [|? ?] [|? ?]]; cbn; intro H; try discriminate; reflexivity. Qed.

Lemma flatb_tasks E : flatb E = true -> flat_tasks E.
Proof.
  unfold flatb. intro H. apply andb_true_iff in H as [H _]. rewrite forallb_forall in H.
  intro t. unfold twork. destruct (aget t (e_twork E)) as [w|] eqn:A; [|reflexivity].
  apply is_no_work_eq. exact (H (t, w) (aget_in _ _ _ A)).
Qed.

Lemma flatb_items E : flatb E = true -> flat_items E.
Proof.
  unfold flatb. intro H. apply andb_true_iff in H as [_ H]. rewrite forallb_forall in H.
  intros x w Hw. unfold sitems in Hw. destruct (aget x (e_items E)) as [l|] eqn:A; [|contradiction].
  specialize (H (x, l) (aget_in _ _ _ A)). cbn [snd] in H. rewrite forallb_forall in H.
  apply is_no_work_eq. exact (H w Hw).
Qed.

Lemma new_keys_nodup ig is_ : NoDup ig -> NoDup is_ -> NoDup (new_keys ig is_).
Proof.
  intros Nig Nis. unfold new_keys. apply NoDup_app_intro.
  - apply NoDup_map_inj; [exact gkey_inj|exact Nig].
  - apply NoDup_map_inj; [exact skey_inj|exact Nis].
  - intros k H1 H2. apply in_map_iff in H1 as [g [<- _]]. apply in_map_iff in H2 as [x [Ex _]].
    exact (gkey_skey _ _ (eq_sym Ex)).
Qed.

Lemma init_phi E w :
  init_ok E w = true ->
  let '(ig, is_, s0) := init E w in
  exists nst0, n_announce (new_keys ig is_) ns_init = Some nst0 /\ Phi E s0 nst0 /\
    n_nesting_ok E ig nst0 = true /\ stopped s0 = false.
Proof.
  unfold init_ok. destruct (init E w) as [[ig is_] s0]. intro H.
  apply andb_true_iff in H as [H Hst]. apply negb_true_iff in Hst.
  apply andb_true_iff in H as [H His]. rewrite forallb_forall in His.
  apply andb_true_iff in H as [H Hig]. rewrite forallb_forall in Hig.
  apply andb_true_iff in H as [H HRS]. apply nat_list_eqb_eq in HRS.
  apply andb_true_iff in H as [H HR]. apply nat_list_eqb_eq in HR.
  apply andb_true_iff in H as [H Nis]. apply nodupb_NoDup in Nis.
  apply andb_true_iff in H as [H Nig]. apply nodupb_NoDup in Nig.
  apply andb_true_iff in H as [H Hts]. rewrite forallb_forall in Hts.
  apply andb_true_iff in H as [H Hch]. rewrite forallb_forall in Hch.
  apply andb_true_iff in H as [Nk Nlc]. apply nodupb_NoDup in Nk, Nlc.
  (* The monitor announces the initial keys from its empty state: afterwards open = seen = these keys,
     and each clause of Phi is one conjunct of the executable check [init_ok]. *)
  destruct (n_announce_ok (new_keys ig is_) ns_init (new_keys_nodup _ _ Nig Nis) (fun k _ X => X))
    as (nst0 & An & Op & Se & Nx & Cl).
  cbn [ns_init n_open n_seen n_next n_closed app] in Op, Se, Nx, Cl.
  assert (Hseen : forall k, In k (n_seen nst0) <-> In k (new_keys ig is_)).
  { intro k. rewrite Se. cbn. tauto. }
  assert (HP : Phi E s0 nst0).
  { constructor; rewrite ?app_nil_r.
    - constructor; [exact Nk|exact Nlc| |].
      + intros g n c Hin Hc. specialize (Hch (g, n) Hin). cbn [snd fst] in Hch. rewrite forallb_forall in Hch.
        specialize (Hch c Hc). apply andb_true_iff in Hch as [Hp Hn]. split.
        * intro X. apply Hseen in X. unfold new_keys in X. apply in_app_or in X as [X|X].
          -- apply in_map_iff in X as [c' [Ec Hc']]. apply gkey_inj in Ec. subst c'.
             apply negb_true_iff, memN_false_iff in Hn. contradiction.
          -- apply in_map_iff in X as [x [Ex _]]. exact (gkey_skey _ _ (eq_sym Ex)).
        * destruct (parent E c) as [p|]; [|discriminate]. apply N.eqb_eq in Hp. subst. reflexivity.
      + intros t tn Hin. specialize (Hts (t, tn) Hin). cbn [snd] in Hts. destruct (tn_streams tn); [reflexivity|discriminate].
    - exact Cl.
    - rewrite HR. exact Nig.
    - rewrite HRS. exact Nis.
    - intro k. rewrite Op, HR, HRS. unfold new_keys. rewrite in_app_iff, !in_map_iff. split.
      + intros [(g & <- & Hg)|(x & <- & Hx)]; [left; exists g; auto|right; exists x; auto].
      + intros [(g & -> & Hg)|(x & -> & Hx)]; [left; exists g; auto|right; exists x; auto].
    - intros k Hk. apply Hseen. rewrite Op in Hk. exact Hk.
    - intros r Hr. rewrite HR in Hr. specialize (Hig r Hr). apply andb_true_iff in Hig as [Hn _].
      apply ahas_true. exact Hn.
    - intros r Hr a Ha. rewrite HR in Hr. specialize (Hig r Hr). apply andb_true_iff in Hig as [_ Hn].
      rewrite forallb_forall in Hn. specialize (Hn a Ha). apply negb_true_iff in Hn. apply ahas_false. exact Hn.
    - intros x Hx. rewrite HRS in Hx. specialize (His x Hx). apply Nat.eqb_eq in His. rewrite His.
      unfold next_of. rewrite Nx. reflexivity. }
  exists nst0. split; [exact An|]. split; [exact HP|]. split; [|exact Hst].
  apply (nesting_from_agok E s0 nst0 ig HP).
  intros a Ha p Hp. apply (ph_anc _ _ _ _ HP a); [rewrite app_nil_r, HR; exact Ha|exact Hp].
Qed.

(* For flat work whose initial graph state passes the executable check, EVERY enabled sequence of
   graph-event batches (any length, any batching) yields a work-queue event trace that is well
   formed at node level; it is closed exactly when the queue has stopped. *)
Theorem flat_wq_wf E w bs :
  flatb E = true -> init_ok E w = true ->
  let '(ig, is_, s0) := init E w in
  enabled_batches E s0 bs = true ->
  wq_wf E ig is_ (snd (run_batches E s0 bs)) = true /\
  wq_wf_closed E ig is_ (snd (run_batches E s0 bs)) = stopped (fst (run_batches E s0 bs)).
Proof.
  intros Hf Hi. pose proof (init_phi E w Hi) as H0.
  destruct (init E w) as [[ig is_] s0]. destruct H0 as (nst0 & An & HP & Hn & Hst). intro Hen.
  destruct (batches_ok E bs s0 nst0 (flatb_tasks E Hf) (flatb_items E Hf) HP Hst Hen) as (nst' & Hb & Hc).
  unfold wq_wf, wq_wf_closed, nrun. rewrite An, Hn, Hb. split; [reflexivity|exact Hc].
Qed.

(* ... and therefore a payload stream accepted by the protocol validator *)
Theorem flat_protocol E w bs :
  flatb E = true -> init_ok E w = true ->
  enabled_batches E (snd (init E w)) bs = true ->
  valid_prefix (e_parent E) (respond E w bs) = true /\
  (stopped (fst (run_batches E (snd (init E w)) bs)) = true -> valid (e_parent E) (respond E w bs) = true).
Proof.
  intros Hf Hi. pose proof (flat_wq_wf E w bs Hf Hi) as H. unfold respond.
  destruct (init E w) as [[ig is_] s0]. cbn [snd]. intro Hen. destruct (H Hen) as [H1 H2]. split.
  - apply publish_valid_prefix. exact H1.
  - intro Hs. apply publish_valid_complete. rewrite H2. exact Hs.
Qed.
