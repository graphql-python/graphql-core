(* Properties of the @defer execution model Incr/DeferExec.v, stated for whole requests in
   Properties/C04defer.v:
     - reassembly: if the base executor's run is error-free - or error propagation is disabled for the
       operation - the incremental run delivers every execution group value and merging them into its
       initial data by the merge oracle Incr/Merge.v, in the model's order or any other order the oracle
       accepts, yields the base executor's data up to object key order;
   and what it needs of the plan (a partition) and of collection (distinct keys).  The comparison of the
   base executor with Exec/Spec.v is in Incr/DeferExecSpec.v. *)
From GV Require Import Base.Prelude Base.ListFacts Exec.Value Exec.Schema Exec.Spec
  Incr.DeferExec Incr.DeferLib Incr.DeferUnfold Incr.DeferLevel Exec.ValueFacts.
From GV Require Incr.Plan Incr.PlanProps Incr.Merge.
From Coq Require Import Permutation.

(* an error-free execution group value *)
Definition pl_ok (p : payload) : Prop := (exists kvs, pl_data p = Some kvs) /\ pl_errs p = [].

(* Entries without an error component, and the cores of the payloads created below them.  The proofs
   work with the entries [ent4] of Incr/DeferUnfold.v, which carry the field's errors as well. *)
Definition er : Type := (str * json * list payload)%type.
Definition er_key (e : er) : str := fst (fst e).
Definition er_pls (e : er) : list payload := snd e.
Definition elift (E : list er) : list payload := flat_map (fun e => pre_pls (PKey (er_key e)) (er_pls e)) E.

Definition c_ok (c : cpl) : Prop := exists kvs, snd c = Some kvs.
Definition cpre (seg : pathseg) (c : cpl) : cpl := (seg :: fst c, snd c).
Definition celift (E : list er) : list cpl :=
  flat_map (fun e => map (cpre (PKey (er_key e))) (map core (er_pls e))) E.

Lemma c_ok_celift E : Forall pl_ok (elift E) -> Forall c_ok (celift E).
Proof.
  unfold elift, celift. induction E as [|e r IH]; cbn [flat_map]; [constructor|].
  intro H. apply Forall_app in H as [H1 H2]. apply Forall_app. split; [|exact (IH H2)].
  unfold pre_pls in H1. rewrite Forall_map in H1. rewrite !Forall_map.
  eapply Forall_impl; [|exact H1]. intros p [[kvs Hd] _]. exists kvs. exact Hd.
Qed.

Lemma jeq_kvs_keys a b : jeq_kvs a b -> map fst a = map fst b.
Proof. induction 1; cbn; congruence. Qed.

Lemma lookup_app_none {A} k (a b : list (str * A)) :
  lookup k a = None -> lookup k (a ++ b) = lookup k b.
Proof.
  induction a as [|[k' v] r IH]; cbn; [reflexivity|].
  destruct (str_eqb k k'); [discriminate|]. exact IH.
Qed.

Lemma lookup_some_in {A} k (v : A) l : lookup k l = Some v -> In (k, v) l.
Proof.
  induction l as [|[k0 v0] r IH]; cbn; [discriminate|].
  destruct (str_eqb k k0) eqn:E; [|intro H; right; apply IH; exact H].
  intro H. inversion H; subst. apply str_eqb_eq in E. subst. left. reflexivity.
Qed.

Lemma catch_errs t r es cs : snd (fst (catch t (r, es, cs))) = es.
Proof. destruct r; cbn; [reflexivity|]. destruct (is_nonnull t); reflexivity. Qed.

Lemma resolve_to_gfs_gen (l : dgrouped) : forall pre,
  flat_map (resolve (pre ++ l))
    (combine (map N.of_nat (seq (length pre) (length l))) (map (fun e => details_of (snd e)) l)) = l.
Proof.
  induction l as [|x r IH]; intro pre; cbn [length seq map combine flat_map]; [reflexivity|].
  unfold resolve at 1. cbn [fst]. rewrite Nnat.Nat2N.id.
  rewrite nth_error_app2 by apply Nat.le_refl. rewrite Nat.sub_diag. cbn [nth_error app].
  f_equal. specialize (IH (pre ++ [x])). rewrite <- app_assoc in IH. cbn [app] in IH.
  rewrite app_length in IH. cbn [length] in IH. rewrite Nat.add_1_r in IH. exact IH.
Qed.

Lemma to_gfs_nth (l : dgrouped) : forall start n e,
  nth_error l n = Some e ->
  In (N.of_nat (start + n), details_of (snd e))
     (combine (map N.of_nat (seq start (length l))) (map (fun e => details_of (snd e)) l)).
Proof.
  induction l as [|x r IH]; intros start [|n] e H; cbn in H |- *; try discriminate.
  - inversion H; subst. left. rewrite Nat.add_0_r. reflexivity.
  - right. rewrite <- Nat.add_succ_comm. apply IH. exact H.
Qed.

Lemma resolve_to_gfs dg : flat_map (resolve dg) (to_gfs dg) = dg.
Proof. exact (resolve_to_gfs_gen dg []). Qed.

Lemma flat_map_snd_map {A B C} (h : B -> list C) (l : list (A * B)) :
  flat_map snd (map (fun sg => (fst sg, h (snd sg))) l) = flat_map (fun sg => h (snd sg)) l.
Proof. induction l; cbn; [reflexivity|]. rewrite IHl. reflexivity. Qed.

Theorem plan_of_partition dg parent :
  Permutation (fst (plan_of dg parent) ++ flat_map snd (snd (plan_of dg parent))) dg.
Proof.
  unfold plan_of. cbn [fst snd].
  pose proof (PlanProps.plan_partition (to_gfs dg) parent) as H.
  apply (Permutation_flat_map (resolve dg)) in H. rewrite resolve_to_gfs in H.
  unfold PlanProps.entries in H. rewrite flat_map_app, flat_map_flat_map in H.
  rewrite flat_map_snd_map. exact H.
Qed.

Lemma add_dfield_keys k f g :
  map fst (add_dfield k f g) = if mem k (map fst g) then map fst g else map fst g ++ [k].
Proof.
  induction g as [|[k' fs] r IH]; [reflexivity|].
  cbn [add_dfield map fst]. unfold mem in *. cbn [existsb].
  destruct (str_eqb k k') eqn:E; cbn [map fst orb]; [reflexivity|].
  rewrite IH. destruct (existsb (str_eqb k) (map fst r)); reflexivity.
Qed.

Lemma add_dfield_nodup k f g : NoDup (map fst g) -> NoDup (map fst (add_dfield k f g)).
Proof.
  intro H. rewrite add_dfield_keys. destruct (mem k (map fst g)) eqn:E; [exact H|].
  apply NoDup_snoc; [exact H|]. apply mem_not_In. exact E.
Qed.

(* a property of the collection state that adding a field keeps, and that does not depend on the visited
   names and the new defer usages, nor on the flag [c_rev] being raised *)
Section DCollectInv.
  Variable s : schema.
  Variable frags : list fragment.
  Variable cv : list (str * value).
  Variable tn : str.
  Variable base : N.
  Variable depth : nat.
  Variable Q : cstate -> Prop.
  Hypothesis Qfield : forall st k f,
    Q st -> Q (mkCS (c_vis st) (add_dfield k f (c_g st)) (c_new st) (c_rev st)).
  Hypothesis Qmark : forall st vis new again, Q st -> Q (mkCS vis (c_g st) new (c_rev st || again)).

  Lemma Qmark0 st vis new : Q st -> Q (mkCS vis (c_g st) new (c_rev st)).
  Proof. intro H. rewrite <- (orb_false_r (c_rev st)). apply Qmark. exact H. Qed.

  Lemma dcollect_list_inv rec :
    (forall du sels st st', Q st -> rec du sels st = Some st' -> Q st') ->
    forall sels du st st', Q st ->
      dcollect_list s frags cv tn base depth rec du sels st = Some st' -> Q st'.
  Proof.
    intro Hrec. induction sels as [|sel rest IH]; intros du st st' HQ H; cbn [dcollect_list] in H.
    - inversion H; subst. exact HQ.
    - destruct sel as [al name args dirs sub | name dirs | tc dirs sub].
      + destruct (should_include cv dirs); [|eapply IH; eauto].
        eapply IH; [|exact H]. apply Qfield. exact HQ.
      + destruct (negb (should_include cv dirs)); [eapply IH; eauto|].
        destruct (find_frag name frags) as [fr|]; [|eapply IH; eauto].
        destruct (negb (cond_matches s (fr_cond fr) tn)); [eapply IH; eauto|].
        destruct (defer_active cv dirs) as [lab|], (lookup name (c_vis st)) as [[|]|].
        * exact (IH _ _ _ HQ H).
        * exact (IH _ _ _ HQ H).
        * (* first visit, deferred *)
          destruct (rec _ (fr_sels fr) _) as [st1|] eqn:E; [|discriminate].
          eapply IH; [|exact H]. eapply Hrec; [|exact E]. apply Qmark0. exact HQ.
        * (* visited as deferred before, now not deferred: the only case that raises c_rev *)
          destruct (rec _ (fr_sels fr) _) as [st1|] eqn:E; [|discriminate].
          eapply IH; [|exact H]. eapply Hrec; [|exact E]. apply Qmark. exact HQ.
        * exact (IH _ _ _ HQ H).
        * (* first visit, not deferred *)
          destruct (rec _ (fr_sels fr) _) as [st1|] eqn:E; [|discriminate].
          eapply IH; [|exact H]. eapply Hrec; [|exact E]. apply Qmark. exact HQ.
      + destruct (should_include cv dirs && match tc with Some c => cond_matches s c tn | None => true end);
          [|eapply IH; eauto].
        destruct (defer_active cv dirs) as [lab|].
        * destruct (rec _ sub _) as [st1|] eqn:E; [|discriminate].
          eapply IH; [|exact H]. eapply Hrec; [|exact E]. apply Qmark0. exact HQ.
        * destruct (rec _ sub _) as [st1|] eqn:E; [|discriminate].
          eapply IH; [|exact H]. eapply Hrec; [|exact E]. exact HQ.
  Qed.

  Lemma dcollect_inv fuel : forall du sels st st', Q st ->
    dcollect s frags cv tn base depth fuel du sels st = Some st' -> Q st'.
  Proof.
    induction fuel as [|f IH]; intros du sels st st' HQ H; cbn [dcollect] in H; [discriminate|].
    eapply dcollect_list_inv; eauto.
  Qed.

  Lemma dcollect_srcs_inv fuel srcs : forall st st', Q st ->
    dcollect_srcs s frags cv tn base depth fuel srcs st = Some st' -> Q st'.
  Proof.
    induction srcs as [|[du sels] r IH]; intros st st' HQ H; cbn [dcollect_srcs] in H.
    - inversion H; subst. exact HQ.
    - destruct (dcollect s frags cv tn base depth fuel du sels st) as [st1|] eqn:E; [|discriminate].
      eapply IH; [|exact H]. eapply dcollect_inv; eauto.
  Qed.
End DCollectInv.

Lemma dcollect_srcs_nodup s frags cv tn base depth fuel srcs st :
  dcollect_srcs s frags cv tn base depth fuel srcs cs0 = Some st -> NoDup (map fst (c_g st)).
Proof.
  apply (dcollect_srcs_inv s frags cv tn base depth (fun st => NoDup (map fst (c_g st)))).
  - intros st0 k f H. apply add_dfield_nodup. exact H.
  - intros st0 vis new again H. exact H.
  - constructor.
Qed.

Lemma apply_pl_nonnull j p j' : apply_pl j p = Some j' -> j <> JNull -> j' <> JNull.
Proof.
  unfold apply_pl. destruct (pl_data p) as [kvs|]; [|intros H; inversion H; auto].
  destruct (pl_path p) as [|[k|i] q]; cbn [Merge.update_at]; intros H Hn.
  - unfold merge_into in H. destruct j; inversion H. discriminate.
  - destruct j; try discriminate. destruct (Merge.upd_key _ _ _); inversion H. discriminate.
  - destruct j; try discriminate. destruct (Merge.set_nth _ _ _); inversion H. discriminate.
Qed.

Lemma apply_pls_nonnull pls : forall j j', apply_pls j pls = Some j' -> j <> JNull -> j' <> JNull.
Proof.
  induction pls as [|p r IH]; intros j j' H Hn; cbn [apply_pls] in H; [inversion H; subst; exact Hn|].
  destruct (apply_pl j p) as [j1|] eqn:E; [|discriminate]. eapply IH; [exact H|]. eapply apply_pl_nonnull; eauto.
Qed.

(* The base run P (planning off) against the incremental run D (planning on), both with error propagation
   [np].  With propagation on, P is assumed error-free; with propagation off, nothing is assumed. *)
Section Reassembly.
  Variable np : bool.

  Definition ok (es : list err) : Prop := np = true \/ es = [].

  Lemma ok_app a b : ok (a ++ b) -> ok a /\ ok b.
  Proof.
    intros [H|H]; [split; left; exact H|]. apply app_eq_nil in H as [-> ->]. split; right; reflexivity.
  Qed.

  Lemma ok_pre seg es : ok (pre_errs seg es) -> ok es.
  Proof. intros [H|H]; [left; exact H|right]. destruct es; [reflexivity|discriminate]. Qed.

  Lemma ok_cons e es : ok (e :: es) -> np = true.
  Proof. intros [H|H]; [exact H|discriminate]. Qed.

  Lemma ok_errs4 E e : ok (errs4 E) -> In e E -> ok (e4_errs e).
  Proof.
    induction E as [|x r IH]; [intros _ []|]. cbn [errs4 flat_map]. intros H [->|Hin]; apply ok_app in H as [H1 H2].
    - eapply ok_pre. exact H1.
    - exact (IH H2 Hin).
  Qed.

  (* an execution group value of the incremental run: it has data, and no errors unless propagation is off *)
  Definition Qp (p : payload) : Prop := (exists kvs, pl_data p = Some kvs) /\ (np = false -> pl_errs p = []).

  (* initial value + payloads reassemble to the reference value: the merge succeeds in the order the model
     lists them, and in whatever order it succeeds the result is the reference *)
  Definition Good (j0 : json) (pls : list payload) (j : json) : Prop :=
    Forall Qp pls /\ (exists m, apply_pls j0 pls = Some m) /\ AnyOrd j0 (map core pls) j.

  Lemma Good_Qp j0 pls j : Good j0 pls j -> Forall Qp pls.
  Proof. intro H. exact (proj1 H). Qed.

  Lemma Good_applies j0 pls j : Good j0 pls j -> exists m, apply_pls j0 pls = Some m.
  Proof. intro H. exact (proj1 (proj2 H)). Qed.

  Lemma Good_any j0 pls j : Good j0 pls j -> AnyOrd j0 (map core pls) j.
  Proof. intro H. exact (proj2 (proj2 H)). Qed.

  Lemma Good_refl j : Good j [] j.
  Proof. split; [constructor|]. split; [exists j; reflexivity|apply AnyOrd_nil]. Qed.

  Lemma Good_jeq j0 pls j : Good j0 pls j -> exists m, apply_pls j0 pls = Some m /\ jeq m j.
  Proof.
    intros [_ [[m Hm] Hany]]. exists m. split; [exact Hm|].
    eapply Hany; [apply Permutation_refl|]. rewrite <- apply_pls_core. exact Hm.
  Qed.

  Lemma Good_null pls j : Good JNull pls j -> j = JNull.
  Proof.
    intro HG. destruct (Good_jeq _ _ _ HG) as [m [Ha Hj]]. destruct HG as [Hok _]. destruct pls as [|p r].
    - cbn in Ha. inversion Ha; subst. apply jeq_null_l. exact Hj.
    - exfalso. inversion Hok as [|x l [[kvs Hd] _] _]; subst.
      cbn [apply_pls] in Ha. unfold apply_pl in Ha. rewrite Hd in Ha.
      destruct (pl_path p) as [|[k|i] q]; cbn in Ha; discriminate.
  Qed.

  Lemma Good_to_null j0 pls : Good j0 pls JNull -> j0 = JNull.
  Proof.
    intro HG. destruct (Good_jeq _ _ _ HG) as [m [Ha Hj]]. apply jeq_null_r in Hj. subst m.
    destruct (json_null_dec j0) as [H|H]; [exact H|]. exfalso. exact (apply_pls_nonnull _ _ _ Ha H eq_refl).
  Qed.

  Lemma Qp_pre seg pls : Forall Qp pls -> Forall Qp (pre_pls seg pls).
  Proof. unfold pre_pls. intro H. apply Forall_map. exact H. Qed.

  Lemma Qp_nest pls : Forall Qp pls -> Forall Qp (map nest_pl pls).
  Proof. intro H. apply Forall_map. exact H. Qed.

  (* a value of P and the corresponding value of D *)
  Inductive vrel : xout -> xout -> Prop :=
  | vrel_intro j es cs pl rv j0 es0 cs0 pls rv0 :
      (np = false -> es0 = []) -> Good j0 pls j ->
      vrel ((CVal j, es, cs), pl, rv) ((CVal j0, es0, cs0), pls, rv0).

  Definition erel (efp efd : list dfield -> option xfres) (e : str * list dfield) : Prop :=
    (efp (snd e) = Some XSkip /\ efd (snd e) = Some XSkip) \/
    (exists x y, efp (snd e) = Some (XRes x) /\ efd (snd e) = Some (XRes y) /\ vrel x y).

  Lemma erel_fok efp efd e : erel efp efd e -> fok efd e.
  Proof.
    intros [[_ H]|[x [y [_ [H Hv]]]]]; [left; exact H|right]. destruct Hv. do 5 eexists. exact H.
  Qed.

  Lemma ents4_rel_keys efp efd g : Forall (erel efp efd) g -> map e4_key (ents4 efd g) = map e4_key (ents4 efp g).
  Proof.
    induction 1 as [|[k fs] r He HF IH]; [reflexivity|]. cbn [ents4 flat_map fst snd].
    fold (ents4 efd r). fold (ents4 efp r).
    destruct He as [[Hp Hd]|[x [y [Hp [Hd Hv]]]]]; cbn [snd] in Hp, Hd; rewrite Hp, Hd; [exact IH|].
    destruct Hv. cbn. f_equal. exact IH.
  Qed.

  (* an executed field of D has its reference among the executed fields of P *)
  Lemma erel_entry efp efd part dg e :
    (forall x, In x part -> In x dg) -> Forall (erel efp efd) part -> In e (ents4 efd part) ->
    exists j, In (e4_key e, j) (kvs4 (ents4 efp dg)) /\ Good (e4_val e) (e4_pls e) j /\
              (np = false -> e4_errs e = []).
  Proof.
    intros Hsub HF He. destruct (ents4_in _ _ _ He) as [fs [cs [rv [Hin Hd]]]].
    rewrite Forall_forall in HF. destruct (HF _ Hin) as [[_ Hs]|[x [y [Hp [Hd' Hv]]]]]; cbn [snd] in *; [congruence|].
    rewrite Hd in Hd'. inversion Hd'; subst y. inversion Hv; subst.
    exists j. split; [|split; assumption].
    apply (in_kvs4 (e4_key e, j, es, pl)). eapply ents4_intro; [apply Hsub; exact Hin|exact Hp].
  Qed.

  Lemma errs4_nil E : (forall e, In e E -> e4_errs e = []) -> errs4 E = [].
  Proof.
    induction E as [|e r IH]; intro H; [reflexivity|]. cbn [errs4 flat_map].
    rewrite (H e (or_introl eq_refl)). apply IH. intros x Hx. apply H. right. exact Hx.
  Qed.

  Lemma Qp_lift4 E : (forall e, In e E -> Forall Qp (e4_pls e)) -> Forall Qp (lift4 E).
  Proof.
    induction E as [|e r IH]; intro H; [constructor|]. cbn [lift4 flat_map]. apply Forall_app. split.
    - apply Qp_pre. apply H. left. reflexivity.
    - apply IH. intros x Hx. apply H. right. exact Hx.
  Qed.

  (* an object position whose executed fields each reassemble to their reference in [R] *)
  Lemma position_good E0 GL R :
    NoDup (map e4_key E0 ++ flat_map gkeys GL) -> Forall wfg GL ->
    (forall g, In g GL -> exists E, snd g = Some E) ->
    NoDup (map fst R) -> Permutation (map e4_key E0 ++ map fst (flat_map hkvs GL)) (map fst R) ->
    (forall e, entry E0 GL e ->
       exists j, In (e4_key e, j) R /\ Good (e4_val e) (e4_pls e) j /\ (np = false -> e4_errs e = [])) ->
    (np = false -> errs4 E0 = []) /\ Good (JObj (kvs4 E0)) (canon4 E0 GL) (JObj R).
  Proof.
    intros Hnd Hwf Hsome HnR HpR Hent.
    assert (Heg : forall g E e, In g GL -> snd g = Some E -> In e E -> entry E0 GL e).
    { intros g E e Hg HE He. right. eauto. }
    split.
    { intro Hnp. apply errs4_nil. intros e He. destruct (Hent e (or_introl He)) as [j [_ [_ H]]]. exact (H Hnp). }
    split; [|split].
    - apply Forall_app. split.
      + apply Qp_lift4. intros e He. destruct (Hent e (or_introl He)) as [j [_ [H _]]]. exact (Good_Qp _ _ _ H).
      + apply Forall_forall. intros p Hp. apply in_flat_map in Hp as [g [Hg Hp]].
        rewrite Forall_forall in Hwf. destruct (Hsome g Hg) as [E HE].
        destruct (wfg_some g E (Hwf g Hg) HE) as [_ [Hd [Hes _]]]. unfold gpls in Hp. rewrite HE in Hp.
        destruct Hp as [<-|Hp].
        * split; [eexists; exact Hd|]. intro Hnp. rewrite Hes. apply errs4_nil. intros e He.
          destruct (Hent e (Heg g E e Hg HE He)) as [j [_ [_ H]]]. exact (H Hnp).
        * revert p Hp. apply Forall_forall. apply Qp_nest. apply Qp_lift4. intros e He.
          destruct (Hent e (Heg g E e Hg HE He)) as [j [_ [H _]]]. exact (Good_Qp _ _ _ H).
    - apply canon_applies.
      + apply Forall_forall. intros e He. destruct (Hent e (or_introl He)) as [j [_ [H _]]]. exact (Good_applies _ _ _ H).
      + apply Forall_forall. intros g Hg. rewrite Forall_forall in Hwf. split; [exact (Hwf g Hg)|].
        destruct (Hsome g Hg) as [E HE]. exists E. split; [exact HE|].
        apply Forall_forall. intros e He. destruct (Hent e (Heg g E e Hg HE He)) as [j [_ [H _]]]. exact (Good_applies _ _ _ H).
      + eapply Permutation_NoDup; [apply Permutation_sym; exact HpR|exact HnR].
    - apply level_any; try assumption.
      intros e He. destruct (Hent e He) as [j [Hj [H _]]]. exists j. split; [exact Hj|exact (Good_any _ _ _ H)].
  Qed.

  (* the initial executor and the sub-executors of the planned groups, given that every collected field
     executed under whatever defer usage set is related to its execution by P *)
  Lemma plan_level efp (efd : list N -> list dfield -> option xfres) dg S :
    NoDup (map fst dg) -> (forall par, Forall (erel efp (efd par)) dg) ->
    exists kvs es0 cs0 pls rv dpls rvd,
      dexec_groups (efd S) (fst (plan_of dg S)) = Some (Some kvs, es0, cs0, pls, rv) /\
      dexec_deferred efd (snd (plan_of dg S)) = Some (dpls, rvd) /\
      (np = false -> es0 = []) /\
      Good (JObj kvs) (pls ++ dpls) (JObj (kvs4 (ents4 efp dg))).
  Proof.
    intros Hdg Hrel. pose proof (plan_of_partition dg S) as Hperm.
    destruct (plan_of dg S) as [init groups]. cbn [fst snd] in *.
    assert (Hsub : forall x, In x (init ++ flat_map snd groups) -> In x dg).
    { intros x. apply Permutation_in. exact Hperm. }
    assert (Hall : forall par, Forall (erel efp (efd par)) (init ++ flat_map snd groups)).
    { intro par. eapply Permutation_Forall; [apply Permutation_sym; exact Hperm|apply Hrel]. }
    assert (Hinit : Forall (erel efp (efd S)) init).
    { specialize (Hall S). apply Forall_app in Hall. tauto. }
    assert (Hgroups : Forall (fun sg => Forall (erel efp (efd (Plan.ids (fst sg)))) (snd sg)) groups).
    { apply Forall_forall. intros sg Hin. specialize (Hall (Plan.ids (fst sg))).
      apply Forall_app in Hall as [_ Hall]. rewrite Forall_forall in *.
      intros e He. apply Hall. apply in_flat_map. exists sg. split; assumption. }
    destruct (groups_intro (efd S) init) as [cs0 [rv0 Hgi]].
    { eapply Forall_impl; [|exact Hinit]. intros e. apply erel_fok. }
    destruct (deferred_intro efd groups) as [GL [rvd [Hdi [Hwf HF2]]]].
    { eapply Forall_impl; [|exact Hgroups]. intros sg Hsg. eapply Forall_impl; [|exact Hsg].
      intros e. apply erel_fok. }
    set (E0 := ents4 (efd S) init) in *. set (R := kvs4 (ents4 efp dg)).
    exists (kvs4 E0), (errs4 E0), cs0, (lift4 E0), rv0, (flat_map gpls GL), rvd.
    split; [exact Hgi|]. split; [exact Hdi|].
    assert (HnR : NoDup (map fst R)).
    { unfold R. rewrite kvs4_keys. eapply subl_NoDup; [apply ents4_keys_subl|exact Hdg]. }
    assert (Hgk : map fst (flat_map hkvs GL) = map e4_key (ents4 efp (flat_map snd groups))).
    { clear - HF2 Hgroups. induction HF2 as [|sg g l l' [_ Hm] _ IH]; [reflexivity|].
      inversion Hgroups as [|x y Hsg Hr]; subst. cbn [flat_map]. rewrite ents4_app, !map_app, (IH Hr).
      unfold hkvs. rewrite Hm, kvs4_keys, (ents4_rel_keys _ _ _ Hsg). reflexivity. }
    assert (Hk : flat_map gkeys GL = flat_map (fun sg => map fst (snd sg)) groups).
    { clear - HF2. induction HF2 as [|sg g l l' [Hk _] _ IH]; cbn [flat_map]; [reflexivity|].
      unfold gkeys at 1. rewrite Hk, IH. reflexivity. }
    apply position_good; [|exact Hwf| |exact HnR| |].
    - rewrite Hk. eapply subl_NoDup; [apply subl_app; [apply ents4_keys_subl|apply subl_refl]|].
      rewrite <- map_flat_map, <- map_app. eapply Permutation_NoDup; [|exact Hdg].
      apply Permutation_map. apply Permutation_sym. exact Hperm.
    - intros g Hg. destruct (Forall2_in_r _ _ _ _ HF2 Hg) as [sg [_ [_ Hm]]]. eauto.
    - unfold R, E0. rewrite kvs4_keys, Hgk, (ents4_rel_keys _ _ _ Hinit), <- map_app, <- ents4_app.
      apply Permutation_map. apply Permutation_flat_map. exact Hperm.
    - (* every executed field of D against its reference *)
      intros e [He|[g [E [Hg [HE He]]]]].
      + eapply erel_entry; [|exact Hinit|exact He].
        intros x Hx. apply Hsub. apply in_or_app. left. exact Hx.
      + destruct (Forall2_in_r _ _ _ _ HF2 Hg) as [sg [Hsg [_ Hm]]].
        rewrite HE in Hm. inversion Hm; subst E. rewrite Forall_forall in Hgroups.
        eapply erel_entry; [|exact (Hgroups sg Hsg)|exact He].
        intros x Hx. apply Hsub. apply in_or_app. right. apply in_flat_map. exists sg. split; assumption.
  Qed.

  Lemma ierrs4_nil I : (forall x, In x I -> i4_errs x = []) -> forall i, ierrs4 I i = [].
  Proof.
    induction I as [|x r IH]; intros H i; [reflexivity|]. cbn [ierrs4].
    rewrite (H x (or_introl eq_refl)). apply IH. intros y Hy. apply H. right. exact Hy.
  Qed.

  Lemma Qp_ilift4 I : (forall x, In x I -> Forall Qp (i4_pls x)) -> forall i, Forall Qp (ilift4 I i).
  Proof.
    induction I as [|x r IH]; intros H i; [constructor|]. cbn [ilift4]. apply Forall_app. split.
    - apply Qp_pre. apply H. left. reflexivity.
    - apply IH. intros y Hy. apply H. right. exact Hy.
  Qed.

  (* results of completing a value: P may end in an error only when propagation is off (the field or
     list item holding the value catches it), and D then ends in an error too *)
  Definition RC (a b : option xout) : Prop :=
    forall r es cs pl rv, a = Some ((r, es, cs), pl, rv) -> ok es ->
      (r = CErr -> np = true /\ exists es0 cs0 rv0, b = Some ((CErr, es0, cs0), [], rv0)) /\
      (forall j, r = CVal j -> exists y, b = Some y /\ vrel ((r, es, cs), pl, rv) y).

  Lemma items_level cfp cfd items :
    (forall x a, cfp x = Some a -> ok (xerrs a) -> exists y, cfd x = Some y /\ vrel a y) ->
    RC (list_res (dcomplete_items cfp items 0)) (list_res (dcomplete_items cfd items 0)).
  Proof.
    intros Hitem r es cs pl rv H Hok.
    destruct (dcomplete_items cfp items 0) as [[[[[r' es'] cs'] pls'] rv']|] eqn:Ei; [|discriminate].
    pose proof (items_shape _ _ _ _ _ _ _ _ Ei) as Hsh. destruct r' as [js|].
    2:{ (* an item of P ends in an error: excluded *)
        exfalso. destruct Hsh as [_ [x [n [es1 [cs1 [pl1 [rv1 [pre [_ [Hx ->]]]]]]]]]].
        inversion H; subst. apply ok_app in Hok as [_ Hok]. apply ok_pre in Hok.
        destruct (Hitem _ _ Hx Hok) as [y [_ Hy]]. inversion Hy. }
    destruct Hsh as [-> [-> [-> Hiok]]]. inversion H; subst; clear H. split; [discriminate|].
    intros j _.
    assert (HI : Forall (iok cfd) items /\
                 Forall2 (fun x j => Good (i4_val x) (i4_pls x) j /\ (np = false -> i4_errs x = []))
                         (irs4 cfd items) (map i4_val (irs4 cfp items))).
    { clear Ei. revert Hok. generalize 0%nat.
      induction Hiok as [|x rest [j1 [es1 [cs1 [pl1 [rv1 Hp]]]]] HF IH]; intros i Hok; [split; constructor|].
      unfold irs4 in Hok |- *. cbn [flat_map] in Hok |- *. rewrite Hp in Hok |- *.
      cbn [app ierrs4] in Hok. apply ok_app in Hok as [Hok1 Hok2]. apply ok_pre in Hok1.
      destruct (Hitem _ _ Hp Hok1) as [y [Hd Hv]]. destruct (IH _ Hok2) as [IH1 IH2].
      inversion Hv; subst. rewrite Hd. split; constructor; try assumption.
      - do 5 eexists. exact Hd.
      - split; assumption. }
    destruct HI as [Hdok HI].
    destruct (items_intro cfd items Hdok 0%nat) as [cs0 [rv0 Hii]]. rewrite Hii. cbn [list_res].
    eexists. split; [reflexivity|].
    assert (HIn : forall x, In x (irs4 cfd items) ->
              exists j, Good (i4_val x) (i4_pls x) j /\ (np = false -> i4_errs x = [])).
    { intros x Hx. destruct (Forall2_in_l _ _ _ _ HI Hx) as [j0 [_ Hj]]. eauto. }
    constructor.
    - intro Hnp. apply ierrs4_nil. intros x Hx. destruct (HIn x Hx) as [j0 [_ H]]. exact (H Hnp).
    - split; [|split].
      + apply Qp_ilift4. intros x Hx. destruct (HIn x Hx) as [j0 [H _]]. exact (Good_Qp _ _ _ H).
      + destruct (items_apply (irs4 cfd items)) with (A := @nil json) as [ms Hms]; [|eauto].
        apply Forall_forall. intros x Hx. destruct (HIn x Hx) as [j0 [H _]]. exact (Good_applies _ _ _ H).
      + apply level_any_items. clear - HI. induction HI as [|x j0 l l' [H _] _ IH]; constructor; [exact (Good_any _ _ _ H)|exact IH].
  Qed.

  Variable s : schema.
  Variable frags : list fragment.
  Variable cv : list (str * value).

  Notation Psels := (gexec_sels np s frags cv false).
  Notation Pfield := (gexec_field np s frags cv false).
  Notation Pcomp := (gcomplete np s frags cv false).
  Notation Dsels := (gexec_sels np s frags cv true).
  Notation Dfield := (gexec_field np s frags cv true).
  Notation Dcomp := (gcomplete np s frags cv true).

  (* results of a selection set or a field: P never ends in an error *)
  Definition RV (a b : option xout) : Prop :=
    forall x, a = Some x -> ok (xerrs x) -> exists y, b = Some y /\ vrel x y.

  Definition RF (a b : option xfres) : Prop :=
    (a = Some XSkip -> b = Some XSkip) /\
    (forall x, a = Some (XRes x) -> ok (xerrs x) -> exists y, b = Some (XRes y) /\ vrel x y).

  Definition US (f : nat) : Prop :=
    forall tn obj srcs S1 S0 b dp, RV (Psels f tn obj srcs S1 b dp) (Dsels f tn obj srcs S0 b dp).
  Definition UF (f : nat) : Prop :=
    forall tn obj S1 S0 b dp fs, RF (Pfield f tn obj S1 b dp fs) (Dfield f tn obj S0 b dp fs).
  Definition UC (f : nat) : Prop :=
    forall t fs d S1 S0 b dp, RC (Pcomp f t fs d S1 b dp) (Dcomp f t fs d S0 b dp).

  Lemma RC_imm_val j : RC (Some ((CVal j, [], []), [], false)) (Some ((CVal j, [], []), [], false)).
  Proof.
    intros r es cs pl rv H _. inversion H; subst. split; [discriminate|]. intros j0 _.
    eexists. split; [reflexivity|]. constructor; [reflexivity|apply Good_refl].
  Qed.

  Lemma RC_imm_raise c : RC (Some (raise_here c, [], false)) (Some (raise_here c, [], false)).
  Proof.
    intros r es cs pl rv H Hok. inversion H; subst. split; [|discriminate]. intros _.
    split; [exact (ok_cons _ _ Hok)|]. eexists _, _, _. reflexivity.
  Qed.

  Lemma RC_nn a b : RC a b -> RC (nn_wrap a) (nn_wrap b).
  Proof.
    intros H r es cs pl rv Hw Hok.
    apply nn_wrap_inv in Hw as [[es1 [pls1 [-> [-> [-> ->]]]]]|[-> Hn]].
    - (* P has a null here: so has D *)
      apply ok_app in Hok as [Hok1 Hok2].
      destruct (H _ _ _ _ _ eq_refl Hok1) as [_ Hv]. destruct (Hv JNull eq_refl) as [y [-> Hy]].
      inversion Hy as [j1 es' cs' pl' rv' j0 es0 cs0 pls rv0 _ HG]; subst. rewrite (Good_to_null _ _ HG), nn_wrap_null.
      split; [|discriminate]. intros _. split; [exact (ok_cons _ _ Hok2)|]. eexists _, _, _. reflexivity.
    - destruct (H _ _ _ _ _ eq_refl Hok) as [He Hv]. split.
      + intro Hr. destruct (He Hr) as [Hnp [es0 [cs0 [rv0 ->]]]]. split; [exact Hnp|].
        eexists _, _, _. reflexivity.
      + intros j Hj. subst r. destruct (Hv j eq_refl) as [y [-> Hy]]. exists y. split; [|exact Hy].
        inversion Hy as [j1 es' cs' pl' rv' j0 es0 cs0 pls rv0 _ HG]; subst. apply nn_wrap_other.
        intro Hx. inversion Hx; subst j0. apply Hn. f_equal. exact (Good_null _ _ HG).
  Qed.

  (* the field or list item holding a completed value catches its error when propagation is off *)
  Lemma RC_catch t a b r es cs pl rv :
    RC a b -> a = Some ((r, es, cs), pl, rv) -> ok es ->
    exists r0 es0 cs0 pls rv0, b = Some ((r0, es0, cs0), pls, rv0) /\
      forall c1 c2, vrel (gxcatch np t ((r, es, c1), pl, rv)) (gxcatch np t ((r0, es0, c2), pls, rv0)).
  Proof.
    intros H Ha Hok. destruct (H _ _ _ _ _ Ha Hok) as [He Hv]. destruct r as [j|].
    - destruct (Hv j eq_refl) as [y [-> Hy]].
      inversion Hy as [j1 es' cs' pl' rv' j0 es0 cs0 pls rv0 He0 HG]; subst.
      eexists _, _, _, _, _. split; [reflexivity|]. intros c1 c2. rewrite !gxcatch_val. constructor; assumption.
    - destruct (He eq_refl) as [Hnp [es0 [cs0 [rv0 ->]]]].
      eexists _, _, _, _, _. split; [reflexivity|]. intros c1 c2. rewrite Hnp, !gxcatch_np.
      constructor; [congruence|apply Good_refl].
  Qed.

  Lemma step_F f : UC f -> UF (S f).
  Proof.
    intros HC tn obj S1 S0 b dp fs. rewrite !gexec_field_S.
    destruct fs as [|d1 fs']; [split; [reflexivity|discriminate]|].
    apply field_shape_rel.
    - split; [reflexivity|discriminate].
    - split; [discriminate|]. intros x H _. inversion H; subst. eexists. split; [reflexivity|].
      constructor; [reflexivity|apply Good_refl].
    - intro fd. split; [discriminate|]. intros x H Hok. inversion H; subst x; clear H.
      change (gcatch np (f_type fd) (raise_here CauseArgs), @nil payload, false)
        with (gxcatch np (f_type fd) ((CErr, [([], CauseArgs)], []), [], false)) in *.
      rewrite xerrs_gxcatch in Hok. apply ok_cons in Hok. eexists. split; [reflexivity|].
      rewrite Hok, gxcatch_np. constructor; [congruence|apply Good_refl].
    - intros fd args. specialize (HC (f_type fd) (d1 :: fs') (field_data obj (fs_name (df_fs d1))) S1 S0 b (S dp)).
      unfold field_res.
      destruct (Pcomp f _ _ _ S1 b (S dp)) as [[[[[r es] cs] pls] rv]|]; [|split; discriminate].
      split; [discriminate|]. intros x H Hok. apply XRes_inj in H. subst x. rewrite xerrs_gxcatch in Hok.
      destruct (RC_catch (f_type fd) _ _ _ _ _ _ _ HC eq_refl Hok) as [r0 [es0 [cs0 [pls0 [rv0 [-> Hv]]]]]].
      eexists. split; [reflexivity|apply Hv].
  Qed.

  Lemma step_C f : UC f -> US f -> UC (S f).
  Proof.
    intros HC HS t fs d S1 S0 b dp. rewrite !gcomplete_S.
    apply complete_shape_rel.
    - apply RC_imm_raise.
    - apply RC_imm_val.
    - intro t'. apply RC_nn. apply HC.
    - intros it items. apply items_level. intros x a Ha Hoka.
      destruct (Pcomp f it fs x S1 b (S dp)) as [[[[[r1 es1] cs1] pls1] rv1]|] eqn:Ep; [|discriminate].
      apply Some_inj in Ha. subst a. rewrite xerrs_gxcatch in Hoka.
      destruct (RC_catch it _ _ _ _ _ _ _ (HC it fs x S1 S0 b (S dp)) Ep Hoka) as [r0 [es0 [cs0 [pls0 [rv0 [-> Hv]]]]]].
      eexists. split; [reflexivity|apply Hv].
    - intros rt flds r es cs pl rv H Hok.
      destruct (HS rt flds (srcs_of fs) S1 S0 b dp _ H Hok) as [y [Hy Hv]].
      split; [intro Hr; subst r; inversion Hv|]. intros j _. exists y. split; assumption.
  Qed.

  Lemma step_S f : UF f -> US (S f).
  Proof.
    intros HF tn obj srcs S1 S0 b dp x H Hok. rewrite gexec_sels_S in H. rewrite gexec_sels_S.
    destruct (dcollect_srcs s frags cv tn b dp f srcs cs0) as [st|] eqn:Ec; [|discriminate].
    cbv zeta in *. cbn [fst snd] in H.
    set (b' := b + N.of_nat (length (c_new st))) in *.
    set (dg := c_g st) in *.
    set (efp := Pfield f tn obj S1 b' dp) in *.
    set (efd := fun par => Dfield f tn obj par b' dp).
    assert (Hdg : NoDup (map fst dg)) by (eapply dcollect_srcs_nodup; exact Ec).
    destruct (dexec_groups efp dg) as [[[[[r' es'] cs'] pls'] rv']|] eqn:Eg; [|discriminate].
    pose proof (groups_shape _ _ _ _ _ _ _ Eg) as Hsh. destruct r' as [kvs|].
    2:{ exfalso. destruct Hsh as [_ [k [fs [es1 [cs1 [pl1 [rv1 [pre [_ [Hx ->]]]]]]]]]].
        inversion H; subst x. cbn [fst snd] in Hok. apply ok_app in Hok as [_ Hok]. apply ok_pre in Hok.
        destruct (HF tn obj S1 S1 b' dp fs) as [_ Hr]. destruct (Hr _ Hx Hok) as [y [_ Hy]]. inversion Hy. }
    destruct Hsh as [-> [-> [-> Hfok]]]. cbn [dexec_deferred] in H. inversion H; subst x; clear H.
    cbn [fst snd] in Hok.
    destruct (plan_level efp efd dg S0 Hdg) as [kvs [es0 [cs0 [pls [rv0 [dpls [rvd [Hg [Hd [He HG]]]]]]]]]].
    { intro par. apply Forall_forall. intros [k fs] Hin. rewrite Forall_forall in Hfok.
      destruct (HF tn obj S1 par b' dp fs) as [Hs Hr].
      destruct (Hfok _ Hin) as [Hp|[j [es [cs [pl [rv Hp]]]]]]; cbn [snd] in Hp.
      - left. split; [exact Hp|apply Hs; exact Hp].
      - right. destruct (Hr _ Hp) as [y [Hy Hv]].
        + cbn. apply (ok_errs4 _ (k, j, es, pl) Hok). eapply ents4_intro; eassumption.
        + eauto. }
    fold (efd S0). change (fun par : list N => Dfield f tn obj par b' dp) with efd.
    rewrite Hg, Hd. eexists. split; [reflexivity|]. constructor; assumption.
  Qed.

  Theorem reassembly_all : forall f, US f /\ UF f /\ UC f.
  Proof.
    induction f as [|f [IHs [IHf IHc]]].
    - repeat split; intros; discriminate.
    - split; [apply step_S; exact IHf|]. split; [apply step_F; exact IHc|apply step_C; assumption].
  Qed.
End Reassembly.

Lemma find_pending_self i p : Merge.find_pending i [(i, p)] = Some p.
Proof. cbn. rewrite N.eqb_refl. reflexivity. Qed.

Lemma apply_payload_merge d i p :
  Merge.apply_payload (d, []) (merge_payload i p)
  = match apply_pl d p with Some d' => Some (d', []) | None => None end.
Proof.
  unfold merge_payload, apply_pl. destruct (pl_data p) as [kvs|]; cbn [Merge.apply_payload Merge.p_pending
    Merge.p_incremental Merge.p_completed app Merge.apply_incrs Merge.apply_incr].
  - rewrite find_pending_self, firstn_skipn.
    change (fun old : json => match old with
                              | JObj _ => Some (Merge.merge 200 old (JObj kvs))
                              | _ => None
                              end) with (merge_into kvs).
    destruct (Merge.update_at (pl_path p) (merge_into kvs) d); [|reflexivity].
    cbn. rewrite N.eqb_refl. reflexivity.
  - cbn. rewrite N.eqb_refl. reflexivity.
Qed.

Lemma apply_payloads_merge ps : forall d i,
  Merge.apply_payloads (d, []) (merge_payloads i ps)
  = match apply_pls d ps with Some d' => Some (d', []) | None => None end.
Proof.
  induction ps as [|p r IH]; intros d i; cbn [merge_payloads Merge.apply_payloads apply_pls]; [reflexivity|].
  rewrite apply_payload_merge. destruct (apply_pl d p); [apply IH|reflexivity].
Qed.

Theorem reassemble_apply_pls j0 ps : reassemble j0 ps = apply_pls j0 ps.
Proof.
  unfold reassemble, Merge.reassemble. rewrite apply_payloads_merge.
  destruct (apply_pls j0 ps); reflexivity.
Qed.

(* nothing is withheld when no execution group failed *)
Lemma deliver_ok pls : Forall pl_ok pls -> deliver pls = pls.
Proof.
  intro H. unfold deliver.
  assert (E : failed_keys pls = []).
  { induction H as [|p r [[kvs Hd] _] _ IH]; cbn; [reflexivity|]. rewrite Hd. exact IH. }
  rewrite E. clear E. induction pls as [|p r IH]; cbn [filter]; [reflexivity|].
  inversion H; subst. rewrite IH by assumption.
  unfold delivered_pl. destruct (pl_data p); [|reflexivity]. destruct (pl_groups p) as [|c gs]; [reflexivity|].
  cbn [existsb]. unfold chain_alive at 1.
  assert (E : existsb (fun n => existsb (gkey_eqb (node_key (pl_path p) n)) []) c = false).
  { induction c; cbn; auto. }
  rewrite E. reflexivity.
Qed.

Theorem reassembly_gen np fuel s d vars root j es cs pl rv :
  gexecute_fuel np false fuel s d vars root = DResp j es cs pl rv -> ok np es ->
  exists j0 es0 cs0 pls rv0,
    gexecute_fuel np true fuel s d vars root = DResp j0 es0 cs0 pls rv0 /\
    (np = false -> es0 = []) /\ Forall (Qp np) pls /\
    (exists m, reassemble j0 pls = Some m /\ jeq m j) /\
    (forall pls' m', Permutation pls pls' -> reassemble j0 pls' = Some m' -> jeq m' j).
Proof.
  intros H Hok. destruct (gexecute_fuel_run _ _ _ _ _ _ _ _ _ _ _ _ H) as [cv [tn [_ [_ [_ Hrun]]]]].
  rewrite Hrun in H. apply resp_of_inv in H as [r [pls0 [Hp Hcase]]].
  destruct (reassembly_all np s (d_frags d) cv fuel) as [HS _].
  destruct (HS _ _ _ [] [] _ _ _ Hp Hok) as [y [Hd Hv]].
  inversion Hv as [j1 es' cs' pl' rv' j0 es0 cs0 pls rv0 He0 HG]; subst.
  destruct Hcase as [[Hr ->]|[Hr _]]; [|discriminate]. inversion Hr; subst j1.
  rewrite Hrun, Hd. cbn [resp_of]. eexists _, _, _, _, _. split; [reflexivity|]. split; [exact He0|].
  destruct (Good_jeq _ _ _ _ HG) as [m [Hm Hj]]. destruct HG as [HQ [_ Hany]]. split; [exact HQ|]. split.
  - exists m. split; [rewrite reassemble_apply_pls; exact Hm|exact Hj].
  - intros pls' m' Hperm Hr'. rewrite reassemble_apply_pls, apply_pls_core in Hr'.
    eapply Hany; [apply Permutation_map; exact Hperm|exact Hr'].
Qed.

Theorem reassembly_fuel fuel s d vars root j cs pl rv :
  dexecute_fuel false fuel s d vars root = DResp j [] cs pl rv ->
  exists j0 cs0 pls rv0,
    dexecute_fuel true fuel s d vars root = DResp j0 [] cs0 pls rv0 /\
    Forall pl_ok pls /\
    (exists m, reassemble j0 pls = Some m /\ jeq m j) /\
    (forall pls' m', Permutation pls pls' -> reassemble j0 pls' = Some m' -> jeq m' j).
Proof.
  rewrite !dexecute_fuel_deliver.
  destruct (gexecute_fuel false false fuel s d vars root) as [| |j1 es1 cs1 pl1 rv1] eqn:E; try discriminate.
  intro H. inversion H; subst.
  destruct (reassembly_gen _ _ _ _ _ _ _ _ _ _ _ E (or_intror eq_refl))
    as [j0 [es0 [cs0 [pls [rv0 [-> [He [HQ Hrest]]]]]]]].
  rewrite (He eq_refl).
  assert (Hok : Forall pl_ok pls).
  { eapply Forall_impl; [|exact HQ]. intros p [Hd Hp]. split; [exact Hd|exact (Hp eq_refl)]. }
  rewrite (deliver_ok _ Hok). exists j0, cs0, pls, rv0. split; [reflexivity|]. split; [exact Hok|exact Hrest].
Qed.
