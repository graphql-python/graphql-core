(* C06 - the three control machines of Incr/Lifecycle.v: an inductive invariant of the stream item queue
   ([qinv]) with its consequences for the abort callback and for quiescence, the counting law of the
   work-finished hook, and the close count of aclosing.  Properties/C06.v instantiates them. *)
From GV Require Import Base.Prelude Incr.Lifecycle.

Definition C1 := {| q_eager := true; q_has_cb := true; q_cb_async := true; q_cap := 1 |}.
Definition C100 := {| q_eager := false; q_has_cb := true; q_cb_async := false; q_cap := 100 |}.

Example ex_abort_running_producer :
  let s := qrun C1 (qinit C1) [QPushFut; QAbort; QAbort; QTick] in
  (q_cb_calls s, quiescent s, q_aborted s) = (1%nat, true, true).
Proof. reflexivity. Qed.

Example ex_finished_source_not_closed_again :
  let s := qrun C100 (qinit C100) [QStart; QPush; QFinish; QTick; QAbort; QTick] in
  (q_cb_calls s, quiescent s, q_finished s) = (0%nat, true, true).
Proof. reflexivity. Qed.

(* the producer parks on the full queue with its end marker; abort releases it without closing the source *)
Example ex_parked_on_end_marker_released :
  let s1 := qrun C1 (qinit C1) [QPush; QTick; QFinish; QTick] in
  let s2 := qrun C1 s1 [QAbort; QTick] in
  (q_prod s1, q_prod s2, q_cb_calls s2, quiescent s2) = (PParked, PDone, 0%nat, true).
Proof. reflexivity. Qed.

(* ... and parked on the failure entry: the first abort happened in _run, a later abort releases it *)
Example ex_parked_on_failure_entry_released :
  let s1 := qrun C1 (qinit C1) [QPush; QTick; QFail; QTick] in
  let s2 := qrun C1 s1 [QAbort; QTick] in
  (q_prod s1, q_cb_calls s1, q_prod s2, q_cb_calls s2, quiescent s2) = (PParked, 1%nat, PDone, 1%nat, true).
Proof. reflexivity. Qed.

(* a producer blocked in push() on the full queue is cancelled by abort *)
Example ex_blocked_push_cancelled :
  let s1 := qrun C1 (qinit C1) [QPush; QTick; QPush; QTick] in
  let s2 := qrun C1 s1 [QAbort; QTick] in
  (q_prod s1, q_prod s2, q_cb_calls s2, quiescent s2) = (PBlocked, PDone, 1%nat, true).
Proof. reflexivity. Qed.

Example ex_cancellation_turned_into_failure_closes_once :
  let s := qrun C1 (qinit C1) [QAbort; QFailCancelled; QTick] in
  (q_cb_calls s, quiescent s, q_aborted s) = (1%nat, true, true).
Proof. reflexivity. Qed.

Example ex_failure_waits_for_earlier_items :
  let s1 := qrun C1 (qinit C1) [QPushFut; QFail; QTick] in
  let s2 := qrun C1 s1 [QItemSettle; QTick; QAbort; QTick] in
  (q_cb_calls s1, q_aborted s1, q_cb_calls s2, q_aborted s2, quiescent s2) = (0%nat, false, 1%nat, true, true).
Proof. reflexivity. Qed.

Definition is_final (p : prod) : bool := match p with PDone | PParked => true | _ => false end.
Definition is_prod (p : prod) : bool := match p with PRun | PBlocked => true | _ => false end.
Definition is_cleanup (d : due) : bool := match d with DCleanup => true | _ => false end.
Definition due_none (d : due) : bool := match d with DNone => true | _ => false end.
Definition is_settle (d : due) : bool := match d with DSettle => true | _ => false end.
Definition is_parked (p : prod) : bool := match p with PParked => true | _ => false end.
Definition is_failwait (p : prod) : bool := match p with PFailWait => true | _ => false end.

(* control part of the invariant, as a boolean function of the finite control fields *)
Definition qinvb (s : qstate) : bool :=
  implb (q_finished s) (negb (q_cleaned s) && negb (is_cleanup (q_due s)) && is_final (q_prod s)) &&
  implb (q_aborted s && negb (q_finished s)) (q_cleaned s || is_cleanup (q_due s)) &&
  implb (q_cleaned s) (q_aborted s) &&
  implb (is_cleanup (q_due s)) (q_aborted s) &&
  implb (is_prod (q_prod s) && negb (q_cancel_req s)) (negb (q_aborted s)) &&
  implb (is_parked (q_prod s)) (q_parked s) &&
  implb (q_pcancelled s) (q_aborted s) &&
  implb (q_cancel_req s) (q_aborted s) &&
  implb (negb (q_aborted s)) (due_none (q_due s)) &&
  (* the abort has dealt with the pending item futures *)
  implb (q_aborted s) (Nat.eqb (q_pending s) 0 || q_pend_cancelled s || negb (due_none (q_due s))) &&
  implb (q_parked s) (is_final (q_prod s)) &&
  implb (is_settle (q_due s)) (is_final (q_prod s)) &&
  implb (is_parked (q_prod s) && q_pcancelled s) (q_cancel_req s || is_cleanup (q_due s)) &&
  implb (is_failwait (q_prod s) && q_pcancelled s) (is_cleanup (q_due s)) &&
  implb (is_prod (q_prod s) && q_cancel_req s) (is_cleanup (q_due s)) &&
  implb (q_pend_cancelled s) (q_aborted s) &&
  implb (is_failwait (q_prod s) && q_aborted s) (q_pcancelled s) &&
  implb (q_cancel_req s) (q_pcancelled s).

(* counter part *)
Definition qinvc (c : qconf) (s : qstate) : Prop :=
  q_cb_calls s = (if q_cleaned s && q_has_cb c then 1%nat else 0%nat).

Definition qinv (c : qconf) (s : qstate) : Prop := qinvc c s /\ qinvb s = true.

(* Facts about the control fields are decided by enumeration: the producer state, the continuation
   and seven flags range over 6 * 3 * 2^7 values; of the counters only "no item future is pending"
   matters.  The implications below evaluate their premise first, so the few control states that
   satisfy it are the only ones on which the conclusion is computed. *)
Definition all_bool (f : bool -> bool) : bool := f true && f false.
Definition all_prod (f : prod -> bool) : bool :=
  f PNone && f PRun && f PBlocked && f PFailWait && f PParked && f PDone.
Definition all_due (f : due -> bool) : bool := f DNone && f DCleanup && f DSettle.

Lemma all_bool_spec f : all_bool f = true -> forall b, f b = true.
Proof. unfold all_bool. intros H b. apply andb_true_iff in H. destruct b; apply H. Qed.

Lemma all_prod_spec f : all_prod f = true -> forall p, f p = true.
Proof. unfold all_prod. intros H p. repeat (apply andb_true_iff in H as [H ?]). destruct p; assumption. Qed.

Lemma all_due_spec f : all_due f = true -> forall d, f d = true.
Proof. unfold all_due. intros H d. repeat (apply andb_true_iff in H as [H ?]). destruct d; assumption. Qed.

Definition all_ctl (co : bool) (e n k : nat) (f : qstate -> bool) : bool :=
  all_prod (fun p => all_bool (fun cr => all_bool (fun pc => all_bool (fun pk => all_bool (fun ab =>
  all_bool (fun fi => all_bool (fun pdc => all_bool (fun cl => all_due (fun d =>
    f (mkQ p cr pc pk ab fi co e n pdc cl k d)))))))))).

Lemma all_ctl_spec (P Q : qstate -> bool) :
  (forall co e k, all_ctl co e 0 k (fun s => implb (P s) (Q s)) = true) ->
  (forall co e n k, all_ctl co e (S n) k (fun s => implb (P s) (Q s)) = true) ->
  forall s, P s = true -> Q s = true.
Proof.
  intros H0 HS [p cr pc pk ab fi co e n pdc cl k d] HP.
  assert (H : all_ctl co e n k (fun s => implb (P s) (Q s)) = true) by (destruct n; auto).
  unfold all_ctl in H.
  apply all_prod_spec with (p := p) in H.
  apply all_bool_spec with (b := cr) in H. apply all_bool_spec with (b := pc) in H.
  apply all_bool_spec with (b := pk) in H. apply all_bool_spec with (b := ab) in H.
  apply all_bool_spec with (b := fi) in H. apply all_bool_spec with (b := pdc) in H.
  apply all_bool_spec with (b := cl) in H. apply all_due_spec with (d := d) in H.
  rewrite HP in H. exact H.
Qed.

(* [by_ctl]: the goal [forall s, P s = true -> Q s = true] by enumeration *)
Ltac by_ctl := apply all_ctl_spec; intros; reflexivity.

Lemma b_settle_cancel s : qinvb s = true -> qinvb (settle_cancel s) = true.
Proof. revert s. by_ctl. Qed.

(* whether the entries queue has room is left open *)
Lemma b_settle_fail c s : qinvb s = true -> qinvb (settle_fail c s) = true.
Proof.
  unfold settle_fail. generalize (has_room c s). intro r. revert s. destruct r; by_ctl.
Qed.

Lemma b_settle_due c s : qinvb s = true -> qinvb (settle_due c s) = true.
Proof. revert s. by_ctl. Qed.

Lemma b_settle_queue c s : qinvb s = true -> qinvb (settle_queue c s) = true.
Proof.
  unfold settle_queue. set (room := Nat.eqb (q_cap c) 0 || _). clearbody room.
  revert s. destruct room; by_ctl.
Qed.

Lemma b_settle c s : qinvb s = true -> qinvb (settle c s) = true.
Proof. intros H. unfold settle. apply b_settle_queue, b_settle_due, b_settle_fail, b_settle_cancel, H. Qed.

Lemma b_abort c s : qinvb s = true -> qinvb (fst (do_qabort c s)) = true.
Proof. revert s. by_ctl. Qed.

Lemma b_step c s e : qinvb s = true -> qinvb (fst (qstep c s e)) = true.
Proof.
  destruct e.
  - (* QStart *) revert s. by_ctl.
  - (* QPushFut: whether the entries queue has room is left open *)
    unfold qstep, do_push. generalize (has_room c s). intro r. revert s. destruct r; by_ctl.
  - (* QPush *) unfold qstep, do_push. generalize (has_room c s). intro r. revert s. destruct r; by_ctl.
  - (* QItemSettle: whether another item future is still pending is left open *)
    revert s. apply all_ctl_spec; intros; [|destruct n]; reflexivity.
  - (* QFinish *) unfold qstep. generalize (has_room c s). intro r. revert s. destruct r; by_ctl.
  - (* QFail *) revert s. by_ctl.
  - (* QFailCancelled *) revert s. by_ctl.
  - (* QAbort *) apply b_abort.
  - (* QTick *) apply b_settle.
  - (* QDrain: whether a consumer drains is left open *)
    revert s. apply all_ctl_spec; intros; destruct co; reflexivity.
Qed.

(* the abort callback is run through [call_cb] only: the flag and the counter move together *)
Definition cbnew (c : qconf) (s s' : qstate) : Prop :=
  (q_cleaned s' = q_cleaned s /\ q_cb_calls s' = q_cb_calls s) \/
  (q_cleaned s = false /\ q_cleaned s' = true /\
   q_cb_calls s' = if q_has_cb c then S (q_cb_calls s) else q_cb_calls s).

Lemma cbnew_refl c s : cbnew c s s.
Proof. left; split; reflexivity. Qed.

Lemma cbnew_trans c s1 s2 s3 : cbnew c s1 s2 -> cbnew c s2 s3 -> cbnew c s1 s3.
Proof.
  unfold cbnew. intros [[A B]|(A & B & C)] [[D E]|(D & E & F)].
  - left. split; congruence.
  - right. repeat split; try congruence. rewrite F, B. reflexivity.
  - right. repeat split; congruence.
  - congruence.
Qed.

Lemma v_call_cb c s : cbnew c s (call_cb c s).
Proof.
  unfold call_cb. destruct (q_cleaned s) eqn:E; [apply cbnew_refl|].
  right. cbn. repeat split; auto.
Qed.

Lemma v_same c s s' : q_cleaned s' = q_cleaned s -> q_cb_calls s' = q_cb_calls s -> cbnew c s s'.
Proof. left; split; assumption. Qed.

Lemma v_put_final c r s : cbnew c s (put_final r s).
Proof. unfold put_final. destruct r; apply v_same; reflexivity. Qed.

Lemma v_settle_cancel c s : cbnew c s (settle_cancel s).
Proof. apply v_same; reflexivity. Qed.

Lemma v_settle_fail c s : cbnew c s (settle_fail c s).
Proof.
  unfold settle_fail. destruct (q_prod s); try apply cbnew_refl.
  destruct (q_pending s); try apply cbnew_refl.
  eapply cbnew_trans; [|apply v_put_final].
  eapply cbnew_trans; [|apply v_call_cb]. apply v_same; reflexivity.
Qed.

Lemma v_settle_due c s : cbnew c s (settle_due c s).
Proof.
  unfold settle_due. destruct (q_due s); try apply cbnew_refl.
  - eapply cbnew_trans; [|apply v_call_cb]. apply v_same; reflexivity.
  - apply v_same; reflexivity.
Qed.

Lemma v_settle_queue c s : cbnew c s (settle_queue c s).
Proof.
  unfold settle_queue. destruct (q_prod s); try (apply v_same; reflexivity);
    destruct (Nat.eqb (q_cap c) 0 || _); try apply cbnew_refl; apply v_same; reflexivity.
Qed.

Lemma v_settle c s : cbnew c s (settle c s).
Proof.
  unfold settle.
  eapply cbnew_trans; [|apply v_settle_queue].
  eapply cbnew_trans; [|apply v_settle_due].
  eapply cbnew_trans; [|apply v_settle_fail]. apply v_settle_cancel.
Qed.

Lemma v_abort c s : cbnew c s (fst (do_qabort c s)).
Proof.
  unfold do_qabort.
  destruct (q_aborted s); [apply v_same; reflexivity|].
  destruct (q_finished s).
  - destruct (_ && _); apply v_same; reflexivity.
  - destruct (negb (running s) && _); cbn [fst].
    + eapply cbnew_trans; [|apply v_call_cb]. apply v_same; reflexivity.
    + apply v_same; reflexivity.
Qed.

Lemma v_push c s f : cbnew c s (do_push c s f).
Proof. unfold do_push. destruct (has_room c s); apply v_same; reflexivity. Qed.

Lemma v_step c s e : cbnew c s (fst (qstep c s e)).
Proof.
  unfold qstep. destruct (negb (applicable s e)); [apply cbnew_refl|].
  destruct e; cbn [fst]; try (apply v_same; reflexivity).
  - apply v_push.
  - apply v_push.
  - eapply cbnew_trans; [|apply v_put_final]. apply v_same; reflexivity.
  - apply v_abort.
  - apply v_settle.
Qed.

Lemma c_of_cbnew c s s' : qinvc c s -> cbnew c s s' -> qinvc c s'.
Proof.
  unfold qinvc, cbnew. intros H [[A B]|(A & B & C)].
  - rewrite A, B. exact H.
  - rewrite B, C, H, A. cbn. destruct (q_has_cb c); reflexivity.
Qed.

Lemma qinv_step c s e : qinv c s -> qinv c (fst (qstep c s e)).
Proof. intros [A B]. split; [eapply c_of_cbnew; [exact A|apply v_step]|apply b_step, B]. Qed.

Lemma qinv_init c : qinv c (qinit c).
Proof. split; [reflexivity|]. unfold qinit. destruct (q_eager c); reflexivity. Qed.

Lemma qinv_run c es : forall s, qinv c s -> qinv c (qrun c s es).
Proof. induction es as [|e es IH]; cbn; intros s H; auto. apply IH, qinv_step, H. Qed.

Lemma qinv_settle c s : qinv c s -> qinv c (settle c s).
Proof. intros [A B]. split; [eapply c_of_cbnew; [exact A|apply v_settle]|apply b_settle, B]. Qed.

Lemma settle_due_none c s : q_due (settle c s) = DNone.
Proof.
  assert (Q : forall s, q_due (settle_queue c s) = q_due s).
  { intros t. unfold settle_queue. destruct (q_prod t); try reflexivity;
      destruct (Nat.eqb (q_cap c) 0 || _); reflexivity. }
  unfold settle. rewrite Q. unfold settle_due.
  destruct (q_due (settle_fail c (settle_cancel s))) eqn:E; auto.
  unfold call_cb. cbn. destruct (q_cleaned _); reflexivity.
Qed.

(* with no continuation left: stopped early, the source has been closed; finished by itself, it has not *)
Lemma cleaned_by_outcome s :
  qinvb s && due_none (q_due s) = true ->
  implb (stopped_early s) (q_cleaned s) && implb (q_finished s) (negb (q_cleaned s)) = true.
Proof. revert s. by_ctl. Qed.

Lemma cb_calls_settled c s :
  qinv c s -> q_due s = DNone ->
  (stopped_early s = true -> q_cb_calls s = if q_has_cb c then 1%nat else 0%nat) /\
  (q_finished s = true -> q_cb_calls s = 0%nat).
Proof.
  intros [H1 H2] D.
  assert (H : qinvb s && due_none (q_due s) = true) by (rewrite H2, D; reflexivity).
  apply cleaned_by_outcome, andb_true_iff in H as [Ha Hb].
  unfold qinvc in H1. rewrite H1. split; intro X.
  - rewrite X in Ha. cbn in Ha. rewrite Ha. reflexivity.
  - rewrite X in Hb. apply negb_true_iff in Hb. rewrite Hb. reflexivity.
Qed.

(* Model-level quiescence: what is left to settle after abort() (g0), after the cancelled tasks
   and futures are gone (g1), after the continuation has run (g2) *)
Definition g0 (t : qstate) : bool :=
  (negb (running t) || q_cancel_req t || is_cleanup (q_due t)) &&
  (Nat.eqb (q_pending t) 0 || q_pend_cancelled t || negb (due_none (q_due t))).
Definition g1 (t : qstate) : bool :=
  (negb (running t) || is_cleanup (q_due t)) && (Nat.eqb (q_pending t) 0 || negb (due_none (q_due t))).
Definition g2 (t : qstate) : bool :=
  negb (running t) && Nat.eqb (q_pending t) 0 && due_none (q_due t).

Lemma g_cancel t : g0 t = true -> g1 (settle_cancel t) = true.
Proof. revert t. by_ctl. Qed.

Lemma g_fail c t : g1 t = true -> g1 (settle_fail c t) = true.
Proof.
  unfold settle_fail. generalize (has_room c t). intro r. revert t. destruct r; by_ctl.
Qed.

Lemma g_due c t : g1 t = true -> g2 (settle_due c t) = true.
Proof. revert t. by_ctl. Qed.

Lemma g_queue c t : g2 t = true -> quiescent (settle_queue c t) = true.
Proof.
  unfold settle_queue. set (room := Nat.eqb (q_cap c) 0 || _). clearbody room.
  revert t. destruct room; by_ctl.
Qed.

Lemma g_settle c t : g0 t = true -> quiescent (settle c t) = true.
Proof. intros H. unfold settle. apply g_queue, g_due, g_fail, g_cancel, H. Qed.

Lemma g_abort c s : qinvb s = true -> g0 (fst (do_qabort c s)) = true.
Proof. revert s. by_ctl. Qed.

Example ex_hook_waits :
  let s := hrun hinit [HAdd; HAdd; HRunHook; HSettle; HWake; HSettle; HWake] in
  (h_fired s, h_waiting s, h_bg s) = (1%nat, 0%nat, 0%nat).
Proof. reflexivity. Qed.

(* fired + waiting = number of run_async_work_finished_hook calls *)
Lemma hook_conservation es : forall s,
  (h_fired (hrun s es) + h_waiting (hrun s es) = h_fired s + h_waiting s + count_runhook es)%nat.
Proof.
  induction es as [|e es IH]; intros s; cbn; [lia|].
  rewrite IH. destruct s as [b w f fb]. destruct e; cbn; unfold count_runhook; cbn; try lia.
  - destruct b; cbn; lia.
  - destruct w; cbn; [lia|]. destruct b; cbn; lia.
Qed.

Lemma hook_at_most_calls es : (h_fired (hrun hinit es) <= count_runhook es)%nat.
Proof. pose proof (hook_conservation es hinit). cbn in H. lia. Qed.

(* quiescence: no background work, every waiting task has been resumed *)
Fixpoint wakes (n : nat) : list hevent := match n with O => [] | S k => HWake :: wakes k end.

Lemma wake_all : forall n s, h_bg s = 0%nat -> (h_waiting s <= n)%nat ->
  h_fired (hrun s (wakes n)) = (h_fired s + h_waiting s)%nat.
Proof.
  induction n; intros [b w f fb]; cbn; intros Hb Hw; subst.
  - lia.
  - destruct w; cbn.
    + rewrite (IHn (mkH 0 0 f fb)); cbn; lia.
    + rewrite (IHn (mkH 0 w (S f) fb)); cbn; lia.
Qed.

(* the source is closed only by the transition into GClosed *)
Lemma aclose_at_most_once es : forall s,
  (a_close_calls s <= match a_gen s with GClosed => 1 | _ => 0 end)%nat ->
  (a_close_calls (arun s es) <= match a_gen (arun s es) with GClosed => 1 | _ => 0 end)%nat.
Proof.
  induction es as [|e es IH]; intros [g k]; cbn; intros H; [exact H|].
  apply IH. destruct g, e; cbn in *; lia.
Qed.

Lemma arun_closed es : forall k, arun (mkA GClosed k) es = mkA GClosed k.
Proof. induction es as [|e es IH]; intros k; cbn; auto. Qed.

(* a mapped generator closed before it was ever asked does not touch the source: it was never started *)
Lemma aclosing_unentered es : a_close_calls (arun ainit (AClose :: es)) = 0%nat.
Proof. cbn. rewrite arun_closed. reflexivity. Qed.
