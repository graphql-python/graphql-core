(* One response position against the execution group values created at and below it: the values of an
   object position are those below its initial fields, then per execution group its own value (addressed
   to the position) and those below its fields ([canon4]); the values of a list position are those
   below its items.  Applied in the model's order the merge succeeds; applied as any sub-multiset in any
   order the merge accepts, every field or item has received exactly the applied values of its own. *)
From GV Require Import Base.Prelude Base.ListFacts Exec.Value Exec.Schema Exec.Spec Incr.DeferExec
  Incr.DeferLib Incr.DeferUnfold Exec.ValueFacts.
From GV Require Incr.Merge.
From Coq Require Import Permutation.

Definition sel4 (k : str) (e : ent4) : list cpl := if str_eqb k (e4_key e) then map core (e4_pls e) else [].
Definition proj4 (k : str) (g : gr4) : list cpl :=
  match snd g with Some E => flat_map (sel4 k) E | None => [] end.
Definition hkvs (g : gr4) : list (str * json) := match snd g with Some E => kvs4 E | None => [] end.
Definition gkeys (g : gr4) : list str := pl_keys (fst g).

(* an executed field of the position: of the initial result, or of an execution group that did not fail *)
Definition entry (E0 : list ent4) (GL : list gr4) (e : ent4) : Prop :=
  In e E0 \/ exists g E, In g GL /\ snd g = Some E /\ In e E.

(* a key planned for an execution group, executed if the group did not fail *)
Definition planned (GL : list gr4) (k : str) : Prop :=
  exists g, In g GL /\ In k (gkeys g) /\ (forall E, snd g = Some E -> In k (map e4_key E)).

Lemma cproj_lift4 k E : cproj (PKey k) (map core (lift4 E)) = flat_map (sel4 k) E.
Proof.
  unfold lift4. induction E as [|e r IH]; cbn [flat_map map]; [reflexivity|].
  rewrite map_app, cproj_app, IH, cproj_pre. reflexivity.
Qed.

Lemma cproj_gpls k g : pl_path (fst g) = [] -> cproj (PKey k) (map core (gpls g)) = proj4 k g.
Proof.
  intro Hp. unfold gpls, proj4. cbn [map]. rewrite cproj_cons. unfold core at 1. rewrite Hp. cbn [cproj flat_map fst app].
  destruct (snd g) as [E|]; [|reflexivity]. rewrite core_nest. apply cproj_lift4.
Qed.

Lemma cproj_canon4 k E0 GL : Forall wfg GL ->
  cproj (PKey k) (map core (canon4 E0 GL)) = flat_map (sel4 k) E0 ++ flat_map (proj4 k) GL.
Proof.
  intro Hw. unfold canon4. rewrite map_app, cproj_app, cproj_lift4. f_equal.
  induction Hw as [|g r [Hp _] _ IH]; cbn [flat_map]; [reflexivity|].
  rewrite map_app, cproj_app, IH, cproj_gpls by exact Hp. reflexivity.
Qed.

Lemma sel4_none k E : ~ In k (map e4_key E) -> flat_map (sel4 k) E = [].
Proof.
  induction E as [|e r IH]; cbn [flat_map map]; [reflexivity|]. intro H.
  unfold sel4 at 1. destruct (str_eqb k (e4_key e)) eqn:Ek.
  - apply str_eqb_eq in Ek. exfalso. apply H. left. symmetry. exact Ek.
  - apply IH. intro Hx. apply H. right. exact Hx.
Qed.

Lemma sel4_unique e E : NoDup (map e4_key E) -> In e E -> flat_map (sel4 (e4_key e)) E = map core (e4_pls e).
Proof.
  induction E as [|x r IH]; cbn [flat_map map]; [intros _ []|]. intros Hn [->|Hin]; inversion Hn; subst.
  - unfold sel4 at 1. rewrite str_eqb_refl. rewrite sel4_none by assumption. apply app_nil_r.
  - unfold sel4 at 1. destruct (str_eqb (e4_key e) (e4_key x)) eqn:Ek.
    + apply str_eqb_eq in Ek. exfalso. apply H1. rewrite <- Ek. apply in_map. exact Hin.
    + apply IH; assumption.
Qed.

Lemma wfg_keys g E e : wfg g -> snd g = Some E -> In e E -> In (e4_key e) (gkeys g).
Proof.
  intros Hw HE He. destruct (wfg_some g E Hw HE) as [_ [_ [_ Hs]]].
  eapply subl_In; [exact Hs|]. apply in_map. exact He.
Qed.

Lemma proj4_none k g : wfg g -> ~ In k (gkeys g) -> proj4 k g = [].
Proof.
  intros Hw Hn. unfold proj4. destruct (snd g) as [E|] eqn:HE; [|reflexivity].
  apply sel4_none. intro Hx. apply Hn. apply in_map_iff in Hx as [e [<- He]]. eapply wfg_keys; eassumption.
Qed.

Lemma proj4_all_none k GL : Forall wfg GL -> ~ In k (flat_map gkeys GL) -> flat_map (proj4 k) GL = [].
Proof.
  induction 1 as [|g r Hg HF IH]; cbn [flat_map]; [reflexivity|]. intro Hn.
  rewrite proj4_none, IH; [reflexivity| |exact Hg|]; intro Hx; apply Hn; apply in_or_app; [right|left]; exact Hx.
Qed.

Lemma proj4_unique GL g E e : Forall wfg GL -> NoDup (flat_map gkeys GL) ->
  In g GL -> snd g = Some E -> In e E ->
  flat_map (proj4 (e4_key e)) GL = map core (e4_pls e).
Proof.
  intros Hw. induction Hw as [|g0 r Hg0 HF IH]; intros Hn Hin HE He; [destruct Hin|].
  cbn [flat_map] in *.
  assert (Hkg : In (e4_key e) (gkeys g)).
  { eapply wfg_keys; [|exact HE|exact He]. destruct Hin as [<-|Hin']; [exact Hg0|].
    rewrite Forall_forall in HF. exact (HF g Hin'). }
  destruct Hin as [<-|Hin'].
  - rewrite (proj4_all_none _ r HF).
    + rewrite app_nil_r. unfold proj4. rewrite HE. apply sel4_unique; [|exact He].
      destruct (wfg_some _ E Hg0 HE) as [_ [_ [_ Hs]]].
      eapply subl_NoDup; [exact Hs|]. eapply NoDup_app_l. exact Hn.
    + intro Hx. eapply NoDup_app_disj; [exact Hn|exact Hkg|exact Hx].
  - rewrite (proj4_none _ g0 Hg0).
    + cbn [app]. apply IH; try assumption. eapply NoDup_app_r. exact Hn.
    + intro Hx. eapply NoDup_app_disj; [exact Hn|exact Hx|].
      apply in_flat_map. exists g. split; assumption.
Qed.

(* the values below one field of the position are exactly that field's own *)
Lemma cproj_canon_init E0 GL e :
  NoDup (map e4_key E0 ++ flat_map gkeys GL) -> Forall wfg GL -> In e E0 ->
  cproj (PKey (e4_key e)) (map core (canon4 E0 GL)) = map core (e4_pls e).
Proof.
  intros Hnd Hw He. rewrite (cproj_canon4 _ _ _ Hw).
  rewrite sel4_unique; [|eapply NoDup_app_l; exact Hnd|exact He].
  rewrite proj4_all_none; [apply app_nil_r|exact Hw|].
  intro Hin. eapply NoDup_app_disj; [exact Hnd| |exact Hin]. apply in_map. exact He.
Qed.

Lemma cproj_canon_group E0 GL g E e :
  NoDup (map e4_key E0 ++ flat_map gkeys GL) -> Forall wfg GL -> In g GL -> snd g = Some E -> In e E ->
  cproj (PKey (e4_key e)) (map core (canon4 E0 GL)) = map core (e4_pls e).
Proof.
  intros Hnd Hw Hg HE He. rewrite (cproj_canon4 _ _ _ Hw).
  rewrite (proj4_unique GL g E e Hw); try assumption; [|eapply NoDup_app_r; exact Hnd].
  rewrite sel4_none; [reflexivity|].
  intro Hin. eapply NoDup_app_disj; [exact Hnd|exact Hin|].
  apply in_flat_map. exists g. split; [exact Hg|]. rewrite Forall_forall in Hw. eapply wfg_keys; eauto.
Qed.

Lemma cheads_lift4 E : cheads (map core (lift4 E)) = [].
Proof.
  unfold lift4. induction E as [|e r IH]; cbn [flat_map map]; [reflexivity|].
  rewrite map_app, cheads_app, cheads_pre, IH. reflexivity.
Qed.

Lemma cheads_gpls g : wfg g -> cheads (map core (gpls g)) = hkvs g.
Proof.
  intros [Hp Hd]. unfold gpls, hkvs. cbn [map]. change (cheads (?c :: ?l)) with (chd c ++ cheads l).
  unfold core at 1, chd. cbn [fst snd]. rewrite Hp.
  destruct (snd g) as [E|].
  - destruct Hd as [Hd _]. rewrite Hd, core_nest, cheads_lift4. apply app_nil_r.
  - rewrite Hd. reflexivity.
Qed.

Lemma cheads_canon4 E0 GL : Forall wfg GL -> cheads (map core (canon4 E0 GL)) = flat_map hkvs GL.
Proof.
  intro Hw. unfold canon4. rewrite map_app, cheads_app, cheads_lift4. cbn [app].
  induction Hw as [|g r Hg _ IH]; cbn [flat_map]; [reflexivity|].
  rewrite map_app, cheads_app, IH, (cheads_gpls _ Hg). reflexivity.
Qed.

Lemma hkvs_keys_subl GL : Forall wfg GL -> subl (map fst (flat_map hkvs GL)) (flat_map gkeys GL).
Proof.
  induction 1 as [|g r [_ Hd] _ IH]; cbn [flat_map map]; [apply subl_nil|].
  rewrite map_app. apply subl_app; [|exact IH]. unfold hkvs, gkeys.
  destruct (snd g) as [E|]; [|apply subl_nil_l]. destruct Hd as [_ [_ Hs]]. rewrite kvs4_keys. exact Hs.
Qed.

Lemma in_lift4 E e p : In e E -> In p (e4_pls e) -> In (pre_pl (PKey (e4_key e)) p) (lift4 E).
Proof.
  intros He Hp. unfold lift4. apply in_flat_map. exists e. split; [exact He|].
  unfold pre_pls. apply in_map. exact Hp.
Qed.

Lemma in_canon_head E0 GL g : In g GL -> In (fst g) (canon4 E0 GL).
Proof.
  intro Hg. unfold canon4. apply in_or_app. right. apply in_flat_map. exists g. split; [exact Hg|left; reflexivity].
Qed.

Lemma in_canon_group E0 GL g E e p : In g GL -> snd g = Some E -> In e E -> In p (e4_pls e) ->
  In (nest_pl (pre_pl (PKey (e4_key e)) p)) (canon4 E0 GL).
Proof.
  intros Hg HE He Hp. unfold canon4. apply in_or_app. right. apply in_flat_map. exists g. split; [exact Hg|].
  unfold gpls. rewrite HE. right. apply in_map. apply in_lift4; assumption.
Qed.

(* the head of a group carries its fields' first values *)
Lemma in_chd_head g E e : wfg g -> snd g = Some E -> In e E -> In (e4_key e, e4_val e) (chd (core (fst g))).
Proof.
  intros Hw HE He. destruct (wfg_some g E Hw HE) as [Hpath [Hd _]].
  unfold chd, core. cbn [fst snd]. rewrite Hpath, Hd. apply in_kvs4. exact He.
Qed.

(* what applying a sub-multiset of the values of one object position gives *)
Lemma level_setup (E0 : list ent4) (GL : list gr4) cs' m' :
  NoDup (map e4_key E0 ++ flat_map gkeys GL) ->
  Forall wfg GL ->
  SubPerm cs' (map core (canon4 E0 GL)) -> capplys (JObj (kvs4 E0)) cs' = Some m' ->
  exists kvs_r, m' = JObj kvs_r /\
    map fst kvs_r = map e4_key E0 ++ map fst (cheads cs') /\ NoDup (map fst kvs_r) /\
    (forall e, In e E0 -> exists v, In (e4_key e, v) kvs_r /\
        capplys (e4_val e) (cproj (PKey (e4_key e)) cs') = Some v) /\
    (forall g E e, In g GL -> snd g = Some E -> In e E -> In (core (fst g)) cs' ->
        exists v, In (e4_key e, v) kvs_r /\
        capplys (e4_val e) (cproj (PKey (e4_key e)) cs') = Some v) /\
    (forall k v0, In (k, v0) (cheads cs') ->
        exists g E e, In g GL /\ snd g = Some E /\ In e E /\ e4_key e = k /\ In (core (fst g)) cs').
Proof.
  intros Hnd Hw Hsp Hap.
  assert (Hheads : SubPerm (cheads cs') (flat_map hkvs GL)).
  { rewrite <- (cheads_canon4 E0 GL Hw). apply SubPerm_flat_map. exact Hsp. }
  assert (Hnr : NoDup (map fst (kvs4 E0) ++ map fst (cheads cs'))).
  { rewrite kvs4_keys. eapply SubPerm_NoDup; [exact Hheads|].
    eapply subl_NoDup; [|exact Hnd]. apply subl_app; [apply subl_refl|apply hkvs_keys_subl; exact Hw]. }
  destruct (obj_sim cs' (kvs4 E0) m' Hnr Hap) as [kvs_r [-> [Hk H3]]].
  exists kvs_r. split; [reflexivity|]. rewrite <- kvs4_keys. split; [exact Hk|].
  split; [rewrite Hk; exact Hnr|]. split; [|split].
  - intros e He. apply H3. apply in_or_app. left. apply in_kvs4. exact He.
  - intros g E e Hg HE He Hcg. apply H3. apply in_or_app. right.
    apply in_flat_map. exists (core (fst g)). split; [exact Hcg|].
    rewrite Forall_forall in Hw. eapply in_chd_head; eauto.
  - (* keys brought by an applied head *)
    intros k v0 Hin. apply in_flat_map in Hin as [c [Hc Hin]].
    pose proof (SubPerm_in _ _ _ Hsp Hc) as HcC. apply in_map_iff in HcC as [p [Hcp Hp]].
    unfold canon4 in Hp. apply in_app_or in Hp as [Hp|Hp].
    + (* a payload below an initial field has a non-empty path *)
      exfalso. unfold lift4 in Hp. apply in_flat_map in Hp as [e [_ Hp]]. unfold pre_pls in Hp.
      apply in_map_iff in Hp as [p0 [<- _]]. subst c. cbn in Hin. exact Hin.
    + apply in_flat_map in Hp as [g [Hg Hp]]. unfold gpls in Hp. destruct Hp as [Hp|Hp].
      * subst p. rewrite Forall_forall in Hw. destruct (Hw g Hg) as [Hpath Hwg].
        subst c. unfold chd, core in Hin. cbn [fst snd] in Hin. rewrite Hpath in Hin.
        destruct (snd g) as [E|] eqn:HE.
        -- destruct Hwg as [Hd _]. rewrite Hd in Hin. unfold kvs4 in Hin. apply in_map_iff in Hin as [e [Heq He]].
           inversion Heq; subst. exists g, E, e. repeat split; try assumption; try reflexivity.
        -- rewrite Hwg in Hin. destruct Hin.
      * exfalso. destruct (snd g) as [E|]; [|destruct Hp]. apply in_map_iff in Hp as [p1 [<- Hp1]].
        unfold lift4 in Hp1. apply in_flat_map in Hp1 as [e [_ Hp1]]. unfold pre_pls in Hp1.
        apply in_map_iff in Hp1 as [p0 [<- _]]. subst c. cbn in Hin. exact Hin.
Qed.

(* the values below item i of a list position are that item's own *)
Lemma cproj_ilift4 I : forall i0 i,
  cproj (PIdx i) (map core (ilift4 I i0))
  = match (if Nat.ltb i i0 then None else nth_error I (i - i0)) with
    | Some x => map core (i4_pls x)
    | None => []
    end.
Proof.
  induction I as [|x r IH]; intros i0 i; cbn [ilift4 map].
  - cbn [cproj flat_map]. destruct (Nat.ltb i i0); [reflexivity|]. destruct (i - i0)%nat; reflexivity.
  - rewrite map_app, cproj_app, cproj_pre, IH. cbn [seg_eqb].
    destruct (Nat.ltb i i0) eqn:E1.
    + apply Nat.ltb_lt in E1. assert (E2 : Nat.eqb i i0 = false) by (apply Nat.eqb_neq; lia).
      assert (E3 : Nat.ltb i (S i0) = true) by (apply Nat.ltb_lt; lia). rewrite E2, E3. reflexivity.
    + apply Nat.ltb_ge in E1. destruct (Nat.eqb i i0) eqn:E2.
      * apply Nat.eqb_eq in E2. subst i0.
        assert (E3 : Nat.ltb i (S i) = true) by (apply Nat.ltb_lt; lia). rewrite E3, Nat.sub_diag.
        cbn. apply app_nil_r.
      * apply Nat.eqb_neq in E2. assert (E3 : Nat.ltb i (S i0) = false) by (apply Nat.ltb_ge; lia).
        rewrite E3. replace (i - i0)%nat with (S (i - S i0)) by lia. reflexivity.
Qed.

Lemma cproj_ilift4_nth I i x : nth_error I i = Some x ->
  cproj (PIdx i) (map core (ilift4 I 0)) = map core (i4_pls x).
Proof.
  intro Hx. rewrite cproj_ilift4. replace (Nat.ltb i 0) with false by (symmetry; apply Nat.ltb_ge; lia).
  rewrite Nat.sub_0_r, Hx. reflexivity.
Qed.

Lemma in_ilift4 I : forall i0 n x p, nth_error I n = Some x -> In p (i4_pls x) ->
  In (pre_pl (PIdx (i0 + n)) p) (ilift4 I i0).
Proof.
  induction I as [|y r IH]; intros i0 [|n] x p Hn Hp; cbn in Hn; try discriminate.
  - inversion Hn; subst. cbn [ilift4]. apply in_or_app. left. rewrite Nat.add_0_r.
    unfold pre_pls. apply in_map. exact Hp.
  - cbn [ilift4]. apply in_or_app. right. replace (i0 + S n)%nat with (S i0 + n)%nat by lia.
    eapply IH; eassumption.
Qed.

(* what applying a sub-multiset of the values of one list position gives *)
Lemma items_setup (I : list it4) cs' m' :
  capplys (JList (map i4_val I)) cs' = Some m' ->
  exists js_r, m' = JList js_r /\ length js_r = length I /\
    forall i x, nth_error I i = Some x ->
      exists v, nth_error js_r i = Some v /\ capplys (i4_val x) (cproj (PIdx i) cs') = Some v.
Proof.
  intro Hap. destruct (list_sim cs' (map i4_val I) m' Hap) as [js_r [-> [Hlen H3]]].
  exists js_r. split; [reflexivity|]. split; [rewrite Hlen; apply map_length|].
  intros i x Hx. apply H3. apply map_nth_error. exact Hx.
Qed.

(* the values of one field / item can be applied to its first value *)
Definition Asm4 (e : ent4) : Prop := exists m, apply_pls (e4_val e) (e4_pls e) = Some m.

(* the payloads created below the fields of an object update the values of these fields *)
Lemma level_nested E : Forall Asm4 E -> forall A B,
  NoDup (map fst A ++ map e4_key E) ->
  exists F, map fst F = map e4_key E /\
    apply_pls (JObj (A ++ kvs4 E ++ B)) (lift4 E) = Some (JObj (A ++ F ++ B)).
Proof.
  induction 1 as [|e E [m He] HF IH]; intros A B Hn; cbn [lift4 flat_map kvs4 map app].
  - exists []. split; reflexivity.
  - rewrite apply_pls_app. fold (lift4 E). fold (kvs4 E).
    assert (Hk : ~ In (e4_key e) (map fst A)).
    { intro Hin. eapply NoDup_app_disj; [exact Hn|exact Hin|left; reflexivity]. }
    rewrite (apply_pls_key (e4_key e) A (kvs4 E ++ B) (e4_pls e) (e4_val e) Hk), He.
    destruct (IH (A ++ [(e4_key e, m)]) B) as [F [HF1 HF2]].
    { rewrite map_app. cbn [map fst]. rewrite <- app_assoc. exact Hn. }
    exists ((e4_key e, m) :: F). split; [cbn; rewrite HF1; reflexivity|].
    rewrite <- !app_assoc in HF2. exact HF2.
Qed.

(* an execution group that did not fail: its data is appended to the object, then its nested payloads *)
Definition gok (g : gr4) : Prop := wfg g /\ exists E, snd g = Some E /\ Forall Asm4 E.

Lemma level_groups (GL : list gr4) : Forall gok GL -> forall A,
  NoDup (map fst A ++ map fst (flat_map hkvs GL)) ->
  exists F, map fst F = map fst (flat_map hkvs GL) /\
    apply_pls (JObj A) (flat_map gpls GL) = Some (JObj (A ++ F)).
Proof.
  induction 1 as [|g GL [Hw [E [HE HA]]] HF IH]; intros A Hn; cbn [flat_map] in Hn |- *.
  - exists []. rewrite app_nil_r. split; reflexivity.
  - assert (Hh : hkvs g = kvs4 E) by (unfold hkvs; rewrite HE; reflexivity).
    rewrite Hh, map_app, kvs4_keys in Hn |- *. destruct (wfg_some g E Hw HE) as [Hp [Hd _]].
    unfold gpls at 1. rewrite HE. cbn [app apply_pls]. unfold apply_pl at 1.
    rewrite Hd, Hp. cbn [Merge.update_at]. rewrite merge_into_fresh.
    2:{ rewrite kvs4_keys. eapply NoDup_app_l, NoDup_app_r. exact Hn. }
    2:{ intros k Hk Hin. rewrite kvs4_keys in Hk. eapply NoDup_app_disj; [exact Hn|exact Hin|].
        apply in_or_app. left. exact Hk. }
    rewrite apply_pls_app, apply_pls_nest.
    destruct (level_nested E HA A []) as [F [HF1 HF2]].
    { rewrite app_assoc in Hn. eapply NoDup_app_l. exact Hn. }
    rewrite !app_nil_r in HF2. rewrite HF2.
    destruct (IH (A ++ F)) as [F' [HF1' HF2']].
    { rewrite map_app, HF1, <- app_assoc. exact Hn. }
    exists (F ++ F'). split; [rewrite map_app, HF1, HF1'; reflexivity|].
    rewrite app_assoc. exact HF2'.
Qed.

Lemma canon_applies E0 GL :
  Forall Asm4 E0 -> Forall gok GL -> NoDup (map e4_key E0 ++ map fst (flat_map hkvs GL)) ->
  exists m, apply_pls (JObj (kvs4 E0)) (canon4 E0 GL) = Some m.
Proof.
  intros H0 HG Hn. unfold canon4. rewrite apply_pls_app.
  destruct (level_nested E0 H0 [] []) as [F [HF1 HF2]]; [eapply NoDup_app_l; exact Hn|].
  cbn [app] in HF2. rewrite !app_nil_r in HF2. rewrite HF2.
  destruct (level_groups GL HG F) as [F' [_ HF']]; [rewrite HF1; exact Hn|]. eauto.
Qed.

Lemma items_apply I : Forall (fun x => exists m, apply_pls (i4_val x) (i4_pls x) = Some m) I -> forall A,
  exists ms, apply_pls (JList (A ++ map i4_val I)) (ilift4 I (length A)) = Some (JList (A ++ ms)).
Proof.
  induction 1 as [|x I [m Hx] HF IH]; intro A; cbn [ilift4 map].
  - exists []. reflexivity.
  - rewrite apply_pls_app, apply_pls_idx, Hx.
    destruct (IH (A ++ [m])) as [ms IH']. exists (m :: ms).
    rewrite <- !app_assoc in IH'. cbn [app] in IH'.
    rewrite app_length in IH'. cbn [length] in IH'. rewrite Nat.add_1_r in IH'. exact IH'.
Qed.

Definition AnyOrd (j0 : json) (cs : list cpl) (j : json) : Prop :=
  forall cs' m', Permutation cs cs' -> capplys j0 cs' = Some m' -> jeq m' j.

Lemma AnyOrd_nil j : AnyOrd j [] j.
Proof.
  intros cs' m' Hp H. apply Permutation_nil in Hp. subst. cbn in H. inversion H; subst. apply jeq_refl.
Qed.

Definition AnyE (e : ent4) (j : json) : Prop := AnyOrd (e4_val e) (map core (e4_pls e)) j.

(* an object assembled in any applicable order equals the reference [R] up to key order, when every
   field's value does *)
Lemma level_any (E0 : list ent4) (GL : list gr4) (R : list (str * json)) :
  NoDup (map e4_key E0 ++ flat_map gkeys GL) ->
  Forall wfg GL ->
  NoDup (map fst R) ->
  Permutation (map e4_key E0 ++ map fst (flat_map hkvs GL)) (map fst R) ->
  (forall e, entry E0 GL e -> exists j, In (e4_key e, j) R /\ AnyE e j) ->
  AnyOrd (JObj (kvs4 E0)) (map core (canon4 E0 GL)) (JObj R).
Proof.
  intros Hnd Hw HnR HpR Hent cs' m' Hp Hap.
  destruct (level_setup E0 GL cs' m' Hnd Hw (Permutation_SubPerm _ _ Hp) Hap)
    as [kvs_r [-> [Hk [Hnr [S0 [Sg Shd]]]]]].
  assert (Hproj : forall k, Permutation (cproj (PKey k) (map core (canon4 E0 GL))) (cproj (PKey k) cs')).
  { intro k. apply Permutation_flat_map. exact Hp. }
  apply jeq_obj_keys; [exact HnR| |].
  - rewrite Hk. eapply Permutation_trans; [|exact HpR]. apply Permutation_app_head. apply Permutation_map.
    rewrite <- (cheads_canon4 E0 GL Hw). apply Permutation_flat_map. apply Permutation_sym. exact Hp.
  - intros k v Hin. pose proof (in_keys _ _ _ Hin) as Hkin. rewrite Hk in Hkin.
    apply in_app_or in Hkin as [Hkin|Hkin].
    + apply in_map_iff in Hkin as [e [<- He]].
      destruct (S0 e He) as [v' [Hv' Ha]]. rewrite (NoDup_fst_inj _ _ _ _ Hnr Hin Hv').
      destruct (Hent e (or_introl He)) as [j [Hj Hany]]. exists j. split; [exact Hj|].
      eapply Hany; [|exact Ha]. rewrite <- (cproj_canon_init E0 GL e Hnd Hw He). apply Hproj.
    + destruct (keys_in _ _ Hkin) as [v0 Hin0].
      destruct (Shd k v0 Hin0) as [g [E [e [HgL [HE [He [<- Hcg]]]]]]].
      destruct (Sg g E e HgL HE He Hcg) as [v' [Hv' Ha]]. rewrite (NoDup_fst_inj _ _ _ _ Hnr Hin Hv').
      destruct (Hent e (or_intror (ex_intro _ g (ex_intro _ E (conj HgL (conj HE He)))))) as [j [Hj Hany]].
      exists j. split; [exact Hj|].
      eapply Hany; [|exact Ha]. rewrite <- (cproj_canon_group E0 GL g E e Hnd Hw HgL HE He). apply Hproj.
Qed.

Lemma level_any_items (I : list it4) refs :
  Forall2 (fun x j => AnyOrd (i4_val x) (map core (i4_pls x)) j) I refs ->
  AnyOrd (JList (map i4_val I)) (map core (ilift4 I 0)) (JList refs).
Proof.
  intros HF cs' m' Hp Hap.
  destruct (items_setup I cs' m' Hap) as [js_r [-> [Hlen H3]]].
  constructor. apply jeq_items_nth; [rewrite Hlen; eapply Forall2_len; exact HF|].
  intros i v y Hv Hy. destruct (Forall2_nth_r _ _ _ HF _ _ Hy) as [x [Hx _]].
  destruct (H3 i x Hx) as [v' [Hv' Ha]]. rewrite Hv in Hv'. inversion Hv'; subst v'.
  eapply (Forall2_nth _ _ _ HF i x y Hx Hy); [|exact Ha].
  rewrite <- (cproj_ilift4_nth I i x Hx). apply Permutation_flat_map. exact Hp.
Qed.
