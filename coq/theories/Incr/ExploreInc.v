(* C05 - an explorer that does at every node of the tree of enabled paths one step of each fold that
   [check_path] runs from the start on every path; what it accepts passes [check_path]. *)
From GV Require Import Base.Prelude Incr.Protocol Incr.WorkQueue Incr.Publisher Incr.NodeProtocol Incr.Explore.

(* how each fold of [check_path] goes on by one batch *)
Lemma run_batches_snoc E bs b : forall s,
  run_batches E s (bs ++ [b]) =
  let '(s1, outs) := run_batches E s bs in
  let '(s2, out) := match b with [] => (s1, []) | _ => run_batch E s1 b end in
  (s2, outs ++ match out with [] => [] | _ => [out] end).
Proof.
  induction bs as [|a bs IH]; intro s; cbn [app run_batches].
  - destruct (match b with [] => (s, []) | _ => run_batch E s b end) as [s2 [|o out]]; reflexivity.
  - destruct (match a with [] => (s, []) | _ => run_batch E s a end) as [s1 out]. rewrite IH.
    destruct (run_batches E s1 bs) as [s2 outs].
    destruct (match b with [] => (s2, []) | _ => run_batch E s2 b end) as [s3 out'].
    destruct out; reflexivity.
Qed.

Definition pub_after (E : env) (p : pub) (bs : list (list wqevent)) : pub :=
  fold_left (fun p b => fst (handle_batch E p b)) bs p.

Lemma pub_after_snoc E p bs b :
  pub_after E p (bs ++ [b]) = fst (handle_batch E (pub_after E p bs) b).
Proof. apply fold_left_app. Qed.

Lemma handle_batches_snoc E bs b : forall p,
  handle_batches E p (bs ++ [b])
  = handle_batches E p bs ++ [snd (handle_batch E (pub_after E p bs) b)].
Proof.
  induction bs as [|a bs IH]; intro p; cbn [app handle_batches pub_after fold_left].
  - destruct (handle_batch E p b); reflexivity.
  - destruct (handle_batch E p a) as [p' pl]. cbn [fst]. rewrite IH. reflexivity.
Qed.

Lemma publish_snoc E ig is_ bs b :
  publish E ig is_ (bs ++ [b])
  = publish E ig is_ bs
    ++ [snd (handle_batch E (pub_after E (snd (to_pending E ig is_ pub_init)) bs) b)].
Proof.
  unfold publish. destruct (to_pending E ig is_ pub_init) as [pn p]. cbn [snd].
  rewrite handle_batches_snoc. reflexivity.
Qed.

(* nothing may follow a payload that closes the stream *)
Lemma vrun_snoc parents ps q : forall st,
  vrun parents st (ps ++ [q])
  = match vrun parents st ps with Some (st', false) => vrun parents st' [q] | _ => None end.
Proof.
  induction ps as [|p ps IH]; intro st; [reflexivity|]. cbn [app]. cbn [vrun].
  destruct (mstep parents st p) as [st'|]; [|reflexivity].
  destruct (pl_has_next p); [apply IH|].
  destruct ps, (m_pend st'); reflexivity.
Qed.

Lemma nrun_snoc E ig is_ bs b :
  nrun E ig is_ (bs ++ [b])
  = match nrun E ig is_ bs with Some st => nbatch E st b | None => None end.
Proof.
  unfold nrun. destruct (n_announce (new_keys ig is_) ns_init) as [st0|]; [|reflexivity].
  destruct (n_nesting_ok E ig st0); [|reflexivity]. revert st0.
  induction bs as [|a bs IH]; intro st; cbn [app nbatches].
  - destruct (nbatch E st b); reflexivity.
  - destruct (nbatch E st a); [apply IH | reflexivity].
Qed.

Definition creation_run (E : env) (od : option dstate) (evs : list wqevent) : option dstate :=
  fold_left (fun od e => match od with Some d => creation_step E d e | None => None end) evs od.

Lemma creation_run_app E od evs1 evs2 :
  creation_run E od (evs1 ++ evs2) = creation_run E (creation_run E od evs1) evs2.
Proof. apply fold_left_app. Qed.

Lemma creation_ok_run E evs :
  creation_ok E evs = match creation_run E (Some ([], [])) evs with Some _ => true | None => false end.
Proof. reflexivity. Qed.

Lemma last_step_ok_snoc E s0 evs e :
  last_step_ok E s0 (evs ++ [e])
  = match e with
    | TaskFail t => let sp := fst (run_batches E s0 (single evs)) in
                    failed_subtrees_removed E sp (step_single E sp e) t
    | _ => true
    end.
Proof.
  unfold last_step_ok. rewrite rev_app_distr. cbn [rev app]. rewrite rev_involutive.
  destruct e; reflexivity.
Qed.

Section Inc.
Variables (E : env) (w : work) (ig is_ : list N) (s0 : state).
Hypothesis Hinit : init E w = (ig, is_, s0).

(* what the folds of [check_path] have reached at a node of the tree *)
Record node := mkNode {
  k_s : state;            (* work queue *)
  k_p : pub;              (* publisher's id table *)
  k_m : mstate * bool;    (* protocol monitor, stream closed *)
  k_d : dstate;           (* delivered so far *)
  k_n : nstate            (* node-level monitor *)
}.

Definition at_node (evs : list gevent) (x : node) : Prop :=
  let '(s1, outs) := run_batches E s0 (single evs) in
  k_s x = s1
  /\ k_p x = pub_after E (snd (to_pending E ig is_ pub_init)) outs
  /\ vrun (e_parent E) m_init (publish E ig is_ outs) = Some (k_m x)
  /\ creation_run E (Some ([], [])) (concat outs) = Some (k_d x)
  /\ nrun E ig is_ outs = Some (k_n x).

Definition node_init : option node :=
  match vrun (e_parent E) m_init (publish E ig is_ []), nrun E ig is_ [] with
  | Some m, Some n => Some (mkNode s0 (snd (to_pending E ig is_ pub_init)) m ([], []) n)
  | _, _ => None
  end.

(* an event that emits nothing yields no batch, hence no payload *)
Definition node_step (x : node) (e : gevent) : option node :=
  let '(s', out) := run_batch E (k_s x) [e] in
  if match e with TaskFail t => failed_subtrees_removed E (k_s x) s' t | _ => true end
  then
    match out with
    | [] => Some (mkNode s' (k_p x) (k_m x) (k_d x) (k_n x))
    | _ =>
        let '(p', pl) := handle_batch E (k_p x) out in
        match (let '(m, closed) := k_m x in if closed then None else vrun (e_parent E) m [pl]),
              creation_run E (Some (k_d x)) out, nbatch E (k_n x) out with
        | Some m', Some d', Some n' => Some (mkNode s' p' m' d' n')
        | _, _, _ => None
        end
    end
  else None.

Definition node_ok (cands : list gevent) (x : node) : bool :=
  inv E (k_s x)
  && (stopped (k_s x) || existsb (en_single E (k_s x)) cands)
  && (if stopped (k_s x) then snd (k_m x) else true)
  && Bool.eqb (n_closed (k_n x)) (stopped (k_s x)).

(* the alphabet is passed down, as in [paths], so that it is computed once per graph *)
Fixpoint dfs (cands : list gevent) (n : nat) (x : node) : bool :=
  node_ok cands x
  && match n with
     | O => true
     | S k => forallb (fun e => if en_single E (k_s x) e
                               then match node_step x e with Some x' => dfs cands k x' | None => false end
                               else true) cands
     end.

Lemma at_node_init x : node_init = Some x -> at_node [] x.
Proof.
  unfold node_init, at_node. cbn [single map run_batches].
  destruct (vrun (e_parent E) m_init (publish E ig is_ [])) as [m|]; [|discriminate].
  destruct (nrun E ig is_ []) as [n|]; [|discriminate].
  intro H. injection H as <-. repeat split; reflexivity.
Qed.

Lemma at_node_step evs x e x' :
  at_node evs x -> node_step x e = Some x' ->
  at_node (evs ++ [e]) x' /\ k_s x' = step_single E (k_s x) e
  /\ last_step_ok E s0 (evs ++ [e]) = true.
Proof.
  unfold at_node, node_step, single. rewrite last_step_ok_snoc, map_app. cbn [map].
  rewrite run_batches_snoc. fold (single evs).
  destruct (run_batches E s0 (single evs)) as [s1 outs]. cbn [fst].
  intros (Hs & Hp & Hv & Hc & Hn). unfold step_single. rewrite Hs.
  destruct (run_batch E s1 [e]) as [s' out]. cbn [fst].
  destruct (match e with TaskFail t => failed_subtrees_removed E s1 s' t | _ => true end);
    [|discriminate].
  destruct out as [|o out].
  - intro H. injection H as <-. rewrite app_nil_r. cbn. auto 7.
  - destruct (handle_batch E (k_p x) (o :: out)) as [p' pl] eqn:Hb.
    destruct (k_m x) as [m closed].
    destruct (if closed then None else vrun (e_parent E) m [pl]) as [m'|] eqn:Hm; [|discriminate].
    destruct (creation_run E (Some (k_d x)) (o :: out)) as [d'|] eqn:Hd; [|discriminate].
    destruct (nbatch E (k_n x) (o :: out)) as [n'|] eqn:Hn'; [|discriminate].
    intro H. injection H as <-. cbn [k_s k_p k_m k_d k_n].
    split; [|split; reflexivity].
    split; [reflexivity|].
    split; [rewrite pub_after_snoc, <- Hp, Hb; reflexivity|].
    split; [rewrite publish_snoc, vrun_snoc, Hv, <- Hp, Hb; destruct closed; [discriminate | exact Hm]|].
    split; [|rewrite nrun_snoc, Hn; exact Hn'].
    rewrite concat_app, creation_run_app, Hc. cbn [concat]. rewrite app_nil_r. exact Hd.
Qed.

Lemma at_node_check evs x :
  at_node evs x -> node_ok (candidates E) x = true -> last_step_ok E s0 evs = true -> check_path E w evs = true.
Proof.
  unfold at_node, node_ok, check_path. rewrite Hinit.
  destruct (run_batches E s0 (single evs)) as [s1 outs].
  intros (Hs & _ & Hv & Hc & Hn) Hok Hl. rewrite Hs in Hok.
  apply andb_true_iff in Hok as [Hok H4]. apply andb_true_iff in Hok as [Hok H3].
  apply andb_true_iff in Hok as [H1 H2].
  unfold valid_prefix, valid, wq_wf, wq_wf_closed. rewrite creation_ok_run, Hv, Hc, Hn, H1, H2, Hl, H4.
  destruct (k_m x) as [m closed]. cbn [snd] in H3. rewrite H3. reflexivity.
Qed.

Lemma dfs_sound : forall n x pre,
  at_node pre x -> last_step_ok E s0 pre = true -> dfs (candidates E) n x = true ->
  forall evs, (length evs <= n)%nat -> Forall (fun e => In e (candidates E)) evs ->
  enabled_path E (k_s x) evs = true -> check_path E w (pre ++ evs) = true.
Proof.
  induction n as [|n IH]; intros x pre Hx Hl Hd evs Hn Hc He;
    cbn [dfs] in Hd; apply andb_true_iff in Hd as [Hok Hd].
  - destruct evs; [|cbn in Hn; lia]. rewrite app_nil_r. exact (at_node_check _ _ Hx Hok Hl).
  - destruct evs as [|e r]; [rewrite app_nil_r; exact (at_node_check _ _ Hx Hok Hl)|].
    cbn in Hn. inversion Hc as [|? ? Hin Hr]; subst.
    cbn [enabled_path] in He. apply andb_true_iff in He as [He1 He2].
    rewrite forallb_forall in Hd. specialize (Hd _ Hin). rewrite He1 in Hd.
    destruct (node_step x e) as [x'|] eqn:Hst; [|discriminate].
    destruct (at_node_step _ _ _ _ Hx Hst) as (Hx' & Hs & Hl'). rewrite <- Hs in He2.
    replace (pre ++ e :: r) with ((pre ++ [e]) ++ r) by (rewrite <- app_assoc; reflexivity).
    apply (IH x' _ Hx' Hl' Hd); [lia | exact Hr | exact He2].
Qed.

End Inc.

Definition explore_inc (n : nat) (g : env * work) : bool :=
  let '(E, w) := g in
  let '(ig, is_, s0) := init E w in
  match node_init E ig is_ s0 with Some x => dfs E (candidates E) n x | None => false end.

Lemma explore_inc_sound n E w :
  explore_inc n (E, w) = true ->
  forall evs, (length evs <= n)%nat -> Forall (fun e => In e (candidates E)) evs ->
  enabled_path E (snd (init E w)) evs = true -> check_path E w evs = true.
Proof.
  unfold explore_inc. destruct (init E w) as [[ig is_] s0] eqn:Hi. cbn [snd].
  destruct (node_init E ig is_ s0) as [x|] eqn:Hx; [|discriminate].
  intros Hd evs Hn Hc He.
  pose proof (at_node_init E ig is_ s0 x Hx) as Ha.
  rewrite <- (proj1 Ha : k_s x = s0) in He.
  exact (dfs_sound E w ig is_ s0 Hi n x [] Ha eq_refl Hd evs Hn Hc He).
Qed.
