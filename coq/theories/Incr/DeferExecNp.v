(* Error propagation disabled for the operation (@experimental_disableErrorPropagation, the `np` mode of
   Incr/DeferExec.v): the incremental run reassembles EXACTLY (up to object key order) to the base executor's
   data, for every request - field errors included: no execution group can fail, every value is delivered.
   The instance [np = true] of the reassembly theorem of Incr/DeferExecProps.v. *)
From GV Require Import Base.Prelude Exec.Value Exec.Schema Exec.Spec Incr.DeferExec Incr.DeferExecProps.
From Coq Require Import Permutation.

Definition pl_dok (p : payload) : Prop := exists kvs, pl_data p = Some kvs.

Theorem np_reassembly_fuel fuel s d vars root j es cs pl rv :
  gexecute_fuel true false fuel s d vars root = DResp j es cs pl rv ->
  exists j0 es0 cs0 pls rv0,
    gexecute_fuel true true fuel s d vars root = DResp j0 es0 cs0 pls rv0 /\
    Forall pl_dok pls /\
    (exists m, reassemble j0 pls = Some m /\ jeq m j) /\
    (forall pls' m', Permutation pls pls' -> reassemble j0 pls' = Some m' -> jeq m' j).
Proof.
  intro H.
  destruct (reassembly_gen true _ _ _ _ _ _ _ _ _ _ H (or_introl eq_refl))
    as [j0 [es0 [cs0 [pls [rv0 [Hd [_ [HQ Hrest]]]]]]]].
  exists j0, es0, cs0, pls, rv0. split; [exact Hd|]. split; [|exact Hrest].
  eapply Forall_impl; [|exact HQ]. intros p [Hp _]. exact Hp.
Qed.
