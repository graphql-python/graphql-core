(* C05 - what the executable validator means: the clauses of the property in logical form. *)
From GV Require Import Base.Prelude Base.ListFacts Incr.Protocol.

Lemma memN_spec k l : memN k l = true <-> In k l.
Proof.
  unfold memN. rewrite existsb_exists. split.
  - intros [x [Hx E]]. apply N.eqb_eq in E. subst. exact Hx.
  - intro X. exists k. split; [exact X|apply N.eqb_refl].
Qed.

Lemma memN_false_iff k l : memN k l = false <-> ~ In k l.
Proof. rewrite <- memN_spec. symmetry. apply not_true_iff_false. Qed.

Definition announced_ids (ps : list payload) : list N := flat_map (fun p => map p_id (pl_pending p)) ps.
Definition completed_ids (ps : list payload) : list N := flat_map pl_completed ps.

Definition pend_ids (st : mstate) : list N := map p_id (m_pend st).

Record minv (st : mstate) (A C : list N) : Prop := mkMinv {
  mi_used : forall i, In i (m_used st) <-> In i A;
  mi_A : NoDup A;
  mi_C : NoDup C;
  mi_pend : forall i, In i (pend_ids st) <-> In i A /\ ~ In i C;
  mi_CA : forall i, In i C -> In i A
}.

Lemma announce_inv ps : forall st A C st',
  minv st A C -> announce ps st = Some st' -> minv st' (A ++ map p_id ps) C.
Proof.
  induction ps as [|p ps IH]; intros st A C st' Hi H; cbn [announce map] in *.
  - inversion H; subst. rewrite app_nil_r. exact Hi.
  - destruct (memN (p_id p) (m_used st)) eqn:M; [discriminate|].
    assert (Hn : ~ In (p_id p) A).
    { intro X. apply (mi_used _ _ _ Hi) in X. apply memN_spec in X. congruence. }
    assert (Hi1 : minv (mkM (p_id p :: m_used st) (m_pend st ++ [p])
                          (if p_stream p then m_streams st ++ [(p_path p, p_next p)] else m_streams st))
                       (A ++ [p_id p]) C).
    { destruct Hi as [U NA NC P CA]. constructor; cbn [m_used m_pend]; auto.
      - intro i. cbn [In]. rewrite in_app_iff, U. cbn [In]. tauto.
      - apply NoDup_snoc; assumption.
      - intro i. unfold pend_ids in *. cbn [m_pend]. rewrite map_app, !in_app_iff, P. cbn [map In].
        split.
        + intros [[H1 H2]|[<-|[]]]; [tauto|]. split; [right; left; reflexivity|].
          intro X. apply Hn. exact (CA _ X).
        + intros [[H1|[<-|[]]] H2]; [left; tauto|right; left; reflexivity].
      - intros i X. apply in_or_app. left. exact (CA i X). }
    specialize (IH _ _ _ _ Hi1 H). rewrite <- app_assoc in IH. exact IH.
Qed.

Lemma set_next_ids i n pd : map p_id (set_next i n pd) = map p_id pd.
Proof.
  induction pd as [|p pd IH]; cbn [set_next map]; [reflexivity|].
  destruct (p_id p =? i); cbn [map p_id]; [reflexivity|]. f_equal. exact IH.
Qed.

Lemma deliver_ids es : forall pd pd', deliver es pd = Some pd' -> map p_id pd' = map p_id pd.
Proof.
  induction es as [|e es IH]; intros pd pd' H; cbn [deliver] in H.
  - inversion H; reflexivity.
  - destruct e as [i|i items]; destruct (find_pend i pd) as [q|]; try discriminate.
    + destruct (p_stream q); [discriminate|]. exact (IH _ _ H).
    + destruct (p_stream q && _); [|discriminate]. rewrite (IH _ _ H). apply set_next_ids.
Qed.

Lemma find_pend_some_in i pd q : find_pend i pd = Some q -> In i (map p_id pd).
Proof.
  induction pd as [|p pd IH]; cbn; [discriminate|].
  destruct (p_id p =? i) eqn:E; intro H; [left; apply N.eqb_eq; exact E|right; auto].
Qed.

Lemma remove_pend_ids i pd x : In x (map p_id (remove_pend i pd)) <-> In x (map p_id pd) /\ x <> i.
Proof.
  unfold remove_pend. rewrite !in_map_iff. split.
  - intros (p & <- & Hp). apply filter_In in Hp as [Hp Hn]. apply negb_true_iff, N.eqb_neq in Hn. split; [exists p; auto|exact Hn].
  - intros [(p & <- & Hp) Hn]. exists p. split; [reflexivity|]. apply filter_In. split; [exact Hp|].
    apply negb_true_iff, N.eqb_neq. exact Hn.
Qed.

(* completions: ids(pd) = A - C ; afterwards ids(pd') = A - (C ++ cs) *)
Lemma complete_inv cs : forall pd pd' A C,
  NoDup C -> (forall i, In i (map p_id pd) <-> In i A /\ ~ In i C) -> (forall i, In i C -> In i A) ->
  complete cs pd = Some pd' ->
  NoDup (C ++ cs) /\ (forall i, In i (map p_id pd') <-> In i A /\ ~ In i (C ++ cs)) /\
  (forall i, In i (C ++ cs) -> In i A).
Proof.
  induction cs as [|c cs IH]; intros pd pd' A C NC P CA H; cbn [complete] in H.
  - inversion H; subst. rewrite app_nil_r. auto.
  - destruct (find_pend c pd) as [q|] eqn:F; [|discriminate].
    pose proof (find_pend_some_in _ _ _ F) as Hc. apply P in Hc as [HcA HcC].
    destruct (IH (remove_pend c pd) pd' A (C ++ [c])) as (N1 & P1 & C1).
    + apply NoDup_snoc; assumption.
    + intro i. rewrite remove_pend_ids, P, in_app_iff. cbn [In]. split.
      * intros [[H1 H2] H3]. split; [exact H1|]. intros [X|[X|[]]]; [contradiction|]. subst. apply H3. reflexivity.
      * intros [H1 H2]. split; [split; [exact H1|tauto]|]. intro X. subst. apply H2. right. left. reflexivity.
    + intros i X. apply in_app_or in X as [X|[<-|[]]]; [exact (CA i X)|exact HcA].
    + exact H.
    + rewrite <- app_assoc in N1, P1, C1. cbn [app] in N1, P1, C1. auto.
Qed.

Lemma mstep_inv parents st p st' A C :
  minv st A C -> mstep parents st p = Some st' ->
  minv st' (A ++ map p_id (pl_pending p)) (C ++ pl_completed p).
Proof.
  intros Hi H. unfold mstep in H.
  destruct (announce (pl_pending p) st) as [st1|] eqn:An; [|discriminate].
  destruct (deliver (pl_incr p) (m_pend st1)) as [pd2|] eqn:De; [|discriminate].
  destruct (complete (pl_completed p) pd2) as [pd3|] eqn:Co; [|discriminate].
  destruct (nesting_ok _ _ _ _); [|discriminate]. inversion H; subst st'; clear H.
  pose proof (announce_inv _ _ _ _ _ Hi An) as [U NA NC P CA].
  assert (P2 : forall i, In i (map p_id pd2) <-> In i (A ++ map p_id (pl_pending p)) /\ ~ In i C).
  { intro i. rewrite (deliver_ids _ _ _ De). apply P. }
  destruct (complete_inv _ _ _ _ _ NC P2 CA Co) as (N3 & P3 & C3).
  constructor; cbn [m_used m_pend]; auto.
Qed.

Lemma vrun_inv parents ps : forall st A C st' closed,
  minv st A C -> vrun parents st ps = Some (st', closed) ->
  minv st' (A ++ announced_ids ps) (C ++ completed_ids ps) /\
  (closed = true -> m_pend st' = []) /\
  (* a closed stream ends with the only payload that carries hasNext = false *)
  (closed = true -> exists init last, ps = init ++ [last] /\ forallb pl_has_next init = true /\ pl_has_next last = false).
Proof.
  induction ps as [|p ps IH]; intros st A C st' closed Hi H; cbn [vrun] in H.
  - inversion H; subst. unfold announced_ids, completed_ids. cbn. rewrite !app_nil_r.
    split; [exact Hi|]. split; discriminate.
  - destruct (mstep parents st p) as [st1|] eqn:M; [|discriminate].
    pose proof (mstep_inv _ _ _ _ _ _ Hi M) as Hi1.
    unfold announced_ids, completed_ids in *. cbn [flat_map]. rewrite !app_assoc.
    destruct (pl_has_next p) eqn:Hn.
    + destruct (IH _ _ _ _ _ Hi1 H) as (I2 & E2 & F2).
      split; [exact I2|]. split; [exact E2|].
      intro Hc. destruct (F2 Hc) as (init & last & -> & Hi' & Hl).
      exists (p :: init), last. split; [reflexivity|]. split; [cbn [forallb]; rewrite Hn; exact Hi'|exact Hl].
    + destruct ps as [|p2 ps]; [|discriminate]. destruct (m_pend st1) eqn:Pe; [|discriminate].
      inversion H; subst. cbn [flat_map]. rewrite !app_nil_r.
      split; [exact Hi1|]. split; [intros _; exact Pe|].
      intros _. exists [], p. split; [reflexivity|]. split; [reflexivity|exact Hn].
Qed.

Lemma minv_init : minv m_init [] [].
Proof.
  constructor; cbn; try constructor; intros; try tauto.
Qed.

(* every id is announced at most once (never reused), completed at most once, only after having
   been announced *)
Theorem valid_prefix_ids parents ps :
  valid_prefix parents ps = true ->
  NoDup (announced_ids ps) /\ NoDup (completed_ids ps) /\
  (forall i, In i (completed_ids ps) -> In i (announced_ids ps)).
Proof.
  unfold valid_prefix. destruct (vrun parents m_init ps) as [[st c]|] eqn:V; [|discriminate]. intros _.
  destruct (vrun_inv _ _ _ _ _ _ _ minv_init V) as ([U NA NC P CA] & _). cbn [app] in *. auto.
Qed.

(* a complete response: every announced id is completed exactly once, and hasNext is true on every
   payload except the last *)
Theorem valid_complete parents ps :
  valid parents ps = true ->
  NoDup (announced_ids ps) /\ NoDup (completed_ids ps) /\
  (forall i, In i (announced_ids ps) <-> In i (completed_ids ps)) /\
  exists init last, ps = init ++ [last] /\ forallb pl_has_next init = true /\ pl_has_next last = false.
Proof.
  unfold valid. destruct (vrun parents m_init ps) as [[st c]|] eqn:V; [|discriminate]. intro Hc. subst c.
  destruct (vrun_inv _ _ _ _ _ _ _ minv_init V) as ([U NA NC P CA] & E & F). cbn [app] in *.
  split; [exact NA|]. split; [exact NC|]. split; [|exact (F eq_refl)].
  intro i. split; [|apply CA].
  intro Hi. destruct (in_dec N.eq_dec i (completed_ids ps)) as [X|X]; [exact X|exfalso].
  assert (Hp : In i (pend_ids st)) by (apply P; auto).
  unfold pend_ids in Hp. rewrite (E eq_refl) in Hp. exact Hp.
Qed.
