(* C05 - facts about the list encodings of WorkQueue.v: association lists (dicts; [agetN] of Protocol.v
   is [aget] at N), ordered sets, folds. *)
From GV Require Import Base.Prelude Base.ListFacts Incr.Protocol Incr.ProtocolProps Incr.WorkQueue.

Lemma agetN_aget k l : agetN k l = aget k l.
Proof. induction l as [|[k' v] l IH]; cbn; [reflexivity|]. rewrite IH. reflexivity. Qed.

Lemma aget_in {A} k (l : list (N * A)) v : aget k l = Some v -> In (k, v) l.
Proof.
  induction l as [|[k' v'] l IH]; cbn; [discriminate|].
  destruct (N.eqb_spec k k') as [<-|_]; intro H; [left; congruence|right; auto].
Qed.

Lemma in_aget_some {A} k (l : list (N * A)) v : In (k, v) l -> aget k l <> None.
Proof.
  induction l as [|[k' v'] l IH]; cbn [In aget]; [contradiction|].
  intros [H|H].
  - inversion H; subst. rewrite N.eqb_refl. discriminate.
  - destruct (k =? k'); [discriminate|auto].
Qed.

Lemma aget_none {A} k (l : list (N * A)) : ~ In k (map fst l) -> aget k l = None.
Proof.
  intro H. destruct (aget k l) as [v|] eqn:E; [|reflexivity].
  exfalso. apply H. exact (in_fst _ _ _ (aget_in _ _ _ E)).
Qed.

Lemma aget_some {A} k (l : list (N * A)) : In k (map fst l) -> exists v, aget k l = Some v.
Proof.
  intro H. apply in_map_iff in H as [[k' v] [<- H]].
  destruct (aget k' l) as [w|] eqn:E; [eauto|]. exfalso. exact (in_aget_some _ _ _ H E).
Qed.

Lemma agetN_in k l i : agetN k l = Some i -> In (k, i) l.
Proof. rewrite agetN_aget. apply aget_in. Qed.

Lemma agetN_none k l : ~ In k (map fst l) -> agetN k l = None.
Proof. rewrite agetN_aget. apply aget_none. Qed.

Lemma agetN_some k l : In k (map fst l) -> exists i, agetN k l = Some i.
Proof. rewrite agetN_aget. apply aget_some. Qed.

Lemma aget_aset_same {A} k (v : A) l : aget k (aset k v l) = Some v.
Proof.
  induction l as [|[k' v'] l IH]; cbn; [rewrite N.eqb_refl; reflexivity|].
  destruct (k =? k') eqn:E; cbn; [rewrite N.eqb_refl; reflexivity|]. rewrite E. exact IH.
Qed.

Lemma aget_aset_other {A} k k' (v : A) l : k' <> k -> aget k' (aset k v l) = aget k' l.
Proof.
  intro Hne. apply N.eqb_neq in Hne. induction l as [|[k2 v2] l IH]; cbn.
  - rewrite Hne. reflexivity.
  - destruct (N.eqb_spec k k2) as [<-|_]; cbn; [rewrite Hne; reflexivity|].
    destruct (k' =? k2); [reflexivity|exact IH].
Qed.

Lemma aset_in {A} k (v : A) l k' v' : In (k', v') (aset k v l) -> (k' = k /\ v' = v) \/ In (k', v') l.
Proof.
  induction l as [|[k2 v2] l IH]; cbn [aset In].
  - intros [H|[]]. inversion H; subst. left. auto.
  - destruct (k =? k2) eqn:E; cbn [In].
    + intros [H|H]; [inversion H; subst; left; auto|right; right; exact H].
    + intros [H|H]; [right; left; exact H|]. destruct (IH H) as [X|X]; [left; exact X|right; right; exact X].
Qed.

Lemma aset_keeps {A} k k' (v : A) l : aget k l <> None -> aget k (aset k' v l) <> None.
Proof.
  intro H. destruct (N.eq_dec k k') as [->|Hne].
  - rewrite aget_aset_same. discriminate.
  - rewrite (aget_aset_other _ _ _ _ Hne). exact H.
Qed.

Lemma adel_in {A} k (l : list (N * A)) x : In x (adel k l) -> In x l.
Proof. unfold adel. intro H. apply filter_In in H as [H _]. exact H. Qed.

Lemma aget_adel_same {A} k (l : list (N * A)) : aget k (adel k l) = None.
Proof.
  unfold adel. induction l as [|[k' v] l IH]; cbn [filter fst aget]; [reflexivity|].
  destruct (k' =? k) eqn:E; cbn [negb]; [exact IH|].
  cbn [aget]. rewrite N.eqb_sym, E. exact IH.
Qed.

Lemma aget_adel_other {A} k k' (l : list (N * A)) : k' <> k -> aget k' (adel k l) = aget k' l.
Proof.
  intro Hne. unfold adel. induction l as [|[k2 v] l IH]; cbn [filter fst aget]; [reflexivity|].
  destruct (N.eqb_spec k2 k) as [->|_]; cbn [negb aget].
  - apply N.eqb_neq in Hne. rewrite Hne. exact IH.
  - destruct (k' =? k2); [reflexivity|exact IH].
Qed.

Lemma ahas_true {A} k (l : list (N * A)) : ahas k l = true -> aget k l <> None.
Proof. unfold ahas. destruct (aget k l); discriminate. Qed.

Lemma ahas_false {A} k (l : list (N * A)) : ahas k l = false -> aget k l = None.
Proof. unfold ahas. destruct (aget k l); [discriminate|reflexivity]. Qed.

Lemma filter_neq_in k x l : In x (filter (fun y => negb (y =? k)) l) <-> In x l /\ x <> k.
Proof. rewrite filter_In, negb_true_iff, N.eqb_neq. reflexivity. Qed.

Lemma filter_neq_noop k l : ~ In k l -> filter (fun x => negb (x =? k)) l = l.
Proof.
  induction l as [|y l IH]; cbn; intro H; [reflexivity|].
  destruct (N.eqb_spec y k) as [->|_]; [exfalso; apply H; left; reflexivity|].
  cbn. f_equal. apply IH. intro X. apply H. right. exact X.
Qed.

Lemma sdel_in k x l : In x (sdel k l) <-> In x l /\ x <> k.
Proof. apply filter_neq_in. Qed.

Lemma sdel_nodup k l : NoDup l -> NoDup (sdel k l).
Proof. apply NoDup_filter. Qed.

Lemma NoDup_sdel_app g (l P : list N) : NoDup (l ++ P) -> NoDup (sdel g l ++ P).
Proof.
  intro H. apply NoDup_app_intro.
  - apply sdel_nodup. exact (NoDup_app_l _ _ H).
  - exact (NoDup_app_r _ _ H).
  - intros x Hx Hp. apply sdel_in in Hx as [Hx _]. exact (NoDup_app_disj _ _ x H Hx Hp).
Qed.

