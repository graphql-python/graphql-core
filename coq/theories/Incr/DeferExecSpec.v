(* The base executor of Incr/DeferExec.v against Exec/Spec.v:
     - its run equals Spec's execution of the document with @defer erased, provided no collection repeated
       a deferred fragment visit (the collection states are related by [Est]);
     - with every @defer disabled the incremental executor is the base executor;
     - a document without @defer is its own erasure and has every @defer disabled. *)
From GV Require Import Base.Prelude Base.ListFacts Exec.Value Exec.Schema Exec.Spec Exec.SpecProps
  Incr.DeferExec Incr.DeferLib Incr.DeferUnfold Incr.DeferExecProps Exec.ValueFacts.
From GV Require Incr.Plan Incr.PlanProps.

Definition erase_fs (f : fieldsel) : fieldsel := mkFS (fs_name f) (fs_args f) (erase_sels (fs_sels f)).
Definition erase_df (f : dfield) : fieldsel := erase_fs (df_fs f).
Definition erase_g (dg : dgrouped) : grouped := map (fun e => (fst e, map erase_df (snd e))) dg.

Lemma erase_g_add k f dg : erase_g (add_dfield k f dg) = add_field k (erase_df f) (erase_g dg).
Proof.
  unfold erase_g. induction dg as [|[k' fs] r IH]; cbn [add_dfield map add_field fst snd]; [reflexivity|].
  destruct (str_eqb k k'); cbn [map fst snd]; [rewrite map_app; reflexivity|]. rewrite IH. reflexivity.
Qed.

Lemma find_dir_erase n ds : str_eqb n n_defer = false -> find_dir n (erase_dirs ds) = find_dir n ds.
Proof.
  intro Hn. induction ds as [|[n' args] r IH]; cbn; [reflexivity|].
  destruct (str_eqb n' n_defer) eqn:E; cbn.
  - apply str_eqb_eq in E. subst n'. rewrite Hn. exact IH.
  - destruct (str_eqb n n'); [reflexivity|exact IH].
Qed.

Lemma should_include_erase cv ds : should_include cv (erase_dirs ds) = should_include cv ds.
Proof. unfold should_include. rewrite !find_dir_erase by reflexivity. reflexivity. Qed.

Lemma find_frag_erase name frags :
  find_frag name (map erase_frag frags) = option_map erase_frag (find_frag name frags).
Proof.
  induction frags as [|fr r IH]; cbn; [reflexivity|].
  destruct (str_eqb name (fr_name fr)); [reflexivity|exact IH].
Qed.

(* the flag "a deferred visit was repeated" is never reset *)
Definition rev_set (st : cstate) : Prop := c_rev st = true.

Lemma rev_set_field st k f : rev_set st -> rev_set (mkCS (c_vis st) (add_dfield k f (c_g st)) (c_new st) (c_rev st)).
Proof. exact (fun H => H). Qed.

Lemma rev_set_mark st vis new again : rev_set st -> rev_set (mkCS vis (c_g st) new (c_rev st || again)).
Proof. unfold rev_set. cbn. intros ->. reflexivity. Qed.

Lemma rev_back (st st' : cstate) : (rev_set st -> rev_set st') -> c_rev st' = false -> c_rev st = false.
Proof. unfold rev_set. destruct (c_rev st); [intros H Hf; rewrite (H eq_refl) in Hf; discriminate|reflexivity]. Qed.

Lemma mem_cons x y l : mem x (y :: l) = str_eqb x y || mem x l.
Proof. reflexivity. Qed.

Section CollectErase.
  Variable s : schema.
  Variable frags : list fragment.
  Variable cv : list (str * value).
  Variable tn : str.
  Variable base : N.
  Variable depth : nat.

  Definition noop (name : str) : Prop :=
    match find_frag name frags with
    | None => True
    | Some fr => cond_matches s (fr_cond fr) tn = false
    end.

  (* the collection state of the base executor vs the state of Spec.collect on the erased document:
     the same grouped field set up to erasure, the same visited names up to names whose spread
     contributes nothing *)
  Definition Est (st : cstate) (ste : list str * grouped) : Prop :=
    snd ste = erase_g (c_g st) /\
    (forall name, lookup name (c_vis st) <> None -> mem name (fst ste) = true) /\
    (forall name, mem name (fst ste) = true -> lookup name (c_vis st) <> None \/ noop name).

  Lemma Est_mark st v g name :
    Est st (v, g) -> noop name -> Est st (name :: v, g).
  Proof.
    intros [R1 [R2 R3]] Hn. split; [exact R1|]. cbn [fst snd] in *. split.
    - intros x Hx. rewrite mem_cons, (R2 x Hx). apply orb_true_r.
    - intros x Hx. rewrite mem_cons in Hx. apply orb_true_iff in Hx as [Hx|Hx].
      + apply str_eqb_eq in Hx. subst. right. exact Hn.
      + apply R3. exact Hx.
  Qed.

  Lemma Est_visit st v g name b new rv :
    Est st (v, g) ->
    Est (mkCS ((name, b) :: c_vis st) (c_g st) new rv) (name :: v, g).
  Proof.
    intros [R1 [R2 R3]]. split; [exact R1|]. cbn [fst snd c_vis c_g] in *. split.
    - intros x Hx. rewrite mem_cons. cbn [lookup] in Hx.
      destruct (str_eqb x name); [reflexivity|]. cbn [orb]. apply R2. exact Hx.
    - intros x Hx. rewrite mem_cons in Hx. cbn [lookup].
      destruct (str_eqb x name); [left; discriminate|]. cbn [orb] in Hx. apply R3. exact Hx.
  Qed.

  Lemma collect_list_rel (recd : duchain -> list selection -> cstate -> option cstate)
        (rece : list selection -> list str * grouped -> option (list str * grouped)) :
    (forall du sels st st' ste, Est st ste -> recd du sels st = Some st' -> c_rev st' = false ->
        exists ste', rece (erase_sels sels) ste = Some ste' /\ Est st' ste') ->
    (forall du sels st st', rev_set st -> recd du sels st = Some st' -> rev_set st') ->
    forall sels du st st' ste, Est st ste ->
      dcollect_list s frags cv tn base depth recd du sels st = Some st' -> c_rev st' = false ->
      exists ste', collect_list s (map erase_frag frags) cv tn grouped add_field rece (erase_sels sels) ste = Some ste'
                   /\ Est st' ste'.
  Proof.
    intros Hrec Hmono. induction sels as [|sel rest IH]; intros du st st' [v g] HR H Hr;
      cbn [dcollect_list erase_sels map] in H |- *.
    - inversion H; subst. eexists. split; [reflexivity|exact HR].
    - fold (erase_sels rest).
      assert (Hm : forall d x y, dcollect_list s frags cv tn base depth recd d rest x = Some y ->
                    c_rev y = false -> c_rev x = false).
      { intros d x y Hd. apply rev_back. intro Hx.
        exact (dcollect_list_inv s frags cv tn base depth rev_set rev_set_field rev_set_mark recd Hmono _ _ _ _ Hx Hd). }
      destruct sel as [al name args dirs sub | name dirs | tc dirs sub];
        cbn [erase_sel collect_list fst snd].
      + destruct (should_include cv dirs); [|eapply IH; eauto].
        eapply IH; [|exact H|exact Hr].
        destruct HR as [R1 [R2 R3]]. split; [|split; assumption].
        cbn [snd c_g] in *. rewrite erase_g_add, R1. reflexivity.
      + rewrite should_include_erase.
        destruct (should_include cv dirs); cbn [negb] in *; [|eapply IH; eauto].
        rewrite find_frag_erase.
        destruct (find_frag name frags) as [fr|] eqn:Ef; cbn [option_map].
        2:{ destruct (mem name v) eqn:Em; [eapply IH; eauto|].
            eapply IH; [|exact H|exact Hr]. apply Est_mark; [exact HR|]. unfold noop. rewrite Ef. exact I. }
        cbn [erase_frag fr_cond fr_sels].
        destruct (cond_matches s (fr_cond fr) tn) eqn:Ecm; cbn [negb] in *.
        2:{ destruct (mem name v) eqn:Em; [eapply IH; eauto|].
            eapply IH; [|exact H|exact Hr]. apply Est_mark; [exact HR|]. unfold noop. rewrite Ef. exact Ecm. }
        assert (Hvis : lookup name (c_vis st) = None -> mem name v = false).
        { intro Hl. destruct (mem name v) eqn:Em; [|reflexivity]. exfalso.
          destruct HR as [_ [_ R3]]. destruct (R3 name Em) as [Hx|Hx]; [congruence|].
          unfold noop in Hx. rewrite Ef in Hx. congruence. }
        assert (Hvis2 : lookup name (c_vis st) <> None -> mem name v = true).
        { destruct HR as [_ [R2 _]]. apply R2. }
        destruct (defer_active cv dirs) as [lab|], (lookup name (c_vis st)) as [[|]|] eqn:El.
        * rewrite Hvis2 by discriminate. eapply IH; eauto.
        * rewrite Hvis2 by discriminate. eapply IH; eauto.
        * rewrite Hvis by reflexivity.
          destruct (recd _ (fr_sels fr) _) as [st1|] eqn:E1; [|discriminate].
          pose proof (Hm _ _ _ H Hr) as Hr1.
          destruct (Hrec _ _ _ _ (name :: v, g) (Est_visit st v g name true _ _ HR) E1 Hr1) as [ste1 [He1 HR1]].
          fold (erase_sels (fr_sels fr)). rewrite He1. eapply IH; eauto.
        * (* a deferred visit repeated: excluded *)
          exfalso. destruct (recd _ (fr_sels fr) _) as [st1|] eqn:E1; [|discriminate].
          pose proof (Hm _ _ _ H Hr) as Hr1. pose proof (rev_back _ _ (fun Hx => Hmono _ _ _ _ Hx E1) Hr1) as Hr0.
          cbn [c_rev] in Hr0. apply orb_false_iff in Hr0 as [_ Hr0]. discriminate.
        * rewrite Hvis2 by discriminate. eapply IH; eauto.
        * rewrite Hvis by reflexivity.
          destruct (recd _ (fr_sels fr) _) as [st1|] eqn:E1; [|discriminate].
          pose proof (Hm _ _ _ H Hr) as Hr1.
          destruct (Hrec _ _ _ _ (name :: v, g) (Est_visit st v g name false _ _ HR) E1 Hr1) as [ste1 [He1 HR1]].
          fold (erase_sels (fr_sels fr)). rewrite He1. eapply IH; eauto.
      + rewrite should_include_erase.
        destruct (should_include cv dirs && match tc with Some c => cond_matches s c tn | None => true end);
          [|eapply IH; eauto].
        fold (erase_sels sub).
        destruct (defer_active cv dirs) as [lab|].
        * destruct (recd _ sub _) as [st1|] eqn:E1; [|discriminate].
          pose proof (Hm _ _ _ H Hr) as Hr1.
          assert (HR0 : Est (mkCS (c_vis st) (c_g st) (c_new st ++ [fresh base depth st lab du]) (c_rev st)) (v, g))
            by exact HR.
          destruct (Hrec _ _ _ _ _ HR0 E1 Hr1) as [ste1 [He1 HR1]].
          rewrite He1. eapply IH; eauto.
        * destruct (recd _ sub _) as [st1|] eqn:E1; [|discriminate].
          pose proof (Hm _ _ _ H Hr) as Hr1.
          destruct (Hrec _ _ _ _ _ HR E1 Hr1) as [ste1 [He1 HR1]].
          rewrite He1. eapply IH; eauto.
  Qed.

  Lemma collect_rel fuel : forall du sels st st' ste, Est st ste ->
    dcollect s frags cv tn base depth fuel du sels st = Some st' -> c_rev st' = false ->
    exists ste', collect s (map erase_frag frags) cv tn fuel (erase_sels sels) ste = Some ste' /\ Est st' ste'.
  Proof.
    induction fuel as [|f IH]; intros du sels st st' ste HR H Hr; cbn [dcollect] in H; [discriminate|].
    unfold collect. cbn [collect_gen].
    eapply collect_list_rel; [| |exact HR|exact H|exact Hr].
    - intros du0 sels0 st0 st0' ste0 HR0 H0 Hr0. exact (IH du0 sels0 st0 st0' ste0 HR0 H0 Hr0).
    - exact (dcollect_inv s frags cv tn base depth rev_set rev_set_field rev_set_mark f).
  Qed.
End CollectErase.

Lemma collect_list_app s frags cv tn (A : Type) (add : str -> fieldsel -> A -> A) rec a : forall b st,
  collect_list s frags cv tn A add rec (a ++ b) st
  = match collect_list s frags cv tn A add rec a st with
    | Some st1 => collect_list s frags cv tn A add rec b st1
    | None => None
    end.
Proof.
  induction a as [|sel rest IH]; intros b st; cbn [app collect_list]; [reflexivity|].
  destruct sel as [al name args dirs sub | name dirs | tc dirs sub].
  - destruct (should_include cv dirs); apply IH.
  - destruct (negb (should_include cv dirs)); [apply IH|].
    destruct (mem name (fst st)); [apply IH|].
    destruct (find_frag name frags) as [fr|]; [|apply IH].
    destruct (cond_matches s (fr_cond fr) tn); [|apply IH].
    destruct (rec (fr_sels fr) (name :: fst st, snd st)); [apply IH|reflexivity].
  - destruct (should_include cv dirs && match tc with Some c => cond_matches s c tn | None => true end);
      [|apply IH].
    destruct (rec sub st); [apply IH|reflexivity].
Qed.

Lemma dcollect_srcs_rev s frags cv tn base depth fuel srcs st st' :
  dcollect_srcs s frags cv tn base depth fuel srcs st = Some st' -> c_rev st' = false -> c_rev st = false.
Proof.
  intro H. apply rev_back. intro Hx.
  exact (dcollect_srcs_inv s frags cv tn base depth rev_set rev_set_field rev_set_mark _ _ _ _ Hx H).
Qed.

Definition merged_erased (srcs : list (duchain * list selection)) : list selection :=
  flat_map (fun x => erase_sels (snd x)) srcs.

Lemma collect_srcs_rel s frags cv tn base depth fuel srcs st st' ste :
  srcs <> [] -> Est s frags tn st ste ->
  dcollect_srcs s frags cv tn base depth fuel srcs st = Some st' -> c_rev st' = false ->
  exists ste', collect s (map erase_frag frags) cv tn fuel (merged_erased srcs) ste = Some ste' /\
               Est s frags tn st' ste'.
Proof.
  intros Hne HR H Hr. destruct fuel as [|f].
  - destruct srcs as [|[du sels] r]; [congruence|]. cbn in H. discriminate.
  - clear Hne. unfold collect. cbn [collect_gen]. revert st ste HR H.
    induction srcs as [|[du sels] r IH]; intros st ste HR H; cbn [dcollect_srcs merged_erased flat_map snd] in *.
    + inversion H; subst. eexists. split; [reflexivity|exact HR].
    + destruct (dcollect s frags cv tn base depth (S f) du sels st) as [st1|] eqn:E; [|discriminate].
      pose proof (dcollect_srcs_rev _ _ _ _ _ _ _ _ _ _ H Hr) as Hr1.
      destruct (collect_rel s frags cv tn base depth (S f) du sels st st1 ste HR E Hr1) as [ste1 [He1 HR1]].
      rewrite collect_list_app. unfold collect in He1. cbn [collect_gen] in He1. rewrite He1.
      eapply IH; eassumption.
Qed.

Lemma merged_erased_srcs fs : merged_sels (map erase_df fs) = merged_erased (srcs_of fs).
Proof.
  unfold merged_sels, merged_erased, srcs_of. rewrite !flat_map_map. reflexivity.
Qed.

(* a result of the base executor against the result of Exec/Spec.v: no payloads, and the same outcome
   unless a deferred visit was repeated *)
Definition RB (a : option xout) (b : option out) : Prop :=
  forall o pl rv, a = Some (o, pl, rv) -> pl = [] /\ (rv = false -> b = Some o).

(* the same for a field: both skip it, or both execute it *)
Definition RBF (a : option xfres) (b : option fres) : Prop :=
  (a = Some XSkip -> b = Some FSkip) /\
  (forall o pl rv, a = Some (XRes (o, pl, rv)) -> pl = [] /\ (rv = false -> b = Some (FRes o))).

Lemma groups_plain (efd : list dfield -> option xfres) (efe : list fieldsel -> option fres) dg :
  (forall fs, RBF (efd fs) (efe (map erase_df fs))) ->
  forall r es cs pls rv, dexec_groups efd dg = Some (r, es, cs, pls, rv) ->
    pls = [] /\ (rv = false -> exec_groups efe (erase_g dg) = Some (r, es, cs)).
Proof.
  induction dg as [|[k fs] rest IH]; intros Hf r es cs pls rv H; cbn [dexec_groups erase_g map exec_groups fst snd] in *.
  - inversion H; subst. auto.
  - fold (erase_g rest).
    destruct (Hf fs) as [Hs Hr].
    destruct (efd fs) as [[|[[[[[j|] es0] cs0] pl0] rv0]]|] eqn:Ef; [| | |discriminate].
    + rewrite (Hs eq_refl). apply IH; assumption.
    + destruct (Hr _ _ _ eq_refl) as [-> Hr'].
      destruct (dexec_groups efd rest) as [[[[[r' es'] cs'] pls'] rv']|] eqn:Er; [|discriminate].
      destruct (IH Hf _ _ _ _ _ eq_refl) as [-> IH'].
      inversion H; subst; clear H. split; [destruct r'; reflexivity|].
      intro Hrv. apply orb_false_iff in Hrv as [-> ->]. rewrite (Hr' eq_refl), (IH' eq_refl). reflexivity.
    + destruct (Hr _ _ _ eq_refl) as [-> Hr']. inversion H; subst; clear H. split; [reflexivity|].
      intros ->. rewrite (Hr' eq_refl). reflexivity.
Qed.

Lemma items_plain (cfd : data -> option xout) (cfe : data -> option out) items :
  (forall x, RB (cfd x) (cfe x)) ->
  forall i r es cs pls rv, dcomplete_items cfd items i = Some (r, es, cs, pls, rv) ->
    pls = [] /\ (rv = false -> complete_items cfe items i = Some (r, es, cs)).
Proof.
  induction items as [|x rest IH]; intros Hf i r es cs pls rv H; cbn [dcomplete_items complete_items] in *.
  - inversion H; subst. auto.
  - pose proof (Hf x) as Hr.
    destruct (cfd x) as [[[[[[j|] es0] cs0] pl0] rv0]|] eqn:Ef; [| |discriminate].
    + destruct (Hr _ _ _ eq_refl) as [-> Hr'].
      destruct (dcomplete_items cfd rest (S i)) as [[[[[r' es'] cs'] pls'] rv']|] eqn:Er; [|discriminate].
      destruct (IH Hf _ _ _ _ _ _ Er) as [-> IH'].
      inversion H; subst; clear H. split; [destruct r'; reflexivity|].
      intro Hrv. apply orb_false_iff in Hrv as [-> ->]. rewrite (Hr' eq_refl), (IH' eq_refl). reflexivity.
    + destruct (Hr _ _ _ eq_refl) as [-> Hr']. inversion H; subst; clear H. split; [reflexivity|].
      intros ->. rewrite (Hr' eq_refl). reflexivity.
Qed.

Lemma nn_out_other r es cs : r <> CVal JNull -> nn_out (Some (r, es, cs)) = Some (r, es, cs).
Proof. intro H. destruct r as [[| | | | | |]|]; try reflexivity. congruence. Qed.

Lemma RB_nn a b : RB a b -> RB (nn_wrap a) (nn_out b).
Proof.
  intros H [[r es] cs] pl rv Hw.
  apply nn_wrap_inv in Hw as [[es1 [pls1 [-> [-> [-> ->]]]]]|[-> Hn]].
  - destruct (H _ _ _ eq_refl) as [_ Hb]. split; [reflexivity|]. intro Hrv. rewrite (Hb Hrv). reflexivity.
  - destruct (H _ _ _ eq_refl) as [-> Hb]. split; [reflexivity|]. intro Hrv.
    rewrite (Hb Hrv). apply nn_out_other. exact Hn.
Qed.

Lemma RB_catch t a b : RB a b -> RB (option_map (gxcatch false t) a) (option_map (catch t) b).
Proof.
  intros H o pl rv Ha. destruct a as [[[[[r es] cs] pls] rv1]|]; [|discriminate].
  destruct (H _ _ _ eq_refl) as [-> Hb]. apply Some_inj in Ha. inversion Ha; subst.
  split; [destruct r; reflexivity|]. intros ->. rewrite (Hb eq_refl). reflexivity.
Qed.

Section PlainSpec.
  Variable s : schema.
  Variable frags : list fragment.
  Variable cv : list (str * value).
  Let efrags := map erase_frag frags.

  Definition BS (f : nat) : Prop :=
    forall tn obj srcs par b dp, srcs <> [] ->
      RB (dexec_sels s frags cv false f tn obj srcs par b dp)
         (exec_sels s efrags cv f tn obj (merged_erased srcs)).

  Definition BF (f : nat) : Prop :=
    forall tn obj par b dp fs,
      RBF (dexec_field s frags cv false f tn obj par b dp fs) (exec_field s efrags cv f tn obj (map erase_df fs)).

  Definition BC (f : nat) : Prop :=
    forall t fs d par b dp, fs <> [] ->
      RB (dcomplete s frags cv false f t fs d par b dp)
         (complete s efrags cv f t (merged_sels (map erase_df fs)) d).

  Lemma Est_init tn : Est s frags tn cs0 ([], []).
  Proof. split; [reflexivity|]. split; intros name H; [exfalso; apply H; reflexivity|discriminate]. Qed.

  Lemma stepB_S f : BF f -> BS (S f).
  Proof.
    intros HF tn obj srcs par b dp Hne o pl rv H.
    unfold dexec_sels in H. rewrite gexec_sels_S in H. rewrite exec_sels_S. fold dexec_field in H.
    destruct (dcollect_srcs s frags cv tn b dp f srcs cs0) as [st|] eqn:Ec; [|discriminate].
    cbv zeta in H. cbn [fst snd dexec_deferred] in H.
    set (b' := b + N.of_nat (length (c_new st))) in *.
    destruct (dexec_groups (dexec_field s frags cv false f tn obj par b' dp) (c_g st))
      as [[[[[r es] cs] pls] rv1]|] eqn:Eg; [|discriminate].
    destruct (groups_plain (dexec_field s frags cv false f tn obj par b' dp)
                (exec_field s efrags cv f tn obj) (c_g st)
                (HF tn obj par b' dp) _ _ _ _ _ Eg) as [-> Hg].
    assert (Hcol : c_rev st = false ->
                   exists v, collect s efrags cv tn f (merged_erased srcs) ([], []) = Some (v, erase_g (c_g st))).
    { intro Hr. destruct (collect_srcs_rel s frags cv tn b dp f srcs cs0 st ([], []) Hne (Est_init tn) Ec Hr)
        as [[v g] [He [R1 _]]]. cbn [snd] in R1. subst g. exists v. exact He. }
    destruct r as [kvs|]; inversion H; subst; clear H.
    - split; [reflexivity|]. intro Hrv. rewrite orb_false_r in Hrv. apply orb_false_iff in Hrv as [Hr1 Hr2].
      destruct (Hcol Hr1) as [v Hv]. unfold efrags in *. rewrite Hv, (Hg Hr2). reflexivity.
    - split; [reflexivity|]. intro Hrv. apply orb_false_iff in Hrv as [Hr1 Hr2].
      destruct (Hcol Hr1) as [v Hv]. unfold efrags in *. rewrite Hv, (Hg Hr2). reflexivity.
  Qed.

  Lemma stepB_F f : BC f -> BF (S f).
  Proof.
    intros HC tn obj par b dp fs. unfold dexec_field. rewrite gexec_field_S, spec_exec_field_S.
    destruct fs as [|d1 fs']; [split; [reflexivity|discriminate]|]. cbn [map].
    refine (field_shape_rel RBF s cv tn _ _ _ _ _ _ _ _ _ _ _ _ (df_fs d1)).
    - split; [reflexivity|discriminate].
    - split; [discriminate|]. intros o pl rv H. inversion H; subst. auto.
    - intro fd. split; [discriminate|]. intros o pl rv H. inversion H; subst. auto.
    - intros fd args.
      assert (Hne : d1 :: fs' <> []) by discriminate.
      specialize (HC (f_type fd) (d1 :: fs') (field_data obj (fs_name (df_fs d1))) par b (S dp) Hne).
      unfold field_res, field_out. unfold dcomplete in HC.
      destruct (gcomplete false s frags cv false f _ _ _ par b (S dp)) as [[[[[r es] cs] pls] rv1]|];
        [|split; discriminate].
      destruct (HC _ _ _ eq_refl) as [-> Hc].
      split; [discriminate|]. intros o pl rv H. apply XRes_inj in H. inversion H; subst.
      split; [destruct r; reflexivity|]. intros ->.
      change (erase_df d1 :: map erase_df fs') with (map erase_df (d1 :: fs')).
      change (fs_name (erase_df d1)) with (fs_name (df_fs d1)). rewrite (Hc eq_refl). reflexivity.
  Qed.

  Lemma stepB_C f : BC f -> BS f -> BC (S f).
  Proof.
    intros HC HS t fs d par b dp Hne. unfold dcomplete. rewrite gcomplete_S, spec_complete_S.
    apply complete_shape_rel.
    - intros c o pl rv H. inversion H; subst. auto.
    - intros j o pl rv H. inversion H; subst. auto.
    - intro t'. apply RB_nn. apply HC. exact Hne.
    - intros it items o pl rv H.
      set (cfd := fun x => option_map (gxcatch false it) (gcomplete false s frags cv false f it fs x par b (S dp))) in *.
      destruct (dcomplete_items cfd items 0) as [[[[[r es] cs] pls] rv1]|] eqn:Ei; [|discriminate].
      destruct (items_plain cfd (fun x => option_map (catch it) (complete s efrags cv f it (merged_sels (map erase_df fs)) x))
                  items) with (i := 0%nat) (2 := Ei) as [-> Hi].
      { intros x. apply RB_catch. apply HC. exact Hne. }
      destruct r as [js|]; inversion H; subst; (split; [reflexivity|]);
        intros ->; rewrite (Hi eq_refl); reflexivity.
    - intros rt flds. rewrite merged_erased_srcs. apply HS. destruct fs; [congruence|discriminate].
  Qed.

  Theorem plain_spec_all : forall f, BS f /\ BF f /\ BC f.
  Proof.
    induction f as [|f [IHs [IHf IHc]]].
    - repeat split; intros; discriminate.
    - split; [apply stepB_S; exact IHf|]. split; [apply stepB_F; exact IHc|apply stepB_C; assumption].
  Qed.
End PlainSpec.

Lemma sel_depth_erase : forall x, sel_depth (erase_sel x) = sel_depth x.
Proof.
  assert (Hsub : forall sub, Forall (fun y => sel_depth (erase_sel y) = sel_depth y) sub ->
                   sels_depth (map erase_sel sub) = sels_depth sub).
  { induction 1 as [|y r Hy _ IHr]; cbn; [reflexivity|]. rewrite Hy. f_equal. exact IHr. }
  induction x as [al name args dirs sub H | name dirs | tc dirs sub H] using selection_sub_ind;
    cbn [erase_sel sel_depth].
  - f_equal. exact (Hsub _ H).
  - reflexivity.
  - f_equal. exact (Hsub _ H).
Qed.

Lemma sels_depth_erase l : sels_depth (erase_sels l) = sels_depth l.
Proof.
  unfold sels_depth, erase_sels. induction l as [|y r IH]; cbn; [reflexivity|].
  rewrite sel_depth_erase, IH. reflexivity.
Qed.

Lemma default_fuel_erase s d root : default_fuel s (erase_defer d) root = default_fuel s d root.
Proof.
  unfold default_fuel. cbn [erase_defer d_sels d_frags]. rewrite sels_depth_erase. f_equal. f_equal.
  induction (d_frags d) as [|fr r IH]; cbn; [reflexivity|].
  rewrite sels_depth_erase, IH. reflexivity.
Qed.

Theorem plain_is_spec_fuel fuel s d vars root j es cs pl :
  dexecute_fuel false fuel s d vars root = DResp j es cs pl false ->
  pl = [] /\ execute_fuel fuel s (erase_defer d) vars root = Resp j es cs.
Proof.
  rewrite dexecute_fuel_deliver.
  destruct (gexecute_fuel false false fuel s d vars root) as [| |j1 es1 cs1 pl1 rv1] eqn:E; try discriminate.
  intro H. inversion H; subst; clear H.
  destruct (gexecute_fuel_run _ _ _ _ _ _ _ _ _ _ _ _ E) as [cv [tn [Hcv [Hrt [Hobj Hrun]]]]].
  rewrite Hrun in E. apply resp_of_inv in E as [r [pls0 [Hp Hcase]]].
  destruct (plain_spec_all s (d_frags d) cv fuel) as [HS _].
  assert (Hne : [(@nil dunode, d_sels d)] <> []) by discriminate.
  destruct (HS _ _ _ _ _ _ Hne _ _ _ Hp) as [-> He]. specialize (He eq_refl).
  unfold merged_erased in He. cbn [flat_map snd] in He. rewrite app_nil_r in He.
  unfold execute_fuel. cbn [erase_defer d_vars d_kind d_sels d_frags]. rewrite Hcv, Hrt, Hobj. cbn [negb].
  fold (root_fields root). rewrite He.
  destruct Hcase as [[-> ->]|[-> [-> ->]]]; split; reflexivity.
Qed.

Lemma filtered_set_none fs : (forall f, In f fs -> df_du f = []) -> Plan.filtered_set (details_of fs) = [].
Proof.
  intro H. destruct fs as [|f r]; [reflexivity|].
  unfold Plan.filtered_set, details_of. cbn [map]. rewrite (H f (or_introl eq_refl)). reflexivity.
Qed.

Lemma plan_all_initial orig : forall init groups,
  (forall e, In e orig -> Plan.filtered_set (snd e) = []) ->
  Plan.plan orig [] init groups = (init ++ orig, groups).
Proof.
  induction orig as [|[k fs] r IH]; intros init groups H; cbn [Plan.plan].
  - rewrite app_nil_r. reflexivity.
  - pose proof (H (k, fs) (or_introl eq_refl)) as Hk. cbn [snd] in Hk. cbv zeta. rewrite Hk.
    cbn [Plan.ids map Plan.set_eq Plan.subset forallb andb].
    rewrite IH; [rewrite <- app_assoc; reflexivity|]. intros e He. apply H. right. exact He.
Qed.

Definition plain_g (cv : list (str * value)) (dg : dgrouped) : Prop :=
  Forall (fun e => Forall (fun f => df_du f = [] /\ inactive_sels cv (fs_sels (df_fs f)) = true) (snd e)) dg.

Lemma plan_of_plain cv dg : plain_g cv dg -> plan_of dg [] = (dg, []).
Proof.
  intro H. unfold plan_of, Plan.build_execution_plan. rewrite plan_all_initial.
  - cbn [fst snd app map]. rewrite resolve_to_gfs. reflexivity.
  - intros [i ds] He. unfold to_gfs in He. apply in_combine_r in He. apply in_map_iff in He as [e0 [<- He0]].
    cbn [snd]. apply filtered_set_none. intros f Hf. unfold plain_g in H. rewrite Forall_forall in H.
    specialize (H e0 He0). rewrite Forall_forall in H. apply (H f Hf).
Qed.

Lemma add_dfield_plain cv k f dg :
  plain_g cv dg -> df_du f = [] -> inactive_sels cv (fs_sels (df_fs f)) = true -> plain_g cv (add_dfield k f dg).
Proof.
  intros H H1 H2. induction H as [|[k' fs] r He HF IH]; cbn [add_dfield].
  - constructor; [|constructor]. cbn. constructor; [split; assumption|constructor].
  - destruct (str_eqb k k').
    + constructor; [|exact HF]. cbn [snd] in *. apply Forall_app. split; [exact He|].
      constructor; [split; assumption|constructor].
    + constructor; assumption.
Qed.

Section Inactive.
  Variable s : schema.
  Variable frags : list fragment.
  Variable cv : list (str * value).
  Hypothesis Hfrags : forall fr, In fr frags -> inactive_sels cv (fr_sels fr) = true.

  (* collection state without any deferred visit *)
  Definition Ist (st : cstate) : Prop :=
    (forall name, lookup name (c_vis st) <> Some true) /\ plain_g cv (c_g st).

  Section ICollect.
    Variable tn : str.
    Variable base : N.
    Variable depth : nat.

    Lemma dcollect_list_inactive rec :
      (forall sels st st', inactive_sels cv sels = true -> Ist st -> rec [] sels st = Some st' -> Ist st') ->
      forall sels st st', inactive_sels cv sels = true -> Ist st ->
        dcollect_list s frags cv tn base depth rec [] sels st = Some st' -> Ist st'.
    Proof.
      intro Hrec. induction sels as [|sel rest IH]; intros st st' Hin HI H; cbn [dcollect_list] in H.
      - inversion H; subst. exact HI.
      - cbn [inactive_sels forallb] in Hin. apply andb_true_iff in Hin as [Hsel Hrest].
        fold (inactive_sels cv rest) in Hrest.
        destruct sel as [al name args dirs sub | name dirs | tc dirs sub]; cbn [inactive_sel] in Hsel.
        + destruct (should_include cv dirs); [|eapply IH; eauto].
          eapply IH; [exact Hrest| |exact H].
          destruct HI as [I3 I4]. split; [exact I3|].
          cbn [c_g]. apply add_dfield_plain; [exact I4|reflexivity|exact Hsel].
        + destruct (negb (should_include cv dirs)); [eapply IH; eauto|].
          destruct (find_frag name frags) as [fr|] eqn:Ef; [|eapply IH; eauto].
          destruct (negb (cond_matches s (fr_cond fr) tn)); [eapply IH; eauto|].
          destruct (defer_active cv dirs); [discriminate|].
          destruct HI as [I3 I4].
          destruct (lookup name (c_vis st)) as [[|]|] eqn:El;
            [exfalso; apply (I3 name); exact El|exact (IH _ _ Hrest (conj I3 I4) H)|].
          destruct (rec [] (fr_sels fr) _) as [st1|] eqn:E1; [|discriminate].
          eapply IH; [exact Hrest| |exact H]. eapply Hrec; [|  |exact E1].
          * apply Hfrags. eapply find_frag_In. exact Ef.
          * split; [|exact I4]. cbn [c_vis].
            intros x. cbn [lookup]. destruct (str_eqb x name); [discriminate|apply I3].
        + apply andb_true_iff in Hsel as [Hd Hsub]. fold (inactive_sels cv sub) in Hsub.
          destruct (should_include cv dirs && match tc with Some c => cond_matches s c tn | None => true end);
            [|eapply IH; eauto].
          destruct (defer_active cv dirs); [discriminate|].
          destruct (rec [] sub st) as [st1|] eqn:E1; [|discriminate].
          eapply IH; [exact Hrest| |exact H]. exact (Hrec sub st st1 Hsub HI E1).
    Qed.

    Lemma dcollect_inactive fuel : forall sels st st', inactive_sels cv sels = true -> Ist st ->
      dcollect s frags cv tn base depth fuel [] sels st = Some st' -> Ist st'.
    Proof.
      induction fuel as [|f IH]; intros sels st st' Hin HI H; cbn [dcollect] in H; [discriminate|].
      eapply dcollect_list_inactive; eauto.
    Qed.

    Definition plain_srcs (srcs : list (duchain * list selection)) : Prop :=
      Forall (fun x => fst x = [] /\ inactive_sels cv (snd x) = true) srcs.

    Lemma dcollect_srcs_inactive fuel srcs : forall st st', plain_srcs srcs -> Ist st ->
      dcollect_srcs s frags cv tn base depth fuel srcs st = Some st' -> Ist st'.
    Proof.
      induction srcs as [|[du sels] r IH]; intros st st' Hs HI H; cbn [dcollect_srcs] in H.
      - inversion H; subst. exact HI.
      - inversion Hs as [|x l [Hd Hi] Hr]; subst. cbn [fst snd] in *. subst du.
        destruct (dcollect s frags cv tn base depth fuel [] sels st) as [st1|] eqn:E; [|discriminate].
        eapply IH; [exact Hr| |exact H]. eapply dcollect_inactive; eauto.
    Qed.
  End ICollect.

  Lemma Ist_init : Ist cs0.
  Proof. split; [intros name; discriminate|constructor]. Qed.

  Definition plain_fs (fs : list dfield) : Prop :=
    Forall (fun f => df_du f = [] /\ inactive_sels cv (fs_sels (df_fs f)) = true) fs.

  Lemma plain_srcs_of fs : plain_fs fs -> plain_srcs (srcs_of fs).
  Proof. intro H. unfold plain_srcs, srcs_of. apply Forall_map. exact H. Qed.

  Definition PS (f : nat) : Prop :=
    forall tn obj srcs b dp, plain_srcs srcs ->
      dexec_sels s frags cv true f tn obj srcs [] b dp = dexec_sels s frags cv false f tn obj srcs [] b dp.

  Definition PF (f : nat) : Prop :=
    forall tn obj b dp fs, plain_fs fs ->
      dexec_field s frags cv true f tn obj [] b dp fs = dexec_field s frags cv false f tn obj [] b dp fs.

  Definition PC (f : nat) : Prop :=
    forall t fs d b dp, plain_fs fs ->
      dcomplete s frags cv true f t fs d [] b dp = dcomplete s frags cv false f t fs d [] b dp.

  Lemma stepP_S f : PF f -> PS (S f).
  Proof.
    intros HF tn obj srcs b dp Hs. unfold dexec_sels. rewrite !gexec_sels_S.
    destruct (dcollect_srcs s frags cv tn b dp f srcs cs0) as [st|] eqn:Ec; [|reflexivity].
    cbv zeta.
    destruct (dcollect_srcs_inactive tn b dp f srcs cs0 st Hs Ist_init Ec) as [_ I4].
    rewrite (plan_of_plain cv _ I4). cbn [fst snd].
    set (b' := b + N.of_nat (length (c_new st))).
    rewrite (dexec_groups_ext (gexec_field false s frags cv true f tn obj [] b' dp)
               (gexec_field false s frags cv false f tn obj [] b' dp)); [reflexivity|].
    intros e He. apply HF. unfold plain_g in I4. rewrite Forall_forall in I4. exact (I4 e He).
  Qed.

  Lemma stepP_F f : PC f -> PF (S f).
  Proof.
    intros HC tn obj b dp fs Hfs. unfold dexec_field. rewrite !gexec_field_S.
    destruct fs as [|d1 fs']; [reflexivity|].
    apply (field_shape_rel eq); try reflexivity.
    intros fd args. f_equal. apply HC. exact Hfs.
  Qed.

  Lemma stepP_C f : PC f -> PS f -> PC (S f).
  Proof.
    intros HC HS t fs d b dp Hfs. unfold dcomplete. rewrite !gcomplete_S.
    apply (complete_shape_rel eq); try reflexivity.
    - intro t'. f_equal. apply HC. exact Hfs.
    - intros it items. f_equal. apply dcomplete_items_ext. intros x. f_equal. apply HC. exact Hfs.
    - intros rt flds. apply HS. apply plain_srcs_of. exact Hfs.
  Qed.

  Theorem inactive_all : forall f, PS f /\ PF f /\ PC f.
  Proof.
    induction f as [|f [IHs [IHf IHc]]].
    - repeat split; intros; reflexivity.
    - split; [apply stepP_S; exact IHf|]. split; [apply stepP_F; exact IHc|apply stepP_C; assumption].
  Qed.
End Inactive.

Theorem inactive_fuel fuel s d vars root :
  (forall cv, coerce_variable_values s (d_vars d) vars = Some cv -> inactive_doc cv d = true) ->
  dexecute_fuel true fuel s d vars root = dexecute_fuel false fuel s d vars root.
Proof.
  intro Hin. unfold dexecute_fuel.
  destruct (coerce_variable_values s (d_vars d) vars) as [cv|]; [|reflexivity].
  destruct (root_type s (d_kind d)) as [tn|]; [|reflexivity].
  destruct (negb (is_object s tn)); [reflexivity|].
  specialize (Hin cv eq_refl). unfold inactive_doc in Hin. apply andb_true_iff in Hin as [Hs Hf].
  assert (Hfrags : forall fr, In fr (d_frags d) -> inactive_sels cv (fr_sels fr) = true).
  { rewrite forallb_forall in Hf. exact Hf. }
  destruct (inactive_all s (d_frags d) cv Hfrags fuel) as [HS _].
  rewrite HS; [reflexivity|]. constructor; [split; [reflexivity|exact Hs]|constructor].
Qed.

Lemma no_defer_erase ds : no_defer ds = true -> erase_dirs ds = ds.
Proof.
  unfold no_defer, erase_dirs. induction ds as [|d r IH]; cbn [forallb filter]; [reflexivity|].
  intro H. apply andb_true_iff in H as [H1 H2]. rewrite H1, IH by exact H2. reflexivity.
Qed.

Lemma no_defer_find ds : no_defer ds = true -> find_dir n_defer ds = None.
Proof.
  unfold no_defer. induction ds as [|[n args] r IH]; cbn [forallb find_dir fst]; [reflexivity|].
  intro H. apply andb_true_iff in H as [H1 H2]. apply negb_true_iff in H1.
  assert (E : str_eqb n_defer n = false).
  { apply str_eqb_neq. intro Hx. apply str_eqb_neq in H1. apply H1. symmetry. exact Hx. }
  rewrite E. apply IH. exact H2.
Qed.

Lemma defer_free_sel_erase : forall x, defer_free_sel x = true -> erase_sel x = x.
Proof.
  assert (Hsub : forall sub, Forall (fun y => defer_free_sel y = true -> erase_sel y = y) sub ->
                   forallb defer_free_sel sub = true -> map erase_sel sub = sub).
  { induction 1 as [|y r Hy _ IHr]; cbn; [reflexivity|]. intro H. apply andb_true_iff in H as [H1 H2].
    rewrite Hy, IHr by assumption. reflexivity. }
  induction x as [al name args dirs sub H | name dirs | tc dirs sub H] using selection_sub_ind;
    cbn [defer_free_sel erase_sel]; intro Hx.
  - rewrite (Hsub _ H Hx). reflexivity.
  - rewrite no_defer_erase by exact Hx. reflexivity.
  - apply andb_true_iff in Hx as [H0 Hx]. rewrite no_defer_erase, (Hsub _ H Hx) by exact H0. reflexivity.
Qed.

Lemma defer_free_sels_erase l : forallb defer_free_sel l = true -> erase_sels l = l.
Proof.
  unfold erase_sels. induction l as [|y r IH]; cbn; [reflexivity|]. intro H.
  apply andb_true_iff in H as [H1 H2]. rewrite defer_free_sel_erase, IH by assumption. reflexivity.
Qed.

Theorem defer_free_erase d : defer_free d = true -> erase_defer d = d.
Proof.
  destruct d as [k vs sels frs]. unfold defer_free, erase_defer. cbn [d_kind d_vars d_sels d_frags].
  intro H. apply andb_true_iff in H as [H1 H2]. rewrite defer_free_sels_erase by exact H1. f_equal.
  induction frs as [|[n c b] r IH]; cbn in *; [reflexivity|].
  apply andb_true_iff in H2 as [H3 H4]. rewrite IH by exact H4. unfold erase_frag. cbn.
  rewrite defer_free_sels_erase by exact H3. reflexivity.
Qed.

Lemma defer_free_sel_inactive cv : forall x, defer_free_sel x = true -> inactive_sel cv x = true.
Proof.
  assert (Hsub : forall sub, Forall (fun y => defer_free_sel y = true -> inactive_sel cv y = true) sub ->
                   forallb defer_free_sel sub = true -> forallb (inactive_sel cv) sub = true).
  { induction 1 as [|y r Hy _ IHr]; cbn; [reflexivity|]. intro H. apply andb_true_iff in H as [H1 H2].
    rewrite Hy, IHr by assumption. reflexivity. }
  induction x as [al name args dirs sub H | name dirs | tc dirs sub H] using selection_sub_ind;
    cbn [defer_free_sel inactive_sel]; intro Hx.
  - exact (Hsub _ H Hx).
  - unfold defer_active. rewrite no_defer_find by exact Hx. reflexivity.
  - apply andb_true_iff in Hx as [H0 Hx]. unfold defer_active. rewrite no_defer_find by exact H0.
    exact (Hsub _ H Hx).
Qed.

Lemma defer_free_inactive cv d : defer_free d = true -> inactive_doc cv d = true.
Proof.
  unfold defer_free, inactive_doc, inactive_sels. intro H. apply andb_true_iff in H as [H1 H2].
  apply andb_true_iff. split.
  - rewrite forallb_forall in *. intros x Hx. apply defer_free_sel_inactive. apply H1. exact Hx.
  - rewrite forallb_forall in *. intros fr Hfr. specialize (H2 fr Hfr).
    rewrite forallb_forall in *. intros x Hx. apply defer_free_sel_inactive. apply H2. exact Hx.
Qed.
