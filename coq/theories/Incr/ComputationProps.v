(* C06 - the Computation machine of Incr/Computation.v: an invariant of every reachable state ([cinv]),
   the counters frozen once fn has been called or skipped ([frozen]), the walk of cancel over a table. *)
From GV Require Import Base.Prelude Incr.Computation.

(* sanity: behaviour on small traces *)
Example ex_abort_running :
  let c := {| has_on_abort := true; on_abort_async := true |} in
  cobs c cinit [EPrime FnAwaitable; EAbort; ECallback; EAbort; EResult FnValue]
  = [(CPending, RNone); (CRejected, RAwaitable); (CRejected, RNone); (CRejected, RNone); (CRejected, RRaise)].
Proof. reflexivity. Qed.

Example ex_abort_wins_race :
  let c := {| has_on_abort := true; on_abort_async := false |} in
  let s := crun c cinit [EResult FnAwaitable; ESettle SOk; EAbort; ECallback] in
  (status s, runs s, on_abort_calls s) = (CRejected, 1%nat, 1%nat).
Proof. reflexivity. Qed.

(* the invariant carried by every reachable state *)
Definition cinv (s : cstate) : Prop :=
  (runs s <= 1)%nat /\ (status s = CNone -> runs s = 0%nat) /\
  (on_abort_calls s <= 1)%nat /\ (status s = CPending -> on_abort_calls s = 0%nat) /\
  (status s = CNone -> on_abort_calls s = 0%nat).

Lemma cinv_init : cinv cinit.
Proof. unfold cinv, cinit; cbn; repeat split; auto; discriminate. Qed.

Ltac cinv_tac := repeat split; intros; auto; try discriminate; try congruence; try lia.

Lemma cinv_prime o s : cinv s -> cinv (do_prime o s).
Proof.
  destruct s as [st f r a]. unfold cinv, do_prime; cbn. intros (H1 & H2 & H3 & H4 & H5).
  destruct st; cbn; try (cinv_tac; fail).
  specialize (H2 eq_refl). specialize (H5 eq_refl). subst.
  destruct o; cbn; cinv_tac.
Qed.

Lemma cinv_abort c s : cinv s -> cinv (fst (do_abort c s)).
Proof.
  destruct s as [st f r a]. unfold cinv, do_abort; cbn. intros (H1 & H2 & H3 & H4 & H5).
  destruct st; cbn; try (cinv_tac; fail).
  specialize (H4 eq_refl). subst. destruct (has_on_abort c); cbn; cinv_tac.
Qed.

Lemma cinv_settle k s : cinv s -> cinv (do_settle k s).
Proof. destruct s as [st f r a]. unfold cinv, do_settle; cbn. intros H. destruct f; cbn; auto. Qed.

Lemma cinv_callback s : cinv s -> cinv (do_callback s).
Proof.
  destruct s as [st f r a]. unfold cinv, do_callback; cbn. intros (H1 & H2 & H3 & H4 & H5).
  destruct f; cbn; try (cinv_tac; fail).
  destruct st; cbn; try (cinv_tac; fail). destruct k; cinv_tac.
Qed.

Lemma cinv_step c s e : cinv s -> cinv (fst (cstep c s e)).
Proof.
  destruct e; cbn.
  - apply cinv_prime.
  - apply cinv_prime.
  - apply cinv_abort.
  - apply cinv_settle.
  - apply cinv_callback.
Qed.

Lemma cinv_run c es : forall s, cinv s -> cinv (crun c s es).
Proof. induction es as [|e es IH]; cbn; intros s H; auto. apply IH, cinv_step, H. Qed.

Definition caborted (s : cstate) : Prop := status s <> CNone /\ status s <> CPending.

(* Once fn has been called or skipped it is never called again, and once the computation has left the
   pending state the abort callback is never called again. *)
Lemma frozen_step c s e :
  status s <> CNone ->
  let s' := fst (cstep c s e) in
  status s' <> CNone /\ runs s' = runs s /\
  (status s <> CPending -> status s' <> CPending /\ on_abort_calls s' = on_abort_calls s).
Proof.
  destruct s as [st f r a]; cbn. intros H.
  destruct e; cbn; unfold do_prime, do_abort, do_settle, do_callback; cbn.
  - destruct st; cbn; try congruence; repeat split; auto; discriminate.
  - destruct st; cbn; try congruence; repeat split; auto; discriminate.
  - destruct st; cbn; try congruence; try (repeat split; auto; discriminate).
    destruct (has_on_abort c); cbn; repeat split; congruence.
  - destruct f; cbn; auto.
  - destruct f; cbn; auto. destruct st; try congruence; try (repeat split; auto; discriminate).
    destruct k; repeat split; congruence.
Qed.

Lemma frozen c es : forall s,
  status s <> CNone ->
  runs (crun c s es) = runs s /\ (status s <> CPending -> on_abort_calls (crun c s es) = on_abort_calls s).
Proof.
  induction es as [|e es IH]; cbn; intros s H; [auto|].
  destruct (frozen_step c s e H) as (A & B & C). destruct (IH _ A) as [R O]. split; [congruence|].
  intro Hp. destruct (C Hp) as [Hp' Ho]. rewrite (O Hp'). exact Ho.
Qed.

(* after the abort of an unprimed computation every result() raises *)
Lemma abort_unprimed_result_raises c o :
  cobs c cinit [EAbort; EResult o] = [(CRejected, RNone); (CRejected, RRaise)].
Proof. destruct o; reflexivity. Qed.

Lemma abort_nth_length c i : forall tbl, length (abort_nth c i tbl) = length tbl.
Proof. induction i; intros [|s t]; cbn; auto. Qed.

Lemma cancel_length c ids : forall tbl, length (cancel_tasks c ids tbl) = length tbl.
Proof. induction ids as [|i r IH]; cbn; intros; auto. rewrite IH. apply abort_nth_length. Qed.

Lemma do_abort_aborted c s : caborted (fst (do_abort c s)).
Proof.
  destruct s as [st f r a]. unfold caborted, do_abort; cbn.
  destruct st; cbn; try (split; discriminate).
  destruct (has_on_abort c); cbn; split; discriminate.
Qed.

Lemma do_abort_idem c s : caborted s -> fst (do_abort c s) = s.
Proof.
  destruct s as [st f r a]. unfold caborted, do_abort; cbn. intros [A B].
  destruct st; try congruence; reflexivity.
Qed.

Lemma abort_nth_other c i : forall tbl j d, i <> j -> nth j (abort_nth c i tbl) d = nth j tbl d.
Proof.
  induction i; intros [|s t] j d H; cbn; auto.
  - destruct j; [congruence|reflexivity].
  - destruct j; [reflexivity|]. apply IHi. congruence.
Qed.

Lemma abort_nth_same c i : forall tbl d, (i < length tbl)%nat ->
  nth i (abort_nth c i tbl) d = fst (do_abort c (nth i tbl d)).
Proof.
  induction i; intros [|s t] d H; cbn in *; try lia; auto. apply IHi. lia.
Qed.

(* what one entry of the table looks like after the walk: untouched if not listed, otherwise the
   result of exactly one effective abort *)
Lemma cancel_entry c ids : forall tbl j d, (j < length tbl)%nat ->
  nth j (cancel_tasks c ids tbl) d =
  if existsb (Nat.eqb j) ids then fst (do_abort c (nth j tbl d)) else nth j tbl d.
Proof.
  induction ids as [|i r IH]; cbn; intros tbl j d Hj; auto.
  rewrite IH by (rewrite abort_nth_length; exact Hj).
  destruct (Nat.eqb j i) eqn:E; cbn.
  - apply Nat.eqb_eq in E; subst i. rewrite abort_nth_same by exact Hj.
    rewrite do_abort_idem by apply do_abort_aborted. destruct (existsb _ r); reflexivity.
  - apply Nat.eqb_neq in E. rewrite abort_nth_other by congruence. reflexivity.
Qed.

