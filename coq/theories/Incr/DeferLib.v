(* Facts about association lists, sublists, sub-multisets, [jeq], the merge oracle on fresh keys, and
   what a sequence of payloads (Incr/DeferExec.v's [cpl], [pre_pls], [nest_pl]) does to one object or list
   position; an induction principle for selections.  The executor functions do not occur. *)
From GV Require Import Base.Prelude Base.ListFacts Exec.Value Exec.Schema Exec.Spec Incr.DeferExec
  Exec.ValueFacts.
From GV Require Incr.Merge.
From Coq Require Import Permutation.

Lemma Forall2_in_l {A B} (P : A -> B -> Prop) l l' a : Forall2 P l l' -> In a l -> exists b, In b l' /\ P a b.
Proof.
  induction 1 as [|x y l l' Hxy HF IH]; intro Hin; [destruct Hin|].
  destruct Hin as [<-|Hin]; [exists y; split; [left; reflexivity|exact Hxy]|].
  destruct (IH Hin) as [b0 [Hb Hp]]. exists b0. split; [right; exact Hb|exact Hp].
Qed.

Lemma Forall2_in_r {A B} (P : A -> B -> Prop) l l' b : Forall2 P l l' -> In b l' -> exists a, In a l /\ P a b.
Proof.
  induction 1 as [|x y l l' Hxy HF IH]; intro Hin; [destruct Hin|].
  destruct Hin as [<-|Hin]; [exists x; split; [left; reflexivity|exact Hxy]|].
  destruct (IH Hin) as [a0 [Ha Hp]]. exists a0. split; [right; exact Ha|exact Hp].
Qed.

Inductive subl {A} : list A -> list A -> Prop :=
| subl_nil : subl [] []
| subl_skip x a b : subl a b -> subl a (x :: b)
| subl_take x a b : subl a b -> subl (x :: a) (x :: b).

Lemma subl_refl {A} (l : list A) : subl l l.
Proof. induction l; [apply subl_nil|apply subl_take; assumption]. Qed.

Lemma subl_nil_l {A} (b : list A) : subl [] b.
Proof. induction b; [apply subl_nil|apply subl_skip; assumption]. Qed.

Lemma subl_In {A} (a b : list A) x : subl a b -> In x a -> In x b.
Proof. induction 1; cbn; intuition. Qed.

Lemma subl_NoDup {A} (a b : list A) : subl a b -> NoDup b -> NoDup a.
Proof.
  induction 1; intro Hn; [constructor| |]; inversion Hn; subst; auto.
  constructor; auto. intro Hin. eapply subl_In in Hin; eauto.
Qed.

Lemma subl_app {A} (a b c d : list A) : subl a b -> subl c d -> subl (a ++ c) (b ++ d).
Proof.
  induction 1; cbn; intro H2; [exact H2|apply subl_skip; auto|apply subl_take; auto].
Qed.

Lemma subl_flat_map {A B K} (h : A -> list B) (ka : A -> K) (kb : B -> K) l :
  (forall a, h a = [] \/ exists b, h a = [b] /\ kb b = ka a) ->
  subl (map kb (flat_map h l)) (map ka l).
Proof.
  intro Hh. induction l as [|a r IH]; cbn; [constructor|].
  destruct (Hh a) as [->|[b [-> Hk]]]; cbn.
  - apply subl_skip. exact IH.
  - rewrite Hk. apply subl_take. exact IH.
Qed.

Lemma SubPerm_nil {A} (cs : list A) : SubPerm [] cs.
Proof. exists cs. apply Permutation_refl. Qed.

Lemma SubPerm_nil_r {A} (cs' : list A) : SubPerm cs' [] -> cs' = [].
Proof.
  intros [rest H]. apply Permutation_sym, Permutation_nil in H. destruct cs'; [reflexivity|discriminate].
Qed.

Lemma Permutation_SubPerm {A} (cs cs' : list A) : Permutation cs cs' -> SubPerm cs' cs.
Proof. intro H. exists []. rewrite app_nil_r. apply Permutation_sym. exact H. Qed.

Lemma SubPerm_in {A} (cs' cs : list A) x : SubPerm cs' cs -> In x cs' -> In x cs.
Proof. intros [rest H] Hin. eapply Permutation_in; [exact H|]. apply in_or_app. left. exact Hin. Qed.

Lemma SubPerm_flat_map {A B} (f : A -> list B) cs' cs : SubPerm cs' cs -> SubPerm (flat_map f cs') (flat_map f cs).
Proof.
  intros [rest H]. exists (flat_map f rest). rewrite <- flat_map_app. apply Permutation_flat_map. exact H.
Qed.

Lemma SubPerm_map {A B} (g : A -> B) l' l : SubPerm l' l -> SubPerm (map g l') (map g l).
Proof. intros [rest H]. exists (map g rest). rewrite <- map_app. apply Permutation_map. exact H. Qed.

Lemma SubPerm_NoDup {A B} (f : A -> B) (cs' cs : list A) pre :
  SubPerm cs' cs -> NoDup (pre ++ map f cs) -> NoDup (pre ++ map f cs').
Proof.
  intros [rest H] Hn.
  assert (H1 : NoDup (pre ++ map f (cs' ++ rest))).
  { eapply Permutation_NoDup; [|exact Hn]. apply Permutation_app_head. apply Permutation_map.
    apply Permutation_sym. exact H. }
  rewrite map_app, app_assoc in H1. eapply NoDup_app_l. exact H1.
Qed.

Lemma filter_SubPerm {A} (f : A -> bool) l : SubPerm (filter f l) l.
Proof.
  exists (filter (fun x => negb (f x)) l). induction l as [|x r IH]; cbn; [constructor|].
  destruct (f x); cbn.
  - constructor. exact IH.
  - apply Permutation_sym. apply Permutation_cons_app. apply Permutation_sym. exact IH.
Qed.

Lemma lookup_none_notin {A} k (l : list (str * A)) : ~ In k (map fst l) -> lookup k l = None.
Proof.
  induction l as [|[k' v] r IH]; cbn; [reflexivity|]. intro H.
  destruct (str_eqb k k') eqn:E.
  - apply str_eqb_eq in E. subst. exfalso. apply H. left. reflexivity.
  - apply IH. intro. apply H. right. assumption.
Qed.

Lemma lookup_in_nodup {A} k (v : A) l : NoDup (map fst l) -> In (k, v) l -> lookup k l = Some v.
Proof.
  induction l as [|[k0 v0] r IH]; cbn; [tauto|]. intros Hn [H|H]; inversion Hn; subst.
  - inversion H; subst. rewrite str_eqb_refl. reflexivity.
  - destruct (str_eqb k k0) eqn:E; [|apply IH; assumption].
    apply str_eqb_eq in E. subst. exfalso. apply H2. exact (in_map fst _ _ H).
Qed.

Lemma in_split_first {A} k (kvs : list (str * A)) :
  In k (map fst kvs) -> exists a v b, kvs = a ++ (k, v) :: b /\ ~ In k (map fst a).
Proof.
  induction kvs as [|[k' v] r IH]; cbn; [tauto|]. intro H.
  destruct (str_eqb k k') eqn:E.
  - apply str_eqb_eq in E. subst. exists [], v, r. split; [reflexivity|tauto].
  - destruct H as [H|H]; [subst; rewrite str_eqb_refl in E; discriminate|].
    destruct (IH H) as [a [v0 [b [-> Hn]]]]. exists ((k', v) :: a), v0, b. split; [reflexivity|].
    cbn. intros [Hx|Hx]; [subst; rewrite str_eqb_refl in E; discriminate|tauto].
Qed.

Lemma in_keys {A} (k : str) (v : A) (l : list (str * A)) : In (k, v) l -> In k (map fst l).
Proof. exact (in_map fst l (k, v)). Qed.

Lemma keys_in {A} k (l : list (str * A)) : In k (map fst l) -> exists v, In (k, v) l.
Proof. intro H. apply in_map_iff in H as [[k0 v] [<- H]]. exists v. exact H. Qed.

Lemma jeq_refl : forall j, jeq j j.
Proof.
  fix IH 1. intros [|z|n d|x|b|l|kvs]; try constructor.
  - refine ((fix go (l : list json) : jeq_items l l :=
               match l with [] => jeqi_nil | x :: r => jeqi_cons _ _ _ _ (IH x) (go r) end) l).
  - apply jeq_obj with (b := kvs); [|apply Permutation_refl].
    refine ((fix go (l : list (str * json)) : jeq_kvs l l :=
               match l with [] => jeqk_nil | (k, x) :: r => jeqk_cons k _ _ _ _ (IH x) (go r) end) kvs).
Qed.

Lemma jeq_null_l j : jeq JNull j -> j = JNull.
Proof. intro H. inversion H. reflexivity. Qed.

Lemma jeq_null_r j : jeq j JNull -> j = JNull.
Proof. intro H. inversion H. reflexivity. Qed.

Lemma jeq_items_nth a : forall b, length a = length b ->
  (forall i x y, nth_error a i = Some x -> nth_error b i = Some y -> jeq x y) -> jeq_items a b.
Proof.
  induction a as [|x r IH]; intros [|y t] Hl H; cbn in Hl; try discriminate; constructor.
  - apply (H 0%nat); reflexivity.
  - apply IH; [lia|]. intros i x0 y0 H1 H2. apply (H (S i)); assumption.
Qed.

Lemma jeq_obj_keys a R :
  NoDup (map fst R) -> Permutation (map fst a) (map fst R) ->
  (forall k v, In (k, v) a -> exists j, In (k, j) R /\ jeq v j) ->
  jeq (JObj a) (JObj R).
Proof.
  intros HnR Hp Hv.
  assert (Hna : NoDup (map fst a)) by (eapply Permutation_NoDup; [apply Permutation_sym; exact Hp|exact HnR]).
  set (f := fun k => match lookup k R with Some j => j | None => JNull end).
  apply jeq_obj with (b := map (fun kv => (fst kv, f (fst kv))) a).
  - clear Hp Hna. induction a as [|[k v] r IH]; cbn; constructor.
    + destruct (Hv k v (or_introl eq_refl)) as [j [Hj Hjq]]. unfold f.
      rewrite (lookup_in_nodup _ _ _ HnR Hj). exact Hjq.
    + apply IH. intros k0 v0 H0. apply Hv. right. exact H0.
  - apply NoDup_Permutation.
    + apply (NoDup_map_inv fst). rewrite map_map. exact Hna.
    + apply (NoDup_map_inv fst). exact HnR.
    + intros [k j]. split; intro Hin.
      * apply in_map_iff in Hin as [[k0 v0] [Heq Hin]]. cbn [fst] in Heq. inversion Heq; subst.
        destruct (Hv k v0 Hin) as [j [Hj _]]. unfold f. rewrite (lookup_in_nodup _ _ _ HnR Hj). exact Hj.
      * assert (Hk : In k (map fst a)).
        { eapply Permutation_in; [apply Permutation_sym; exact Hp|]. exact (in_keys _ _ _ Hin). }
        destruct (keys_in _ _ Hk) as [v Hv0]. apply in_map_iff. exists (k, v). split; [|exact Hv0].
        cbn [fst]. unfold f. rewrite (lookup_in_nodup _ _ _ HnR Hin). reflexivity.
Qed.

Lemma merge_S f okvs nkvs :
  Merge.merge (S f) (JObj okvs) (JObj nkvs)
  = JObj (fold_left (fun acc kv =>
                       match lookup (fst kv) acc with
                       | Some ov => Merge.set_key (fst kv) (Merge.merge f ov (snd kv)) acc
                       | None => acc ++ [kv]
                       end) nkvs okvs).
Proof. reflexivity. Qed.

Lemma merge_into_fresh okvs nkvs :
  NoDup (map fst nkvs) -> (forall k, In k (map fst nkvs) -> ~ In k (map fst okvs)) ->
  merge_into nkvs (JObj okvs) = Some (JObj (okvs ++ nkvs)).
Proof.
  intros Hnd Hf. unfold merge_into. change 200%nat with (S 199). rewrite merge_S. do 2 f_equal.
  generalize (Merge.merge 199). intro mg.
  revert okvs Hnd Hf. induction nkvs as [|[k v] r IH]; intros okvs Hnd Hfresh; cbn [fold_left].
  - rewrite app_nil_r. reflexivity.
  - cbn [fst snd]. rewrite (lookup_none_notin k okvs); [|apply Hfresh; left; reflexivity].
    inversion Hnd as [|x l Hx Hr]; subst. rewrite IH; [rewrite <- app_assoc; reflexivity|exact Hr|].
    intros k' Hk' Hin. rewrite map_app in Hin. apply in_app_or in Hin as [Hin|[<-|[]]].
    + apply (Hfresh k'); [right; exact Hk'|exact Hin].
    + apply Hx. exact Hk'.
Qed.

Lemma upd_key_at k f (a : list (str * json)) v b :
  ~ In k (map fst a) ->
  Merge.upd_key k f (a ++ (k, v) :: b)
  = match f v with Some v' => Some (a ++ (k, v') :: b) | None => None end.
Proof.
  induction a as [|[k' v0] r IH]; intro Hn; cbn.
  - rewrite str_eqb_refl. reflexivity.
  - destruct (str_eqb k k') eqn:E.
    + apply str_eqb_eq in E. subst. exfalso. apply Hn. left. reflexivity.
    + rewrite IH; [|intro; apply Hn; right; assumption]. destruct (f v); reflexivity.
Qed.

Lemma upd_key_none k f (kvs : list (str * json)) : ~ In k (map fst kvs) -> Merge.upd_key k f kvs = None.
Proof.
  induction kvs as [|[k' v] r IH]; cbn; [reflexivity|]. intro H.
  destruct (str_eqb k k') eqn:E.
  - apply str_eqb_eq in E. subst. exfalso. apply H. left. reflexivity.
  - rewrite IH; [reflexivity|]. intro Hx. apply H. right. exact Hx.
Qed.

Lemma set_nth_at f (a : list json) v b :
  Merge.set_nth (length a) f (a ++ v :: b)
  = match f v with Some v' => Some (a ++ v' :: b) | None => None end.
Proof.
  induction a as [|x r IH]; cbn; [reflexivity|].
  rewrite IH. destruct (f v); reflexivity.
Qed.

Lemma set_nth_none f (l : list json) i : nth_error l i = None -> Merge.set_nth i f l = None.
Proof.
  revert i. induction l as [|x r IH]; intros [|i]; cbn; try reflexivity; try discriminate.
  intro H. rewrite IH by exact H. reflexivity.
Qed.

Lemma apply_pls_core j pls : apply_pls j pls = capplys j (map core pls).
Proof.
  revert j. induction pls as [|p r IH]; intro j; cbn [apply_pls map capplys]; [reflexivity|].
  change (capply j (core p)) with (apply_pl j p). destruct (apply_pl j p); [apply IH|reflexivity].
Qed.

Lemma capplys_app j a b :
  capplys j (a ++ b) = match capplys j a with Some j' => capplys j' b | None => None end.
Proof.
  revert j. induction a as [|p r IH]; intro j; cbn; [reflexivity|].
  destruct (capply j p); [apply IH|reflexivity].
Qed.

Lemma apply_pls_app j a b :
  apply_pls j (a ++ b) = match apply_pls j a with Some j' => apply_pls j' b | None => None end.
Proof. rewrite !apply_pls_core, map_app, capplys_app. destruct (capplys j (map core a)); [symmetry; apply apply_pls_core|reflexivity]. Qed.

Lemma core_nest pls : map core (map nest_pl pls) = map core pls.
Proof. rewrite map_map. reflexivity. Qed.

Lemma apply_pls_nest j ps : apply_pls j (map nest_pl ps) = apply_pls j ps.
Proof. rewrite !apply_pls_core, core_nest. reflexivity. Qed.

Lemma capply_key k a v b q d :
  ~ In k (map fst a) ->
  capply (JObj (a ++ (k, v) :: b)) (PKey k :: q, d)
  = match capply v (q, d) with Some v' => Some (JObj (a ++ (k, v') :: b)) | None => None end.
Proof.
  intro Hn. unfold capply. cbn [fst snd]. destruct d as [kvs|]; [|reflexivity].
  cbn [Merge.update_at]. rewrite upd_key_at by exact Hn.
  destruct (Merge.update_at q (merge_into kvs) v); reflexivity.
Qed.

Lemma capply_idx a v b q d :
  capply (JList (a ++ v :: b)) (PIdx (length a) :: q, d)
  = match capply v (q, d) with Some v' => Some (JList (a ++ v' :: b)) | None => None end.
Proof.
  unfold capply. cbn [fst snd]. destruct d as [kvs|]; [|reflexivity].
  cbn [Merge.update_at]. rewrite set_nth_at.
  destruct (Merge.update_at q (merge_into kvs) v); reflexivity.
Qed.

Lemma apply_pls_key k a b ps : forall v,
  ~ In k (map fst a) ->
  apply_pls (JObj (a ++ (k, v) :: b)) (pre_pls (PKey k) ps)
  = match apply_pls v ps with Some v' => Some (JObj (a ++ (k, v') :: b)) | None => None end.
Proof.
  induction ps as [|p r IH]; intros v Hn; cbn [pre_pls map apply_pls]; [reflexivity|].
  change (apply_pl ?j (pre_pl (PKey k) p)) with (capply j (PKey k :: pl_path p, pl_data p)).
  rewrite capply_key by exact Hn. change (capply v (pl_path p, pl_data p)) with (apply_pl v p).
  destruct (apply_pl v p) as [v'|]; [|reflexivity]. apply IH. exact Hn.
Qed.

Lemma apply_pls_idx a b ps : forall v,
  apply_pls (JList (a ++ v :: b)) (pre_pls (PIdx (length a)) ps)
  = match apply_pls v ps with Some v' => Some (JList (a ++ v' :: b)) | None => None end.
Proof.
  induction ps as [|p r IH]; intros v; cbn [pre_pls map apply_pls]; [reflexivity|].
  change (apply_pl ?j (pre_pl (PIdx (length a)) p)) with (capply j (PIdx (length a) :: pl_path p, pl_data p)).
  rewrite capply_idx. change (capply v (pl_path p, pl_data p)) with (apply_pl v p).
  destruct (apply_pl v p) as [v'|]; [|reflexivity]. apply IH.
Qed.

(* the payloads addressed below one key or index, with that segment taken off, and the data that
   payloads addressed to the position itself bring *)
Definition cproj (seg : pathseg) (cs : list cpl) : list cpl :=
  flat_map (fun c => match fst c with
                     | seg' :: q => if seg_eqb seg seg' then [(q, snd c)] else []
                     | [] => []
                     end) cs.

Definition chd (c : cpl) : list (str * json) :=
  match fst c, snd c with [], Some kvs => kvs | _, _ => [] end.
Definition cheads (cs : list cpl) : list (str * json) := flat_map chd cs.

Lemma seg_eqb_eq a b : seg_eqb a b = true <-> a = b.
Proof.
  destruct a as [x|i], b as [y|j]; cbn; try (split; discriminate).
  - rewrite str_eqb_eq. split; congruence.
  - rewrite Nat.eqb_eq. split; congruence.
Qed.

Lemma seg_eqb_refl a : seg_eqb a a = true.
Proof. apply seg_eqb_eq. reflexivity. Qed.

Lemma cproj_app seg a b : cproj seg (a ++ b) = cproj seg a ++ cproj seg b.
Proof. apply flat_map_app. Qed.

Lemma cproj_cons seg c l : cproj seg (c :: l) = cproj seg [c] ++ cproj seg l.
Proof. exact (cproj_app seg [c] l). Qed.

Lemma cheads_app a b : cheads (a ++ b) = cheads a ++ cheads b.
Proof. apply flat_map_app. Qed.

Lemma in_cproj seg q d cs : In (q, d) (cproj seg cs) <-> In (seg :: q, d) cs.
Proof.
  unfold cproj. rewrite in_flat_map. split.
  - intros [[p d0] [Hin Hx]]. cbn [fst snd] in Hx. destruct p as [|seg' q']; [destruct Hx|].
    destruct (seg_eqb seg seg') eqn:E; [|destruct Hx]. apply seg_eqb_eq in E. subst seg'.
    destruct Hx as [Hx|[]]. inversion Hx; subst. exact Hin.
  - intro Hin. exists (seg :: q, d). split; [exact Hin|]. cbn [fst snd]. rewrite seg_eqb_refl. left. reflexivity.
Qed.

Lemma cproj_pre seg seg' ps :
  cproj seg (map core (pre_pls seg' ps)) = if seg_eqb seg seg' then map core ps else [].
Proof.
  induction ps as [|p r IH]; cbn [pre_pls map]; [destruct (seg_eqb seg seg'); reflexivity|].
  rewrite cproj_cons. fold (pre_pls seg' r). rewrite IH. cbn. destruct (seg_eqb seg seg'); reflexivity.
Qed.

Lemma cheads_pre seg ps : cheads (map core (pre_pls seg ps)) = [].
Proof. induction ps as [|p r IH]; cbn; [reflexivity|]. exact IH. Qed.

(* a data-less payload (a failed execution group) changes nothing *)
Lemma cheads_none p (rest : list cpl) : cheads (((p, None) : cpl) :: rest) = cheads rest.
Proof. destruct p; reflexivity. Qed.

Lemma capplys_cproj_none v seg p (rest : list cpl) :
  capplys v (cproj seg (((p, None) : cpl) :: rest)) = capplys v (cproj seg rest).
Proof.
  rewrite cproj_cons. destruct p as [|seg' q]; [reflexivity|]. cbn. destruct (seg_eqb seg seg'); reflexivity.
Qed.

(* an object against an arbitrary sequence of payloads, data-less ones included: every key's final
   value is its first value with exactly the payloads addressed below that key applied in their order;
   the keys brought by a payload addressed to the object itself count from where they appear *)
Lemma obj_sim cs : forall kvs r,
  NoDup (map fst kvs ++ map fst (cheads cs)) ->
  capplys (JObj kvs) cs = Some r ->
  exists kvs_r, r = JObj kvs_r /\
    map fst kvs_r = map fst kvs ++ map fst (cheads cs) /\
    (forall k v0, In (k, v0) (kvs ++ cheads cs) ->
       exists v, In (k, v) kvs_r /\ capplys v0 (cproj (PKey k) cs) = Some v).
Proof.
  induction cs as [|c rest IH]; intros kvs r Hnd H.
  - cbn in H. inversion H; subst. exists kvs. cbn [cheads flat_map map]. rewrite !app_nil_r.
    split; [reflexivity|]. split; [reflexivity|].
    intros k v0 Hin. exists v0. split; [exact Hin|reflexivity].
  - destruct c as [p [dkvs|]].
    2:{ cbn [capplys capply snd] in H.
      rewrite cheads_none in Hnd |- *. destruct (IH kvs r Hnd H) as [kvs_r [-> [Hk H3]]].
      exists kvs_r. split; [reflexivity|]. split; [exact Hk|].
      intros k v0 Hin. rewrite capplys_cproj_none. apply H3. exact Hin. }
    cbn [capplys] in H.
    destruct p as [|[k'|i'] q].
    + (* addressed to the object: its keys are appended *)
      unfold capply in H. cbn [fst snd Merge.update_at] in H.
      change (cheads (([], Some dkvs) :: rest)) with (dkvs ++ cheads rest) in *. rewrite map_app in Hnd.
      rewrite merge_into_fresh in H.
      2:{ apply NoDup_app_r in Hnd. apply NoDup_app_l in Hnd. exact Hnd. }
      2:{ intros k Hk Hin. eapply NoDup_app_disj; [exact Hnd|exact Hin|]. apply in_or_app. left. exact Hk. }
      destruct (IH (kvs ++ dkvs) r) as [kvs_r [-> [Hk H3]]]; [|exact H|].
      { rewrite map_app, <- app_assoc. exact Hnd. }
      exists kvs_r. split; [reflexivity|]. split.
      { rewrite Hk, !map_app, app_assoc. reflexivity. }
      intros k v0 Hin. rewrite app_assoc in Hin. exact (H3 k v0 Hin).
    + (* below a key *)
      change (cheads ((PKey k' :: q, Some dkvs) :: rest)) with (cheads rest) in *.
      destruct (mem k' (map fst kvs)) eqn:Em.
      2:{ exfalso. apply mem_not_In in Em. unfold capply in H. cbn [fst snd Merge.update_at] in H.
          rewrite upd_key_none in H by exact Em. discriminate. }
      apply mem_In in Em. destruct (in_split_first k' kvs Em) as [a0 [v0' [b0 [-> Hna]]]].
      rewrite capply_key in H by exact Hna.
      destruct (capply v0' (q, Some dkvs)) as [v1|] eqn:E1; [|discriminate].
      assert (Hkeys : map fst (a0 ++ (k', v1) :: b0) = map fst (a0 ++ (k', v0') :: b0)).
      { rewrite !map_app. reflexivity. }
      destruct (IH (a0 ++ (k', v1) :: b0) r) as [kvs_r [-> [Hk H3]]]; [|exact H|].
      { rewrite Hkeys. exact Hnd. }
      exists kvs_r. split; [reflexivity|]. split; [rewrite Hk, Hkeys; reflexivity|].
      assert (Hnd' : NoDup (map fst ((a0 ++ (k', v0') :: b0) ++ cheads rest))) by (rewrite map_app; exact Hnd).
      intros k v0 Hin. rewrite cproj_cons. cbn [cproj flat_map fst snd app seg_eqb].
      destruct (str_eqb k k') eqn:Ek.
      * apply str_eqb_eq in Ek. subst k'.
        assert (v0 = v0').
        { eapply NoDup_fst_inj; [exact Hnd'|exact Hin|]. apply in_or_app. left. apply in_or_app. right. left. reflexivity. }
        subst v0'.
        destruct (H3 k v1) as [v [Hv Ha]]; [apply in_or_app; left; apply in_or_app; right; left; reflexivity|].
        exists v. split; [exact Hv|]. cbn [app capplys]. rewrite E1. exact Ha.
      * apply (H3 k v0). rewrite <- app_assoc in Hin |- *. cbn [app] in Hin |- *.
        apply in_app_or in Hin as [Hin|[Hin|Hin]]; apply in_or_app; [left; exact Hin| |right; right; exact Hin].
        inversion Hin; subst. rewrite str_eqb_refl in Ek. discriminate.
    + (* an index below an object: the merge fails *)
      unfold capply in H. cbn in H. discriminate.
Qed.

Lemma list_sim cs : forall js r,
  capplys (JList js) cs = Some r ->
  exists js_r, r = JList js_r /\ length js_r = length js /\
    forall i v0, nth_error js i = Some v0 ->
      exists v, nth_error js_r i = Some v /\ capplys v0 (cproj (PIdx i) cs) = Some v.
Proof.
  induction cs as [|c rest IH]; intros js r H.
  - cbn in H. inversion H; subst. exists js. split; [reflexivity|]. split; [reflexivity|].
    intros i v0 Hn. exists v0. split; [exact Hn|reflexivity].
  - destruct c as [p [dkvs|]].
    2:{ cbn [capplys capply snd] in H.
        destruct (IH js r H) as [js_r [-> [Hl H3]]].
        exists js_r. split; [reflexivity|]. split; [exact Hl|]. intros i v0 Hn.
        rewrite capplys_cproj_none. apply H3. exact Hn. }
    cbn [capplys] in H. destruct p as [|[k'|i'] q].
    + unfold capply in H. cbn in H. discriminate.
    + unfold capply in H. cbn in H. discriminate.
    + destruct (nth_error js i') as [v0'|] eqn:En.
      2:{ exfalso. unfold capply in H. cbn [fst snd Merge.update_at] in H.
          rewrite set_nth_none in H by exact En. discriminate. }
      destruct (nth_error_split js i' En) as [a0 [b0 [-> Hl]]]. subst i'.
      rewrite capply_idx in H.
      destruct (capply v0' (q, Some dkvs)) as [v1|] eqn:E1; [|discriminate].
      destruct (IH (a0 ++ v1 :: b0) r H) as [js_r [-> [Hlen H3]]].
      exists js_r. split; [reflexivity|]. split.
      { rewrite Hlen, !app_length. reflexivity. }
      intros i v0 Hn. rewrite cproj_cons. cbn [cproj flat_map fst snd app seg_eqb].
      destruct (Nat.eqb i (length a0)) eqn:Ei.
      * apply Nat.eqb_eq in Ei. subst i.
        rewrite nth_error_app2 in Hn by apply Nat.le_refl. rewrite Nat.sub_diag in Hn. cbn in Hn.
        inversion Hn; subst v0'.
        destruct (H3 (length a0) v1) as [v [Hv Ha]].
        { rewrite nth_error_app2 by apply Nat.le_refl. rewrite Nat.sub_diag. reflexivity. }
        exists v. split; [exact Hv|]. cbn [app capplys]. rewrite E1. exact Ha.
      * apply Nat.eqb_neq in Ei. apply (H3 i v0).
        destruct (Nat.lt_ge_cases i (length a0)) as [Hlt|Hge].
        -- rewrite nth_error_app1 in * by exact Hlt. exact Hn.
        -- rewrite nth_error_app2 in * by exact Hge.
           destruct (i - length a0)%nat as [|m] eqn:Em; [lia|]. cbn in *. exact Hn.
Qed.

Lemma find_frag_In name frags fr : find_frag name frags = Some fr -> In fr frags.
Proof.
  induction frags as [|f r IH]; cbn; [discriminate|].
  destruct (str_eqb name (fr_name f)); [intro H; inversion H; left; reflexivity|].
  intro H. right. apply IH. exact H.
Qed.

