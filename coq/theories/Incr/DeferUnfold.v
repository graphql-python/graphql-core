(* How proofs use the executors of Incr/DeferExec.v: one step of each function as an equation, the case
   analyses of CompleteValue and ExecuteField stated once (shared with Exec/Spec.v, whose functions have the
   same shape), what the loops return, and what a whole request unfolds to. *)
From GV Require Import Base.Prelude Exec.Value Exec.Schema Exec.Spec Incr.DeferExec Incr.DeferLib.
From GV Require Incr.Plan.

(* the decision tree of [complete] / [gcomplete] over type and data; the results without recursion
   ([imm]), below a non-null type, of a list and of an object position are parameters *)
Section CompleteShape.
  Context {B : Type}.
  Variable s : schema.
  Variable imm : out -> option B.
  Variable nn : ty -> option B.
  Variable lst : ty -> list data -> option B.
  Variable obj : str -> list (str * data) -> option B.

  Definition complete_shape (t : ty) (d : data) : option B :=
    match d with
    | DRaise => imm (raise_here CauseRaise)
    | _ =>
      match t with
      | TNonNull t' => nn t'
      | TList it =>
          match d with
          | DNull => imm (CVal JNull, [], [])
          | DList items => lst it items
          | _ => imm (raise_here CauseNonList)
          end
      | TNamed n =>
          match d with
          | DNull => imm (CVal JNull, [], [])
          | _ =>
            match lookup_type s n with
            | Some (TObject _ _) => obj n (data_fields d)
            | Some (TInterface _) | Some (TUnion _) =>
                match d with
                | DObj rt flds =>
                    if is_object s rt && possible s n rt then obj rt flds else imm (raise_here CauseType)
                | _ => imm (raise_here CauseType)
                end
            | Some td =>
                match d with
                | DLeaf l =>
                    match complete_leaf td l with
                    | Some j => imm (CVal j, [], [])
                    | None => imm (raise_here CauseLeaf)
                    end
                | _ => imm (raise_here CauseLeaf)
                end
            | None => imm (raise_here CauseType)
            end
          end
      end
    end.
End CompleteShape.

Lemma complete_shape_rel {A B} (R : option A -> option B -> Prop) s immA immB nnA nnB lstA lstB objA objB :
  (forall c, R (immA (raise_here c)) (immB (raise_here c))) ->
  (forall j, R (immA (CVal j, [], [])) (immB (CVal j, [], []))) ->
  (forall t, R (nnA t) (nnB t)) ->
  (forall it items, R (lstA it items) (lstB it items)) ->
  (forall rt flds, R (objA rt flds) (objB rt flds)) ->
  forall t d, R (complete_shape s immA nnA lstA objA t d) (complete_shape s immB nnB lstB objB t d).
Proof.
  intros Hr Hv Hn Hl Ho t d. unfold complete_shape.
  destruct d as [|l|rt flds|items|], t as [n|it|t']; auto;
    destruct (lookup_type s n) as [[sc|vals|ofs ifs|ifs|ms|idefs ioo]|]; auto.
  - destruct (complete_leaf (TScalar sc) l); auto.
  - destruct (complete_leaf (TEnum vals) l); auto.
  - destruct (complete_leaf (TInput idefs ioo) l); auto.
  - destruct (is_object s rt && possible s n rt); auto.
  - destruct (is_object s rt && possible s n rt); auto.
Qed.

Lemma complete_shape_ind {A} (Q : option A -> Prop) s imm nn lst obj :
  (forall c, Q (imm (raise_here c))) -> (forall j, Q (imm (CVal j, [], []))) ->
  (forall t, Q (nn t)) -> (forall it items, Q (lst it items)) -> (forall rt flds, Q (obj rt flds)) ->
  forall t d, Q (complete_shape s imm nn lst obj t d).
Proof. intros. apply (complete_shape_rel (fun a _ => Q a) s imm imm nn nn lst lst obj obj); auto. Qed.

(* a null in a non-null position becomes a field error; the payloads of the position go with it *)
Definition nn_wrap (x : option xout) : option xout :=
  match x with
  | None => None
  | Some ((CVal JNull, es, cs), _, rv) => Some ((CErr, es ++ [([], CauseNull)], cs), [], rv)
  | Some x => Some x
  end.

Lemma nn_wrap_null es cs pls rv :
  nn_wrap (Some ((CVal JNull, es, cs), pls, rv)) = Some ((CErr, es ++ [([], CauseNull)], cs), [], rv).
Proof. reflexivity. Qed.

Lemma nn_wrap_other r es cs pls rv :
  r <> CVal JNull -> nn_wrap (Some ((r, es, cs), pls, rv)) = Some ((r, es, cs), pls, rv).
Proof. intro H. destruct r as [[| | | | | |]|]; try reflexivity. congruence. Qed.

Lemma cres_null_dec (r : cres) : r = CVal JNull \/ r <> CVal JNull.
Proof. destruct r as [[| | | | | |]|]; [left; reflexivity|right; discriminate..]. Qed.

Lemma json_null_dec (j : json) : j = JNull \/ j <> JNull.
Proof. destruct j; [left; reflexivity|right; discriminate..]. Qed.

Lemma nn_wrap_inv x r es cs pls rv : nn_wrap x = Some ((r, es, cs), pls, rv) ->
  (exists es1 pls1, x = Some ((CVal JNull, es1, cs), pls1, rv) /\ r = CErr /\ es = es1 ++ [([], CauseNull)] /\ pls = []) \/
  (x = Some ((r, es, cs), pls, rv) /\ r <> CVal JNull).
Proof.
  destruct x as [[[[[r1 es1] cs1] pls1] rv1]|]; [|discriminate].
  destruct (cres_null_dec r1) as [->|Hn].
  - rewrite nn_wrap_null. intro H. inversion H; subst. left. exists es1, pls1. repeat split.
  - rewrite nn_wrap_other by exact Hn. intro H. inversion H; subst. right. split; [reflexivity|exact Hn].
Qed.

Definition list_res (x : option xitems_out) : option xout :=
  match x with
  | None => None
  | Some (Some js, es, cs, pls, rv) => Some ((CVal (JList js), es, cs), pls, rv)
  | Some (None, es, cs, _, rv) => Some ((CErr, es, cs), [], rv)
  end.

(* the same for Exec/Spec.v *)
Definition nn_out (x : option out) : option out :=
  match x with
  | None => None
  | Some (CVal JNull, es, cs) => Some (CErr, es ++ [([], CauseNull)], cs)
  | Some o => Some o
  end.

Definition list_out (x : option items_out) : option out :=
  match x with
  | None => None
  | Some (Some js, es, cs) => Some (CVal (JList js), es, cs)
  | Some (None, es, cs) => Some (CErr, es, cs)
  end.

Section FieldShape.
  Context {B : Type}.
  Variable s : schema.
  Variable cv : list (str * value).
  Variable tn : str.
  Variables skip tyname : B.
  Variable argerr : field_def -> B.
  Variable comp : field_def -> list (str * value) -> B.

  Definition field_shape (f1 : fieldsel) : B :=
    if str_eqb (fs_name f1) n_typename then tyname
    else
      match lookup_field s tn (fs_name f1) with
      | None => skip
      | Some fd =>
        match coerce_args s cv (f_args fd) (fs_args f1) with
        | None => argerr fd
        | Some args => comp fd args
        end
      end.
End FieldShape.

Lemma field_shape_rel {A B} (R : A -> B -> Prop) s cv tn skA skB tyA tyB aeA aeB cA cB :
  R skA skB -> R tyA tyB -> (forall fd, R (aeA fd) (aeB fd)) -> (forall fd args, R (cA fd args) (cB fd args)) ->
  forall f1, R (field_shape s cv tn skA tyA aeA cA f1) (field_shape s cv tn skB tyB aeB cB f1).
Proof.
  intros Hs Ht Ha Hc f1. unfold field_shape.
  destruct (str_eqb (fs_name f1) n_typename); [exact Ht|].
  destruct (lookup_field s tn (fs_name f1)) as [fd|]; [|exact Hs].
  destruct (coerce_args s cv (f_args fd) (fs_args f1)); [apply Hc|apply Ha].
Qed.

Lemma field_shape_ind {A} (Q : A -> Prop) s cv tn sk ty ae c :
  Q sk -> Q ty -> (forall fd, Q (ae fd)) -> (forall fd args, Q (c fd args)) ->
  forall f1, Q (field_shape s cv tn sk ty ae c f1).
Proof. intros. apply (field_shape_rel (fun a _ => Q a) s cv tn sk sk ty ty ae ae c c); auto. Qed.

Definition field_data (obj : list (str * data)) (name : str) : data :=
  match lookup name obj with Some d => d | None => DNull end.

(* the completed value of a field becomes the field's result: the resolver call is recorded, a field
   error is caught according to the field's type *)
Definition field_res (np : bool) (t : ty) (name : str) (args : list (str * value)) (x : option xout)
  : option xfres :=
  match x with
  | None => None
  | Some ((r, es, cs), pls, rv) => Some (XRes (gxcatch np t ((r, es, ([], name, args) :: cs), pls, rv)))
  end.

Lemma XRes_inj (a b : xout) : Some (XRes a) = Some (XRes b) -> a = b.
Proof. congruence. Qed.

Lemma Some_inj {A} (a b : A) : Some a = Some b -> a = b.
Proof. congruence. Qed.

Definition xcres (x : xout) : cres := fst (fst (fst (fst x))).
Definition xerrs (x : xout) : list err := snd (fst (fst (fst x))).

Lemma gxcatch_val np t j es cs pls rv :
  gxcatch np t ((CVal j, es, cs), pls, rv) = ((CVal j, es, cs), pls, rv).
Proof. destruct np; reflexivity. Qed.

Lemma gxcatch_np t es cs pls rv :
  gxcatch true t ((CErr, es, cs), pls, rv) = ((CVal JNull, es, cs), [], rv).
Proof. reflexivity. Qed.

Lemma xerrs_gxcatch np t r es cs pls rv : xerrs (gxcatch np t ((r, es, cs), pls, rv)) = es.
Proof. destruct np, r; try reflexivity. cbn. destruct (is_nonnull t); reflexivity. Qed.

Definition field_out (t : ty) (name : str) (args : list (str * value)) (x : option out) : option fres :=
  match x with
  | None => None
  | Some (r, es, cs) => Some (FRes (catch t (r, es, ([], name, args) :: cs)))
  end.

Section Unfold.
  Variable np : bool.
  Variable s : schema.
  Variable frags : list fragment.
  Variable cv : list (str * value).
  Variable pl : bool.

  Lemma gexec_sels_S f tn obj srcs parent base depth :
    gexec_sels np s frags cv pl (S f) tn obj srcs parent base depth =
    match dcollect_srcs s frags cv tn base depth f srcs cs0 with
    | None => None
    | Some st =>
      let base' := base + N.of_nat (length (c_new st)) in
      let p := if pl then plan_of (c_g st) parent else (c_g st, []) in
      match dexec_groups (gexec_field np s frags cv pl f tn obj parent base' depth) (fst p) with
      | None => None
      | Some (None, es, cs, _, rv) => Some ((CErr, es, cs), [], c_rev st || rv)
      | Some (Some kvs, es, cs, pls, rv) =>
        match dexec_deferred (fun par => gexec_field np s frags cv pl f tn obj par base' depth) (snd p) with
        | None => None
        | Some (dpls, rv') => Some ((CVal (JObj kvs), es, cs), pls ++ dpls, c_rev st || rv || rv')
        end
      end
    end.
  Proof. reflexivity. Qed.

  Lemma gexec_field_S f tn obj parent base depth fs :
    gexec_field np s frags cv pl (S f) tn obj parent base depth fs =
    match fs with
    | [] => Some XSkip
    | d1 :: _ =>
      field_shape s cv tn (Some XSkip) (Some (XRes ((CVal (JStr tn), [], []), [], false)))
        (fun fd => Some (XRes (gcatch np (f_type fd) (raise_here CauseArgs), [], false)))
        (fun fd args =>
           field_res np (f_type fd) (fs_name (df_fs d1)) args
             (gcomplete np s frags cv pl f (f_type fd) fs (field_data obj (fs_name (df_fs d1)))
                parent base (S depth)))
        (df_fs d1)
    end.
  Proof. reflexivity. Qed.

  Lemma gcomplete_S f t fs d parent base depth :
    gcomplete np s frags cv pl (S f) t fs d parent base depth =
    complete_shape s (fun o => Some (o, [], false))
      (fun t' => nn_wrap (gcomplete np s frags cv pl f t' fs d parent base depth))
      (fun it items =>
         list_res (dcomplete_items
                     (fun x => option_map (gxcatch np it)
                                 (gcomplete np s frags cv pl f it fs x parent base (S depth)))
                     items O))
      (fun rt flds => gexec_sels np s frags cv pl f rt flds (srcs_of fs) parent base depth)
      t d.
  Proof. reflexivity. Qed.
End Unfold.

Section UnfoldSpec.
  Variable s : schema.
  Variable frags : list fragment.
  Variable cv : list (str * value).

  Lemma spec_exec_field_S f tn obj fs :
    exec_field s frags cv (S f) tn obj fs =
    match fs with
    | [] => Some FSkip
    | f1 :: _ =>
      field_shape s cv tn (Some FSkip) (Some (FRes (CVal (JStr tn), [], [])))
        (fun fd => Some (FRes (catch (f_type fd) (raise_here CauseArgs))))
        (fun fd args =>
           field_out (f_type fd) (fs_name f1) args
             (complete s frags cv f (f_type fd) (merged_sels fs) (field_data obj (fs_name f1))))
        f1
    end.
  Proof. reflexivity. Qed.

  Lemma spec_complete_S f t sels d :
    complete s frags cv (S f) t sels d =
    complete_shape s Some
      (fun t' => nn_out (complete s frags cv f t' sels d))
      (fun it items =>
         list_out (complete_items (fun x => option_map (catch it) (complete s frags cv f it sels x)) items O))
      (fun rt flds => exec_sels s frags cv f rt flds sels)
      t d.
  Proof. reflexivity. Qed.
End UnfoldSpec.

(* what one executed field contributes: response key, value, errors, payloads created below it *)
Definition ent4 : Type := (str * json * list err * list payload)%type.
Definition e4_key (e : ent4) : str := fst (fst (fst e)).
Definition e4_val (e : ent4) : json := snd (fst (fst e)).
Definition e4_errs (e : ent4) : list err := snd (fst e).
Definition e4_pls (e : ent4) : list payload := snd e.
Definition kvs4 (E : list ent4) : list (str * json) := map (fun e => (e4_key e, e4_val e)) E.
Definition lift4 (E : list ent4) : list payload := flat_map (fun e => pre_pls (PKey (e4_key e)) (e4_pls e)) E.
Definition errs4 (E : list ent4) : list err := flat_map (fun e => pre_errs (PKey (e4_key e)) (e4_errs e)) E.

Lemma kvs4_keys E : map fst (kvs4 E) = map e4_key E.
Proof. unfold kvs4. rewrite map_map. reflexivity. Qed.

Lemma in_kvs4 e E : In e E -> In (e4_key e, e4_val e) (kvs4 E).
Proof. intro H. unfold kvs4. apply in_map_iff. exists e. split; [reflexivity|exact H]. Qed.

Definition ents4 (ef : list dfield -> option xfres) (g : dgrouped) : list ent4 :=
  flat_map (fun e => match ef (snd e) with
                     | Some (XRes ((CVal j, es, _), pl, _)) => [(fst e, j, es, pl)]
                     | _ => []
                     end) g.

(* the field was skipped or has a value *)
Definition fok (ef : list dfield -> option xfres) (e : str * list dfield) : Prop :=
  ef (snd e) = Some XSkip \/ exists j es cs pl rv, ef (snd e) = Some (XRes ((CVal j, es, cs), pl, rv)).

Lemma ents4_app ef a b : ents4 ef (a ++ b) = ents4 ef a ++ ents4 ef b.
Proof. apply flat_map_app. Qed.

Lemma ents4_keys_subl ef g : subl (map e4_key (ents4 ef g)) (map fst g).
Proof.
  unfold ents4. apply subl_flat_map. intros [k fs]. cbn [fst snd].
  destruct (ef fs) as [[|[[[[[j|] es] cs] pl] rv]]|]; auto.
  right. eexists. split; reflexivity.
Qed.

Lemma ents4_in ef g e : In e (ents4 ef g) ->
  exists fs cs rv, In (e4_key e, fs) g /\ ef fs = Some (XRes ((CVal (e4_val e), e4_errs e, cs), e4_pls e, rv)).
Proof.
  unfold ents4. intro H. apply in_flat_map in H as [[k fs] [Hin Hx]]. cbn [fst snd] in Hx.
  destruct (ef fs) as [[|[[[[[j|] es] cs] pl] rv]]|] eqn:Ef; cbn in Hx; try contradiction.
  destruct Hx as [<-|[]]. exists fs, cs, rv. split; [exact Hin|exact Ef].
Qed.

Lemma ents4_intro ef g k fs j es cs pl rv :
  In (k, fs) g -> ef fs = Some (XRes ((CVal j, es, cs), pl, rv)) -> In (k, j, es, pl) (ents4 ef g).
Proof.
  intros Hin Ef. unfold ents4. apply in_flat_map. exists (k, fs). split; [exact Hin|].
  cbn [fst snd]. rewrite Ef. left. reflexivity.
Qed.

(* ExecuteFields ends with all values, or at the first field whose error propagates *)
Lemma groups_shape ef g : forall r es cs pls rv,
  dexec_groups ef g = Some (r, es, cs, pls, rv) ->
  match r with
  | Some kvs => kvs = kvs4 (ents4 ef g) /\ es = errs4 (ents4 ef g) /\ pls = lift4 (ents4 ef g) /\
                Forall (fok ef) g
  | None => pls = [] /\
            exists k fs es1 cs1 pl1 rv1 pre, In (k, fs) g /\
              ef fs = Some (XRes ((CErr, es1, cs1), pl1, rv1)) /\ es = pre ++ pre_errs (PKey k) es1
  end.
Proof.
  induction g as [|[k fs] rest IH]; intros r es cs pls rv H; cbn [dexec_groups] in H.
  - inversion H; subst. repeat split. constructor.
  - cbn [ents4 flat_map fst snd]. fold (ents4 ef rest).
    destruct (ef fs) as [[|[[[[[j|] es0] cs0] pl0] rv0]]|] eqn:Ef; [| | |discriminate].
    + specialize (IH r es cs pls rv H). destruct r as [kvs|].
      * destruct IH as [H1 [H2 [H3 H4]]]. repeat split; try assumption.
        constructor; [left; exact Ef|exact H4].
      * destruct IH as [H1 [k0 [fs0 [es1 [cs1 [pl1 [rv1 [pre [Hin Hx]]]]]]]]]. split; [exact H1|].
        exists k0, fs0, es1, cs1, pl1, rv1, pre. split; [right; exact Hin|exact Hx].
    + destruct (dexec_groups ef rest) as [[[[[r' es'] cs'] pls'] rv']|] eqn:Er; [|discriminate].
      specialize (IH r' es' cs' pls' rv' eq_refl). inversion H; subst; clear H.
      destruct r' as [kvs'|]; cbn [option_map].
      * destruct IH as [H1 [H2 [H3 H4]]]. subst. repeat split.
        constructor; [right; do 5 eexists; exact Ef|exact H4].
      * destruct IH as [H1 [k0 [fs0 [es1 [cs1 [pl1 [rv1 [pre [Hin [Hx ->]]]]]]]]]]. split; [reflexivity|].
        exists k0, fs0, es1, cs1, pl1, rv1, (pre_errs (PKey k) es0 ++ pre).
        split; [right; exact Hin|]. split; [exact Hx|apply app_assoc].
    + inversion H; subst; clear H. split; [reflexivity|].
      exists k, fs, es0, cs0, pl0, rv, []. split; [left; reflexivity|]. split; [exact Ef|reflexivity].
Qed.

Lemma groups_intro ef g : Forall (fok ef) g ->
  exists cs rv, dexec_groups ef g
                = Some (Some (kvs4 (ents4 ef g)), errs4 (ents4 ef g), cs, lift4 (ents4 ef g), rv).
Proof.
  induction 1 as [|[k fs] rest He HF IH]; cbn [dexec_groups ents4 flat_map fst snd].
  - eexists _, _. reflexivity.
  - fold (ents4 ef rest). destruct IH as [cs [rv IH]].
    destruct He as [He|[j [es0 [cs0 [pl [rv0 He]]]]]]; cbn [snd] in He; rewrite He.
    + eexists _, _. exact IH.
    + rewrite IH. cbn. eexists _, _. reflexivity.
Qed.

(* the same for the items of a list *)
Definition it4 : Type := (json * list err * list payload)%type.
Definition i4_val (x : it4) : json := fst (fst x).
Definition i4_errs (x : it4) : list err := snd (fst x).
Definition i4_pls (x : it4) : list payload := snd x.
Fixpoint ilift4 (I : list it4) (i : nat) : list payload :=
  match I with
  | [] => []
  | x :: r => pre_pls (PIdx i) (i4_pls x) ++ ilift4 r (S i)
  end.
Fixpoint ierrs4 (I : list it4) (i : nat) : list err :=
  match I with
  | [] => []
  | x :: r => pre_errs (PIdx i) (i4_errs x) ++ ierrs4 r (S i)
  end.

Definition irs4 (cf : data -> option xout) (items : list data) : list it4 :=
  flat_map (fun x => match cf x with Some ((CVal j, es, _), pl, _) => [(j, es, pl)] | _ => [] end) items.

Definition iok (cf : data -> option xout) (x : data) : Prop :=
  exists j es cs pl rv, cf x = Some ((CVal j, es, cs), pl, rv).

Lemma items_shape cf items : forall i r es cs pls rv,
  dcomplete_items cf items i = Some (r, es, cs, pls, rv) ->
  match r with
  | Some js => js = map i4_val (irs4 cf items) /\ es = ierrs4 (irs4 cf items) i /\
               pls = ilift4 (irs4 cf items) i /\ Forall (iok cf) items
  | None => pls = [] /\
            exists x n es1 cs1 pl1 rv1 pre, In x items /\
              cf x = Some ((CErr, es1, cs1), pl1, rv1) /\ es = pre ++ pre_errs (PIdx n) es1
  end.
Proof.
  induction items as [|x rest IH]; intros i r es cs pls rv H; cbn [dcomplete_items] in H.
  - inversion H; subst. repeat split. constructor.
  - cbn [irs4 flat_map]. fold (irs4 cf rest).
    destruct (cf x) as [[[[[[j|] es0] cs0] pl0] rv0]|] eqn:Ef; [| |discriminate].
    + destruct (dcomplete_items cf rest (S i)) as [[[[[r' es'] cs'] pls'] rv']|] eqn:Er; [|discriminate].
      specialize (IH (S i) r' es' cs' pls' rv' Er).
      inversion H; subst; clear H. destruct r' as [js'|]; cbn [option_map].
      * destruct IH as [H1 [H2 [H3 H4]]]. subst. repeat split. constructor; [do 5 eexists; exact Ef|exact H4].
      * destruct IH as [H1 [y [n [es1 [cs1 [pl1 [rv1 [pre [Hin [Hx ->]]]]]]]]]]. split; [reflexivity|].
        exists y, n, es1, cs1, pl1, rv1, (pre_errs (PIdx i) es0 ++ pre).
        split; [right; exact Hin|]. split; [exact Hx|apply app_assoc].
    + inversion H; subst; clear H. split; [reflexivity|].
      exists x, i, es0, cs0, pl0, rv, []. split; [left; reflexivity|]. split; [exact Ef|reflexivity].
Qed.

Lemma items_intro cf items : Forall (iok cf) items -> forall i,
  exists cs rv, dcomplete_items cf items i
                = Some (Some (map i4_val (irs4 cf items)), ierrs4 (irs4 cf items) i, cs,
                        ilift4 (irs4 cf items) i, rv).
Proof.
  induction 1 as [|x rest He HF IH]; intro i; cbn [dcomplete_items irs4 flat_map].
  - eexists _, _. reflexivity.
  - fold (irs4 cf rest). destruct (IH (S i)) as [cs [rv IH']].
    destruct He as [j [es0 [cs0 [pl [rv0 He]]]]]. rewrite He, IH'. cbn. eexists _, _. reflexivity.
Qed.

(* an execution group of a position: its value, and the executed fields when it did not fail *)
Definition gr4 : Type := (payload * option (list ent4))%type.
Definition gpls (g : gr4) : list payload :=
  fst g :: match snd g with Some E => map nest_pl (lift4 E) | None => [] end.
(* the execution group values of one object position, in the order the model lists them *)
Definition canon4 (E0 : list ent4) (GL : list gr4) : list payload := lift4 E0 ++ flat_map gpls GL.

Definition wfg (g : gr4) : Prop :=
  pl_path (fst g) = [] /\
  match snd g with
  | Some E => pl_data (fst g) = Some (kvs4 E) /\ pl_errs (fst g) = errs4 E /\
              subl (map e4_key E) (pl_keys (fst g))
  | None => pl_data (fst g) = None
  end.

(* what a group that did not fail says of its own value *)
Lemma wfg_some g E : wfg g -> snd g = Some E ->
  pl_path (fst g) = [] /\ pl_data (fst g) = Some (kvs4 E) /\ pl_errs (fst g) = errs4 E /\
  subl (map e4_key E) (pl_keys (fst g)).
Proof. intros [Hp Hw] HE. rewrite HE in Hw. split; [exact Hp|exact Hw]. Qed.

Lemma deferred_shape ef groups : forall dpls rv,
  dexec_deferred ef groups = Some (dpls, rv) ->
  exists GL : list gr4,
    dpls = flat_map gpls GL /\ Forall wfg GL /\
    Forall2 (fun sg (g : gr4) =>
               pl_keys (fst g) = map fst (snd sg) /\
               match snd g with
               | Some E => E = ents4 (ef (Plan.ids (fst sg))) (snd sg) /\
                           Forall (fok (ef (Plan.ids (fst sg)))) (snd sg)
               | None => True
               end) groups GL.
Proof.
  induction groups as [|[sdu g] rest IH]; intros dpls rv H; cbn [dexec_deferred] in H.
  - inversion H; subst. exists []. repeat split; constructor.
  - destruct (dexec_groups (ef (Plan.ids sdu)) g) as [[[[[r es] cs] pls] rv0]|] eqn:Eg; [|discriminate].
    destruct (dexec_deferred ef rest) as [[pls' rv']|] eqn:Er; [|discriminate].
    destruct (IH pls' rv' eq_refl) as [GL [-> [Hwf HF2]]].
    pose proof (groups_shape _ _ _ _ _ _ _ Eg) as Hg.
    inversion H; subst; clear H. destruct r as [kvs|].
    + destruct Hg as [-> [-> [-> Hok]]].
      exists ((mkPl [] (group_chains sdu g) (Some (kvs4 (ents4 (ef (Plan.ids sdu)) g)))
                    (errs4 (ents4 (ef (Plan.ids sdu)) g)) cs false (map fst g),
               Some (ents4 (ef (Plan.ids sdu)) g)) :: GL).
      split; [reflexivity|]. split.
      * constructor; [|exact Hwf]. split; [reflexivity|]. cbn [fst snd pl_data pl_errs pl_keys].
        repeat split. apply ents4_keys_subl.
      * constructor; [|exact HF2]. cbn [fst snd pl_keys]. split; [reflexivity|]. split; [reflexivity|exact Hok].
    + destruct Hg as [-> _].
      exists ((mkPl [] (group_chains sdu g) None es cs false (map fst g), None) :: GL).
      split; [reflexivity|]. split.
      * constructor; [|exact Hwf]. split; reflexivity.
      * constructor; [|exact HF2]. cbn [fst snd pl_keys]. split; [reflexivity|exact I].
Qed.

Lemma deferred_intro ef groups :
  Forall (fun sg => Forall (fok (ef (Plan.ids (fst sg)))) (snd sg)) groups ->
  exists GL rv,
    dexec_deferred ef groups = Some (flat_map gpls GL, rv) /\ Forall wfg GL /\
    Forall2 (fun sg (g : gr4) => pl_keys (fst g) = map fst (snd sg) /\
                                 snd g = Some (ents4 (ef (Plan.ids (fst sg))) (snd sg))) groups GL.
Proof.
  induction 1 as [|[sdu g] rest Hg HF [GL [rv [IH1 [IH2 IH3]]]]]; cbn [dexec_deferred].
  - exists [], false. repeat split; constructor.
  - destruct (groups_intro _ _ Hg) as [cs [rv0 Hgi]]. cbn [fst snd] in Hgi. rewrite Hgi, IH1.
    set (E := ents4 (ef (Plan.ids sdu)) g).
    exists ((mkPl [] (group_chains sdu g) (Some (kvs4 E)) (errs4 E) cs false (map fst g), Some E) :: GL),
           (rv0 || rv).
    split; [reflexivity|]. split.
    + constructor; [|exact IH2]. split; [reflexivity|]. cbn [fst snd pl_data pl_errs pl_keys].
      repeat split. apply ents4_keys_subl.
    + constructor; [|exact IH3]. split; reflexivity.
Qed.

Lemma dexec_groups_ext ef1 ef2 g :
  (forall e, In e g -> ef1 (snd e) = ef2 (snd e)) -> dexec_groups ef1 g = dexec_groups ef2 g.
Proof.
  induction g as [|[k fs] r IH]; intro H; cbn [dexec_groups]; [reflexivity|].
  pose proof (H (k, fs) (or_introl eq_refl)) as Hk. cbn [snd] in Hk. rewrite Hk.
  rewrite IH; [reflexivity|]. intros e He. apply H. right. exact He.
Qed.

Lemma dcomplete_items_ext cf1 cf2 items : forall i,
  (forall x, cf1 x = cf2 x) -> dcomplete_items cf1 items i = dcomplete_items cf2 items i.
Proof.
  induction items as [|x r IH]; intros i H; cbn [dcomplete_items]; [reflexivity|].
  rewrite (H x), (IH (S i) H). reflexivity.
Qed.

Lemma dexec_groups_rv ef g : forall r es cs pls rv,
  (forall e o pl rv, In e g -> ef (snd e) = Some (XRes (o, pl, rv)) -> rv = false) ->
  dexec_groups ef g = Some (r, es, cs, pls, rv) -> rv = false.
Proof.
  induction g as [|[k fs] rest IH]; intros r es cs pls rv Hf H; cbn [dexec_groups] in H.
  - inversion H; reflexivity.
  - assert (Hf' : forall e o pl rv, In e rest -> ef (snd e) = Some (XRes (o, pl, rv)) -> rv = false).
    { intros e o pl0 rv0 He. apply Hf. right. exact He. }
    destruct (ef fs) as [[|[[[[[j|] es0] cs0] pl0] rv0]]|] eqn:Ef; [| | |discriminate].
    + eapply IH; eauto.
    + pose proof (Hf (k, fs) _ _ _ (or_introl eq_refl) Ef) as ->.
      destruct (dexec_groups ef rest) as [[[[[r' es'] cs'] pls'] rv']|] eqn:Er; [|discriminate].
      inversion H; subst. cbn [orb]. eapply IH; [exact Hf'|reflexivity].
    + pose proof (Hf (k, fs) _ _ _ (or_introl eq_refl) Ef) as ->. inversion H; reflexivity.
Qed.

Lemma dcomplete_items_rv cf items : forall i r es cs pls rv,
  (forall x o pl rv, cf x = Some (o, pl, rv) -> rv = false) ->
  dcomplete_items cf items i = Some (r, es, cs, pls, rv) -> rv = false.
Proof.
  induction items as [|x rest IH]; intros i r es cs pls rv Hf H; cbn [dcomplete_items] in H.
  - inversion H; reflexivity.
  - destruct (cf x) as [[[[[[j|] es0] cs0] pl0] rv0]|] eqn:Ef; [| |discriminate].
    + pose proof (Hf x _ _ _ Ef) as ->.
      destruct (dcomplete_items cf rest (S i)) as [[[[[r' es'] cs'] pls'] rv']|] eqn:Er; [|discriminate].
      inversion H; subst. cbn [orb]. eapply IH; [exact Hf|exact Er].
    + pose proof (Hf x _ _ _ Ef) as ->. inversion H; reflexivity.
Qed.

Definition root_fields (root : data) : list (str * data) :=
  match root with DObj _ f => f | _ => [] end.

Definition resp_of (x : option xout) : dresponse :=
  match x with
  | None => DOutOfFuel
  | Some ((CVal j, es, cs), pls, rv) => DResp j es cs pls rv
  | Some ((CErr, es, cs), _, rv) => DResp JNull es cs [] rv
  end.

Lemma resp_of_inv x j es cs pls rv : resp_of x = DResp j es cs pls rv ->
  exists r pls0, x = Some ((r, es, cs), pls0, rv) /\
    ((r = CVal j /\ pls = pls0) \/ (r = CErr /\ j = JNull /\ pls = [])).
Proof.
  destruct x as [[[[[[j1|] es1] cs1] pls1] rv1]|]; [| |discriminate]; intro H; inversion H; subst;
    eexists _, _; (split; [reflexivity|]).
  - left. split; reflexivity.
  - right. repeat split.
Qed.

(* a request that is answered at all is answered, under whatever flags, by a run of its root selection set *)
Lemma gexecute_fuel_run np pl fuel s d vars root j es cs pls rv :
  gexecute_fuel np pl fuel s d vars root = DResp j es cs pls rv ->
  exists cv tn, coerce_variable_values s (d_vars d) vars = Some cv /\
    root_type s (d_kind d) = Some tn /\ is_object s tn = true /\
    forall np' pl', gexecute_fuel np' pl' fuel s d vars root
      = resp_of (gexec_sels np' s (d_frags d) cv pl' fuel tn (root_fields root) [([], d_sels d)] [] 0 O).
Proof.
  unfold gexecute_fuel.
  destruct (coerce_variable_values s (d_vars d) vars) as [cv|]; [|discriminate].
  destruct (root_type s (d_kind d)) as [tn|]; [|discriminate].
  destruct (is_object s tn) eqn:Hobj; cbn [negb]; [|discriminate].
  intros _. exists cv, tn. split; [reflexivity|]. split; [reflexivity|]. split; [exact Hobj|]. intros np' pl'. fold (root_fields root).
  destruct (gexec_sels np' s (d_frags d) cv pl' fuel tn (root_fields root) [([], d_sels d)] [] 0 0)
    as [[[[[[j1|] es1] cs1] pls1] rv1]|]; reflexivity.
Qed.

(* the incremental response is its execution group values filtered by the delivery rule *)
Lemma dexecute_fuel_deliver pl fuel s d vars root :
  dexecute_fuel pl fuel s d vars root =
  match gexecute_fuel false pl fuel s d vars root with
  | DResp j es cs pls rv => DResp j es cs (deliver pls) rv
  | x => x
  end.
Proof.
  unfold dexecute_fuel, gexecute_fuel.
  destruct (coerce_variable_values s (d_vars d) vars) as [cv|]; [|reflexivity].
  destruct (root_type s (d_kind d)) as [tn|]; [|reflexivity].
  destruct (negb (is_object s tn)); [reflexivity|].
  change (dexec_sels s (d_frags d) cv pl) with (gexec_sels false s (d_frags d) cv pl).
  destruct (gexec_sels false s (d_frags d) cv pl fuel tn _ [([], d_sels d)] [] 0 0)
    as [[[[[[j|] es] cs] pls] rv]|]; reflexivity.
Qed.
