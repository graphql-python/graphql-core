(* The error clause of C04 for the @defer execution model Incr/DeferExec.v: for ANY request the data
   reassembled from the incremental run is the non-propagating reference with subtrees replaced by null -
   each explained by a reported error at or below - and keys withheld - each belonging to an execution
   group that failed or was not applied. *)
From GV Require Import Base.Prelude Base.ListFacts Exec.Value Exec.Schema Exec.Spec Exec.ValueFacts Incr.DeferExec Incr.DeferLib Incr.DeferUnfold Incr.DeferLevel Incr.DeferExecProps.
From GV Require Incr.Plan.
From Coq Require Import Permutation.

Fixpoint expl_mono Pe Pw m n (H : expl Pe Pw m n) {struct H} :
  forall (Pe' : path -> Prop) (Pw' : path -> str -> Prop),
    (forall q, Pe q -> Pe' q) -> (forall q k, Pw q k -> Pw' q k) -> expl Pe' Pw' m n.
Proof.
  intros Pe' Pw' He Hw. destruct H as [Pe Pw n Hn| | | | |Pe Pw a b Hl Hi|Pe Pw a b Ha Hb]; try constructor.
  - destruct Hn as [Hn|[q Hq]]; [left; exact Hn|right; exists q; apply He; exact Hq].
  - exact Hl.
  - intros i x y Hx Hy. apply (expl_mono _ _ _ _ (Hi i x y Hx Hy)); intros; [apply He|apply Hw]; assumption.
  - intros k v Hin. destruct (Ha k v Hin) as [w [Hw1 Hw2]]. exists w. split; [exact Hw1|].
    apply (expl_mono _ _ _ _ Hw2); intros; [apply He|apply Hw]; assumption.
  - intros k w Hin. destruct (Hb k w Hin) as [H1|H1]; [left; exact H1|right; apply Hw; exact H1].
Qed.

Lemma expl_null_r Pe Pw m : expl Pe Pw m JNull -> m = JNull.
Proof. intro H. inversion H; reflexivity. Qed.

Lemma expl_refl : forall j Pe Pw, expl Pe Pw j j.
Proof.
  fix IH 1. intros [|z|n d|x|b|l|kvs] Pe Pw; try constructor.
  - left. reflexivity.
  - reflexivity.
  - assert (G : forall (F : nat -> path -> Prop) (G : nat -> path -> str -> Prop) i x y,
               nth_error l i = Some x -> nth_error l i = Some y -> expl (F i) (G i) x y).
    { induction l as [|a r IHl]; intros F G [|i] x y Hx Hy; cbn in Hx, Hy; try discriminate.
      - injection Hx as <-. injection Hy as <-. apply IH.
      - exact (IHl (fun n => F (S n)) (fun n => G (S n)) i x y Hx Hy). }
    intros i x y Hx Hy.
    exact (G (fun i q => Pe (PIdx i :: q)) (fun i q k => Pw (PIdx i :: q) k) i x y Hx Hy).
  - intros k v Hin. exists v. split; [exact Hin|].
    revert Pe Pw k v Hin. induction kvs as [|[k0 v0] r IHk]; intros Pe Pw k v Hin; [destruct Hin|].
    destruct Hin as [Hin|Hin].
    + injection Hin as _ <-. apply IH.
    + exact (IHk Pe Pw k v Hin).
  - intros k w Hin. left. exists w. exact Hin.
Qed.

Lemma hidden_mono q : forall (Pw Pw' : path -> str -> Prop) m,
  (forall q k, Pw q k -> Pw' q k) -> hidden Pw q m -> hidden Pw' q m.
Proof.
  induction q as [|[k|i] r IH]; intros Pw Pw' m Himp H; destruct m; cbn [hidden] in *; try exact H.
  - destruct (lookup k kvs) as [v|]; [|apply Himp; exact H].
    eapply IH; [|exact H]. intros q0 k0. apply Himp.
  - destruct (nth_error l i) as [v|]; [|exact H].
    eapply IH; [|exact H]. intros q0 k0. apply Himp.
Qed.

(* the position lists every value of [pls] below [seg], possibly marked as nested *)
Definition lifted (seg : pathseg) (pls PLS : list payload) : Prop :=
  forall p, In p pls ->
    exists p', In p' PLS /\ pl_path p' = seg :: pl_path p /\ pl_data p' = pl_data p /\
               pl_errs p' = pl_errs p /\ pl_keys p' = pl_keys p.

Section Lift.
  Variables (seg : pathseg) (es ES : list err) (pls PLS : list payload) (cs' : list cpl).
  Hypothesis Hin : lifted seg pls PLS.

  Lemma lift_PErr q :
    (forall x, In x es -> PErr ES PLS cs' (seg :: fst x)) ->
    PErr es pls (cproj seg cs') q -> PErr ES PLS cs' (seg :: q).
  Proof.
    intros Herr [Hq|[p [x [Hp [Hc [Hxe ->]]]]]].
    - apply in_map_iff in Hq as [x [<- Hx]]. apply Herr. exact Hx.
    - destruct (Hin p Hp) as [p' [Hp' [Hpath [Hd [He _]]]]]. right. exists p', x.
      split; [exact Hp'|]. split; [|split; [rewrite He; exact Hxe|rewrite Hpath; reflexivity]].
      unfold core in *. rewrite Hpath, Hd. apply in_cproj. exact Hc.
  Qed.

  Lemma lift_PWh q k : PWh pls (cproj seg cs') q k -> PWh PLS cs' (seg :: q) k.
  Proof.
    intros [p [Hp [Hpath [Hkk Hd]]]]. destruct (Hin p Hp) as [p' [Hp' [Hpath' [Hd' [_ Hk']]]]].
    exists p'. split; [exact Hp'|]. split; [rewrite Hpath', Hpath; reflexivity|].
    split; [rewrite Hk'; exact Hkk|]. destruct Hd as [Hd|Hd]; [left; rewrite Hd'; exact Hd|right].
    intro Hc. apply Hd. unfold core in *. rewrite Hpath', Hd' in Hc. apply in_cproj. exact Hc.
  Qed.
End Lift.

Lemma in_errs4 E e x : In e E -> In x (e4_errs e) -> In (PKey (e4_key e) :: fst x) (map fst (errs4 E)).
Proof.
  intros He Hx. apply in_map_iff. exists (PKey (e4_key e) :: fst x, snd x). split; [reflexivity|].
  unfold errs4. apply in_flat_map. exists e. split; [exact He|].
  unfold pre_errs. apply in_map_iff. exists x. split; [reflexivity|exact Hx].
Qed.

(* a field of the initial result; a field of an applied execution group, whose errors its value reports *)
Lemma lift0_in E0 GL e : In e E0 -> lifted (PKey (e4_key e)) (e4_pls e) (canon4 E0 GL).
Proof.
  intros He p Hp. exists (pre_pl (PKey (e4_key e)) p). repeat split.
  unfold canon4. apply in_or_app. left. apply in_lift4; assumption.
Qed.

Lemma liftg_in E0 GL g E e : In g GL -> snd g = Some E -> In e E ->
  lifted (PKey (e4_key e)) (e4_pls e) (canon4 E0 GL).
Proof.
  intros Hg HE He p Hp. exists (nest_pl (pre_pl (PKey (e4_key e)) p)). repeat split.
  eapply in_canon_group; eassumption.
Qed.

Lemma lift0_err E0 GL cs' e x : In e E0 -> In x (e4_errs e) ->
  PErr (errs4 E0) (canon4 E0 GL) cs' (PKey (e4_key e) :: fst x).
Proof. intros He Hx. left. apply in_errs4; assumption. Qed.

Lemma liftg_err E0 GL cs' g E e x : wfg g -> In g GL -> snd g = Some E -> In e E -> In (core (fst g)) cs' ->
  In x (e4_errs e) -> PErr (errs4 E0) (canon4 E0 GL) cs' (PKey (e4_key e) :: fst x).
Proof.
  intros Hw Hg HE He Hcg Hx. destruct (wfg_some g E Hw HE) as [Hpath [_ [Hes _]]].
  right. exists (fst g), (PKey (e4_key e) :: fst x, snd x).
  split; [apply in_canon_head; exact Hg|]. split; [exact Hcg|]. split; [|rewrite Hpath; reflexivity].
  rewrite Hes. unfold errs4. apply in_flat_map. exists e. split; [exact He|].
  unfold pre_errs. apply in_map_iff. exists x. split; [reflexivity|exact Hx].
Qed.

Definition Rel (j0 : json) (es : list err) (pls : list payload) (jn : json) (esn : list err) : Prop :=
  ExplAny j0 es pls jn /\ ErrAcc j0 es pls esn.

(* the object assembled from a sub-multiset of the values of a position: every key it has is an executed
   field of the initial result or of an applied group, with exactly the applied values of that field
   applied to it; a planned key it lacks belongs to a group that failed or was not applied *)
Lemma level_entries E0 GL cs' m' :
  NoDup (map e4_key E0 ++ flat_map gkeys GL) -> Forall wfg GL ->
  SubPerm cs' (map core (canon4 E0 GL)) -> capplys (JObj (kvs4 E0)) cs' = Some m' ->
  exists kvs_r, m' = JObj kvs_r /\ NoDup (map fst kvs_r) /\
    (forall e, In e E0 -> In (e4_key e) (map fst kvs_r)) /\
    (forall k, planned GL k -> ~ In k (map fst kvs_r) -> PWh (canon4 E0 GL) cs' [] k) /\
    (forall k v, In (k, v) kvs_r -> exists e, entry E0 GL e /\ e4_key e = k /\
       capplys (e4_val e) (cproj (PKey k) cs') = Some v /\
       SubPerm (cproj (PKey k) cs') (map core (e4_pls e)) /\
       (forall q, PErr (e4_errs e) (e4_pls e) (cproj (PKey k) cs') q ->
                  PErr (errs4 E0) (canon4 E0 GL) cs' (PKey k :: q)) /\
       (forall q k', PWh (e4_pls e) (cproj (PKey k) cs') q k' -> PWh (canon4 E0 GL) cs' (PKey k :: q) k')).
Proof.
  intros Hnd Hw Hsp Hap.
  destruct (level_setup E0 GL cs' m' Hnd Hw Hsp Hap) as [kvs_r [-> [Hk [Hnr [S0 [Sg Shd]]]]]].
  exists kvs_r. split; [reflexivity|]. split; [exact Hnr|]. split; [|split].
  - intros e He. rewrite Hk. apply in_or_app. left. apply in_map. exact He.
  - intros k [g [Hg [Hkg HgE]]] Hnk. exists (fst g). split; [apply in_canon_head; exact Hg|].
    rewrite Forall_forall in Hw. destruct (Hw g Hg) as [Hpath Hwg].
    split; [exact Hpath|]. split; [exact Hkg|].
    destruct (snd g) as [E|] eqn:HE; [|left; exact Hwg].
    right. intro Hc. apply Hnk. specialize (HgE E eq_refl). apply in_map_iff in HgE as [e [<- He]].
    destruct (Sg g E e Hg HE He Hc) as [v [Hv _]]. exact (in_keys _ _ _ Hv).
  - intros k v Hin. pose proof (in_keys _ _ _ Hin) as Hkin. rewrite Hk in Hkin.
    apply in_app_or in Hkin as [Hkin|Hkin].
    + apply in_map_iff in Hkin as [e [<- He]].
      destruct (S0 e He) as [v' [Hv' Ha]]. rewrite (NoDup_fst_inj _ _ _ _ Hnr Hin Hv').
      exists e. split; [left; exact He|]. split; [reflexivity|]. split; [exact Ha|].
      split.
      { rewrite <- (cproj_canon_init E0 GL e Hnd Hw He). apply SubPerm_flat_map. exact Hsp. }
      split.
      * intros q. apply lift_PErr; [apply lift0_in; exact He|intros x; apply lift0_err; exact He].
      * intros q k'. apply lift_PWh. apply lift0_in. exact He.
    + destruct (keys_in _ _ Hkin) as [v0 Hin0].
      destruct (Shd k v0 Hin0) as [g [E [e [Hg [HE [He [<- Hcg]]]]]]].
      destruct (Sg g E e Hg HE He Hcg) as [v' [Hv' Ha]]. rewrite (NoDup_fst_inj _ _ _ _ Hnr Hin Hv').
      exists e. split; [right; eauto|]. split; [reflexivity|]. split; [exact Ha|].
      split.
      { rewrite <- (cproj_canon_group E0 GL g E e Hnd Hw Hg HE He). apply SubPerm_flat_map. exact Hsp. }
      split.
      * intros q. apply lift_PErr; [eapply liftg_in; eassumption|].
        intros x. rewrite Forall_forall in Hw. eapply liftg_err; eauto.
      * intros q k'. apply lift_PWh. eapply liftg_in; eassumption.
Qed.

Lemma errs4_inv Nn x : In x (errs4 Nn) ->
  exists n y, In n Nn /\ In y (e4_errs n) /\ x = (PKey (e4_key n) :: fst y, snd y).
Proof.
  unfold errs4. intro H. apply in_flat_map in H as [n [Hn Hx]]. unfold pre_errs in Hx.
  apply in_map_iff in Hx as [y [<- Hy]]. exists n, y. repeat split; assumption.
Qed.

Lemma nodup_key_eq (Nn : list ent4) n n' : NoDup (map e4_key Nn) -> In n Nn -> In n' Nn -> e4_key n = e4_key n' -> n = n'.
Proof.
  induction Nn as [|x r IH]; [intros _ []|]. cbn [map]. intros Hn H1 H2 Hk. inversion Hn; subst.
  destruct H1 as [->|H1], H2 as [->|H2]; [reflexivity| | |apply IH; assumption]; exfalso; apply H3.
  - rewrite Hk. apply in_map. exact H2.
  - rewrite <- Hk. apply in_map. exact H1.
Qed.

(* one object position against the reference's executed fields [Nn] *)
Lemma level_rel (E0 : list ent4) (GL : list gr4) (Nn : list ent4) :
  NoDup (map e4_key E0 ++ flat_map gkeys GL) -> Forall wfg GL -> NoDup (map e4_key Nn) ->
  (forall e, entry E0 GL e ->
     exists n, In n Nn /\ e4_key n = e4_key e /\ Rel (e4_val e) (e4_errs e) (e4_pls e) (e4_val n) (e4_errs n)) ->
  (forall n, In n Nn -> In (e4_key n) (map e4_key E0) \/ planned GL (e4_key n)) ->
  Rel (JObj (kvs4 E0)) (errs4 E0) (canon4 E0 GL) (JObj (kvs4 Nn)) (errs4 Nn).
Proof.
  intros Hnd Hw HnN Hent Hcov.
  assert (Hlack : forall (kvs_r : list (str * json)) n, In n Nn -> ~ In (e4_key n) (map fst kvs_r) ->
            (forall e, In e E0 -> In (e4_key e) (map fst kvs_r)) -> planned GL (e4_key n)).
  { intros kvs_r n Hn Hnk Hin0. destruct (Hcov n Hn) as [H0|Hg]; [|exact Hg].
    exfalso. apply Hnk. apply in_map_iff in H0 as [e [Hke He]]. rewrite <- Hke. exact (Hin0 e He). }
  split; intros cs' m' Hsp Hap;
    destruct (level_entries E0 GL cs' m' Hnd Hw Hsp Hap) as [kvs_r [-> [Hnr [Hin0 [Hwh Hent']]]]].
  - constructor.
    + intros k v Hin. destruct (Hent' k v Hin) as [e [He [<- [Ha [Hsub [HPe HPw]]]]]].
      destruct (Hent e He) as [n [Hn [Hkn [Hany _]]]]. exists (e4_val n).
      split; [rewrite <- Hkn; apply in_kvs4; exact Hn|].
      eapply expl_mono; [exact (Hany _ _ Hsub Ha)|exact HPe|exact HPw].
    + intros k w Hin.
      destruct (mem k (map fst kvs_r)) eqn:Em; [left; apply mem_In in Em; exact (keys_in _ _ Em)|].
      right. apply mem_not_In in Em. apply in_keys in Hin. rewrite kvs4_keys in Hin.
      apply in_map_iff in Hin as [n [<- Hn]]. exact (Hwh _ (Hlack _ n Hn Em Hin0) Em).
  - intros x Hx. destruct (errs4_inv _ _ Hx) as [n [y [Hn [Hy ->]]]]. cbn [fst].
    destruct (mem (e4_key n) (map fst kvs_r)) eqn:Em.
    2:{ apply mem_not_In in Em. right. cbn [hidden]. rewrite (lookup_none_notin _ _ Em).
        exact (Hwh _ (Hlack _ n Hn Em Hin0) Em). }
    apply mem_In in Em. destruct (keys_in _ _ Em) as [v Hv].
    destruct (Hent' _ v Hv) as [e [He [Hke [Ha [Hsub [HPe HPw]]]]]].
    destruct (Hent e He) as [n' [Hn' [Hkn' [_ Hacc]]]].
    assert (n' = n) by (eapply nodup_key_eq; try eassumption; congruence). subst n'.
    destruct (Hacc _ _ Hsub Ha y Hy) as [Hl|Hr].
    + left. exact (HPe _ Hl).
    + right. cbn [hidden]. rewrite (lookup_in_nodup _ _ _ Hnr Hv). eapply hidden_mono; [exact HPw|exact Hr].
Qed.

Lemma in_ierrs4 I : forall i0 n x e, nth_error I n = Some x -> In e (i4_errs x) ->
  In (PIdx (i0 + n) :: fst e) (map fst (ierrs4 I i0)).
Proof.
  induction I as [|y r IH]; intros i0 [|n] x e Hn He; cbn in Hn; try discriminate.
  - inversion Hn; subst. cbn [ierrs4]. rewrite map_app. apply in_or_app. left. rewrite Nat.add_0_r.
    apply in_map_iff. exists (PIdx i0 :: fst e, snd e). split; [reflexivity|].
    unfold pre_errs. apply in_map_iff. exists e. split; [reflexivity|exact He].
  - cbn [ierrs4]. rewrite map_app. apply in_or_app. right. replace (i0 + S n)%nat with (S i0 + n)%nat by lia.
    eapply IH; eassumption.
Qed.

Lemma lifti_in I i x : nth_error I i = Some x -> lifted (PIdx i) (i4_pls x) (ilift4 I 0).
Proof. intros Hx p Hp. exists (pre_pl (PIdx i) p). repeat split. exact (in_ilift4 I 0 i x p Hx Hp). Qed.

Lemma lifti_err I cs' i x e : nth_error I i = Some x -> In e (i4_errs x) ->
  PErr (ierrs4 I 0) (ilift4 I 0) cs' (PIdx i :: fst e).
Proof. intros Hx He. left. exact (in_ierrs4 I 0 i x e Hx He). Qed.

Lemma proj_item_sub I cs' i x : SubPerm cs' (map core (ilift4 I 0)) -> nth_error I i = Some x ->
  SubPerm (cproj (PIdx i) cs') (map core (i4_pls x)).
Proof. intros Hsp Hx. rewrite <- (cproj_ilift4_nth I i x Hx). apply SubPerm_flat_map. exact Hsp. Qed.

Lemma ierrs4_inv Nn : forall i0 x, In x (ierrs4 Nn i0) ->
  exists i n y, nth_error Nn i = Some n /\ In y (i4_errs n) /\ x = (PIdx (i0 + i) :: fst y, snd y).
Proof.
  induction Nn as [|n r IH]; intros i0 x H; cbn [ierrs4] in H; [destruct H|].
  apply in_app_or in H as [H|H].
  - unfold pre_errs in H. apply in_map_iff in H as [y [<- Hy]]. exists 0%nat, n, y.
    rewrite Nat.add_0_r. repeat split; assumption.
  - destruct (IH (S i0) x H) as [i [n' [y [Hn [Hy ->]]]]]. exists (S i), n', y.
    replace (i0 + S i)%nat with (S i0 + i)%nat by lia. repeat split; assumption.
Qed.

(* one list position against the reference's items [Nn] *)
Lemma level_rel_items (I Nn : list it4) :
  Forall2 (fun x n => Rel (i4_val x) (i4_errs x) (i4_pls x) (i4_val n) (i4_errs n)) I Nn ->
  Rel (JList (map i4_val I)) (ierrs4 I 0) (ilift4 I 0) (JList (map i4_val Nn)) (ierrs4 Nn 0).
Proof.
  intros HF.
  assert (Hitem : forall cs' i x n v, SubPerm cs' (map core (ilift4 I 0)) ->
            nth_error I i = Some x -> nth_error Nn i = Some n ->
            capplys (i4_val x) (cproj (PIdx i) cs') = Some v ->
            expl (fun q => PErr (ierrs4 I 0) (ilift4 I 0) cs' (PIdx i :: q))
                 (fun q k => PWh (ilift4 I 0) cs' (PIdx i :: q) k) v (i4_val n) /\
            forall y, In y (i4_errs n) ->
              PErr (ierrs4 I 0) (ilift4 I 0) cs' (PIdx i :: fst y) \/
              hidden (fun q k => PWh (ilift4 I 0) cs' (PIdx i :: q) k) (fst y) v).
  { intros cs' i x n v Hsp Hx Hn Ha.
    destruct (Forall2_nth _ _ _ HF i x n Hx Hn) as [Hany Hacc].
    assert (HPe : forall q, PErr (i4_errs x) (i4_pls x) (cproj (PIdx i) cs') q ->
                            PErr (ierrs4 I 0) (ilift4 I 0) cs' (PIdx i :: q)).
    { intros q. apply lift_PErr; [apply lifti_in; exact Hx|intros e; apply lifti_err; exact Hx]. }
    assert (HPw : forall q k, PWh (i4_pls x) (cproj (PIdx i) cs') q k -> PWh (ilift4 I 0) cs' (PIdx i :: q) k).
    { intros q k. apply lift_PWh. apply lifti_in. exact Hx. }
    split.
    - eapply expl_mono; [exact (Hany _ _ (proj_item_sub _ _ _ _ Hsp Hx) Ha)|exact HPe|exact HPw].
    - intros y Hy. destruct (Hacc _ _ (proj_item_sub _ _ _ _ Hsp Hx) Ha y Hy) as [Hl|Hr].
      + left. exact (HPe _ Hl).
      + right. eapply hidden_mono; [exact HPw|exact Hr]. }
  split; intros cs' m' Hsp Hap; destruct (items_setup I cs' m' Hap) as [js_r [-> [Hlen H3]]].
  - constructor; [rewrite Hlen, map_length; eapply Forall2_len; exact HF|].
    intros i v y Hv Hy. rewrite nth_error_map in Hy. destruct (nth_error Nn i) as [n|] eqn:Hn; [|discriminate].
    injection Hy as <-. destruct (Forall2_nth_r _ _ _ HF _ _ Hn) as [x [Hx _]].
    destruct (H3 i x Hx) as [v' [Hv' Ha]]. rewrite Hv in Hv'. injection Hv' as <-.
    exact (proj1 (Hitem cs' i x n v Hsp Hx Hn Ha)).
  - intros z Hz. destruct (ierrs4_inv Nn 0 z Hz) as [i [n [y [Hn [Hy ->]]]]]. cbn [fst Nat.add].
    destruct (Forall2_nth_r _ _ _ HF _ _ Hn) as [x [Hx _]]. destruct (H3 i x Hx) as [v [Hv Ha]].
    destruct (proj2 (Hitem cs' i x n v Hsp Hx Hn Ha) y Hy) as [Hl|Hr]; [left; exact Hl|right].
    cbn [hidden]. rewrite Hv. exact Hr.
Qed.

Lemma ErrAcc_nil j0 es pls : ErrAcc j0 es pls [].
Proof. intros cs' m' _ _ x []. Qed.

Lemma ErrAcc_null es esn : ErrAcc JNull es [] esn.
Proof.
  intros cs' m' Hsp Ha x Hx. apply SubPerm_nil_r in Hsp. subst. cbn in Ha. inversion Ha; subst.
  right. destruct (fst x); exact I.
Qed.

(* a propagating field error comes with an error and without payloads *)
Definition w1 (x : xout) : Prop :=
  xcres x = CErr -> snd (fst x) = [] /\ xerrs x <> [].

Lemma app_pre_nonnil pre seg (es : list err) : es <> [] -> pre ++ pre_errs seg es <> [].
Proof. intros H Hx. apply app_eq_nil in Hx as [_ Hx]. destruct es; [congruence|discriminate]. Qed.

Lemma ExplAny_same j : ExplAny j [] [] j.
Proof.
  intros cs' m' Hsp Ha. apply SubPerm_nil_r in Hsp. subst. cbn in Ha. inversion Ha; subst. apply expl_refl.
Qed.

Lemma ExplAny_null es jn : es <> [] -> ExplAny JNull es [] jn.
Proof.
  intros H cs' m' Hsp Ha. apply SubPerm_nil_r in Hsp. subst. cbn in Ha. inversion Ha; subst.
  constructor. right. destruct es as [|e r]; [congruence|]. exists (fst e). left. left. reflexivity.
Qed.
Lemma ExplAny_nonnull j0 es pls jn : ExplAny j0 es pls jn -> j0 <> JNull -> jn <> JNull.
Proof.
  intros H Hn Hj. subst. apply Hn. eapply expl_null_r. apply (H [] j0); [apply SubPerm_nil|reflexivity].
Qed.

Lemma Rel_same j : Rel j [] [] j [].
Proof. split; [apply ExplAny_same|apply ErrAcc_nil]. Qed.

Lemma Rel_null es jn esn : es <> [] -> Rel JNull es [] jn esn.
Proof. intro H. split; [apply ExplAny_null; exact H|apply ErrAcc_null]. Qed.

(* without propagation no field and no list item ends in an error *)
Lemma gxcatch_np_cval t z r es cs pls rv :
  option_map (gxcatch true t) z = Some ((r, es, cs), pls, rv) -> exists j, r = CVal j.
Proof.
  destruct z as [[[[[r0 es0] cs0] pls0] rv0]|]; [|discriminate].
  destruct r0; intro H; inversion H; eexists; reflexivity.
Qed.

Lemma nfield_cval s frags cv pl f tn obj par b dp fs x :
  gexec_field true s frags cv pl f tn obj par b dp fs = Some (XRes x) -> exists j, xcres x = CVal j.
Proof.
  destruct f as [|f]; [discriminate|]. rewrite gexec_field_S. destruct fs as [|d1 fs']; [discriminate|].
  revert x. apply (field_shape_ind (fun a => forall x, a = Some (XRes x) -> exists j, xcres x = CVal j)).
  - discriminate.
  - intros x H. inversion H; subst. eexists; reflexivity.
  - intros fd x H. inversion H; subst. eexists; reflexivity.
  - intros fd args x H. unfold field_res in H.
    destruct (gcomplete true s frags cv pl f _ _ _ par b (S dp)) as [[[[[r es] cs] pls] rv]|]; [|discriminate].
    apply XRes_inj in H. subst x. destruct r; eexists; reflexivity.
Qed.

(* a result of the incremental run D against the result of the non-propagating base run N *)
Definition RX (a b : option xout) : Prop :=
  forall r es cs pls rv, a = Some ((r, es, cs), pls, rv) ->
    (r = CErr -> pls = [] /\ es <> []) /\
    (forall j0, r = CVal j0 -> forall xn, b = Some xn ->
       exists jn esn csn pln rvn, xn = ((CVal jn, esn, csn), pln, rvn) /\ Rel j0 es pls jn esn).

Definition RXF (a b : option xfres) : Prop :=
  (a = Some XSkip -> forall xn, b = Some xn -> xn = XSkip) /\
  (forall r es cs pls rv, a = Some (XRes ((r, es, cs), pls, rv)) ->
     (r = CErr -> pls = [] /\ es <> []) /\
     (forall xn, b = Some xn ->
        exists jn esn csn pln rvn, xn = XRes ((CVal jn, esn, csn), pln, rvn) /\
          (forall j0, r = CVal j0 -> Rel j0 es pls jn esn))).

(* the same for a field or list item after its error handling *)
Definition RXV (y : xout) (b : option xout) : Prop :=
  w1 y /\
  forall xn, b = Some xn ->
    exists jn esn csn pln rvn, xn = ((CVal jn, esn, csn), pln, rvn) /\
      forall j0 es0 cs0 pls0 rv0, y = ((CVal j0, es0, cs0), pls0, rv0) -> Rel j0 es0 pls0 jn esn.

Lemma xitems_level cfd cfn items :
  (forall x y, cfd x = Some y -> RXV y (cfn x)) ->
  RX (list_res (dcomplete_items cfd items 0)) (list_res (dcomplete_items cfn items 0)).
Proof.
  intros Hitem r es cs pls rv H.
  destruct (dcomplete_items cfd items 0) as [[[[[r' es'] cs'] pls'] rv']|] eqn:Ei; [|discriminate].
  pose proof (items_shape _ _ _ _ _ _ _ _ Ei) as Hg. destruct r' as [js|].
  2:{ destruct Hg as [-> [x [n [es1 [cs1 [pl1 [rv1 [pre [_ [Hx ->]]]]]]]]]]. inversion H; subst.
      split; [intros _; split; [reflexivity|]|intros j0 Hj; discriminate].
      apply app_pre_nonnil. exact (proj2 (proj1 (Hitem _ _ Hx) eq_refl)). }
  destruct Hg as [-> [-> [-> Hok]]]. inversion H; subst; clear H. split; [discriminate|].
  intros j0 Hj xn Hn. inversion Hj; subst j0; clear Hj.
  destruct (dcomplete_items cfn items 0) as [[[[[rn esn] csn] plsn] rvn]|] eqn:En; [|discriminate].
  pose proof (items_shape _ _ _ _ _ _ _ _ En) as Hgn. destruct rn as [jsn|].
  2:{ exfalso. destruct Hgn as [_ [x [n [es1 [cs1 [pl1 [rv1 [pre [Hin [Hx _]]]]]]]]]].
      rewrite Forall_forall in Hok. destruct (Hok x Hin) as [j [e1 [c1 [p1 [r1 Hd]]]]].
      destruct (proj2 (Hitem _ _ Hd) _ Hx) as [jn [e2 [c2 [p2 [r2 [Heq _]]]]]]. discriminate. }
  destruct Hgn as [-> [-> [_ Hokn]]]. inversion Hn; subst. eexists _, _, _, _, _. split; [reflexivity|].
  apply level_rel_items. clear - Hitem Hok Hokn.
  induction items as [|x rest IH]; [constructor|].
  inversion Hok as [|x0 l0 [j1 [es1 [cs1 [pl1 [rv1 Hd1]]]]] Hok']; subst.
  inversion Hokn as [|x0 l0 [jn1 [esn1 [csn1 [pln1 [rvn1 Hn1]]]]] Hokn']; subst.
  unfold irs4. cbn [flat_map]. rewrite Hd1, Hn1. constructor; [|exact (IH Hok' Hokn')].
  destruct (proj2 (Hitem _ _ Hd1) _ Hn1) as [jn2 [esn2 [csn2 [pln2 [rvn2 [Heq Hany]]]]]].
  inversion Heq; subst. exact (Hany _ _ _ _ _ eq_refl).
Qed.

(* an executed field of D has its reference among the executed fields of N *)
Lemma xrel_entry efd efn part dg e :
  (forall x, In x part -> In x dg) -> (forall fs, RXF (efd fs) (efn fs)) ->
  Forall (fok efn) dg -> In e (ents4 efd part) ->
  exists n, In n (ents4 efn dg) /\ e4_key n = e4_key e /\
            Rel (e4_val e) (e4_errs e) (e4_pls e) (e4_val n) (e4_errs n).
Proof.
  intros Hsub Hrel Hokn He. destruct (ents4_in _ _ _ He) as [fs [cs [rv [Hin Hd]]]]. apply Hsub in Hin.
  destruct (Hrel fs) as [_ Hr]. destruct (Hr _ _ _ _ _ Hd) as [_ Hx].
  rewrite Forall_forall in Hokn. destruct (Hokn _ Hin) as [Hs|[jn [esn [csn [pln [rvn Hs]]]]]]; cbn [snd] in Hs.
  - destruct (Hx _ Hs) as [jn [esn [csn [pln [rvn [Hbad _]]]]]]. discriminate.
  - destruct (Hx _ Hs) as [jn' [esn' [csn' [pln' [rvn' [Heq Hany]]]]]]. inversion Heq; subst.
    exists (e4_key e, jn', esn', pln'). split; [eapply ents4_intro; eassumption|]. split; [reflexivity|].
    apply Hany. reflexivity.
Qed.

(* a field that N executes is not skipped by D *)
Lemma xrel_covered efd efn part k fs :
  RXF (efd fs) (efn fs) -> fok efd (k, fs) -> In (k, fs) part ->
  (exists x, efn fs = Some (XRes x)) -> In k (map e4_key (ents4 efd part)).
Proof.
  intros [Hsk _] Hfok Hin [x Hn]. destruct Hfok as [Hs|[j [es [cs [pl [rv Hs]]]]]]; cbn [snd] in Hs.
  - specialize (Hsk Hs _ Hn). discriminate.
  - apply (in_map e4_key _ (k, j, es, pl)). eapply ents4_intro; eassumption.
Qed.

Lemma xplan_level (efd : list N -> list dfield -> option xfres) efn dg S
      kvs0 es0 cs0 pls0 rv0 dpls rvd kvsn esn csn plsn rvn :
  NoDup (map fst dg) -> (forall par fs, RXF (efd par fs) (efn fs)) ->
  dexec_groups (efd S) (fst (plan_of dg S)) = Some (Some kvs0, es0, cs0, pls0, rv0) ->
  dexec_deferred efd (snd (plan_of dg S)) = Some (dpls, rvd) ->
  dexec_groups efn dg = Some (Some kvsn, esn, csn, plsn, rvn) ->
  Rel (JObj kvs0) es0 (pls0 ++ dpls) (JObj kvsn) esn.
Proof.
  intros Hdg Hrel Eg Ed En. pose proof (plan_of_partition dg S) as Hperm.
  destruct (plan_of dg S) as [init groups]. cbn [fst snd] in *.
  destruct (groups_shape _ _ _ _ _ _ _ Eg) as [-> [-> [-> Hok0]]].
  destruct (deferred_shape efd groups dpls rvd Ed) as [GL [-> [Hwf HF2]]].
  destruct (groups_shape _ _ _ _ _ _ _ En) as [-> [-> [_ Hokn]]].
  assert (Hsub : forall x, In x (init ++ flat_map snd groups) -> In x dg).
  { intros x. apply Permutation_in. exact Hperm. }
  assert (Hkeysg : flat_map gkeys GL = flat_map (fun sg => map fst (snd sg)) groups).
  { clear - HF2. induction HF2 as [|sg g l l' [Hk _] _ IH]; cbn [flat_map]; [reflexivity|].
    unfold gkeys at 1. rewrite Hk, IH. reflexivity. }
  apply level_rel; [|exact Hwf| | |].
  - rewrite Hkeysg. eapply subl_NoDup; [apply subl_app; [apply ents4_keys_subl|apply subl_refl]|].
    rewrite <- map_flat_map, <- map_app. eapply Permutation_NoDup; [|exact Hdg].
    apply Permutation_map. apply Permutation_sym. exact Hperm.
  - eapply subl_NoDup; [apply ents4_keys_subl|exact Hdg].
  - intros e [He|[g [E [Hg [HE He]]]]].
    + eapply xrel_entry; [|exact (Hrel S)|exact Hokn|exact He].
      intros x Hx. apply Hsub. apply in_or_app. left. exact Hx.
    + destruct (Forall2_in_r _ _ _ _ HF2 Hg) as [sg [Hsg [_ Hm]]]. rewrite HE in Hm. destruct Hm as [-> _].
      eapply xrel_entry; [|exact (Hrel (Plan.ids (fst sg)))|exact Hokn|exact He].
      intros x Hx. apply Hsub. apply in_or_app. right. apply in_flat_map. exists sg. split; assumption.
  - (* every key of the reference is planned *)
    intros n Hn. destruct (ents4_in _ _ _ Hn) as [fs [csx [rvx [Hin Hv]]]].
    pose proof (Permutation_in _ (Permutation_sym Hperm) Hin) as Hin2. apply in_app_or in Hin2 as [Hi|Hi].
    + left. rewrite Forall_forall in Hok0.
      eapply xrel_covered; [exact (Hrel S fs)|exact (Hok0 _ Hi)|exact Hi|eauto].
    + right. apply in_flat_map in Hi as [sg [Hsg Hi]].
      destruct (Forall2_in_l _ _ _ _ HF2 Hsg) as [g [Hg [Hk Hm]]]. exists g. split; [exact Hg|]. split.
      * unfold gkeys. rewrite Hk. exact (in_map fst _ _ Hi).
      * intros E HE. rewrite HE in Hm. destruct Hm as [-> Hokg]. rewrite Forall_forall in Hokg.
        eapply xrel_covered; [exact (Hrel _ fs)|exact (Hokg _ Hi)|exact Hi|eauto].
Qed.

Section ErrClause.
  Variable s : schema.
  Variable frags : list fragment.
  Variable cv : list (str * value).

  Notation Dsels := (gexec_sels false s frags cv true).
  Notation Dfield := (gexec_field false s frags cv true).
  Notation Dcomp := (gcomplete false s frags cv true).
  Notation Nsels := (gexec_sels true s frags cv false).
  Notation Nfield := (gexec_field true s frags cv false).
  Notation Ncomp := (gcomplete true s frags cv false).

  Definition XS (f : nat) : Prop :=
    forall tn obj srcs S0 S1 b dp, RX (Dsels f tn obj srcs S0 b dp) (Nsels f tn obj srcs S1 b dp).

  Definition XF (f : nat) : Prop :=
    forall tn obj S0 S1 b dp fs, RXF (Dfield f tn obj S0 b dp fs) (Nfield f tn obj S1 b dp fs).

  Definition XC (f : nat) : Prop :=
    forall t fs d S0 S1 b dp, RX (Dcomp f t fs d S0 b dp) (Ncomp f t fs d S1 b dp).

  (* the field or list item holding a completed value: D catches the error by the type, N always *)
  Lemma RX_catch t a b r es cs pls rv c y :
    RX a b -> a = Some ((r, es, cs), pls, rv) -> gxcatch false t ((r, es, c), pls, rv) = y ->
    w1 y /\
    forall r0 es0 cs0 pls0 rv0 c0, b = Some ((r0, es0, cs0), pls0, rv0) ->
      exists jn pln, gxcatch true t ((r0, es0, c0), pls0, rv0) = ((CVal jn, es0, c0), pln, rv0) /\
        forall j0 es1 cs1 pls1 rv1, y = ((CVal j0, es1, cs1), pls1, rv1) -> Rel j0 es1 pls1 jn es0.
  Proof.
    intros H Ha <-. destruct (H _ _ _ _ _ Ha) as [Hw Hx]. destruct r as [j|].
    - split; [intro Hc; discriminate|]. intros r0 es0 cs0 pls0 rv0 c0 ->.
      destruct (Hx j eq_refl _ eq_refl) as [jn [esn [csn [pln [rvn [Heq Hany]]]]]]. inversion Heq; subst.
      exists jn, pln. split; [reflexivity|]. intros j0 es1 cs1 pls1 rv1 Hy. inversion Hy; subst. exact Hany.
    - destruct (Hw eq_refl) as [-> Hne]. cbn [gxcatch gcatch catch]. split.
      + destruct (is_nonnull t); intro Hc; [split; [reflexivity|exact Hne]|discriminate].
      + intros r0 es0 cs0 pls0 rv0 c0 _. destruct r0 as [jn|]; eexists _, _; (split; [reflexivity|]);
          intros j0 es1 cs1 pls1 rv1 Hy; (destruct (is_nonnull t); [discriminate|]); inversion Hy; subst;
          apply Rel_null; exact Hne.
  Qed.

  Lemma stepX_F f : XC f -> XF (S f).
  Proof.
    intros HC tn obj S0 S1 b dp fs. rewrite !gexec_field_S.
    destruct fs as [|d1 fs'].
    { split; [intros _ xn Hn; inversion Hn; reflexivity|discriminate]. }
    apply field_shape_rel.
    - split; [intros _ xn Hn; inversion Hn; reflexivity|discriminate].
    - split; [discriminate|]. intros r es cs pls rv H. inversion H; subst. split; [discriminate|].
      intros xn Hn. inversion Hn; subst. eexists _, _, _, _, _. split; [reflexivity|].
      intros j0 Hj. inversion Hj; subst. apply Rel_same.
    - intro fd. split; [discriminate|]. intros r es cs pls rv H. unfold gcatch, raise_here in *. cbn [catch catch_np] in *.
      destruct (is_nonnull (f_type fd)); inversion H; subst.
      + split; [intros _; split; [reflexivity|discriminate]|].
        intros xn Hn. inversion Hn; subst. eexists _, _, _, _, _. split; [reflexivity|]. intros j0 Hj. discriminate.
      + split; [discriminate|].
        intros xn Hn. inversion Hn; subst. eexists _, _, _, _, _. split; [reflexivity|].
        intros j0 Hj. inversion Hj; subst. apply Rel_null. discriminate.
    - intros fd args. unfold field_res.
      specialize (HC (f_type fd) (d1 :: fs') (field_data obj (fs_name (df_fs d1))) S0 S1 b (S dp)).
      destruct (Dcomp f _ _ _ S0 b (S dp)) as [[[[[r1 es1] cs1] pls1] rv1]|]; [|split; discriminate].
      split; [discriminate|]. intros r es cs pls rv H. apply XRes_inj in H.
      destruct (RX_catch (f_type fd) _ _ _ _ _ _ _ _ _ HC eq_refl H) as [Hw Hn]. split; [exact Hw|].
      intros xn Hxn. destruct (Ncomp f _ _ _ S1 b (S dp)) as [[[[[r0 es0] cs0] pls0] rv0]|]; [|discriminate].
      apply Some_inj in Hxn. subst xn.
      destruct (Hn _ _ _ _ _ ((([], fs_name (df_fs d1), args) : call) :: cs0) eq_refl) as [jn [pln [Hg Hrel]]].
      eexists _, _, _, _, _. split; [f_equal; exact Hg|].
      intros j0 Hj. subst r. eapply Hrel. reflexivity.
  Qed.

  Lemma RX_nn a b : RX a b -> RX (nn_wrap a) (nn_wrap b).
  Proof.
    intros H r es cs pls rv Hw.
    apply nn_wrap_inv in Hw as [[es1 [pls1 [-> [-> [-> ->]]]]]|[-> Hn]].
    - split; [intros _; split; [reflexivity|]|intros j0 Hj; discriminate].
      intro Ha. apply app_eq_nil in Ha as [_ Ha]. discriminate.
    - destruct (H _ _ _ _ _ eq_refl) as [Hw Hx]. split; [exact Hw|]. intros j0 Hj xn Hn'. subst r.
      destruct b as [xn'|]; [|discriminate].
      destruct (Hx j0 eq_refl xn' eq_refl) as [jn [esn [csn [pln [rvn [-> Hany]]]]]].
      assert (Hj0 : j0 <> JNull) by (intro; subst; apply Hn; reflexivity).
      pose proof (ExplAny_nonnull _ _ _ _ (proj1 Hany) Hj0) as Hjn.
      rewrite nn_wrap_other in Hn' by congruence. inversion Hn'; subst.
      eexists _, _, _, _, _. split; [reflexivity|exact Hany].
  Qed.

  Lemma stepX_C f : XC f -> XS f -> XC (S f).
  Proof.
    intros HC HS t fs d S0 S1 b dp. rewrite !gcomplete_S. apply complete_shape_rel.
    - intros c r es cs pls rv H. inversion H; subst.
      split; [intros _; split; [reflexivity|discriminate]|intros j0 Hj; discriminate].
    - intros j r es cs pls rv H. inversion H; subst. split; [discriminate|].
      intros j0 Hj0 xn Hn. inversion Hj0; inversion Hn; subst.
      eexists _, _, _, _, _. split; [reflexivity|apply Rel_same].
    - intro t'. apply RX_nn. apply HC.
    - intros it items. apply xitems_level. intros x y Hy.
      destruct (Dcomp f it fs x S0 b (S dp)) as [[[[[r1 es1] cs1] pls1] rv1]|] eqn:Ed; [|discriminate].
      apply Some_inj in Hy.
      destruct (RX_catch it _ _ _ _ _ _ _ _ _ (HC it fs x S0 S1 b (S dp)) Ed Hy) as [Hw Hn].
      split; [exact Hw|]. intros xn Hxn.
      destruct (Ncomp f it fs x S1 b (S dp)) as [[[[[r0 es0] cs0] pls0] rv0]|]; [|discriminate].
      apply Some_inj in Hxn. subst xn.
      destruct (Hn _ _ _ _ _ cs0 eq_refl) as [jn [pln [Hg Hrel]]].
      eexists _, _, _, _, _. split; [exact Hg|exact Hrel].
    - intros rt flds. apply HS.
  Qed.

  Lemma stepX_S f : XF f -> XS (S f).
  Proof.
    intros HF tn obj srcs S0 S1 b dp r es cs pls rv H. rewrite gexec_sels_S in H.
    destruct (dcollect_srcs s frags cv tn b dp f srcs cs0) as [st|] eqn:Ec; [|discriminate].
    cbv zeta in H.
    set (b' := b + N.of_nat (length (c_new st))) in *.
    set (efd := fun par => Dfield f tn obj par b' dp) in *.
    change (Dfield f tn obj S0 b' dp) with (efd S0) in H.
    destruct (dexec_groups (efd S0) (fst (plan_of (c_g st) S0))) as [[[[[r0 es0] cs0'] pls0] rv0]|] eqn:Eg;
      [|discriminate].
    destruct r0 as [kvs0|].
    2:{ (* a field of the initial executor propagates its error *)
        destruct (groups_shape _ _ _ _ _ _ _ Eg) as [-> [k [fs [es1 [cs1 [pl1 [rv1 [pre [_ [Hx ->]]]]]]]]]].
        inversion H; subst. split; [intros _; split; [reflexivity|]|intros j0 Hj; discriminate].
        apply app_pre_nonnil. destruct (HF tn obj S0 S1 b' dp fs) as [_ Hr].
        exact (proj2 (proj1 (Hr _ _ _ _ _ Hx) eq_refl)). }
    destruct (dexec_deferred efd (snd (plan_of (c_g st) S0))) as [[dpls rv']|] eqn:Ed; [|discriminate].
    inversion H; subst; clear H. split; [discriminate|].
    intros j0 Hj xn Hn. inversion Hj; subst j0; clear Hj.
    rewrite gexec_sels_S, Ec in Hn. cbv zeta in Hn. cbn [fst snd] in Hn. fold b' in Hn.
    destruct (dexec_groups (Nfield f tn obj S1 b' dp) (c_g st)) as [[[[[rn esn] csn] plsn] rvn]|] eqn:En;
      [|discriminate].
    destruct rn as [kvsn|].
    2:{ exfalso. destruct (groups_shape _ _ _ _ _ _ _ En) as [_ [k [fs [es1 [cs1 [pl1 [rv1 [pre [_ [Hx _]]]]]]]]]].
        destruct (nfield_cval _ _ _ _ _ _ _ _ _ _ _ _ Hx) as [j Hj]. discriminate. }
    cbn [dexec_deferred] in Hn. inversion Hn; subst; clear Hn.
    eexists _, _, _, _, _. split; [reflexivity|].
    eapply (xplan_level efd); [eapply dcollect_srcs_nodup; exact Ec| |exact Eg|exact Ed|exact En].
    intros par fs. apply HF.
  Qed.

  Theorem err_clause_all : forall f, XS f /\ XF f /\ XC f.
  Proof.
    induction f as [|f [IHs [IHf IHc]]].
    - repeat split; intros; discriminate.
    - split; [apply stepX_S; exact IHf|]. split; [apply stepX_F; exact IHc|apply stepX_C; assumption].
  Qed.
End ErrClause.

Theorem err_clause_fuel fuel s d vars root j0 es0 cs0 raw rv jn esn csn pln rvn :
  gexecute_fuel false true fuel s d vars root = DResp j0 es0 cs0 raw rv ->
  gexecute_fuel true false fuel s d vars root = DResp jn esn csn pln rvn ->
  Rel j0 es0 raw jn esn.
Proof.
  intros HD HN. destruct (gexecute_fuel_run _ _ _ _ _ _ _ _ _ _ _ _ HD) as [cv [tn [_ [_ [_ Hrun]]]]].
  rewrite Hrun in HD, HN. apply resp_of_inv in HD as [r [pls0 [Hd Hcase]]].
  destruct (err_clause_all s (d_frags d) cv fuel) as [HS _].
  destruct (HS _ _ _ [] [] _ _ _ _ _ _ _ Hd) as [Hw Hx].
  destruct Hcase as [[-> ->]|[-> [-> ->]]].
  - destruct (gexec_sels true s (d_frags d) cv false fuel tn _ [([], d_sels d)] [] 0 0) as [xn|]; [|discriminate].
    destruct (Hx j0 eq_refl xn eq_refl) as [jn' [esn' [csn' [pln' [rvn' [-> Hany]]]]]].
    inversion HN; subst. exact Hany.
  - apply Rel_null. exact (proj2 (Hw eq_refl)).
Qed.
