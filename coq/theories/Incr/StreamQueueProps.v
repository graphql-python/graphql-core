(* C05 - order law of the stream item queue model. *)
From GV Require Import Base.Prelude Incr.StreamQueue.

(* invariant: delivered ++ terminal ++ still held/queued = pushed *)
Definition sq_inv (s : sq) : Prop :=
  q_delivered s ++ q_term s ++ sq_contents s = q_pushed s.

Lemma gather_split fs q batch b h r st :
  gather fs q batch = (b, h, r, st) ->
  exists extra, b = batch ++ extra /\
    extra ++ (match h with Some e => e :: r | None => r end) = q.
Proof.
  revert batch b h r st. induction q as [|e q IH]; intros batch b h r st H; cbn in H.
  - inversion H; subst. exists []. rewrite app_nil_r. auto.
  - destruct e.
    + apply IH in H as (ex & -> & Hq). exists (EVal v :: ex). rewrite <- app_assoc. cbn. rewrite Hq. auto.
    + destruct (fget k fs).
      * inversion H; subst. exists []. rewrite app_nil_r. auto.
      * apply IH in H as (ex & -> & Hq). exists (EFut k :: ex). rewrite <- app_assoc. cbn. rewrite Hq. auto.
      * inversion H; subst. exists []. rewrite app_nil_r. auto.
    + inversion H; subst. exists []. rewrite app_nil_r. auto.
    + inversion H; subst. exists []. rewrite app_nil_r. auto.
Qed.

Definition sq_ok (s : sq) : Prop := sq_inv s /\ (q_closed s = false -> q_term s = []).

Definition pushed_of (ops : list sqop) : list entry :=
  flat_map (fun op => match op with OpPush e => [e] | _ => [] end) ops.

(* One attempt of the consumer.  The head entry is the held one or the first of the queue; either it
   is delivered with what [gather] adds, or it ends the iteration, or the consumer stays blocked. *)
Lemma try_pull_ok s s' o :
  sq_inv s -> q_term s = [] -> try_pull s = (s', o) ->
  sq_ok s' /\ q_pushed s' = q_pushed s /\
  q_delivered s' = q_delivered s ++ (match o with Some out => out_entries out | None => [] end).
Proof.
  unfold sq_inv, try_pull. intros Hi Ht. rewrite Ht in Hi. cbn [app] in Hi.
  destruct (match q_held s with Some e => _ | None => _ end) as [head rest] eqn:HR.
  assert (Hc : sq_contents s = match head with Some e => e :: rest | None => rest end).
  { unfold sq_contents. destruct (q_held s); [inversion HR; reflexivity|].
    destruct (q_entries s); inversion HR; reflexivity. }
  rewrite Hc in Hi. clear HR Hc. revert s' o.
  set (Q := fun s' o => sq_ok s' /\ q_pushed s' = q_pushed s /\
    q_delivered s' = q_delivered s ++ (match o with Some out => out_entries out | None => [] end)).
  (* the three ways an attempt ends *)
  assert (Hdel : forall e, head = Some e -> forall s' o,
    (let '(batch, held, rest', stp) := gather (q_fut s) rest [e] in
     (mkSq rest' held (q_stopped s || stp) false false (q_fut s) (q_pushed s) (q_delivered s ++ batch) (q_term s),
      Some (OBatch batch))) = (s', o) -> Q s' o).
  { intros e He s' o Hd. destruct (gather (q_fut s) rest [e]) as [[[b hd] r] st] eqn:G.
    apply gather_split in G as (ex & Hb & Hq). inversion Hd; subst s' o; clear Hd.
    unfold Q, sq_ok, sq_inv, sq_contents. cbn. rewrite Ht. repeat split; auto.
    rewrite <- Hi, He, <- Hq, Hb, <- !app_assoc. cbn. destruct hd; reflexivity. }
  assert (Hend : forall e, head = Some e -> forall stp out s' o,
    (mkSq rest None stp false true (q_fut s) (q_pushed s) (q_delivered s) [e], Some out) = (s', o) ->
    out_entries out = [] -> Q s' o).
  { intros e He stp out s' o Hd Ho. inversion Hd; subst s' o; clear Hd.
    unfold Q, sq_ok, sq_inv, sq_contents. cbn. rewrite Ho, app_nil_r, <- Hi, He. repeat split; auto; discriminate. }
  assert (Hblk : forall s' o,
    (mkSq rest head (q_stopped s) true false (q_fut s) (q_pushed s) (q_delivered s) (q_term s), @None sqout) = (s', o) ->
    Q s' o).
  { intros s' o Hd. inversion Hd; subst s' o; clear Hd.
    unfold Q, sq_ok, sq_inv, sq_contents. cbn. rewrite Ht, app_nil_r. repeat split; auto. }
  intros s' o H. destruct head as [[v|k| |]|]; cbn zeta in H.
  - exact (Hdel _ eq_refl _ _ H).
  - destruct (fget k (q_fut s)); [exact (Hblk _ _ H)|exact (Hdel _ eq_refl _ _ H)|exact (Hend _ eq_refl _ _ _ _ H eq_refl)].
  - exact (Hend _ eq_refl _ _ _ _ H eq_refl).
  - exact (Hend _ eq_refl _ _ _ _ H eq_refl).
  - exact (Hblk _ _ H).
Qed.

Lemma resume_ok s s' outs :
  sq_ok s -> resume s = (s', outs) ->
  sq_ok s' /\ q_pushed s' = q_pushed s /\
  q_delivered s' = q_delivered s ++ concat (map out_entries outs).
Proof.
  intros [Hi Ht] H. unfold resume in H.
  destruct (q_waiting s && negb (q_closed s)) eqn:W.
  - apply andb_true_iff in W as [_ W]. apply negb_true_iff in W.
    destruct (try_pull s) as [s1 o] eqn:P.
    destruct (try_pull_ok _ _ _ Hi (Ht W) P) as (A & B & C).
    destruct o; inversion H; subst; cbn in *; rewrite ?app_nil_r in *; auto.
  - inversion H; subst. cbn. rewrite ?app_nil_r. repeat split; auto.
Qed.

Lemma push_raw_ok s e : sq_ok s -> sq_ok (push_raw s e) /\ q_pushed (push_raw s e) = q_pushed s ++ [e]
  /\ q_delivered (push_raw s e) = q_delivered s.
Proof.
  intros [Hi Ht]. split; [|split; reflexivity]. split; [|exact Ht].
  unfold sq_inv, sq_contents, push_raw in *. cbn.
  destruct (q_held s); rewrite <- Hi, <- ?app_assoc; cbn; rewrite <- ?app_assoc; reflexivity.
Qed.

(* a push is [push_raw], the other operations touch no ghost field; then the consumer may resume *)
Lemma sq_step_ok s op s' outs :
  sq_ok s -> sq_step s op = (s', outs) ->
  sq_ok s' /\ q_pushed s' = q_pushed s ++ pushed_of [op] /\
  q_delivered s' = q_delivered s ++ concat (map out_entries outs).
Proof.
  intros Hok H.
  assert (Hres : forall s1, sq_ok s1 -> q_pushed s1 = q_pushed s ++ pushed_of [op] ->
            q_delivered s1 = q_delivered s -> resume s1 = (s', outs) ->
            sq_ok s' /\ q_pushed s' = q_pushed s ++ pushed_of [op] /\
            q_delivered s' = q_delivered s ++ concat (map out_entries outs)).
  { intros s1 H1 Hp Hd Hr. destruct (resume_ok _ _ _ H1 Hr) as (A & B & C). rewrite B, C, Hp, Hd. auto. }
  destruct op as [e|k ok|]; cbn [sq_step] in H.
  - destruct (push_raw_ok s e Hok) as (A & B & C). exact (Hres _ A B C H).
  - refine (Hres _ _ _ _ H); [exact Hok|symmetry; apply app_nil_r|reflexivity].
  - destruct (q_closed s || q_waiting s).
    + inversion H; subst. cbn. rewrite ?app_nil_r. auto.
    + refine (Hres _ _ _ _ H); [exact Hok|symmetry; apply app_nil_r|reflexivity].
Qed.

Lemma sq_run_ok ops : forall s s' outs,
  sq_ok s -> sq_run s ops = (s', outs) ->
  sq_ok s' /\ q_pushed s' = q_pushed s ++ pushed_of ops /\
  q_delivered s' = q_delivered s ++ concat (map out_entries outs).
Proof.
  induction ops as [|op ops IH]; intros s s' outs Hok H; cbn in H.
  - inversion H; subst. cbn. rewrite ?app_nil_r. auto.
  - destruct (sq_step s op) as [s1 o1] eqn:S1. destruct (sq_run s1 ops) as [s2 o2] eqn:S2.
    inversion H; subst; clear H.
    apply (sq_step_ok _ _ _ _ Hok) in S1 as (A & B & C).
    apply (IH _ _ _ A) in S2 as (A2 & B2 & C2).
    split; [exact A2|]. split.
    + rewrite B2, B. cbn. rewrite ?app_nil_r, <- ?app_assoc. reflexivity.
    + rewrite C2, C, map_app, concat_app, <- app_assoc. reflexivity.
Qed.

(* The batches deliver the pushed entries in push order, each exactly once: everything delivered
   so far, then the terminal entry (if the iteration ended), then what the queue still holds, is
   exactly the sequence of pushed entries. *)
Theorem sq_order ops s outs :
  sq_run sq_init ops = (s, outs) ->
  concat (map out_entries outs) ++ q_term s ++ sq_contents s = pushed_of ops.
Proof.
  intro H. assert (Hok : sq_ok sq_init) by (split; reflexivity).
  destruct (sq_run_ok ops _ _ _ Hok H) as ([Hi _] & B & C).
  cbn in B, C. unfold sq_inv in Hi. rewrite C in Hi. rewrite Hi. exact B.
Qed.

(* a failure / the end is reported only after everything pushed before it has been delivered *)
Corollary sq_terminal_after_all ops s outs e :
  sq_run sq_init ops = (s, outs) -> q_term s = [e] ->
  exists rest, pushed_of ops = concat (map out_entries outs) ++ e :: rest.
Proof.
  intros H Ht. apply sq_order in H. rewrite Ht in H. eexists. symmetry. exact H.
Qed.

Lemma fill_ok cap : forall fuel s w s' w',
  sq_ok s -> fill fuel cap s w = (s', w') ->
  sq_ok s' /\ q_pushed s' ++ w' = q_pushed s ++ w /\ q_delivered s' = q_delivered s.
Proof.
  induction fuel as [|f IH]; intros s w s' w' Hok H; cbn [fill] in H.
  - inversion H; subst. auto.
  - destruct w as [|e w]; [inversion H; subst; auto|].
    destruct (Nat.ltb (length (q_entries s)) cap); [|inversion H; subst; auto].
    destruct (push_raw_ok s e Hok) as (A & B & C).
    destruct (IH _ _ _ _ A H) as (A2 & B2 & C2).
    split; [exact A2|]. split; [rewrite B2, B, <- app_assoc; reflexivity|congruence].
Qed.

Definition b_ok (b : bsq) (pushed delivered : list entry) : Prop :=
  sq_ok (b_q b) /\ q_pushed (b_q b) ++ b_wait b = pushed /\ q_delivered (b_q b) = delivered.

Lemma b_fill_ok b pushed delivered : b_ok b pushed delivered -> b_ok (b_fill b) pushed delivered.
Proof.
  intros (A & B & C). unfold b_fill.
  destruct (fill (length (b_wait b)) (b_cap b) (b_q b) (b_wait b)) as [s w] eqn:F.
  destruct (fill_ok _ _ _ _ _ _ A F) as (A2 & B2 & C2). unfold b_ok. cbn. split; [exact A2|]. split; congruence.
Qed.

Lemma b_step_ok b op b' outs pushed delivered :
  b_ok b pushed delivered -> b_step b op = (b', outs) ->
  b_ok b' (pushed ++ pushed_of [op]) (delivered ++ concat (map out_entries outs)).
Proof.
  intros Hb H.
  assert (Hother : pushed_of [op] = [] ->
    (let '(s1, o) := sq_step (b_q b) op in (b_fill (mkB s1 (b_cap b) (b_wait b)), o)) = (b', outs) ->
    b_ok b' (pushed ++ pushed_of [op]) (delivered ++ concat (map out_entries outs))).
  { intros Hnil H'. destruct (sq_step (b_q b) op) as [s1 o] eqn:S. inversion H'; subst; clear H'.
    destruct Hb as (A & B & C). destruct (sq_step_ok _ _ _ _ A S) as (A2 & B2 & C2).
    rewrite Hnil, app_nil_r in *. apply b_fill_ok. unfold b_ok. cbn. split; [exact A2|]. split; congruence. }
  destruct op as [e|k ok|]; cbn [b_step] in H; [|exact (Hother eq_refl H)..].
  assert (H1 : b_ok (mkB (b_q b) (b_cap b) (b_wait b ++ [e])) (pushed ++ [e]) delivered).
  { destruct Hb as (A & B & C). unfold b_ok. cbn. split; [exact A|]. split; [rewrite app_assoc, B; reflexivity|exact C]. }
  apply b_fill_ok in H1. set (b1 := b_fill _) in *.
  destruct (resume (b_q b1)) as [s2 o] eqn:R. inversion H; subst; clear H.
  destruct H1 as (A & B & C). destruct (resume_ok _ _ _ A R) as (A2 & B2 & C2).
  cbn [pushed_of flat_map app]. apply b_fill_ok. unfold b_ok. cbn. split; [exact A2|]. split; congruence.
Qed.

Lemma b_run_ok ops : forall b b' outs flags pushed delivered,
  b_ok b pushed delivered -> b_run b ops = (b', outs, flags) ->
  b_ok b' (pushed ++ pushed_of ops) (delivered ++ concat (map out_entries outs)).
Proof.
  induction ops as [|op ops IH]; intros b b' outs flags pushed delivered Hb H; cbn [b_run] in H.
  - inversion H; subst. cbn. rewrite !app_nil_r. exact Hb.
  - destruct (b_step b op) as [b1 o1] eqn:S1. destruct (b_run b1 ops) as [[b2 o2] f2] eqn:S2.
    inversion H; subst; clear H.
    pose proof (b_step_ok _ _ _ _ _ _ Hb S1) as H1. pose proof (IH _ _ _ _ _ _ H1 S2) as H2.
    rewrite map_app, concat_app, app_assoc.
    replace (pushed ++ pushed_of (op :: ops)) with ((pushed ++ pushed_of [op]) ++ pushed_of ops); [exact H2|].
    cbn [pushed_of flat_map]. rewrite app_nil_r, <- app_assoc. reflexivity.
Qed.

(* the order law with back-pressure: for every capacity, delivered ++ terminal ++ held/queued ++
   not yet put by the blocked producer = the pushed entries, in order *)
Theorem bsq_order cap ops b outs flags :
  b_run (bsq_init cap) ops = (b, outs, flags) ->
  concat (map out_entries outs) ++ q_term (b_q b) ++ sq_contents (b_q b) ++ b_wait b = pushed_of ops.
Proof.
  intro H. assert (H0 : b_ok (bsq_init cap) [] []) by (split; [split; reflexivity|split; reflexivity]).
  destruct (b_run_ok ops _ _ _ _ _ _ H0 H) as ([Hi _] & B & C). cbn [app] in B, C.
  unfold sq_inv in Hi. rewrite <- B, <- Hi, C, <- !app_assoc. reflexivity.
Qed.
