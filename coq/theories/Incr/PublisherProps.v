(* C05 - the publisher turns every well-formed work-queue event trace (NodeProtocol.wq_wf) into a
   payload stream accepted by the protocol validator.  General: induction over arbitrary traces. *)
From GV Require Import Base.Prelude Base.ListFacts Incr.Protocol Incr.WorkQueue Incr.Publisher Incr.NodeProtocol Incr.ProtocolProps Incr.WorkQueueFacts.

Lemma find_pend_app_l i pd x q : find_pend i pd = Some q -> find_pend i (pd ++ x) = Some q.
Proof.
  induction pd as [|p pd IH]; cbn; [discriminate|]. destruct (p_id p =? i); auto.
Qed.

Lemma find_pend_in i pd q : find_pend i pd = Some q -> In q pd /\ p_id q = i.
Proof.
  induction pd as [|p pd IH]; cbn; [discriminate|].
  destruct (p_id p =? i) eqn:E; intro H.
  - inversion H; subst. apply N.eqb_eq in E. auto.
  - destruct (IH H). auto.
Qed.

Lemma set_next_app_l i n pd x q :
  find_pend i pd = Some q -> set_next i n (pd ++ x) = set_next i n pd ++ x.
Proof.
  induction pd as [|p pd IH]; cbn; [discriminate|].
  destruct (p_id p =? i); intro H; [reflexivity|]. rewrite (IH H). reflexivity.
Qed.

Lemma deliver_app_l es : forall pd pd2 x,
  deliver es pd = Some pd2 -> deliver es (pd ++ x) = Some (pd2 ++ x).
Proof.
  induction es as [|e es IH]; intros pd pd2 x H; cbn in *.
  - inversion H; reflexivity.
  - destruct e as [i|i items].
    + destruct (find_pend i pd) as [q|] eqn:F; [|discriminate].
      rewrite (find_pend_app_l _ _ x _ F). destruct (p_stream q); [discriminate|]. auto.
    + destruct (find_pend i pd) as [q|] eqn:F; [|discriminate].
      rewrite (find_pend_app_l _ _ x _ F).
      destruct (p_stream q && natl_eqb items (seq (p_next q) (length items))); [|discriminate].
      rewrite (set_next_app_l _ _ _ x _ F). auto.
Qed.

Lemma deliver_app es1 es2 pd :
  deliver (es1 ++ es2) pd = match deliver es1 pd with Some pd' => deliver es2 pd' | None => None end.
Proof.
  revert pd. induction es1 as [|e es IH]; intro pd; cbn; [reflexivity|].
  destruct e as [i|i items]; destruct (find_pend i pd) as [q|]; auto.
  - destruct (p_stream q); auto.
  - destruct (p_stream q && _); auto.
Qed.

Lemma remove_pend_app i a b : remove_pend i (a ++ b) = remove_pend i a ++ remove_pend i b.
Proof. unfold remove_pend. apply filter_app. Qed.

Lemma complete_app_l cs : forall pd pd3 p,
  complete cs pd = Some pd3 -> ~ In (p_id p) cs -> complete cs (pd ++ [p]) = Some (pd3 ++ [p]).
Proof.
  induction cs as [|i cs IH]; intros pd pd3 p H Hn; cbn in *.
  - inversion H; reflexivity.
  - destruct (find_pend i pd) as [q|] eqn:F; [|discriminate].
    rewrite (find_pend_app_l _ _ [p] _ F). rewrite remove_pend_app.
    assert (Hr : remove_pend i [p] = [p]).
    { cbn. destruct (p_id p =? i) eqn:E; [|reflexivity]. apply N.eqb_eq in E. exfalso. apply Hn. auto. }
    rewrite Hr. apply IH; [exact H|]. intro X. apply Hn. auto.
Qed.

Lemma complete_app cs1 cs2 pd :
  complete (cs1 ++ cs2) pd = match complete cs1 pd with Some pd' => complete cs2 pd' | None => None end.
Proof.
  revert pd. induction cs1 as [|i cs IH]; intro pd; cbn; [reflexivity|].
  destruct (find_pend i pd); auto.
Qed.

Lemma find_pend_remove i j pd :
  find_pend i (remove_pend j pd) = if i =? j then None else find_pend i pd.
Proof.
  unfold remove_pend. induction pd as [|p pd IH]; cbn [filter find_pend]; [destruct (i =? j); reflexivity|].
  destruct (N.eqb_spec (p_id p) j) as [Ej|Ej]; cbn [negb find_pend]; rewrite IH;
    destruct (N.eqb_spec (p_id p) i) as [Ei|Ei]; destruct (N.eqb_spec i j); congruence.
Qed.

(* an id that survives the completions is found (same record) before them *)
Lemma complete_find cs : forall pd pd3 i q,
  complete cs pd = Some pd3 -> find_pend i pd3 = Some q -> find_pend i pd = Some q.
Proof.
  induction cs as [|j cs IH]; intros pd pd3 i q H F; cbn in H.
  - inversion H; subst; exact F.
  - destruct (find_pend j pd) as [qj|]; [|discriminate].
    pose proof (IH _ _ _ _ H F) as F2. rewrite find_pend_remove in F2.
    destruct (i =? j); [discriminate|exact F2].
Qed.

Lemma find_pend_set_next i j n pd :
  find_pend i (set_next j n pd) =
  match find_pend i pd with
  | Some q => if i =? j then Some (mkPend (p_id q) (p_path q) (p_label q) (p_stream q) n) else Some q
  | None => None
  end.
Proof.
  induction pd as [|p pd IH]; cbn [set_next find_pend]; [reflexivity|].
  destruct (N.eqb_spec (p_id p) j) as [Ej|Ej]; cbn [find_pend p_id]; [|rewrite IH];
    destruct (N.eqb_spec (p_id p) i) as [Ei|Ei]; try reflexivity;
    destruct (find_pend i pd); destruct (N.eqb_spec i j); congruence.
Qed.

Lemma set_next_noop i n l : (forall q, In q l -> p_id q <> i) -> set_next i n l = l.
Proof.
  induction l as [|p l IH]; intro H; cbn [set_next]; [reflexivity|].
  destruct (p_id p =? i) eqn:E.
  - apply N.eqb_eq in E. exfalso. apply (H p); [left; reflexivity|exact E].
  - f_equal. apply IH. intros q Hq. apply H. right. exact Hq.
Qed.

Lemma remove_set_next i j n pd :
  remove_pend j (set_next i n pd) = set_next i n (remove_pend j pd).
Proof.
  unfold remove_pend. induction pd as [|p pd IH]; cbn [filter set_next]; [reflexivity|].
  destruct (p_id p =? i) eqn:Ei; cbn [filter p_id].
  - destruct (p_id p =? j) eqn:Ej; cbn [negb set_next].
    + apply N.eqb_eq in Ei, Ej.
      symmetry. apply set_next_noop. intros q Hq. apply filter_In in Hq as [_ Hq].
      apply negb_true_iff, N.eqb_neq in Hq. congruence.
    + rewrite Ei. reflexivity.
  - destruct (p_id p =? j) eqn:Ej; cbn [negb set_next].
    + exact IH.
    + rewrite Ei. f_equal. exact IH.
Qed.

Lemma complete_set_next cs : forall pd pd3 i n,
  complete cs pd = Some pd3 -> complete cs (set_next i n pd) = Some (set_next i n pd3).
Proof.
  induction cs as [|j cs IH]; intros pd pd3 i n H; cbn in *.
  - inversion H; reflexivity.
  - rewrite find_pend_set_next. destruct (find_pend j pd) as [q|]; [|discriminate].
    assert (X : exists q', (if j =? i then Some (mkPend (p_id q) (p_path q) (p_label q) (p_stream q) n) else Some q) = Some q')
      by (destruct (j =? i); eauto).
    destruct X as [q' ->]. rewrite remove_set_next. apply IH. exact H.
Qed.

Lemma announce_app l1 l2 st :
  announce (l1 ++ l2) st = match announce l1 st with Some st' => announce l2 st' | None => None end.
Proof.
  revert st. induction l1 as [|p l IH]; intro st; cbn; [reflexivity|].
  destruct (memN (p_id p) (m_used st)); auto.
Qed.

(* The id table of the publisher, read as the pend list of the validator. *)
Definition pend_of (E : env) (nx : N -> nat) (e : N * N) : pend :=
  let '(k, i) := e in
  if N.even k then group_pend E i (N.div2 k)
  else mkPend i (stream_path (N.div2 k)) (N.div2 k) true (nx k).

Definition table_pend (E : env) (nx : N -> nat) (tbl : list (N * N)) : list pend :=
  map (pend_of E nx) tbl.

Lemma gkey_even g : N.even (gkey g) = true.
Proof. unfold gkey. destruct g; reflexivity. Qed.
Lemma gkey_div2 g : N.div2 (gkey g) = g.
Proof. unfold gkey. destruct g; reflexivity. Qed.
Lemma skey_even s : N.even (skey s) = false.
Proof. unfold skey. destruct s; reflexivity. Qed.
Lemma skey_div2 s : N.div2 (skey s) = s.
Proof. unfold skey. destruct s; reflexivity. Qed.
Lemma gkey_div2_even k : N.even k = true -> gkey (N.div2 k) = k.
Proof. unfold gkey. destruct k as [|[q|q|]]; cbn; try discriminate; reflexivity. Qed.

Lemma gkey_inj a b : gkey a = gkey b -> a = b.
Proof. unfold gkey. lia. Qed.
Lemma skey_inj a b : skey a = skey b -> a = b.
Proof. unfold skey. lia. Qed.
Lemma gkey_skey a b : gkey a <> skey b.
Proof. unfold gkey, skey. lia. Qed.

Lemma pend_of_group E nx g i : pend_of E nx (gkey g, i) = group_pend E i g.
Proof. unfold pend_of. rewrite gkey_even, gkey_div2. reflexivity. Qed.
Lemma pend_of_stream E nx s i :
  pend_of E nx (skey s, i) = mkPend i (stream_path s) s true (nx (skey s)).
Proof. unfold pend_of. rewrite skey_even, skey_div2. reflexivity. Qed.

Lemma pend_of_id E nx k i : p_id (pend_of E nx (k, i)) = i.
Proof. unfold pend_of. destruct (N.even k); reflexivity. Qed.

Lemma pend_of_stream_flag E nx k i : p_stream (pend_of E nx (k, i)) = negb (N.even k).
Proof. unfold pend_of. destruct (N.even k); reflexivity. Qed.

Lemma table_pend_ext E nx nx' tbl :
  (forall k, In k (map fst tbl) -> nx k = nx' k) -> table_pend E nx tbl = table_pend E nx' tbl.
Proof.
  intro H. unfold table_pend. apply map_ext_in. intros [k i] Hin. unfold pend_of.
  destruct (N.even k); [reflexivity|]. rewrite (H k (in_fst _ _ _ Hin)). reflexivity.
Qed.

(* keys and ids of the table determine each other *)
Record bij (tbl : list (N * N)) : Prop := mkBij {
  bij_keys : NoDup (map fst tbl);
  bij_ids : NoDup (map snd tbl)
}.

Lemma bij_tl e tbl : bij (e :: tbl) -> bij tbl.
Proof. intros [K I]. inversion K; inversion I; subst. split; assumption. Qed.

Lemma bij_hd k i tbl : bij ((k, i) :: tbl) -> forall k' i', In (k', i') tbl -> k' <> k /\ i' <> i.
Proof.
  intros [K I] k' i' Hin. inversion K as [|? ? Hk _]; inversion I as [|? ? Hi _]; subst.
  split; intros ->; [exact (Hk (in_fst _ _ _ Hin))|exact (Hi (in_snd _ _ _ Hin))].
Qed.

Lemma find_table E nx tbl k i :
  In (k, i) tbl -> bij tbl -> find_pend i (table_pend E nx tbl) = Some (pend_of E nx (k, i)).
Proof.
  induction tbl as [|[k' i'] tbl IH]; cbn [In map table_pend find_pend]; [contradiction|].
  intros [H|H] Hb; rewrite pend_of_id.
  - inversion H; subst. rewrite N.eqb_refl. reflexivity.
  - destruct (bij_hd _ _ _ Hb _ _ H) as [_ Hi]. apply not_eq_sym, N.eqb_neq in Hi. rewrite Hi.
    exact (IH H (bij_tl _ _ Hb)).
Qed.

Lemma remove_table E nx tbl k i :
  In (k, i) tbl -> bij tbl ->
  remove_pend i (table_pend E nx tbl) = table_pend E nx (filter (fun e => negb (fst e =? k)) tbl).
Proof.
  unfold remove_pend, table_pend.
  induction tbl as [|[k' i'] tbl IH]; cbn [In map filter fst]; [contradiction|].
  intros Hin Hb. rewrite pend_of_id. destruct Hin as [H|H].
  - (* the entry: neither its key nor its id occurs in the rest *)
    inversion H; subst. rewrite !N.eqb_refl. cbn [negb].
    pose proof (bij_hd _ _ _ Hb) as Hne. clear IH Hb H.
    induction tbl as [|[k2 i2] tbl IH]; cbn [map filter fst]; [reflexivity|]. rewrite pend_of_id.
    destruct (Hne k2 i2 (or_introl eq_refl)) as [Hk Hi]. apply N.eqb_neq in Hk, Hi. rewrite Hk, Hi.
    cbn [negb map]. f_equal. apply IH. intros k3 i3 H3. apply Hne. right. exact H3.
  - destruct (bij_hd _ _ _ Hb _ _ H) as [Hk Hi]. apply not_eq_sym, N.eqb_neq in Hk, Hi. rewrite Hk, Hi.
    cbn [negb map]. f_equal. exact (IH H (bij_tl _ _ Hb)).
Qed.

Lemma set_next_table E nx tbl k i n :
  In (k, i) tbl -> N.even k = false -> bij tbl ->
  set_next i n (table_pend E nx tbl) = table_pend E (fun k' => if k' =? k then n else nx k') tbl.
Proof.
  unfold table_pend.
  induction tbl as [|[k' i'] tbl IH]; cbn [In map set_next]; [contradiction|].
  intros Hin Hodd Hb. rewrite pend_of_id. destruct Hin as [H|H].
  - inversion H; subst. rewrite N.eqb_refl. f_equal.
    + unfold pend_of. rewrite Hodd, N.eqb_refl. reflexivity.
    + apply table_pend_ext. intros k2 Hk2. apply in_map_iff in Hk2 as [[k3 i3] [<- H3]].
      destruct (bij_hd _ _ _ Hb _ _ H3) as [Hk _]. apply N.eqb_neq in Hk. cbn [fst]. rewrite Hk. reflexivity.
  - destruct (bij_hd _ _ _ Hb _ _ H) as [Hk Hi]. apply not_eq_sym, N.eqb_neq in Hi. rewrite Hi. f_equal.
    + unfold pend_of. destruct (N.even k'); [reflexivity|].
      apply not_eq_sym, N.eqb_neq in Hk. rewrite Hk. reflexivity.
    + exact (IH H Hodd (bij_tl _ _ Hb)).
Qed.

Lemma map_fst_filter (tbl : list (N * N)) k :
  map fst (filter (fun e => negb (fst e =? k)) tbl) = filter (fun x => negb (x =? k)) (map fst tbl).
Proof.
  induction tbl as [|[k' i] tbl IH]; cbn [map filter fst]; [reflexivity|].
  destruct (k' =? k); cbn [negb map fst]; [exact IH|]. f_equal. exact IH.
Qed.

Lemma bij_filter f tbl : bij tbl -> bij (filter f tbl).
Proof.
  induction tbl as [|[k i] tbl IH]; cbn [filter]; intro Hb; [exact Hb|].
  specialize (IH (bij_tl _ _ Hb)). destruct (f (k, i)); [|exact IH].
  (* an entry that survives the filter was in the table: it has another key and another id *)
  assert (Hne : forall k' i', In (k', i') (filter f tbl) -> k' <> k /\ i' <> i).
  { intros k' i' X. apply filter_In in X as [X _]. exact (bij_hd _ _ _ Hb _ _ X). }
  destruct IH as [K I]. split; cbn [map fst snd]; constructor; try assumption.
  - intro X. apply in_map_iff in X as [[k' i'] [E' X]]. cbn in E'. subst k'. exact (proj1 (Hne _ _ X) eq_refl).
  - intro X. apply in_map_iff in X as [[k' i'] [E' X]]. cbn in E'. subst i'. exact (proj2 (Hne _ _ X) eq_refl).
Qed.

Definition nxf (nst : nstate) : N -> nat := fun k => next_of k nst.

(* the id table against the node-level monitor *)
Record T (nst : nstate) (p : pub) : Prop := mkT_ {
  t_keys : map fst (ids p) = n_open nst;
  t_nodup_open : NoDup (n_open nst);
  t_open_seen : incl (n_open nst) (n_seen nst);
  t_nodup_ids : NoDup (map snd (ids p));
  t_ids_lt : forall k i, In (k, i) (ids p) -> i < next_id p;
  t_next_seen : forall k, aget k (n_next nst) <> None -> In k (n_seen nst);
  t_closed : n_closed nst = true -> n_open nst = []
}.

Lemma T_bij nst p : T nst p -> bij (ids p).
Proof. intro HT. split; [rewrite (t_keys _ _ HT); exact (t_nodup_open _ _ HT)|exact (t_nodup_ids _ _ HT)]. Qed.

(* Inside a batch: the parts accumulated so far, run through the validator from the monitor state
   [st0] at the start of the batch, lead to the pend list of the current id table; [M1], [pd2] are the
   intermediate validator states, [ag] the groups announced so far. *)
Record Jw (E : env) (st0 : mstate) (nst : nstate) (p : pub) (c : parts) (ag : list N)
          (M1 : mstate) (pd2 : list pend) : Prop := mkJ {
  j_announce : announce (pa_pending c) st0 = Some M1;
  j_deliver : deliver (pa_incr c) (m_pend M1) = Some pd2;
  j_complete : complete (pa_completed c) pd2 = Some (table_pend E (nxf nst) (ids p));
  j_used : forall i, In i (m_used M1) -> i < next_id p;
  j_completed : Forall (fun i => i < next_id p) (pa_completed c);
  j_T : T nst p;
  j_has_next : pa_has_next c = negb (n_closed nst);
  j_labels : forall a, In a (pa_pending c) -> p_stream a = false -> In (p_label a) ag
}.

Definition J E st0 nst p c ag : Prop := exists M1 pd2, Jw E st0 nst p c ag M1 pd2.

Lemma J_T E st0 nst p c ag : J E st0 nst p c ag -> T nst p.
Proof. intros (M1 & pd2 & H). exact (j_T _ _ _ _ _ _ _ _ H). Qed.

(* completing the node with key k / id i *)
Lemma J_complete E st0 nst p c ag k i :
  J E st0 nst p c ag -> In (k, i) (ids p) ->
  J E st0 (n_close k nst) (del_id k p)
    (mkParts (pa_pending c) (pa_incr c) (pa_completed c ++ [i]) (pa_has_next c)) ag.
Proof.
  intros (M1 & pd2 & [Ha Hd Hc Hu Hl HT Hn Hag]) Hin. pose proof (T_bij _ _ HT) as Hb.
  destruct HT as [Tk Tno Tos Tni Tlt Tns Tcl].
  exists M1, pd2. constructor; cbn [pa_pending pa_incr pa_completed pa_has_next]; try assumption.
  - rewrite complete_app, Hc. cbn [complete].
    rewrite (find_table E (nxf nst) _ _ _ Hin Hb), (remove_table E (nxf nst) _ _ _ Hin Hb). reflexivity.
  - apply Forall_app. split; [exact Hl|]. constructor; [|constructor]. exact (Tlt _ _ Hin).
  - destruct (bij_filter (fun e => negb (fst e =? k)) _ Hb) as [Fk Fi].
    constructor; cbn [n_close n_open n_seen n_next n_closed del_id ids next_id]; try assumption.
    + rewrite map_fst_filter, Tk. reflexivity.
    + rewrite <- Tk, <- map_fst_filter. exact Fk.
    + intros x Hx. apply filter_In in Hx as [Hx _]. apply Tos. exact Hx.
    + intros k' i' H'. apply filter_In in H' as [H' _]. exact (Tlt _ _ H').
    + intro Hc'. rewrite (Tcl Hc'). reflexivity.
Qed.

Definition ns_announce1 (k : N) (nst : nstate) : nstate :=
  mkNS (k :: n_seen nst) (n_open nst ++ [k]) (n_next nst) (n_closed nst).

Definition pub_add (k : N) (p : pub) : pub := mkPub (ids p ++ [(k, next_id p)]) (next_id p + 1).

Lemma ensure_id_fresh k p : ~ In k (map fst (ids p)) -> ensure_id k p = (next_id p, pub_add k p).
Proof. intro H. unfold ensure_id. rewrite (agetN_none _ _ H). reflexivity. Qed.

Lemma ensure_id_present k p i : agetN k (ids p) = Some i -> ensure_id k p = (i, p).
Proof. intro H. unfold ensure_id. rewrite H. reflexivity. Qed.

Lemma next_of_unseen nst p k : T nst p -> ~ In k (n_seen nst) -> next_of k nst = O.
Proof.
  intros HT Hn. unfold next_of. destruct (aget k (n_next nst)) eqn:A; [|reflexivity].
  exfalso. apply Hn. apply (t_next_seen _ _ HT). rewrite A. discriminate.
Qed.

(* announcing one fresh node *)
Lemma J_announce1 E st0 nst p c ag k :
  J E st0 nst p c ag -> ~ In k (n_seen nst) -> n_closed nst = false ->
  J E st0 (ns_announce1 k nst) (pub_add k p)
    (mkParts (pa_pending c ++ [pend_of E (fun _ => O) (k, next_id p)]) (pa_incr c) (pa_completed c) (pa_has_next c))
    (if N.even k then ag ++ [N.div2 k] else ag).
Proof.
  intros (M1 & pd2 & [Ha Hd Hc Hu Hl HT Hn Hag]) Hns Hcl.
  pose proof (next_of_unseen _ _ k HT Hns) as Hnx.
  destruct HT as [Tk Tno Tos Tni Tlt Tns Tcl].
  set (pn := pend_of E (fun _ => O) (k, next_id p)).
  assert (Hpid : p_id pn = next_id p) by apply pend_of_id.
  assert (Hfresh : memN (p_id pn) (m_used M1) = false).
  { rewrite Hpid. apply memN_false_iff. intro Hx. specialize (Hu _ Hx). lia. }
  (* The new id is next_id p, above every id used or completed so far: the validator accepts the
     announcement, and delivering and completing the earlier parts pass the new pend entry by. *)
  eexists. exists (pd2 ++ [pn]). constructor; cbn [pa_pending pa_incr pa_completed pa_has_next].
  - rewrite announce_app, Ha. cbn [announce]. rewrite Hfresh. reflexivity.
  - apply deliver_app_l. exact Hd.
  - rewrite (complete_app_l _ _ _ pn Hc).
    + f_equal. unfold pub_add, table_pend. cbn [ids]. rewrite map_app. cbn [map]. f_equal.
      unfold pn, pend_of. destruct (N.even k); [reflexivity|].
      unfold nxf, ns_announce1, next_of. cbn [n_next]. fold (next_of k nst). rewrite Hnx. reflexivity.
    + rewrite Hpid. intro X. rewrite Forall_forall in Hl. specialize (Hl _ X). lia.
  - intros i [Hi|Hi]; cbn [pub_add next_id]; [rewrite <- Hi, Hpid; lia|]. specialize (Hu _ Hi). lia.
  - eapply Forall_impl; [|exact Hl]. cbn [pub_add next_id]. intros; lia.
  - constructor; cbn [ns_announce1 pub_add n_open n_seen n_next n_closed ids next_id].
    + rewrite map_app, Tk. reflexivity.
    + apply NoDup_snoc; [exact Tno|]. intro X. apply Hns. apply Tos. exact X.
    + intros x Hx. apply in_app_or in Hx as [Hx|[Hx|[]]]; [right; apply Tos; exact Hx|left; exact Hx].
    + rewrite map_app. cbn [map snd]. apply NoDup_snoc; [exact Tni|].
      intro X. apply in_map_iff in X as [[k' i'] [E' X]]. cbn in E'. subst. specialize (Tlt _ _ X). lia.
    + intros k' i' H'. apply in_app_or in H' as [H'|[H'|[]]].
      * specialize (Tlt _ _ H'). lia.
      * inversion H'; subst. lia.
    + intros k' H'. right. apply Tns. exact H'.
    + rewrite Hcl. discriminate.
  - exact Hn.
  - intros a Ha' Hs. apply in_app_or in Ha' as [Ha'|[Ha'|[]]].
    + specialize (Hag _ Ha' Hs). destruct (N.even k); [apply in_or_app; left|]; exact Hag.
    + subst a. unfold pn in *. rewrite pend_of_stream_flag in Hs. apply negb_false_iff in Hs.
      rewrite Hs. apply in_or_app. right. left. unfold pend_of. rewrite Hs. reflexivity.
Qed.

(* to_pending as one pass over the keys *)
Fixpoint announce_keys (E : env) (ks : list N) (p : pub) : list pend * pub :=
  match ks with
  | [] => ([], p)
  | k :: r => let '(i, p1) := ensure_id k p in
              let '(l, p2) := announce_keys E r p1 in
              (pend_of E (fun _ => O) (k, i) :: l, p2)
  end.

Lemma announce_keys_app E ks1 ks2 p :
  announce_keys E (ks1 ++ ks2) p =
  let '(l1, p1) := announce_keys E ks1 p in
  let '(l2, p2) := announce_keys E ks2 p1 in (l1 ++ l2, p2).
Proof.
  revert p. induction ks1 as [|k ks IH]; intro p; cbn [app announce_keys].
  - destruct (announce_keys E ks2 p); reflexivity.
  - destruct (ensure_id k p) as [i p1]. rewrite IH.
    destruct (announce_keys E ks p1) as [l1 p1']. destruct (announce_keys E ks2 p1') as [l2 p2]. reflexivity.
Qed.

(* either loop of to_pending: [key] is gkey / skey, [mk] builds the pending entry *)
Lemma to_pending_loop E (key : N -> N) (mk : N -> N -> pend) xs :
  (forall i x, pend_of E (fun _ => O) (key x, i) = mk i x) -> forall l p,
  fold_left (fun (st : list pend * pub) x =>
      let '(l, p) := st in let '(i, p') := ensure_id (key x) p in (l ++ [mk i x], p')) xs (l, p)
  = let '(l', p') := announce_keys E (map key xs) p in (l ++ l', p').
Proof.
  intro Hmk. induction xs as [|x xs IH]; intros l p; cbn [fold_left map announce_keys].
  - rewrite app_nil_r. reflexivity.
  - destruct (ensure_id (key x) p) as [i p1]. rewrite IH.
    destruct (announce_keys E (map key xs) p1) as [l' p']. rewrite Hmk, <- app_assoc. reflexivity.
Qed.

Lemma to_pending_eq E ngs nss p : to_pending E ngs nss p = announce_keys E (new_keys ngs nss) p.
Proof.
  unfold to_pending, new_keys. rewrite announce_keys_app.
  rewrite (to_pending_loop E gkey (fun i g => group_pend E i g)) by (intros; apply pend_of_group).
  destruct (announce_keys E (map gkey ngs) p) as [l1 p1]. cbn [app].
  rewrite (to_pending_loop E skey stream_pend) by (intros; apply pend_of_stream).
  destruct (announce_keys E (map skey nss) p1) as [l2 p2]. reflexivity.
Qed.

(* groups among a list of keys *)
Definition groups_of_keys (ks : list N) : list N :=
  flat_map (fun k => if N.even k then [N.div2 k] else []) ks.

Lemma groups_of_new_keys ngs nss : groups_of_keys (new_keys ngs nss) = ngs.
Proof.
  unfold groups_of_keys, new_keys. rewrite flat_map_app.
  assert (A : flat_map (fun k => if N.even k then [N.div2 k] else []) (map gkey ngs) = ngs).
  { induction ngs as [|g l IH]; cbn [map flat_map]; [reflexivity|]. rewrite gkey_even, gkey_div2. cbn [app]. f_equal. exact IH. }
  assert (B : flat_map (fun k => if N.even k then [N.div2 k] else []) (map skey nss) = []).
  { induction nss as [|s l IH]; cbn [map flat_map]; [reflexivity|]. rewrite skey_even. exact IH. }
  rewrite A, B, app_nil_r. reflexivity.
Qed.

(* announcing a list of fresh nodes *)
Lemma J_announce E st0 ks : forall nst nst' p c ag,
  J E st0 nst p c ag -> n_closed nst = false -> n_announce ks nst = Some nst' ->
  let '(pn, p') := announce_keys E ks p in
  J E st0 nst' p' (mkParts (pa_pending c ++ pn) (pa_incr c) (pa_completed c) (pa_has_next c))
    (ag ++ groups_of_keys ks)
  /\ n_closed nst' = false.
Proof.
  induction ks as [|k ks IH]; intros nst nst' p c ag HJ Hcl Hn; cbn [n_announce announce_keys] in *.
  - inversion Hn; subst. cbn. rewrite !app_nil_r. destruct c; auto.
  - destruct (memN k (n_seen nst)) eqn:Hm; [discriminate|]. apply memN_false_iff in Hm.
    assert (Hk : ~ In k (map fst (ids p))).
    { pose proof (J_T _ _ _ _ _ _ HJ) as HT. rewrite (t_keys _ _ HT). intro X. apply Hm.
      apply (t_open_seen _ _ HT). exact X. }
    rewrite (ensure_id_fresh _ _ Hk).
    pose proof (J_announce1 E st0 nst p c ag k HJ Hm Hcl) as HJ1.
    fold (ns_announce1 k nst) in Hn.
    specialize (IH _ _ _ _ _ HJ1 Hcl Hn).
    destruct (announce_keys E ks (pub_add k p)) as [l p2].
    destruct IH as (HJ2 & Hc2).
    cbn [pa_pending pa_incr pa_completed pa_has_next] in HJ2.
    rewrite <- app_assoc in HJ2. cbn [app] in HJ2.
    split; [|exact Hc2].
    assert (Hag : (if N.even k then ag ++ [N.div2 k] else ag) ++ groups_of_keys ks
                  = ag ++ groups_of_keys (k :: ks)).
    { cbn [groups_of_keys flat_map]. destruct (N.even k); [rewrite <- app_assoc|]; reflexivity. }
    rewrite <- Hag. exact HJ2.
Qed.

Lemma deliver_defers js : forall pd,
  (forall j, In j js -> exists q, find_pend j pd = Some q /\ p_stream q = false) ->
  deliver (map IDefer js) pd = Some pd.
Proof.
  induction js as [|j js IH]; intros pd H; cbn [map deliver]; [reflexivity|].
  destruct (H j (or_introl eq_refl)) as (q & Hq & Hs). rewrite Hq, Hs.
  apply IH. intros j' Hj'. apply H. right. exact Hj'.
Qed.

Lemma J_defers E st0 nst p c ag js :
  J E st0 nst p c ag ->
  (forall j, In j js -> exists k, N.even k = true /\ In (k, j) (ids p)) ->
  J E st0 nst p (mkParts (pa_pending c) (pa_incr c ++ map IDefer js) (pa_completed c) (pa_has_next c)) ag.
Proof.
  intros (M1 & pd2 & [Ha Hd Hc Hu Hl HT Hn Hag]) Hjs.
  exists M1, pd2. constructor; cbn [pa_pending pa_incr pa_completed pa_has_next]; try assumption.
  rewrite deliver_app, Hd. apply deliver_defers. intros j Hj.
  destruct (Hjs j Hj) as (k & Hk & Hin).
  exists (pend_of E (nxf nst) (k, j)). split.
  - eapply complete_find; [exact Hc|]. apply find_table; [exact Hin|exact (T_bij _ _ HT)].
  - rewrite pend_of_stream_flag, Hk. reflexivity.
Qed.

Lemma natl_eqb_refl l : natl_eqb l l = true.
Proof. induction l as [|x l IH]; cbn; [reflexivity|]. rewrite Nat.eqb_refl. exact IH. Qed.

Definition ns_set_next (k : N) (n : nat) (nst : nstate) : nstate :=
  mkNS (n_seen nst) (n_open nst) (aset k n (n_next nst)) (n_closed nst).

Lemma J_stream E st0 nst p c ag x i count :
  J E st0 nst p c ag -> In (skey x, i) (ids p) ->
  J E st0 (ns_set_next (skey x) (next_of (skey x) nst + count)%nat nst) p
    (mkParts (pa_pending c) (pa_incr c ++ [IStream i (seq (next_of (skey x) nst) count)])
             (pa_completed c) (pa_has_next c)) ag.
Proof.
  intros (M1 & pd2 & [Ha Hd Hc Hu Hl HT Hn Hag]) Hin. pose proof (T_bij _ _ HT) as Hb.
  destruct HT as [Tk Tno Tos Tni Tlt Tns Tcl].
  set (first := next_of (skey x) nst).
  pose proof (complete_find _ _ _ _ _ Hc (find_table E (nxf nst) _ _ _ Hin Hb)) as Hf2.
  exists M1, (set_next i (first + count)%nat pd2).
  constructor; cbn [pa_pending pa_incr pa_completed pa_has_next]; try assumption.
  - rewrite deliver_app, Hd. cbn [deliver]. rewrite Hf2, pend_of_stream. cbn [p_stream p_next andb].
    unfold nxf. fold first. rewrite seq_length, natl_eqb_refl. reflexivity.
  - rewrite (complete_set_next _ _ _ i (first + count)%nat Hc). f_equal.
    rewrite (set_next_table E (nxf nst) _ (skey x) i _ Hin (skey_even x) Hb).
    apply table_pend_ext. intros k _. unfold nxf, ns_set_next, next_of. cbn [n_next].
    destruct (N.eqb_spec k (skey x)) as [->|Ek].
    + rewrite aget_aset_same. reflexivity.
    + rewrite (aget_aset_other _ _ _ _ Ek). reflexivity.
  - constructor; cbn [ns_set_next n_open n_seen n_next n_closed]; auto.
    intros k Hk. destruct (N.eq_dec k (skey x)) as [->|Hne].
    + apply Tos. rewrite <- Tk. exact (in_fst _ _ _ Hin).
    + rewrite (aget_aset_other _ _ _ _ Hne) in Hk. apply Tns. exact Hk.
Qed.

(* the id chosen by _get_best_id_and_sub_path is the id of a group in the table *)
Lemma best_id_in E i g t p :
  In (gkey g, i) (ids p) ->
  exists k, N.even k = true /\ In (k, best_id E i g t p) (ids p).
Proof.
  intro Hin. unfold best_id.
  apply (fold_pres (fun st : N * nat => exists k, N.even k = true /\ In (k, fst st) (ids p))).
  - intros [best maxlen] dg Hst.
    destruct (dg =? g); [exact Hst|].
    destruct (agetN (gkey dg) (ids p)) as [j|] eqn:A; [|exact Hst].
    destruct (Nat.ltb maxlen (length (group_path E dg))); [|exact Hst].
    exists (gkey dg). split; [apply gkey_even|]. exact (agetN_in _ _ _ A).
  - exists (gkey g). split; [apply gkey_even|exact Hin].
Qed.

(* an open node has an id: _ensure_id finds it *)
Lemma open_ensure nst p k :
  T nst p -> memN k (n_open nst) = true -> exists i, ensure_id k p = (i, p) /\ In (k, i) (ids p).
Proof.
  intros HT Hm. apply memN_spec in Hm. rewrite <- (t_keys _ _ HT) in Hm.
  destruct (agetN_some _ _ Hm) as [i Hi]. exists i.
  split; [apply ensure_id_present; exact Hi|exact (agetN_in _ _ _ Hi)].
Qed.

Lemma J_event E st0 nst nst' p c ag e :
  J E st0 nst p c ag -> nstep nst e = Some nst' ->
  let '(p', c') := handle_event E (p, c) e in
  J E st0 nst' p' c' (ag ++ announced_groups [e]).
Proof.
  intros HJ Hs. pose proof (J_T _ _ _ _ _ _ HJ) as HT.
  unfold nstep in Hs. destruct (n_closed nst) eqn:Hcl; [discriminate|].
  assert (Hclose : forall x, memN (skey x) (n_open nst) = true ->
    let '(p', c') :=
      let '(i, p1) := ensure_id (skey x) p in
      (del_id (skey x) p1, mkParts (pa_pending c) (pa_incr c) (pa_completed c ++ [i]) (pa_has_next c)) in
    J E st0 (n_close (skey x) nst) p' c' ag).
  { intros x Hm. destruct (open_ensure _ _ _ HT Hm) as (i & -> & Hin). apply J_complete; assumption. }
  destruct e as [g ts|g ngs nss|g|x first count ngs nss|x|x|]; cbn [handle_event announced_groups flat_map];
    rewrite ?app_nil_r.
  - (* GroupValues *)
    destruct (memN (gkey g) (n_open nst)) eqn:Hm; [|discriminate]. inversion Hs; subst nst'; clear Hs.
    destruct (open_ensure _ _ _ HT Hm) as (i & -> & Hin).
    rewrite <- (map_map (fun t => best_id E i g t p) IDefer).
    apply J_defers; [exact HJ|]. intros j Hj. apply in_map_iff in Hj as [t [<- _]].
    apply best_id_in. exact Hin.
  - (* GroupSuccess *)
    destruct (memN (gkey g) (n_open nst)) eqn:Hm; [|discriminate].
    destruct (open_ensure _ _ _ HT Hm) as (i & -> & Hin).
    pose proof (J_complete _ _ _ _ _ _ _ _ HJ Hin) as HJ1.
    rewrite to_pending_eq.
    pose proof (J_announce E st0 (new_keys ngs nss) _ _ _ _ _ HJ1 Hcl Hs) as HJ2.
    destruct (announce_keys E (new_keys ngs nss) (del_id (gkey g) p)) as [pn p3].
    destruct HJ2 as (HJ2 & _). rewrite groups_of_new_keys in HJ2. exact HJ2.
  - (* GroupFailure: the failure of a group that has no id is ignored *)
    inversion Hs; subst nst'; clear Hs.
    destruct (agetN (gkey g) (ids p)) as [i|] eqn:A.
    + apply J_complete; [exact HJ|exact (agetN_in _ _ _ A)].
    + assert (Hno : ~ In (gkey g) (n_open nst)).
      { rewrite <- (t_keys _ _ HT). intro X. destruct (agetN_some _ _ X) as [i Hi]. congruence. }
      assert (Heq : n_close (gkey g) nst = nst).
      { unfold n_close. rewrite (filter_neq_noop _ _ Hno). destruct nst; reflexivity. }
      rewrite Heq. exact HJ.
  - (* StreamValues *)
    destruct (memN (skey x) (n_open nst)) eqn:Hm; [|discriminate].
    destruct (Nat.eqb first (next_of (skey x) nst)) eqn:Hf; [|discriminate].
    apply Nat.eqb_eq in Hf. subst first. cbn [andb] in Hs.
    destruct (open_ensure _ _ _ HT Hm) as (i & -> & Hin).
    pose proof (J_stream _ _ _ _ _ _ x i count HJ Hin) as HJ1.
    unfold ns_set_next in HJ1. rewrite Hcl in HJ1. rewrite to_pending_eq.
    pose proof (J_announce E st0 (new_keys ngs nss) _ _ _ _ _ HJ1 eq_refl Hs) as HJ2.
    destruct (announce_keys E (new_keys ngs nss) p) as [pn p3].
    destruct HJ2 as (HJ2 & _). rewrite groups_of_new_keys in HJ2. exact HJ2.
  - (* StreamSuccess *)
    destruct (memN (skey x) (n_open nst)) eqn:Hm; [|discriminate]. inversion Hs; subst nst'. exact (Hclose x Hm).
  - (* StreamFailure *)
    destruct (memN (skey x) (n_open nst)) eqn:Hm; [|discriminate]. inversion Hs; subst nst'. exact (Hclose x Hm).
  - (* Termination *)
    destruct (n_open nst) eqn:Ho; [|discriminate]. inversion Hs; subst nst'; clear Hs.
    destruct HJ as (M1 & pd2 & [Ha Hd Hc Hu Hl _ Hn Hag]).
    exists M1, pd2. constructor; cbn [pa_pending pa_incr pa_completed pa_has_next]; try assumption; [|reflexivity].
    destruct HT as [Tk Tno Tos Tni Tlt Tns Tcl].
    constructor; cbn [n_open n_seen n_next n_closed]; auto.
    + rewrite Tk, Ho. reflexivity.
    + constructor.
    + intros y [].
Qed.

Lemma announced_groups_app a b : announced_groups (a ++ b) = announced_groups a ++ announced_groups b.
Proof. unfold announced_groups. apply flat_map_app. Qed.

Lemma J_events E st0 b : forall nst nst' p c ag,
  J E st0 nst p c ag -> nsteps nst b = Some nst' ->
  let '(p', c') := fold_left (handle_event E) b (p, c) in
  J E st0 nst' p' c' (ag ++ announced_groups b).
Proof.
  induction b as [|e b IH]; intros nst nst' p c ag HJ Hs; cbn [nsteps fold_left] in *.
  - inversion Hs; subst. rewrite app_nil_r. exact HJ.
  - destruct (nstep nst e) as [nst1|] eqn:S1; [|discriminate].
    pose proof (J_event _ _ _ _ _ _ _ _ HJ S1) as HJ1.
    destruct (handle_event E (p, c) e) as [p1 c1].
    specialize (IH _ _ _ _ _ HJ1 Hs).
    destruct (fold_left (handle_event E) b (p1, c1)) as [p' c'].
    change (e :: b) with ([e] ++ b). rewrite announced_groups_app, app_assoc. exact IH.
Qed.

(* between batches: the monitor's pend list is the id table *)
Definition K (E : env) (nst : nstate) (p : pub) (M : mstate) : Prop :=
  m_pend M = table_pend E (nxf nst) (ids p) /\
  (forall i, In i (m_used M) -> i < next_id p) /\
  T nst p.

Lemma J_start E nst p M : K E nst p M -> n_closed nst = false -> J E M nst p parts_init [].
Proof.
  intros (Kp & Ku & KT) Hcl. exists M, (m_pend M). constructor; cbn; try assumption.
  - reflexivity.
  - reflexivity.
  - rewrite Kp. reflexivity.
  - constructor.
  - rewrite Hcl. reflexivity.
  - intros a [].
Qed.

Lemma nesting_from_nodes E nst p streams (pending : list pend) ag :
  T nst p ->
  (forall a, In a pending -> p_stream a = false -> In (p_label a) ag) ->
  n_nesting_ok E ag nst = true ->
  nesting_ok (e_parent E) streams pending (table_pend E (nxf nst) (ids p)) = true.
Proof.
  intros HT Hag Hn. unfold nesting_ok. apply forallb_forall. intros a Ha.
  apply forallb_forall. intros q Hq. apply negb_true_iff. unfold encloses.
  destruct (p_stream q) eqn:Sq; [reflexivity|].
  destruct (p_stream a) eqn:Sa; [reflexivity|]. cbn [negb andb].
  destruct (memN (p_label q) (ancestors (S (length (e_parent E))) (e_parent E) (p_label a))) eqn:Hm;
    [|reflexivity].
  exfalso.
  unfold table_pend in Hq. apply in_map_iff in Hq as [[k i] [Eq Hin]]. subst q.
  rewrite pend_of_stream_flag in Sq. apply negb_false_iff in Sq.
  assert (Hlab : p_label (pend_of E (nxf nst) (k, i)) = N.div2 k) by (unfold pend_of; rewrite Sq; reflexivity).
  rewrite Hlab in Hm. apply memN_spec in Hm.
  unfold n_nesting_ok in Hn. rewrite forallb_forall in Hn.
  specialize (Hn _ (Hag _ Ha Sa)). rewrite forallb_forall in Hn. specialize (Hn _ Hm).
  apply negb_true_iff, memN_false_iff in Hn. rewrite (gkey_div2_even _ Sq) in Hn.
  apply Hn. rewrite <- (t_keys _ _ HT). exact (in_fst _ _ _ Hin).
Qed.

(* a finished batch of parts passes the validator *)
Lemma J_mstep E M nst p c ag :
  J E M nst p c ag -> n_nesting_ok E ag nst = true ->
  exists M', mstep (e_parent E) M (mkPayload (pa_pending c) (pa_incr c) (pa_completed c) (pa_has_next c)) = Some M'
    /\ K E nst p M' /\ pa_has_next c = negb (n_closed nst).
Proof.
  intros (M1 & pd2 & [Ha Hd Hc Hu Hl HT Hhn Hag]) Hn.
  eexists. unfold mstep. cbn [pl_pending pl_incr pl_completed pl_has_next].
  rewrite Ha, Hd, Hc, (nesting_from_nodes E nst p (m_streams M1) (pa_pending c) ag HT Hag Hn).
  split; [reflexivity|]. split; [|exact Hhn]. split; [reflexivity|]. split; assumption.
Qed.

Lemma K_batch E nst nst' p M b :
  K E nst p M -> nbatch E nst b = Some nst' ->
  let '(p', pl) := handle_batch E p b in
  exists M', mstep (e_parent E) M pl = Some M' /\ K E nst' p' M' /\ pl_has_next pl = negb (n_closed nst').
Proof.
  intros HK Hb. unfold nbatch in Hb.
  destruct (n_closed nst) eqn:Hcl; [discriminate|].
  destruct (nsteps nst b) as [nst1|] eqn:Hs; [|discriminate].
  destruct (n_nesting_ok E (announced_groups b) nst1) eqn:Hn; [|discriminate].
  inversion Hb; subst nst1; clear Hb.
  pose proof (J_events E M b _ _ _ _ _ (J_start _ _ _ _ HK Hcl) Hs) as HJ.
  unfold handle_batch. destruct (fold_left (handle_event E) b (p, parts_init)) as [p' c'].
  exact (J_mstep _ _ _ _ _ _ HJ Hn).
Qed.

Lemma nbatches_closed E bs nst nst' : n_closed nst = true -> nbatches E nst bs = Some nst' -> bs = [].
Proof.
  intros Hc H. destruct bs as [|b bs]; [reflexivity|]. cbn in H. unfold nbatch in H. rewrite Hc in H. discriminate.
Qed.

Lemma K_batches E : forall bs nst nst' p M,
  K E nst p M -> n_closed nst = false -> nbatches E nst bs = Some nst' ->
  exists M', vrun (e_parent E) M (handle_batches E p bs) = Some (M', n_closed nst').
Proof.
  induction bs as [|b bs IH]; intros nst nst' p M HK Hcl Hb; cbn [nbatches handle_batches vrun] in *.
  - inversion Hb; subst. exists M. rewrite Hcl. reflexivity.
  - destruct (nbatch E nst b) as [nst1|] eqn:B1; [|discriminate].
    pose proof (K_batch _ _ _ _ _ _ HK B1) as HB.
    destruct (handle_batch E p b) as [p1 pl]. destruct HB as (M1 & Hm & HK1 & Hhn).
    cbn [vrun]. rewrite Hm. destruct (pl_has_next pl) eqn:Hn.
    + symmetry in Hhn. apply negb_true_iff in Hhn. exact (IH _ _ _ _ HK1 Hhn Hb).
    + (* the termination event closed the monitor: no batch follows and nothing is pending *)
      symmetry in Hhn. apply negb_false_iff in Hhn.
      pose proof (nbatches_closed _ _ _ _ Hhn Hb) as Hnil. subst bs. cbn in Hb. inversion Hb; subst nst'.
      cbn [handle_batches].
      destruct HK1 as (Kp & _ & KT). rewrite Kp.
      assert (Hids : ids p1 = []).
      { pose proof (t_keys _ _ KT) as Tk. rewrite (t_closed _ _ KT Hhn) in Tk.
        destruct (ids p1); [reflexivity|discriminate]. }
      rewrite Hids. cbn. rewrite Hhn. eauto.
Qed.

Lemma K_init E : K E ns_init pub_init m_init.
Proof.
  split; [reflexivity|]. split; [intros i []|].
  constructor; cbn [ns_init pub_init ids next_id n_open n_seen n_next n_closed map].
  - reflexivity.
  - constructor.
  - intros x [].
  - constructor.
  - intros k i [].
  - intros k Hk. exfalso. apply Hk. reflexivity.
  - discriminate.
Qed.

(* Every well-formed trace of work-queue event batches is published as a payload stream that the
   protocol validator accepts; the stream is complete exactly when the trace ended with the
   termination event. *)
Theorem publish_valid E ig is_ bs nst :
  nrun E ig is_ bs = Some nst ->
  exists M, vrun (e_parent E) m_init (publish E ig is_ bs) = Some (M, n_closed nst).
Proof.
  unfold nrun. intro H.
  destruct (n_announce (new_keys ig is_) ns_init) as [st0|] eqn:A; [|discriminate].
  destruct (n_nesting_ok E ig st0) eqn:Hn; [|discriminate].
  (* the initial payload is a batch that only announces *)
  pose proof (J_announce E m_init (new_keys ig is_) _ _ _ _ _ (J_start _ _ _ _ (K_init E) eq_refl) eq_refl A) as HJ.
  unfold publish. rewrite to_pending_eq.
  destruct (announce_keys E (new_keys ig is_) pub_init) as [pn p].
  destruct HJ as (HJ & Hcl). rewrite groups_of_new_keys in HJ.
  destruct (J_mstep _ _ _ _ _ _ HJ Hn) as (M' & Hm & HK & _). cbn in Hm.
  cbn [vrun]. rewrite Hm. cbn [pl_has_next].
  exact (K_batches E bs st0 nst p M' HK Hcl H).
Qed.

Corollary publish_valid_prefix E ig is_ bs :
  wq_wf E ig is_ bs = true -> valid_prefix (e_parent E) (publish E ig is_ bs) = true.
Proof.
  unfold wq_wf, valid_prefix. destruct (nrun E ig is_ bs) as [nst|] eqn:R; [|discriminate].
  intros _. destruct (publish_valid _ _ _ _ _ R) as [M HM]. rewrite HM. reflexivity.
Qed.

Corollary publish_valid_complete E ig is_ bs :
  wq_wf_closed E ig is_ bs = true -> valid (e_parent E) (publish E ig is_ bs) = true.
Proof.
  unfold wq_wf_closed, valid. destruct (nrun E ig is_ bs) as [nst|] eqn:R; [|discriminate].
  intro Hc. destruct (publish_valid _ _ _ _ _ R) as [M HM]. rewrite HM. exact Hc.
Qed.
