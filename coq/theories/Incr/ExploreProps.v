(* C05 - the bounded exhaustive exploration inside Coq (graph invariant, protocol validity,
   creation order) lifted to universally quantified statements over the explored family. *)
From GV Require Import Base.Prelude Incr.Protocol Incr.WorkQueue Incr.Publisher Incr.NodeProtocol Incr.Explore Incr.ExploreInc Incr.Universe.

Lemma paths_complete E cands : forall n s evs,
  (length evs <= n)%nat -> Forall (fun e => In e cands) evs -> enabled_path E s evs = true ->
  In evs (paths E cands n s).
Proof.
  induction n as [|n IH]; intros s evs Hl Hc He.
  - destruct evs; [left; reflexivity | cbn in Hl; lia].
  - destruct evs as [|e r]; [left; reflexivity|].
    cbn in Hl. inversion Hc as [|? ? Hin Hr]; subst.
    cbn in He. apply andb_true_iff in He as [He1 He2].
    right. apply in_flat_map. exists e. split; [exact Hin|].
    rewrite He1. apply in_map. apply IH; [lia | exact Hr | exact He2].
Qed.

Lemma explore_sound n E w :
  explore n (E, w) = true ->
  forall evs, (length evs <= n)%nat -> Forall (fun e => In e (candidates E)) evs ->
  enabled_path E (snd (init E w)) evs = true -> check_path E w evs = true.
Proof.
  unfold explore. intros H evs Hl Hc He.
  rewrite forallb_forall in H. apply H. apply paths_complete; assumption.
Qed.

Lemma paths_sound E cands : forall n s evs,
  In evs (paths E cands n s) ->
  (length evs <= n)%nat /\ Forall (fun e => In e cands) evs /\ enabled_path E s evs = true.
Proof.
  induction n as [|n IH]; intros s evs [<-|H]; try (cbn; auto with arith); [destruct H|].
  apply in_flat_map in H as (e & Hin & H).
  destruct (en_single E s e) eqn:He; [|destruct H].
  apply in_map_iff in H as (r & <- & Hr). apply IH in Hr as (Hl & Hc & Hr).
  cbn. rewrite He, Hr. auto with arith.
Qed.

(* what the depth-first explorer of ExploreInc accepts, the path-by-path [explore] of the model accepts *)
Lemma explore_inc_explore n g : explore_inc n g = true -> explore n g = true.
Proof.
  destruct g as [E w]. intro H. apply forallb_forall. intros p Hp.
  apply paths_sound in Hp as (Hl & Hc & He). exact (explore_inc_sound n E w H p Hl Hc He).
Qed.

(* [small_graph] compares the number of paths of length <= 6 with 5000.  [spend] walks the same tree
   with a budget and stops when it is used up: deciding that a graph is not small does not build its
   whole path list. *)
Fixpoint spend (E : env) (cands : list gevent) (n : nat) (s : state) (budget : nat) : nat :=
  match budget with
  | O => O
  | S b =>
      match n with
      | O => b
      | S k => fold_left (fun b e => if en_single E s e
                                     then spend E cands k (step_single E s e) b else b) cands b
      end
  end.

Lemma spend_paths E cands : forall n s b,
  spend E cands n s b = (b - length (paths E cands n s))%nat.
Proof.
  induction n as [|n IH]; intros s [|b]; cbn [spend paths length]; try lia.
  generalize cands at 2 4. intros l. revert b.
  induction l as [|e l IHl]; intro b; cbn [fold_left flat_map]; [cbn; lia|].
  rewrite IHl, app_length. destruct (en_single E s e); [|cbn; lia].
  rewrite IH, map_length. lia.
Qed.

Definition spent (g : env * work) : bool :=
  Nat.eqb (spend (fst g) (candidates (fst g)) 6 (snd (init (fst g) (snd g))) 5000) 0.

Lemma spent_not_small g : spent g = true -> small_graph g = false.
Proof.
  unfold spent, small_graph. rewrite spend_paths. intro H. apply Nat.eqb_eq in H.
  apply Nat.ltb_ge. lia.
Qed.

(* Depth 5 on the graphs that are not small; on the small ones depth 9, where no path of length 9
   is left, which makes the exploration complete. *)
Definition explored (g : env * work) : bool :=
  if spent g then explore_inc 5 g
  else explore_inc 9 g
       && forallb (fun p => Nat.leb (length p) 8)
                  (paths (fst g) (candidates (fst g)) 9 (snd (init (fst g) (snd g)))).

Lemma universe_explored : forallb explored universe = true.
Proof. vm_cast_no_check (eq_refl true). Qed.

Theorem bounded_universe : forall E w, In (E, w) universe ->
  forall evs, (length evs <= 5)%nat -> Forall (fun e => In e (candidates E)) evs ->
  enabled_path E (snd (init E w)) evs = true -> check_path E w evs = true.
Proof.
  intros E w Hin evs Hl Hc He.
  pose proof universe_explored as H. rewrite forallb_forall in H. specialize (H _ Hin).
  unfold explored in H. destruct (spent (E, w)).
  - exact (explore_inc_sound 5 E w H evs Hl Hc He).
  - apply andb_true_iff in H as [H _].
    apply (explore_inc_sound 9 E w H); [lia | exact Hc | exact He].
Qed.

Lemma check_path_facts E w evs :
  check_path E w evs = true ->
  let '(ig, is_, s0) := init E w in
  let '(s1, outs) := run_batches E s0 (single evs) in
  let ps := publish E ig is_ outs in
  inv E s1 = true
  /\ (stopped s1 = true \/ exists e, In e (candidates E) /\ en_single E s1 e = true)
  /\ last_step_ok E s0 evs = true
  /\ valid_prefix (e_parent E) ps = true
  /\ (stopped s1 = true -> valid (e_parent E) ps = true)
  /\ creation_ok E (concat outs) = true
  /\ wq_wf E ig is_ outs = true
  /\ wq_wf_closed E ig is_ outs = stopped s1.
Proof.
  unfold check_path. destruct (init E w) as [[ig is_] s0].
  destruct (run_batches E s0 (single evs)) as [s1 outs]. cbn zeta.
  intro H.
  apply andb_true_iff in H as [H H8]. apply andb_true_iff in H as [H H7].
  apply andb_true_iff in H as [H H6]. apply andb_true_iff in H as [H H5].
  apply andb_true_iff in H as [H H4]. apply andb_true_iff in H as [H H3].
  apply andb_true_iff in H as [H1 H2].
  split; [exact H1|]. split.
  - apply orb_true_iff in H2 as [X|X]; [left; exact X|].
    right. apply existsb_exists in X. exact X.
  - split; [exact H3|]. split; [exact H4|]. split.
    + intro Hs. rewrite Hs in H5. exact H5.
    + split; [exact H6|]. split; [exact H7|]. apply eqb_prop. exact H8.
Qed.

Lemma enabled_path_app E l1 : forall s l2,
  enabled_path E s (l1 ++ l2) = true -> enabled_path E s l1 = true.
Proof.
  induction l1 as [|e l1 IH]; intros s l2 H; cbn in *; [reflexivity|].
  apply andb_true_iff in H as [H1 H2]. rewrite H1. cbn. exact (IH _ _ H2).
Qed.

(* for the small graphs of the family: EVERY enabled event sequence, of any length.  A sequence of
   more than 8 events would begin with an enabled one of 9, and those have all been seen. *)
Theorem small_graphs_all_sequences : forall E w,
  In (E, w) universe -> small_graph (E, w) = true ->
  forall evs, Forall (fun e => In e (candidates E)) evs ->
  enabled_path E (snd (init E w)) evs = true -> check_path E w evs = true.
Proof.
  intros E w Hin Hs evs Hc He.
  pose proof universe_explored as H. rewrite forallb_forall in H. specialize (H _ Hin).
  unfold explored in H. destruct (spent (E, w)) eqn:Hb.
  { rewrite (spent_not_small _ Hb) in Hs. discriminate. }
  apply andb_true_iff in H as [H Hn]. cbn [fst snd] in Hn. rewrite forallb_forall in Hn.
  apply (explore_inc_sound 9 E w H); [|exact Hc | exact He].
  assert (Hpre : In (firstn 9 evs) (paths E (candidates E) 9 (snd (init E w)))).
  { apply paths_complete.
    - apply firstn_le_length.
    - rewrite <- (firstn_skipn 9 evs) in Hc. apply Forall_app in Hc. exact (proj1 Hc).
    - apply (enabled_path_app E _ _ (skipn 9 evs)). rewrite firstn_skipn. exact He. }
  apply Hn in Hpre. apply Nat.leb_le in Hpre. rewrite firstn_length in Hpre. lia.
Qed.
