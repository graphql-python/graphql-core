(* Facts about plain lists, by subject: append and emptiness; flat_map; Forall; filter, existsb and
   forallb; duplicate-free lists and association lists; Forall2; the ends of a list; firstn and skipn;
   folds.  Stdlib only. *)
From GV Require Import Base.Prelude.

Lemma app_nil_iff {A} (a b : list A) : a ++ b = [] <-> a = [] /\ b = [].
Proof. split; [apply app_eq_nil | intros [-> ->]; reflexivity]. Qed.

Lemma app_nonempty {A} (x y : list A) : x ++ y <> [] <-> x <> [] \/ y <> [].
Proof.
  destruct x; cbn; [split; [auto | intros [H|H]; congruence]|].
  split; [left|]; discriminate.
Qed.

Lemma map_nil_iff {A B} (f : A -> B) l : map f l = [] <-> l = [].
Proof. destruct l; cbn; split; intro H; congruence. Qed.

Lemma map_nonempty {A B} (g : A -> B) l : map g l <> [] <-> l <> [].
Proof. rewrite map_nil_iff. tauto. Qed.

Lemma app_inv_length {A} (a a' b b' : list A) : length a = length a' -> a ++ b = a' ++ b' -> a = a' /\ b = b'.
Proof.
  revert a'. induction a as [|x a IH]; intros [|x' a'] Hl H; cbn in *; try discriminate; [auto|].
  inversion H; subst. destruct (IH a' (eq_add_S _ _ Hl) H2) as [-> ->]. auto.
Qed.


Lemma flat_map_nil {A B} (f : A -> list B) l :
  flat_map f l = [] <-> forall a, In a l -> f a = [].
Proof.
  rewrite flat_map_concat_map, concat_nil_Forall, Forall_forall. split.
  - intros H a Ha. apply H. apply in_map. exact Ha.
  - intros H x Hx. apply in_map_iff in Hx as (a & <- & Ha). auto.
Qed.

(* an error list built per element is empty iff every element's list is *)
Lemma flat_map_nil_Forall {A B} (f : A -> list B) (P : A -> Prop) l :
  (forall x, f x = [] <-> P x) -> (flat_map f l = [] <-> Forall P l).
Proof.
  intro H. induction l as [|x l IH]; cbn; [split; auto|].
  rewrite app_nil_iff, IH, H. split; [intros [H1 H2]; constructor; auto | intro F; inversion F; auto].
Qed.

Lemma flat_map_none {A B} (l : list A) : flat_map (fun _ => @nil B) l = [].
Proof. apply flat_map_nil. reflexivity. Qed.

Lemma flat_map_single {A} (l : list A) : flat_map (fun x => [x]) l = l.
Proof. induction l as [|x r IH]; cbn; [reflexivity|]. rewrite IH. reflexivity. Qed.

Lemma flat_map_ext_in {A B} (f g : A -> list B) l :
  (forall a, In a l -> f a = g a) -> flat_map f l = flat_map g l.
Proof.
  induction l as [|a l IH]; cbn; intro H; auto.
  rewrite (H a (or_introl eq_refl)), IH; auto.
Qed.

Lemma flat_map_map {A B C} (f : B -> list C) (g : A -> B) l :
  flat_map f (map g l) = flat_map (fun x => f (g x)) l.
Proof. induction l; cbn; congruence. Qed.

Lemma map_flat_map {A B C} (f : B -> C) (g : A -> list B) l :
  map f (flat_map g l) = flat_map (fun x => map f (g x)) l.
Proof. induction l; cbn; [reflexivity|]. rewrite map_app. congruence. Qed.

Lemma flat_map_flat_map {A B C} (f : B -> list C) (g : A -> list B) l :
  flat_map f (flat_map g l) = flat_map (fun x => flat_map f (g x)) l.
Proof. induction l; cbn; [reflexivity|]. rewrite flat_map_app. congruence. Qed.

Lemma in_flat_map_app {B C} (f g : B -> list C) l k :
  In k (flat_map (fun x => f x ++ g x) l) <-> In k (flat_map f l ++ flat_map g l).
Proof.
  rewrite in_app_iff, !in_flat_map. split.
  - intros [x [Hx H]]. apply in_app_or in H as [H|H]; eauto.
  - intros [[x [Hx H]]|[x [Hx H]]]; exists x; rewrite in_app_iff; auto.
Qed.


Lemma Forall_and_iff {A} (P Q : A -> Prop) l : Forall (fun x => P x /\ Q x) l <-> Forall P l /\ Forall Q l.
Proof.
  rewrite !Forall_forall. split.
  - intro H. split; intros x Hx; apply (H x Hx).
  - intros [H1 H2] x Hx. split; auto.
Qed.

(* conjunctions over a list written as a local fixpoint, as the well-formedness predicates of
   nested values are *)
Lemma all_in {A} (P : A -> Prop) l x :
  (fix all (l : list A) : Prop := match l with [] => True | y :: r => P y /\ all r end) l -> In x l -> P x.
Proof.
  induction l as [|y l IH]; intros H I; [destruct I|].
  destruct H as [H1 H2]. destruct I as [->|I]; auto.
Qed.

Lemma all_snd_in {K A} (P : A -> Prop) (l : list (K * A)) k x :
  (fix all (l : list (K * A)) : Prop := match l with [] => True | (_, y) :: r => P y /\ all r end) l ->
  In (k, x) l -> P x.
Proof.
  induction l as [|[k' y] l IH]; intros H I; [destruct I|].
  destruct H as [H1 H2]. destruct I as [E|I]; [inversion E; subst; auto | auto].
Qed.

Lemma Forall_skipn' {A} (Q : A -> Prop) n l : Forall Q l -> Forall Q (skipn n l).
Proof.
  revert l; induction n as [|n IH]; intros l H; [exact H|]. destruct l; [constructor|].
  inversion H; subst. cbn. apply IH. assumption.
Qed.


Lemma filter_all {A} (f : A -> bool) l : (forall x, In x l -> f x = true) -> filter f l = l.
Proof.
  induction l as [|x l IH]; intro H; cbn; [reflexivity|].
  rewrite (H x (or_introl eq_refl)). f_equal. apply IH. intros y Hy. apply H. right. exact Hy.
Qed.

Lemma filter_true {A} (p : A -> bool) l : (forall x, p x = true) -> filter p l = l.
Proof. intro H. apply filter_all. auto. Qed.

Lemma filter_nil {A} (p : A -> bool) l : (forall x, In x l -> p x = false) -> filter p l = [].
Proof.
  intro H. induction l as [|x r IH]; cbn; [reflexivity|].
  rewrite H by (left; reflexivity). apply IH. intros y Hy. apply H. right. exact Hy.
Qed.

Lemma existsb_false_in {A} (f : A -> bool) l x : existsb f l = false -> In x l -> f x = false.
Proof.
  intros H I. destruct (f x) eqn:E; [|reflexivity].
  rewrite <- H. symmetry. apply existsb_exists. eauto.
Qed.

Lemma existsb_filter_nonempty {A} (f : A -> bool) l : existsb f l = true <-> filter f l <> [].
Proof.
  induction l as [|x l IH]; cbn; [split; [discriminate | congruence]|].
  destruct (f x); cbn; [split; [discriminate | reflexivity] | exact IH].
Qed.

Lemma existsb_filter_empty {A} (f : A -> bool) l : existsb f l = false -> filter f l = [].
Proof.
  intro H. destruct (filter f l) eqn:E; [reflexivity|].
  assert (existsb f l = true) by (apply existsb_filter_nonempty; rewrite E; discriminate). congruence.
Qed.

Lemma filter_all_existsb {A} (f : A -> bool) l : existsb (fun x => negb (f x)) l = false -> filter f l = l.
Proof.
  intro H. apply filter_all. intros x Hx. apply negb_false_iff. exact (existsb_false_in _ _ x H Hx).
Qed.

Lemma existsb_map {A B} (f : B -> bool) (g : A -> B) l : existsb f (map g l) = existsb (fun x => f (g x)) l.
Proof. induction l as [|x l IH]; cbn; [reflexivity | rewrite IH; reflexivity]. Qed.

Lemma existsb_app_l {A} (f : A -> bool) a b : existsb f a = true -> existsb f (a ++ b) = true.
Proof. intros H. rewrite existsb_app, H. reflexivity. Qed.

Lemma forallb_false {A} (f : A -> bool) l : forallb f l = false -> exists x, In x l /\ f x = false.
Proof.
  induction l as [|a r IH]; [discriminate|]. cbn. intros H. apply andb_false_iff in H as [H|H].
  - exists a. auto.
  - destruct (IH H) as (x & H1 & H2). exists x. auto.
Qed.

Lemma forallb_false_existsb {A} (f g : A -> bool) l :
  (forall x, f x = false -> g x = true) -> forallb f l = false -> existsb g l = true.
Proof.
  intros H. induction l as [|x l IH]; [discriminate|]. cbn. intros E.
  apply andb_false_iff in E as [E|E]; [rewrite (H x E); reflexivity|rewrite (IH E), orb_true_r; reflexivity].
Qed.

Lemma forallb_map_ext {A B} (f : A -> B) (g : B -> bool) (h : A -> bool) l :
  (forall x, g (f x) = h x) -> forallb g (map f l) = forallb h l.
Proof. intros H. induction l as [|x l IH]; [reflexivity|]. cbn. rewrite H, IH. reflexivity. Qed.


Lemma NoDup_app_l {A} (a b : list A) : NoDup (a ++ b) -> NoDup a.
Proof.
  induction a as [|x a IH]; cbn; intro H; [constructor|]. inversion H as [|? ? Hx Hr]; subst.
  constructor; [intro X; apply Hx; apply in_or_app; left; exact X|auto].
Qed.

Lemma NoDup_app_r {A} (a b : list A) : NoDup (a ++ b) -> NoDup b.
Proof. induction a as [|x a IH]; cbn; intro H; [exact H|]. inversion H; subst. auto. Qed.

Lemma NoDup_app_disj {A} (a b : list A) x : NoDup (a ++ b) -> In x a -> In x b -> False.
Proof.
  induction a as [|y a IH]; cbn; intros H Ha Hb; [contradiction|].
  inversion H as [|? ? Hy Hr]; subst.
  destruct Ha as [->|Ha]; [apply Hy; apply in_or_app; right; exact Hb|eauto].
Qed.

Lemma NoDup_app_intro {A} (a b : list A) :
  NoDup a -> NoDup b -> (forall x, In x a -> In x b -> False) -> NoDup (a ++ b).
Proof.
  induction a as [|y a IH]; cbn; intros Ha Hb Hd; [exact Hb|].
  inversion Ha; subst. constructor.
  - intro X. apply in_app_or in X as [X|X]; [contradiction|]. apply (Hd y); [left; reflexivity|exact X].
  - apply IH; auto. intros x Hx1 Hx2. apply (Hd x); [right; exact Hx1|exact Hx2].
Qed.

Lemma NoDup_snoc {A} (l : list A) x : NoDup l -> ~ In x l -> NoDup (l ++ [x]).
Proof.
  intros Hl Hx. apply NoDup_app_intro; [exact Hl|repeat constructor; intros []|].
  intros y Hy [<-|[]]. contradiction.
Qed.

Lemma NoDup_map_inj {A B} (f : A -> B) l :
  (forall a b, f a = f b -> a = b) -> NoDup l -> NoDup (map f l).
Proof.
  intros Hinj. induction 1 as [|x l Hn Hd IH]; cbn; [constructor|]. constructor; [|exact IH].
  intro X. apply in_map_iff in X as [y [E Hy]]. apply Hinj in E. subst. contradiction.
Qed.

Lemma nodup_map_inj {A B} (g : A -> B) l x y : NoDup (map g l) -> In x l -> In y l -> g x = g y -> x = y.
Proof.
  induction l as [|z l IH]; cbn [map]; intros ND Ix Iy E; [destruct Ix|].
  inversion ND as [|? ? Hn ND']; subst.
  destruct Ix as [->|Ix], Iy as [->|Iy]; auto.
  - exfalso. apply Hn. rewrite E. apply in_map. exact Iy.
  - exfalso. apply Hn. rewrite <- E. apply in_map. exact Ix.
Qed.

Lemma nodup_map_filter {A B} (g : A -> B) (f : A -> bool) l : NoDup (map g l) -> NoDup (map g (filter f l)).
Proof.
  induction l as [|x l IH]; cbn [map filter]; intro ND; [constructor|].
  inversion ND as [|? ? Hn ND']; subst. destruct (f x); cbn [map]; auto.
  constructor; auto. intro I. apply Hn. apply in_map_iff in I as [y [E Iy]]. apply filter_In in Iy as [Iy _].
  rewrite <- E. apply in_map. exact Iy.
Qed.

(* the step of a loop that rejects repeated elements with an accumulated [seen] list *)
Lemma nodup_seen_step {A} (i : A) l seen :
  ~ In i seen ->
  (NoDup l /\ (forall j, In j l -> ~ In j (i :: seen)) <->
   NoDup (i :: l) /\ (forall j, In j (i :: l) -> ~ In j seen)).
Proof.
  intro Hns. split.
  - intros [Hnd Hdisj]. split.
    + constructor; [|exact Hnd]. intro Hin. apply (Hdisj i Hin). left. reflexivity.
    + intros j [<-|Hj]; [exact Hns|]. intro Hs. apply (Hdisj j Hj). right. exact Hs.
  - intros [Hnd Hdisj]. inversion Hnd as [|? ? Hni Hnd']; subst. split; [exact Hnd'|].
    intros j Hj [<-|Hs]; [contradiction|]. apply (Hdisj j (or_intror Hj) Hs).
Qed.

Lemma NoDup_flat_map_each {A B} (f : A -> list B) l a : NoDup (flat_map f l) -> In a l -> NoDup (f a).
Proof.
  induction l as [|x l IH]; intros H Ha; [destruct Ha|]. cbn in H.
  destruct Ha as [->|Ha].
  - exact (NoDup_app_l _ _ H).
  - apply IH; [exact (NoDup_app_r _ _ H) | exact Ha].
Qed.

(* an association list with distinct keys is a function *)
Lemma NoDup_fst_inj {K A} (l : list (K * A)) k x y :
  NoDup (map fst l) -> In (k, x) l -> In (k, y) l -> x = y.
Proof.
  intros ND Hx Hy. assert (E : (k, x) = (k, y)) by (eapply nodup_map_inj; eauto). congruence.
Qed.

Lemma in_fst {A B} (k : A) (v : B) l : In (k, v) l -> In k (map fst l).
Proof. apply (in_map fst l (k, v)). Qed.

Lemma in_snd {A B} (k : A) (v : B) l : In (k, v) l -> In v (map snd l).
Proof. apply (in_map snd l (k, v)). Qed.


Lemma Forall2_len {A B} (P : A -> B -> Prop) l l' : Forall2 P l l' -> length l = length l'.
Proof. induction 1; cbn; congruence. Qed.

Lemma Forall2_nth_l {A B} (R : A -> B -> Prop) l1 l2 : Forall2 R l1 l2 ->
  forall j a, nth_error l1 j = Some a -> exists b, nth_error l2 j = Some b /\ R a b.
Proof.
  induction 1 as [|a b l1 l2 Hab H IH]; intros [|j] a' Hj; cbn in Hj; try discriminate.
  - inversion Hj; subst. exists b. auto.
  - apply IH. exact Hj.
Qed.

Lemma Forall2_nth_r {A B} (R : A -> B -> Prop) l1 l2 : Forall2 R l1 l2 ->
  forall j b, nth_error l2 j = Some b -> exists a, nth_error l1 j = Some a /\ R a b.
Proof.
  induction 1 as [|a b l1 l2 Hab H IH]; intros [|j] b' Hj; cbn in Hj; try discriminate.
  - inversion Hj; subst. exists a. auto.
  - apply IH. exact Hj.
Qed.

Lemma Forall2_nth {A B} (R : A -> B -> Prop) l1 l2 : Forall2 R l1 l2 ->
  forall j a b, nth_error l1 j = Some a -> nth_error l2 j = Some b -> R a b.
Proof.
  intros H j a b Ha Hb. destruct (Forall2_nth_l R l1 l2 H j a Ha) as (b' & Hb' & Hab). congruence.
Qed.

Lemma Forall2_snoc {A B} (R : A -> B -> Prop) l1 l2 a b :
  Forall2 R l1 l2 -> R a b -> Forall2 R (l1 ++ [a]) (l2 ++ [b]).
Proof. intros H1 H2. apply Forall2_app; [assumption|constructor; [assumption|constructor]]. Qed.

Lemma Forall2_app_inv_l' {A B} (R : A -> B -> Prop) l1 x l2 l' :
  Forall2 R (l1 ++ x :: l2) l' ->
  exists l1' y l2', l' = l1' ++ y :: l2' /\ Forall2 R l1 l1' /\ R x y /\ Forall2 R l2 l2'.
Proof.
  intros H. apply Forall2_app_inv_l in H as (l1' & r & H1 & H2 & ->).
  inversion H2; subst. eauto 10.
Qed.


(* the last element of [pre ++ [x]] is [x]; every other element is in [pre] *)
Lemma snoc_split {A} (pre : list A) x pre0 x0 post :
  pre ++ [x] = pre0 ++ x0 :: post -> (post = [] /\ pre0 = pre /\ x0 = x) \/ In x0 pre.
Proof.
  destruct post as [|y post'] using rev_ind; intros H.
  - apply app_inj_tail in H as [-> ->]. auto.
  - clear IHpost'. right. rewrite app_comm_cons, app_assoc in H. apply app_inj_tail in H as [-> _].
    apply in_elt.
Qed.

Lemma last_cons {A} (l : list A) : forall a b, last (b :: l) a = last l b.
Proof.
  induction l as [|c l IH]; intros a b; [reflexivity|].
  change (last (b :: c :: l) a) with (last (c :: l) a).
  rewrite (IH a c), (IH b c). reflexivity.
Qed.

Lemma last_cons_nonempty {A} (x : A) l d : l <> [] -> last (x :: l) d = last l d.
Proof. destruct l; [congruence|reflexivity]. Qed.

Lemma last_app_r {A} (a b : list A) d : b <> [] -> last (a ++ b) d = last b d.
Proof.
  intros Hb. induction a as [|x a IH]; [reflexivity|]. cbn [app].
  destruct (a ++ b) eqn:E; [apply app_eq_nil in E as [_ E]; congruence|]. exact IH.
Qed.

Lemma last_map_app {A} (f : A -> A) (T : list A) (d : A) : T <> [] -> last (map f T) d = f (last T d).
Proof.
  induction T as [|x T IH]; [congruence|]. intros _. destruct T as [|y T']; [reflexivity|].
  change (last (map f (x :: y :: T')) d) with (last (map f (y :: T')) d).
  change (last (x :: y :: T') d) with (last (y :: T') d). apply IH. discriminate.
Qed.

Lemma tl_map {A B} (f : A -> B) l : tl (map f l) = map f (tl l).
Proof. destruct l; reflexivity. Qed.

Lemma rev_repeat {A} (x : A) n : rev (repeat x n) = repeat x n.
Proof.
  induction n as [|n IH]; [reflexivity|]. cbn [repeat rev]. rewrite IH.
  clear. induction n as [|n IH]; [reflexivity|]. cbn [repeat app]. rewrite IH. reflexivity.
Qed.


(* induction for functions that look one element beyond the head *)
Lemma list_ind_peek {A} (P : list A -> Prop) :
  P [] -> (forall c t, P t -> P (tl t) -> P (c :: t)) -> forall l, P l.
Proof.
  intros H0 H1 l. enough (G : P l /\ P (tl l)) by apply G.
  induction l as [|c t [IH1 IH2]]; [split; exact H0|]. split; [apply H1; assumption|exact IH1].
Qed.

Lemma skipn_skipn' {A} (m : nat) : forall (n : nat) (l : list A), skipn m (skipn n l) = skipn (n + m) l.
Proof.
  intros n; induction n as [|n IH]; intros l; [reflexivity|].
  destruct l; [rewrite !skipn_nil; reflexivity|]. cbn. apply IH.
Qed.

Lemma firstn_add {A} (a b : nat) (l : list A) :
  firstn (a + b) l = firstn a l ++ firstn b (skipn a l).
Proof.
  revert l; induction a as [|a IH]; intros l; [reflexivity|].
  destruct l; [cbn; rewrite firstn_nil; reflexivity|]. cbn. f_equal. apply IH.
Qed.

Lemma firstn_app_length {A} (a r : list A) : firstn (length a) (a ++ r) = a.
Proof. induction a; cbn; [reflexivity|f_equal; assumption]. Qed.

Lemma skipn_app_length {A} (p l : list A) : skipn (length p) (p ++ l) = l.
Proof. induction p; cbn; auto. Qed.


Lemma fold_pres {A S} (P : S -> Prop) (f : S -> A -> S) l :
  (forall s a, P s -> P (f s a)) -> forall s, P s -> P (fold_left f l s).
Proof. intro Hf. induction l as [|a l IH]; intros s H; cbn; auto. Qed.

(* a relation between the state before and after *)
Lemma fold_rel {A S} (R : S -> S -> Prop) (f : S -> A -> S) l :
  (forall s, R s s) -> (forall a b c, R a b -> R b c -> R a c) -> (forall s a, R s (f s a)) ->
  forall s, R s (fold_left f l s).
Proof.
  intros Hr Ht Hf s. apply (fold_pres (R s)); [|apply Hr]. intros s' a H. exact (Ht _ _ _ H (Hf s' a)).
Qed.
