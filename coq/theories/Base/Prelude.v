(* Shared prelude: imports, outcome type, small list helpers.  Stdlib only. *)
From Coq Require Export List NArith ZArith Bool Arith Lia.
Export ListNotations.
Open Scope N_scope.

(* Source text = list of code points (Python str may hold lone surrogates). *)
Definition text := list N.

(* Outcome of a library entry point.  [Crash] is "an exception other than the
   library's own error type escapes". *)
Inductive outcome (A : Type) : Type :=
| Ok (a : A)
| SyntaxErr (pos : nat)
| Crash (what : N)
| OutOfFuel.
Arguments Ok {A} a.
Arguments SyntaxErr {A} pos.
Arguments Crash {A} what.
Arguments OutOfFuel {A}.

Definition obind {A B} (o : outcome A) (f : A -> outcome B) : outcome B :=
  match o with
  | Ok a => f a
  | SyntaxErr p => SyntaxErr p
  | Crash w => Crash w
  | OutOfFuel => OutOfFuel
  end.

Definition LF : N := 10.
Definition CR : N := 13.

Fixpoint nat_list_eqb (a b : list N) : bool :=
  match a, b with
  | [], [] => true
  | x :: a', y :: b' => (x =? y) && nat_list_eqb a' b'
  | _, _ => false
  end.

Lemma nat_list_eqb_eq a b : nat_list_eqb a b = true <-> a = b.
Proof.
  revert b; induction a as [|x a IH]; intros [|y b]; cbn; split; intro H;
    try congruence; try reflexivity.
  - apply andb_true_iff in H as [H1 H2]. apply N.eqb_eq in H1. apply IH in H2. congruence.
  - inversion H; subst. rewrite N.eqb_refl. cbn. apply IH. reflexivity.
Qed.

Lemma nat_list_eqb_refl a : nat_list_eqb a a = true.
Proof. apply nat_list_eqb_eq. reflexivity. Qed.

Lemma nat_list_eqb_sym a : forall b, nat_list_eqb a b = nat_list_eqb b a.
Proof. induction a as [|x a IH]; intros [|y b]; cbn; auto. rewrite N.eqb_sym, IH. reflexivity. Qed.
