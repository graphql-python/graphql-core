(* C12 (rules, continued) - 27 StreamDirectiveOnListField as a function of the parser's AST and the
   schema (Valid/RulesStream.v, over the typed descent of Valid/Rules13.v).
   The longer proofs in Valid/RulesStreamProps.v and RulesStreamErase.v.  Correspondence with the
   implementation, the rule alone and inside validate() with all specified rules:
   harness/crules13.py (model `rules13`, op 0, rule code 27).

   Vocabulary: Occ vs p ss ct fd q dn fd' pt' = in the selection set ss at path p, entered with
   type-stack top ct and field-stack top fd, the directive node dn sits at path q and
   enter_directive sees get_field_def() = fd' and get_parent_type() = pt' (TypeInfo: a field's
   directives see that field's definition; a spread's / inline fragment's directives see the
   enclosing field's; the parent type is that of the enclosing selection set).
   def_sel vs n = the selection set of an operation / fragment definition with its root type /
   type condition.  violb = the rule's test. *)
From GV Require Import Base.Prelude Lang.Ast Exec.Value Exec.Schema Exec.Spec Exec.Typing
  Valid.Rules Valid.RulesBase Valid.RulesErase Valid.RulesPaths Valid.Rules13 Valid.RulesStream Valid.RulesStreamProps Valid.RulesStreamErase.

(* the test: a directive named `stream` entered with a field definition and a parent type, the
   field's type being neither [T] nor [T]! *)
Theorem C12_stream_test_meaning : forall fd pt dn,
  violb fd pt dn = true <->
  exists nm rest f t, dn = Nd KDirective (ANode nm :: rest) /\ fd = Some f /\ pt = Some t /\
                      name_str nm = n_stream /\ listish (f_type f) = false.
Proof. exact violb_spec. Qed.
Print Assumptions C12_stream_test_meaning.

Theorem C12_stream_list_types : forall t,
  listish t = true <-> (exists u, t = TList u) \/ (exists u, t = TNonNull (TList u)).
Proof.
  intro t.
  split.
  - destruct t as [n|u|u]; cbn; try discriminate; [eauto|].
    destruct u; try discriminate. eauto.
  - intros [[u ->]|[u ->]]; reflexivity.
Qed.
Print Assumptions C12_stream_list_types.

(* a selection set: reported paths = failing directive occurrences (any depth, any tree) *)
Theorem C12_stream_selection_set : forall vs p ss ct fd q,
  In q (stream_sel vs p ss ct fd) <->
  exists dn fd' pt', Occ vs p ss ct fd q dn fd' pt' /\ violb fd' pt' dn = true.
Proof. exact stream_sel_In. Qed.
Print Assumptions C12_stream_selection_set.

(* the rule: one error per failing occurrence below an operation or fragment definition *)
Theorem C12_stream_rule : forall vs d e,
  In e (rule_stream_on_list_field vs d) <->
  exists j n ss ct q, nth_error (doc_defs d) j = Some n /\ def_sel vs n = Some (ss, ct) /\
    (exists dn fd' pt', Occ vs [(O, j); (O, O)] ss ct None q dn fd' pt' /\ violb fd' pt' dn = true) /\
    e = VE R_STREAM [q].
Proof. exact stream_rule_In. Qed.
Print Assumptions C12_stream_rule.

Theorem C12_stream_rule_silent : forall vs d,
  rule_stream_on_list_field vs d = [] <->
  forall j n ss ct q dn fd' pt',
    nth_error (doc_defs d) j = Some n -> def_sel vs n = Some (ss, ct) ->
    Occ vs [(O, j); (O, O)] ss ct None q dn fd' pt' -> violb fd' pt' dn = false.
Proof.
  intros vs d.
  rewrite nil_iff_no_In. split.
  - intros H j n ss ct q dn fd' pt' Hn Hd Ho.
    destruct (violb fd' pt' dn) eqn:E; [|reflexivity].
    destruct (H (VE R_STREAM [q])). apply C12_stream_rule.
    exists j, n, ss, ct, q. repeat split; auto. exists dn, fd', pt'. auto.
  - intros H e Hi. apply C12_stream_rule in Hi as (j & n & ss & ct & q & Hn & Hd & (dn & fd' & pt' & Ho & Hv) & _).
    rewrite (H _ _ _ _ _ _ _ _ Hn Hd Ho) in Hv. discriminate.
Qed.
Print Assumptions C12_stream_rule_silent.

(* the occurrence relation names real nodes *)
Theorem C12_stream_occurrence_is_a_node : forall vs p ss ct fd q dn fd' pt',
  Occ vs p ss ct fd q dn fd' pt' -> exists tail, q = p ++ tail /\ get ss tail = Some dn.
Proof. intro vs. exact (proj1 (occ_get_mut vs)). Qed.
Print Assumptions C12_stream_occurrence_is_a_node.

(* every error points at a directive node of the document that is named `stream` *)
Theorem C12_stream_errors_point_at_stream : forall vs d e,
  In e (rule_stream_on_list_field vs d) ->
  exists q nm rest, e = VE R_STREAM [q] /\ get d q = Some (Nd KDirective (ANode nm :: rest)) /\
                    name_str nm = n_stream.
Proof. exact stream_rule_points_at_stream. Qed.
Print Assumptions C12_stream_errors_point_at_stream.

(* adding, changing or removing descriptions never changes what the rule reports *)
Theorem C12_stream_rule_ignores_descriptions : forall vs d,
  rule_stream_on_list_field vs (erase_descriptions d) = rule_stream_on_list_field vs d.
Proof.
  intros vs d.
  unfold rule_stream_on_list_field, stream_paths. rewrite doc_defs_erase.
  f_equal. f_equal. rewrite mapi_map. apply mapi_ext. intros j n _.
  apply stream_def_erase.
Qed.
Print Assumptions C12_stream_rule_ignores_descriptions.

(* non-vacuity: `{ a @stream }` on a schema whose Query.a is an Int is reported, at the directive *)
Example C12_stream_example :
  let s := {| s_types := [([81], TObject [mkField [97] (TNamed [73;110;116]) []] [])];
              s_query := [81]; s_mutation := None |} in
  let dirn := Nd KDirective [ANode (Nd KName [AStr n_stream]); AList []] in
  let fld := Nd KField [AList [dirn]; ANode (Nd KName [AStr [97]]); ANone; AList []; ANone] in
  let op := Nd KOperationDefinition
              [ANode (Nd KSelectionSet [AList [fld]]); ANone; ANone; AList []; AList []; AEnum 0] in
  rule_stream_on_list_field (VS s []) (Nd KDocument [AList [op]])
  = [VE R_STREAM [[(O, O); (O, O); (O, O); (O, O)]]].
Proof. vm_compute. reflexivity. Qed.
