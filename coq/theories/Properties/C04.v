(* C04 - incremental delivery reassembles to the non-incremental response.
   Proved here: the execution plan that decides what is delivered initially and what per deferred
   fragment set is a partition of the original grouped field set, with the stated placement
   rule - the plan alone, hence the suffix _partial.  The @defer part of the incremental executor
   built on this plan is Incr/DeferExec.v, its reassembly theorems are in Properties/C04defer.v; the
   reassembly of real payload streams is checked with the merge oracle Incr/Merge.v against the
   implementation's non-incremental execution. *)
From GV Require Import Base.Prelude Incr.Plan Incr.PlanProps.
From Coq Require Import Permutation.

(* every response key, with its complete field list, lands in exactly one part of the plan *)
Theorem C04_plan_partition_partial : forall orig parent,
  Permutation (entries (build_execution_plan orig parent)) orig.
Proof. exact plan_partition. Qed.
Print Assumptions C04_plan_partition_partial.

(* a key stays in the initial part iff its filtered defer-usage set equals the parent set;
   the initial part keeps the original order *)
Theorem C04_initial_iff_parent_set_partial : forall orig parent,
  fst (build_execution_plan orig parent)
  = filter (fun e => set_eq (ids (filtered_set (snd e))) parent) orig.
Proof. exact initial_iff_parent_set. Qed.
Print Assumptions C04_initial_iff_parent_set_partial.

(* filtered sets contain no usage whose ancestor is also among the collected usages *)
Theorem C04_filtered_no_ancestor_partial : forall fs s d,
  collect_dus fs [] = Some s -> In d (filtered_set fs) ->
  forall a, In a (du_anc d) -> mem a (ids s) = false.
Proof.
  intros fs s d Hc Hin a Ha. unfold filtered_set in Hin. rewrite Hc in Hin.
  unfold filter_anc in Hin. apply filter_In in Hin as [_ Hn].
  apply negb_true_iff in Hn.
  destruct (mem a (ids s)) eqn:E; [|reflexivity].
  assert (existsb (fun a0 => mem a0 (ids s)) (du_anc d) = true); [|congruence].
  apply existsb_exists. exists a. split; assumption.
Qed.
Print Assumptions C04_filtered_no_ancestor_partial.

(* a response key with at least one non-deferred field node is never deferred *)
Theorem C04_non_deferred_field_not_deferred_partial : forall fs,
  In None fs -> filtered_set fs = [].
Proof. exact non_deferred_field_empty_set. Qed.
Print Assumptions C04_non_deferred_field_not_deferred_partial.

(* one level of reassembly: executing the parts of the plan with any key-wise execution
   function yields, as a multiset of (key, value) pairs, what executing the original yields *)
Theorem C04_level_reassembly_partial : forall (V : Type) (exec : N * details -> V) orig parent,
  Permutation (map exec (entries (build_execution_plan orig parent))) (map exec orig).
Proof. intros. apply Permutation_map. apply plan_partition. Qed.
Print Assumptions C04_level_reassembly_partial.

Example C04_example :
  let a := mkDu 1 [] in let b := mkDu 2 [1] in
  build_execution_plan [(10, [None]); (11, [Some a]); (12, [Some a; Some b]); (13, [Some b]); (14, [Some a; None])] []
  = ([(10, [None]); (14, [Some a; None])],
     [([a], [(11, [Some a]); (12, [Some a; Some b])]); ([b], [(13, [Some b])])]).
Proof. reflexivity. Qed.
