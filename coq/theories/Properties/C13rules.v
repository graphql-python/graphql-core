(* C13 (rules) - from the validation rules to the typing judgment of the execution model.
   Models Valid/Rules13.v (ten schema-dependent rules over the parser AST and Exec/Schema.v; with
   them it reports UniqueInputFieldNames and NoUndefinedVariables over the same descent),
   Valid/ToExec.v (translation to the execution model's document), Valid/StaticTyping.v; lemmas from
   Valid/StaticTypingProps.v, RulesLit.v, RulesTyping.v, RulesTypingDoc.v, RulesTypingGlue.v,
   RulesTypingProps.v, RulesAcyclic.v.  The end of the file holds the schema and document of the
   non-vacuity examples.

   Chain:  rules silent on d  ==>  to_exec d statically typed (every field against the static
   parent type TypeInfo computes)  ==>  set_typed, the runtime-type-directed judgment of
   Exec/Typing.v  ==>  (Exec/Soundness.v) execution over conforming data has no errors.

   Hypotheses on the schema (all evaluated on every generated schema by harness/crules13.py):
     schema_ok          (C13's own: defaults coerce, OneOf fields nullable ...)
     schema_impl_ok     objects implement their interfaces: same argument types and defaults,
                        extra arguments optional, field types with included runtime types;
                        argument names distinct; field types are leaf or composite types
     schema_inputs_ok   argument / input field types are input types without `!!`
     dirs_std           @skip / @include are the specified ones in the directive table.
   Hypotheses on the document: it is in the execution model's fragment with exactly ONE
   operation (to_exec fl None d = Some x); the operation's root type exists and is an object type
   (no validation rule checks that).
   The merging clause of the judgment - fields that can be merged under one response key have one
   field name - is OverlappingFieldsCanBeMerged's subject (C14).  It is discharged from C14's own
   specification function: Valid/ToOverlap.v translates schema and operation into the input of
   Valid/Overlap.v (names interned injectively, occurrences numbered), and
   [overlap_verdict s rt x = VNo] (Overlap.spec_verdict, the function C14 proves equal to the
   memoized algorithm and checks against the real rule) implies [names_agree]
   (C13_rules_merging, proofs Valid/OverlapCollect.v, OverlapGood.v, OverlapBridge.v).  C14's
   weaker demand on fields with different OBJECT parents is no gap: fields reachable at one
   runtime type never have different object parents.  The derivation needs a finite expansion
   through fragment spreads, which NoFragmentCycles + UniqueFragmentNames give
   (C13_rules_expansion_finite, Valid/RulesAcyclic.v).
   Hence C13_rules_typed / C13_rules_sound have no hypothesis left that a validation rule of the
   model is responsible for.  What remains, and is stated: ONE operation (to_exec fl None), its
   root type exists and is an object type, and the conclusion is the declarative judgment
   set_typed (what C13_sound consumes), not the boolean checker well_typed.  That the root type
   EXISTS is KnownOperationTypesRule's subject (Valid/RulesDir.v rule 23, tied to the
   implementation by harness/crulesdir.py): C13_rules_root; that it is an object type is schema
   validity.
   C13_rules_typed_partial / _sound_partial take merging as the abstract hypothesis names_agree
   and do not use NoFragmentCycles.  KnownTypeNames / FragmentsOnCompositeTypes on fragments,
   PossibleFragmentSpreads and KnownFragmentNames are NOT needed for type safety: a fragment that
   cannot apply, or an unknown one, contributes no field at run time. *)
From Coq Require Import Relations.
From GV Require Import Base.Prelude Lang.Lexer Lang.Ast Lang.Parser Exec.Value Exec.Schema Exec.Spec Exec.ValueFacts Exec.Typing Exec.Soundness Valid.StaticTyping Valid.StaticTypingProps Valid.Rules Valid.RulesBase Valid.RulesGraph Valid.RulesProps Valid.Rules13 Valid.ToExec Valid.RulesLit Valid.RulesTyping Valid.RulesTypingDoc Valid.RulesTypingGlue Valid.RulesTypingProps Valid.ToOverlap Valid.ToOverlapProps Valid.OverlapBridge Valid.RulesDir Valid.RulesDirProps Valid.RulesAcyclic.
From GV Require Valid.Overlap.

(* rules13 (the ten rules, UniqueInputFieldNames and NoUndefinedVariables) never runs out of fuel *)
Theorem C13_rules_fuel : forall vs d, exists es, rules13 vs d = Some es.
Proof.
  intros vs d.
  unfold rules13.
  assert (H1 : exists es, rule_variables_in_allowed_position vs d = Some es).
  { unfold rule_variables_in_allowed_position, rule_varpos_gen. apply opt_concat_total. intros o Ho.
    apply in_map_iff in Ho as (op & <- & _). unfold varpos_op.
    destruct (refs_total (frags_of (xdefs d)) (o_spreads op)) as [rf ->]. eauto. }
  assert (H2 : exists es, rule_undefined13 vs d = Some es).
  { unfold rule_undefined13. apply opt_concat_total. intros o Ho.
    apply in_map_iff in Ho as (op & <- & _). unfold undef_op.
    destruct (refs_total (frags_of (xdefs d)) (o_spreads op)) as [rf ->]. eauto. }
  destruct H1 as [a ->]. destruct H2 as [b ->]. eauto.
Qed.
Print Assumptions C13_rules_fuel.

(* literals: ValuesOfCorrectType silent on a value, its variables accepted
   (VariablesInAllowedPosition incl. the OneOf rule, NoUndefinedVariables), no input field twice
   (UniqueInputFieldNames)  =>  the literal clause of the judgment, for every input type *)
Theorem C13_rules_literal : forall s fl vdefs,
  schema_inputs_ok s = true -> schema_ok s = true ->
  forall n p t ld oneof v,
  is_input_type s t = true -> ty_wf t = true -> val_of fl n = Some v ->
  vlit s n p t = [] ->
  errs_of (val_evs s n p (Some t) ld oneof) = [] ->
  (forall u, In u (uses_of (val_evs s n p (Some t) ld oneof)) -> usage_ok vdefs u) ->
  lit_ok s vdefs [] v t ld = true.
Proof. intros s fl vdefs H1 H2 n. exact (lit_sound s fl vdefs H1 H2 n). Qed.
Print Assumptions C13_rules_literal.

(* arguments: known, required ones provided, values accepted *)
Theorem C13_rules_arguments : forall vs fl vdefs,
  schema_inputs_ok (vs_s vs) = true -> schema_ok (vs_s vs) = true ->
  forall p i args defs kvs,
  nodup_names (map a_name defs) = true -> arg_types_ok (vs_s vs) defs = true ->
  all_some (map (arg_kv fl) args) = Some kvs ->
  errs_of (arg_evs (vs_s vs) p i args (Some defs) true) = [] ->
  errs_of (req_evs p defs args) = [] ->
  (forall u, In u (uses_of (arg_evs (vs_s vs) p i args (Some defs) true)) -> usage_ok vdefs u) ->
  args_ok (vs_s vs) vdefs [] defs kvs = true.
Proof. exact args_sound. Qed.
Print Assumptions C13_rules_arguments.

(* selection sets: fields exist on the parent type, leaf / composite agreement, arguments,
   directive conditions, type conditions composite - for the selection set and everything below *)
Theorem C13_rules_selections : forall vs fl vdefs,
  schema_inputs_ok (vs_s vs) = true -> schema_ok (vs_s vs) = true -> dirs_std vs = true ->
  schema_impl_ok (vs_s vs) = true ->
  forall fr ss p ct fd pt sels,
  sels_of fl ss = Some sels -> composite_of (vs_s vs) ct = Some pt ->
  errs_of (sel_evs vs fr p ss ct fd) = [] -> uses_ok vdefs (sel_evs vs fr p ss ct fd) ->
  forallb (sstatic (vs_s vs) vdefs pt) sels = true /\ forallb (sel_dirs_ok (vs_s vs) vdefs []) sels = true.
Proof.
  intros vs fl vdefs H1 H2 H3 H4 fr ss. exact (proj1 (selections_sound vs fl vdefs H1 H2 H3 H4 fr ss)).
Qed.
Print Assumptions C13_rules_selections.

(* the document: all rules silent => every clause of the judgment except merging *)
Theorem C13_rules_static : forall vs fl d x rt,
  schema_inputs_ok (vs_s vs) = true -> schema_ok (vs_s vs) = true -> dirs_std vs = true ->
  schema_impl_ok (vs_s vs) = true ->
  to_exec fl None d = Some x ->
  rules13 vs d = Some [] ->
  rule_unique_fragment_names d = [] -> rule_no_unused_fragments d = Some [] ->
  rule_unique_variable_names d = [] ->
  root_type (vs_s vs) (d_kind x) = Some rt -> is_object (vs_s vs) rt = true ->
  vars_ok (vs_s vs) (d_vars x) = true /\
  sstatic_list (vs_s vs) (d_vars x) rt (d_sels x) = true /\
  forallb (sel_dirs_ok (vs_s vs) (d_vars x) []) (d_sels x) = true /\
  frags_static (vs_s vs) (d_vars x) (d_frags x) = true /\
  forallb (fun f => forallb (sel_dirs_ok (vs_s vs) (d_vars x) []) (fr_sels f)) (d_frags x) = true.
Proof.
  intros vs fl d x rt H1 H2 H3 H4 Hx Hr Hf Hu Hv Hroot Hobj.
  destruct (rules13_silent vs d Hr) as (Ha & Hb & Hc).
  split; [exact (vars_ok_rules vs fl H1 H2 d x Hx Ha Hv)|].
  apply (doc_static vs fl H1 H2 H3 H4 d x Hx); [|exact Hroot | exact Hobj].
  intros j n Hj. apply (defs_ok vs fl d x Hx Ha Hb Hc Hf Hu Hv j n Hj).
Qed.
Print Assumptions C13_rules_static.

(* static typing => the runtime-type-directed judgment (on the execution model alone) *)
Theorem C13_rules_static_to_runtime : forall s vdefs frags,
  frags_static s vdefs frags = true -> schema_impl_ok s = true ->
  forall rt sels, names_agree s frags rt sels -> is_object s rt = true ->
  sstatic_list s vdefs rt sels = true ->
  set_typed s frags vdefs [] rt sels.
Proof.
  intros s vdefs frags Hf Hi rt sels Hn Ho Hs.
  apply (static_typed s vdefs frags Hf Hi rt sels Hn Ho). apply lstatic_self; assumption.
Qed.
Print Assumptions C13_rules_static_to_runtime.

Theorem C13_rules_merging_is_part_of_judgment : forall s frags vdefs nulls rt sels,
  set_typed s frags vdefs nulls rt sels -> names_agree s frags rt sels.
Proof. exact set_typed_names_agree. Qed.
Print Assumptions C13_rules_merging_is_part_of_judgment.

(* rules silent (+ merging) => the judgment *)
Theorem C13_rules_typed_partial : forall vs fl d x rt,
  schema_inputs_ok (vs_s vs) = true -> schema_ok (vs_s vs) = true -> dirs_std vs = true ->
  schema_impl_ok (vs_s vs) = true ->
  to_exec fl None d = Some x ->
  rules13 vs d = Some [] ->
  rule_unique_fragment_names d = [] -> rule_no_unused_fragments d = Some [] ->
  rule_unique_variable_names d = [] ->
  root_type (vs_s vs) (d_kind x) = Some rt -> is_object (vs_s vs) rt = true ->
  names_agree (vs_s vs) (d_frags x) rt (d_sels x) ->
  set_typed (vs_s vs) (d_frags x) (d_vars x) [] rt (d_sels x).
Proof.
  intros vs fl d x rt H1 H2 H3 H4 Hx Hr Hf Hu Hv Hroot Hobj Hna.
  destruct (C13_rules_static vs fl d x rt H1 H2 H3 H4 Hx Hr Hf Hu Hv Hroot Hobj) as (_ & Hst & _ & Hfr & _).
  exact (C13_rules_static_to_runtime _ _ _ Hfr H4 rt _ Hna Hobj Hst).
Qed.
Print Assumptions C13_rules_typed_partial.

(* corollary with C13's soundness: rules accept => execution of conforming data has no errors *)
Theorem C13_rules_sound_partial : forall vs fl d x rt fuel vars root cv j es cs,
  schema_inputs_ok (vs_s vs) = true -> schema_ok (vs_s vs) = true -> dirs_std vs = true ->
  schema_impl_ok (vs_s vs) = true ->
  to_exec fl None d = Some x ->
  rules13 vs d = Some [] ->
  rule_unique_fragment_names d = [] -> rule_no_unused_fragments d = Some [] ->
  rule_unique_variable_names d = [] ->
  root_type (vs_s vs) (d_kind x) = Some rt -> is_object (vs_s vs) rt = true ->
  names_agree (vs_s vs) (d_frags x) rt (d_sels x) ->
  coerce_variable_values (vs_s vs) (d_vars x) vars = Some cv -> nulls_of (d_vars x) cv = [] ->
  conforms_root (vs_s vs) rt root = true ->
  execute_fuel fuel (vs_s vs) x vars root = Resp j es cs ->
  es = [] /\ j <> JNull.
Proof.
  intros vs fl d x rt fuel vars root cv j es cs H1 H2 H3 H4 Hx Hr Hf Hu Hv Hroot Hobj Hna Hcv Hn Hconf Hex.
  destruct (C13_rules_static vs fl d x rt H1 H2 H3 H4 Hx Hr Hf Hu Hv Hroot Hobj) as (Hvok & Hst & _ & Hfr & _).
  unfold vars_ok in Hvok. apply andb_true_iff in Hvok as [Hnd _].
  exact (static_sound fuel (vs_s vs) x vars root cv rt j es cs H2 H4 Hnd Hroot Hobj Hst Hfr Hna Hcv Hn Hconf Hex).
Qed.
Print Assumptions C13_rules_sound_partial.

(* the merging clause from C14's specification function *)
(* occurrence numbers of the translated document are pairwise distinct (C14's adequacy needs it) *)
Theorem C13_rules_overlap_ids : forall rt x, Overlap.nodupb (Overlap.doc_fids (o_doc rt x)) = true.
Proof. exact o_doc_ids. Qed.
Print Assumptions C13_rules_overlap_ids.

(* the interning of names into C14's numbers is injective and respects the two reserved names *)
Theorem C13_rules_overlap_intern : forall a b, intern a = intern b -> a = b.
Proof. exact intern_inj. Qed.
Print Assumptions C13_rules_overlap_intern.

(* NoFragmentCycles (with unique fragment names) => the operation expands finitely *)
Theorem C13_rules_expansion_finite : forall fl d x,
  to_exec fl None d = Some x ->
  rule_unique_fragment_names d = [] -> rule_no_fragment_cycles d = Some [] ->
  exists n, hb (d_frags x) n (d_sels x).
Proof. exact rules_expansion_finite. Qed.
Print Assumptions C13_rules_expansion_finite.

(* on the execution model alone: statically typed + finite expansion + no conflict found by
   FieldsInSetCanMerge => the merging clause of the judgment *)
Theorem C13_rules_merging : forall s x rt n,
  schema_impl_ok s = true ->
  frags_static s (d_vars x) (d_frags x) = true -> sstatic_list s (d_vars x) rt (d_sels x) = true ->
  is_object s rt = true ->
  overlap_verdict s rt x = Overlap.VNo ->
  hb (d_frags x) n (d_sels x) ->
  names_agree s (d_frags x) rt (d_sels x).
Proof.
  intros s x rt n Hi Hf Hs Ho Hv Hh.
  exact (overlap_names_agree s x rt n Hi Hf Hs Ho Hv (o_doc_ids rt x) Hh).
Qed.
Print Assumptions C13_rules_merging.

(* all modelled rules silent => the judgment *)
Theorem C13_rules_typed : forall vs fl d x rt,
  schema_inputs_ok (vs_s vs) = true -> schema_ok (vs_s vs) = true -> dirs_std vs = true ->
  schema_impl_ok (vs_s vs) = true ->
  to_exec fl None d = Some x ->
  rules13 vs d = Some [] ->
  rule_unique_fragment_names d = [] -> rule_no_unused_fragments d = Some [] ->
  rule_no_fragment_cycles d = Some [] -> rule_unique_variable_names d = [] ->
  root_type (vs_s vs) (d_kind x) = Some rt -> is_object (vs_s vs) rt = true ->
  overlap_verdict (vs_s vs) rt x = Overlap.VNo ->
  set_typed (vs_s vs) (d_frags x) (d_vars x) [] rt (d_sels x).
Proof.
  intros vs fl d x rt H1 H2 H3 H4 Hx Hr Hf Hu Hc Hv Hroot Hobj Hov.
  destruct (C13_rules_static vs fl d x rt H1 H2 H3 H4 Hx Hr Hf Hu Hv Hroot Hobj) as (_ & Hs & _ & Hfs & _).
  destruct (rules_expansion_finite fl d x Hx Hf Hc) as [n Hn].
  apply (C13_rules_typed_partial vs fl d x rt H1 H2 H3 H4 Hx Hr Hf Hu Hv Hroot Hobj).
  exact (C13_rules_merging (vs_s vs) x rt n H4 Hfs Hs Hobj Hov Hn).
Qed.
Print Assumptions C13_rules_typed.

(* all modelled rules silent => execution of conforming data has no errors *)
Theorem C13_rules_sound : forall vs fl d x rt fuel vars root cv j es cs,
  schema_inputs_ok (vs_s vs) = true -> schema_ok (vs_s vs) = true -> dirs_std vs = true ->
  schema_impl_ok (vs_s vs) = true ->
  to_exec fl None d = Some x ->
  rules13 vs d = Some [] ->
  rule_unique_fragment_names d = [] -> rule_no_unused_fragments d = Some [] ->
  rule_no_fragment_cycles d = Some [] -> rule_unique_variable_names d = [] ->
  root_type (vs_s vs) (d_kind x) = Some rt -> is_object (vs_s vs) rt = true ->
  overlap_verdict (vs_s vs) rt x = Overlap.VNo ->
  coerce_variable_values (vs_s vs) (d_vars x) vars = Some cv -> nulls_of (d_vars x) cv = [] ->
  conforms_root (vs_s vs) rt root = true ->
  execute_fuel fuel (vs_s vs) x vars root = Resp j es cs ->
  es = [] /\ j <> JNull.
Proof.
  intros vs fl d x rt fuel vars root cv j es cs H1 H2 H3 H4 Hx Hr Hf Hu Hc Hv Hroot Hobj Hov Hcv Hn Hconf Hex.
  destruct (C13_rules_static vs fl d x rt H1 H2 H3 H4 Hx Hr Hf Hu Hv Hroot Hobj) as (_ & Hs & _ & Hfs & _).
  destruct (rules_expansion_finite fl d x Hx Hf Hc) as [n Hh].
  apply (C13_rules_sound_partial vs fl d x rt fuel vars root cv j es cs H1 H2 H3 H4 Hx Hr Hf Hu Hv Hroot Hobj);
    try assumption.
  exact (C13_rules_merging (vs_s vs) x rt n H4 Hfs Hs Hobj Hov Hh).
Qed.
Print Assumptions C13_rules_sound.

(* the root type exists when KnownOperationTypes is silent *)
Theorem C13_rules_root : forall fl d x ds s,
  to_exec fl None d = Some x -> roots_agree ds s -> rule_known_operation_types ds d = [] ->
  exists rt, root_type s (d_kind x) = Some rt.
Proof.
  intros fl d x ds s Hx Hag Hr.
  destruct (to_exec_inv fl d x Hx) as (jo & ss & a1 & a2 & vds & a4 & o & r & _ & Ejo & Ek & _).
  cbv zeta in Ejo.
  pose proof (proj1 (known_operation_types_nil ds d) Hr _ o (nth_error_In _ _ Ejo) eq_refl) as Hroot.
  destruct (o =? 0); [inversion Ek as [K]; cbn; eauto|].
  destruct (o =? 1) eqn:E1; [|discriminate]. inversion Ek as [K]. cbn. apply N.eqb_eq in E1. subst o.
  destruct (s_mutation s) as [m|] eqn:Em; [eauto|]. exfalso. exact (Hag Hroot Em).
Qed.
Print Assumptions C13_rules_root.

(* non-vacuity
   type Q { f(x: Int! = 7): Int  n: I }   interface I { a: Int }   type T implements I { a: Int }
   query ($v: Int = 1) { f(x: $v) n { a ... on T { a } ...F } }  fragment F on I { a @skip(if: false) } *)
Definition nQ : Value.str := [81].   Definition nI : Value.str := [73].   Definition nT : Value.str := [84].
Definition nf : Value.str := [102].  Definition nn : Value.str := [110].  Definition na : Value.str := [97].
Definition nx : Value.str := [120].
Definition ex_s : schema :=
  mkSchema [(nQ, TObject [mkField nf (TNamed n_Int) [mkArg nx (TNonNull (TNamed n_Int)) (Some (VInt 7))];
                          mkField nn (TNamed nI) []] []);
            (nI, TInterface [mkField na (TNamed n_Int) []]);
            (nT, TObject [mkField na (TNamed n_Int) []] [nI])] nQ None.
Definition ex_vs : vschema := VS ex_s [(n_skip, [if_def]); (n_include, [if_def])].
Definition ex_text : list N :=
  [113;117;101;114;121;32;40;36;118;58;32;73;110;116;32;61;32;49;41;32;123;32;102;40;120;58;32;36;118;41;32;110;
   32;123;32;97;32;46;46;46;32;111;110;32;84;32;123;32;97;32;125;32;46;46;46;70;32;125;32;125;32;102;114;97;103;
   109;101;110;116;32;70;32;111;110;32;73;32;123;32;97;32;64;115;107;105;112;40;105;102;58;32;102;97;108;115;
   101;41;32;125].
Definition no_fl (_ : list N) : Z * N := (0%Z, 1).

Definition ex_d : node :=
  match parse_text EDocument (mkOpts None false false) ex_text with Ok (d, _) => d | _ => Nd KDocument [] end.
Definition ex_x : document :=
  match to_exec no_fl None ex_d with Some x => x | None => mkDoc OpQuery [] [] [] end.

Example C13_rules_example :
  schema_inputs_ok ex_s = true /\ schema_ok ex_s = true /\ dirs_std ex_vs = true /\ schema_impl_ok ex_s = true /\
  to_exec no_fl None ex_d = Some ex_x /\
  rules13 ex_vs ex_d = Some [] /\ rule_unique_fragment_names ex_d = [] /\
  rule_no_unused_fragments ex_d = Some [] /\ rule_unique_variable_names ex_d = [] /\
  root_type ex_s (d_kind ex_x) = Some nQ /\ is_object ex_s nQ = true /\
  well_typed ex_s ex_x = true /\ length (d_frags ex_x) = 1%nat /\
  rule_no_fragment_cycles ex_d = Some [] /\ overlap_verdict ex_s nQ ex_x = Overlap.VNo /\
  names_agree ex_s (d_frags ex_x) nQ (d_sels ex_x).
Proof.
  repeat (split; [vm_compute; reflexivity|]).
  apply (set_typed_names_agree ex_s (d_frags ex_x) (d_vars ex_x) []).
  apply (check_set_sound ex_s (d_frags ex_x) (d_vars ex_x) [] 20). vm_compute. reflexivity.
Qed.

(* a mutant the rules reject: the field g that Q does not have *)
Example C13_rules_example_rejected :
  match parse_text EDocument (mkOpts None false false)
          (firstn 22 ex_text ++ [103] ++ skipn 23 ex_text) with      (* query ($v: Int = 1) { g(x: $v) ... *)
  | Ok (d, _) => exists e es, rules13 ex_vs d = Some (e :: es) /\ ve_rule e = R_FIELDS
  | _ => False
  end.
Proof. vm_compute. eexists _, _. split; reflexivity. Qed.

(* a mutant only the merging function rejects: under n (interface I) the response key a is the field
   a for every runtime type and additionally __typename for T.
   { n { a ... on T { a: __typename } } } *)
Definition ex_merge_text : list N :=
  [123;32;110;32;123;32;97;32;46;46;46;32;111;110;32;84;32;123;32;97;58;32;95;95;116;121;112;101;110;97;109;101;
   32;125;32;125;32;125].

Example C13_rules_example_merge_rejected :
  match parse_text EDocument (mkOpts None false false) ex_merge_text with
  | Ok (d, _) =>
    match to_exec no_fl None d with
    | Some x => rules13 ex_vs d = Some [] /\ rule_no_fragment_cycles d = Some [] /\
                overlap_verdict ex_s nQ x = Overlap.VConflict /\ well_typed ex_s x = false
    | None => False
    end
  | _ => False
  end.
Proof. vm_compute. repeat split; reflexivity. Qed.
