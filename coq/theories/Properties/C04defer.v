(* C04, the @defer part - incremental delivery reassembles to the non-incremental response.

   Model: Incr/DeferExec.v (collect_fields with defer usages, build_execution_plan = Incr/Plan.v,
   the @defer part of IncrementalExecutor; a sibling of Exec/Spec.v sharing its helpers).
     dexecute        = experimental_execute_incrementally: initial response + execution group values
     dexecute_plain  = the same request on the base executor (every collected field executed at once)
     erase_defer     = the document with every @defer directive removed
     reassemble      = the client-side merge of Incr/Merge.v applied to the payloads in the model's order
     jeq             = equality of response data up to the order of object keys

   Fragment: Exec/Spec.v's (synchronous default-like resolvers over a data graph) plus @defer on inline
   fragments and fragment spreads (labels, `if` by literal or variable, nested, overlapping).  Orders: the
   payloads are merged in the model's order (every execution group after the group that created its position)
   AND in every permutation of it on which the merge oracle succeeds, i.e. every arrival order in which each
   payload's target position exists when it is applied.  NOT covered, hence the suffix _partial on the
   reassembly theorems: @stream; asynchronous resolvers and early execution (the set of execution group
   values is computed by the synchronous model).  Responses with field errors: exact reassembly is stated
   for disabled/absent @defer and for operations with error propagation disabled; for all other requests
   the error clause below says how the assembled data relates to the non-propagating reference.
   [rev = false]: no collection visited a named fragment as deferred and later again as non-deferred (the only
   case in which collect_fields deliberately collects a fragment twice). *)
From GV Require Import Base.Prelude Exec.Value Exec.Schema Exec.Spec Incr.DeferExec Incr.DeferLib Incr.DeferUnfold Incr.DeferExecProps Incr.DeferExecSpec Incr.DeferExecErr Incr.DeferExecRev Incr.DeferExecNp.
From GV Require Incr.Plan Incr.PlanProps Incr.Merge.
From Coq Require Import Permutation.

(* MAIN: if the base executor's run is error-free then so is the incremental run - initial response and
   every execution group value - and merging the payloads into the initial data with the merge oracle
   yields the base executor's data (nested defers, lists, abstract types included): in the model's order,
   and in every other order of the same payloads in which the merge can be carried out *)
Theorem C04_defer_reassembly_partial : forall s d vars root j cs pl rv,
  dexecute_plain s d vars root = DResp j [] cs pl rv ->
  exists j0 cs0 pls rv0,
    dexecute s d vars root = DResp j0 [] cs0 pls rv0 /\
    Forall pl_ok pls /\
    (exists m, reassemble j0 pls = Some m /\ jeq m j) /\
    (forall pls' m', Permutation pls pls' -> reassemble j0 pls' = Some m' -> jeq m' j).
Proof. intros s d vars root j cs pl rv. apply reassembly_fuel. Qed.
Print Assumptions C04_defer_reassembly_partial.

(* the base executor computes Exec/Spec.v's execution of the document with @defer erased (any errors) *)
Theorem C04_defer_base_executor_is_erased_spec : forall s d vars root j es cs pl,
  dexecute_plain s d vars root = DResp j es cs pl false ->
  pl = [] /\ execute s (erase_defer d) vars root = Resp j es cs.
Proof.
  intros s d vars root j es cs pl H. unfold execute. rewrite default_fuel_erase.
  apply plain_is_spec_fuel. exact H.
Qed.
Print Assumptions C04_defer_base_executor_is_erased_spec.

(* [rev] exactly: some selection-set collection met a named fragment through a non-deferred spread after it had
   collected it through a deferred spread (collect_fields.py then collects the fragment a second time).  Static
   sufficient condition: no fragment name is spread both with an active @defer and without one anywhere in the
   document (under the coerced variables) - then the tie to Exec/Spec.v needs no side condition *)
Theorem C04_defer_no_mixed_spreads_base_is_erased_spec : forall s d vars root j es cs pl rv,
  (forall cv, coerce_variable_values s (d_vars d) vars = Some cv -> no_mixed_spreads cv d = true) ->
  dexecute_plain s d vars root = DResp j es cs pl rv ->
  rv = false /\ pl = [] /\ execute s (erase_defer d) vars root = Resp j es cs.
Proof.
  intros s d vars root j es cs pl rv Hnm H.
  pose proof (no_mixed_rev_false _ _ _ _ _ _ _ _ _ _ Hnm H) as ->.
  destruct (C04_defer_base_executor_is_erased_spec _ _ _ _ _ _ _ _ H) as [-> Hx]. auto.
Qed.
Print Assumptions C04_defer_no_mixed_spreads_base_is_erased_spec.

(* both together: the reference is Spec.execute of the erased document *)
Theorem C04_defer_reassembles_to_erased_spec_partial : forall s d vars root j cs pl,
  dexecute_plain s d vars root = DResp j [] cs pl false ->
  execute s (erase_defer d) vars root = Resp j [] cs /\
  exists j0 cs0 pls rv0,
    dexecute s d vars root = DResp j0 [] cs0 pls rv0 /\
    Forall pl_ok pls /\
    (exists m, reassemble j0 pls = Some m /\ jeq m j) /\
    (forall pls' m', Permutation pls pls' -> reassemble j0 pls' = Some m' -> jeq m' j).
Proof.
  intros s d vars root j cs pl H. split.
  - apply (C04_defer_base_executor_is_erased_spec _ _ _ _ _ _ _ _ H).
  - eapply C04_defer_reassembly_partial. exact H.
Qed.
Print Assumptions C04_defer_reassembles_to_erased_spec_partial.

(* "... or error propagation is disabled for the operation": with @experimental_disableErrorPropagation (np mode)
   the incremental run reassembles to the base executor's data for EVERY request, field errors included - no
   execution group can fail, every value carries data; in the model's order and in every order the merge accepts *)
Theorem C04_defer_propagation_disabled_reassembly_partial : forall s d vars root j es cs pl rv,
  dexecute_np s d vars root = DResp j es cs pl rv ->
  exists j0 es0 cs0 pls rv0,
    dexecute_np_incremental s d vars root = DResp j0 es0 cs0 pls rv0 /\
    Forall pl_dok pls /\
    (exists m, reassemble j0 pls = Some m /\ jeq m j) /\
    (forall pls' m', Permutation pls pls' -> reassemble j0 pls' = Some m' -> jeq m' j).
Proof. intros s d vars root j es cs pl rv. apply np_reassembly_fuel. Qed.
Print Assumptions C04_defer_propagation_disabled_reassembly_partial.

(* ERROR CLAUSE ("When errors do propagate, the assembled data is that non-propagating reference with some
   subtrees replaced by null and some whole deferred fragments withheld, each withheld one being reported as
   completed with errors").  For ANY request - field errors, propagation, failed execution groups included:
   [raw] = all execution group values of the incremental run, [jn] = the data of the same request on the
   base executor with error propagation disabled (dexecute_np, = @experimental_disableErrorPropagation).
   Whatever sub-multiset L of the values is applied, in whatever order the merge oracle accepts, the result m
   is jn with (expl)
     - subtrees replaced by null only where an error of the initial result or of an APPLIED value is reported
       at or below that position (PErr), and
     - object keys missing only if they belong to an execution group at that position that FAILED or was
       not applied (PWh); lists keep their length, nothing else differs;
   and every error of the reference (esn) is reported at the same path - by the initial result or an applied
   value - or its position is not delivered in m (hidden: a null or a withheld key on the way).
   _partial: @stream / asynchronous schedules are outside the model, and that the delivered values can always
   be merged (reassemble <> None) is assumed here (checked on every run by harness/cdefer.py). *)
Theorem C04_defer_error_clause_partial : forall s d vars root j0 es0 cs0 raw rv jn esn csn pln rvn,
  dexecute_raw s d vars root = DResp j0 es0 cs0 raw rv ->
  dexecute_np s d vars root = DResp jn esn csn pln rvn ->
  forall L m, SubPerm (map core L) (map core raw) -> reassemble j0 L = Some m ->
    expl (PErr es0 raw (map core L)) (PWh raw (map core L)) m jn /\
    (forall e, In e esn ->
       PErr es0 raw (map core L) (fst e) \/ hidden (PWh raw (map core L)) (fst e) m).
Proof.
  intros s d vars root j0 es0 cs0 raw rv jn esn csn pln rvn HD HN L m Hsp Hr.
  destruct (err_clause_fuel _ _ _ _ _ _ _ _ _ _ _ _ _ _ _ HD HN) as [Hany Hacc].
  rewrite reassemble_apply_pls, apply_pls_core in Hr. split; [exact (Hany _ _ Hsp Hr)|exact (Hacc _ _ Hsp Hr)].
Qed.
Print Assumptions C04_defer_error_clause_partial.

(* ... instantiated with what is delivered: the incremental response is [raw] filtered by the delivery rule
   (delivered_pl: a value with data is withheld when every delivery group it belongs to has a failed group on
   its chain), so a missing key belongs to an execution group that failed or was withheld by that rule *)
Theorem C04_defer_delivered_error_clause_partial : forall s d vars root j0 es0 cs0 raw rv jn esn csn pln rvn,
  dexecute_raw s d vars root = DResp j0 es0 cs0 raw rv ->
  dexecute_np s d vars root = DResp jn esn csn pln rvn ->
  dexecute s d vars root = DResp j0 es0 cs0 (deliver raw) rv /\
  (forall p, In p raw -> ~ In (core p) (map core (deliver raw)) -> delivered_pl (failed_keys raw) p = false) /\
  (forall m, reassemble j0 (deliver raw) = Some m ->
     expl (PErr es0 raw (map core (deliver raw))) (PWh raw (map core (deliver raw))) m jn /\
     (forall e, In e esn ->
        PErr es0 raw (map core (deliver raw)) (fst e) \/ hidden (PWh raw (map core (deliver raw))) (fst e) m)).
Proof.
  intros s d vars root j0 es0 cs0 raw rv jn esn csn pln rvn HD HN. split; [|split].
  - unfold dexecute. rewrite dexecute_fuel_deliver. unfold dexecute_raw in HD. rewrite HD. reflexivity.
  - intros p Hp Hn. destruct (delivered_pl (failed_keys raw) p) eqn:E; [|reflexivity]. exfalso. apply Hn.
    apply in_map. unfold deliver. apply filter_In. split; assumption.
  - intros m Hr. eapply C04_defer_error_clause_partial; try eassumption.
    apply SubPerm_map. apply filter_SubPerm.
Qed.
Print Assumptions C04_defer_delivered_error_clause_partial.

(* `if: false` (literal or by variable): when every @defer is disabled the incremental executor answers
   like the specification's algorithm on the erased document and delivers no payload - errors included *)
Theorem C04_defer_disabled_contributes_no_payload : forall s d vars root j es cs pl rv,
  (forall cv, coerce_variable_values s (d_vars d) vars = Some cv -> inactive_doc cv d = true) ->
  dexecute s d vars root = DResp j es cs pl rv ->
  pl = [] /\ rv = false /\ execute s (erase_defer d) vars root = Resp j es cs.
Proof.
  intros s d vars root j es cs pl rv Hin H. unfold dexecute in H.
  rewrite (inactive_fuel (default_fuel s d root) s d vars root Hin) in H.
  assert (Hnm : forall cv, coerce_variable_values s (d_vars d) vars = Some cv -> no_mixed_spreads cv d = true).
  { intros cv Hcv. apply inactive_no_mixed. exact (Hin cv Hcv). }
  destruct (C04_defer_no_mixed_spreads_base_is_erased_spec _ _ _ _ _ _ _ _ _ Hnm H) as [-> [-> Hx]]. auto.
Qed.
Print Assumptions C04_defer_disabled_contributes_no_payload.

(* the sibling executor is Spec.execute on documents without @defer *)
Theorem C04_defer_free_is_spec : forall s d vars root j es cs pl rv,
  defer_free d = true ->
  dexecute s d vars root = DResp j es cs pl rv ->
  pl = [] /\ execute s d vars root = Resp j es cs.
Proof.
  intros s d vars root j es cs pl rv Hf H.
  destruct (C04_defer_disabled_contributes_no_payload s d vars root j es cs pl rv) as [H1 [_ H3]];
    [intros cv _; apply defer_free_inactive; exact Hf|exact H|].
  rewrite (defer_free_erase d Hf) in H3. auto.
Qed.
Print Assumptions C04_defer_free_is_spec.

(* a response key with a non-deferred occurrence is executed by the initial executor *)
Theorem C04_defer_nondeferred_occurrence_is_initial : forall dg k fs,
  In (k, fs) dg -> (exists f, In f fs /\ df_du f = []) -> In (k, fs) (fst (plan_of dg [])).
Proof.
  intros dg k fs Hin [f [Hf Hdu]]. unfold plan_of. cbn [fst]. rewrite PlanProps.initial_iff_parent_set.
  apply In_nth_error in Hin as [n Hn]. apply in_flat_map. exists (N.of_nat n, details_of fs). split.
  - apply filter_In. split; [exact (to_gfs_nth dg 0 n _ Hn)|]. cbn [snd].
    rewrite PlanProps.non_deferred_field_empty_set; [reflexivity|].
    unfold details_of. apply in_map_iff. exists f. rewrite Hdu. split; [reflexivity|exact Hf].
  - unfold resolve. cbn [fst]. rewrite Nnat.Nat2N.id, Hn. left. reflexivity.
Qed.
Print Assumptions C04_defer_nondeferred_occurrence_is_initial.

(* ... and is therefore a key of the initial data of its position (unless the runtime type does not define it) *)
Theorem C04_defer_nondeferred_occurrence_in_initial_data :
  forall s frags cv f tn obj srcs b dp kvs es cs pls rv st k fs,
  dexec_sels s frags cv true (S f) tn obj srcs [] b dp = Some ((CVal (JObj kvs), es, cs), pls, rv) ->
  dcollect_srcs s frags cv tn b dp f srcs cs0 = Some st ->
  In (k, fs) (c_g st) -> (exists x, In x fs /\ df_du x = []) ->
  dexec_field s frags cv true f tn obj [] (b + N.of_nat (length (c_new st))) dp fs <> Some XSkip ->
  In k (map fst kvs).
Proof.
  intros s frags cv f tn obj srcs b dp kvs es cs pls rv st k fs H Hc Hin Hnd Hns.
  unfold dexec_sels in H. rewrite gexec_sels_S, Hc in H. cbv zeta in H.
  pose proof (C04_defer_nondeferred_occurrence_is_initial (c_g st) k fs Hin Hnd) as Hinit.
  destruct (plan_of (c_g st) []) as [init groups]. cbn [fst snd] in *.
  destruct (dexec_groups _ init) as [[[[[r es1] cs1] pls1] rv1]|] eqn:Eg; [|discriminate].
  destruct r as [kvs1|]; [|discriminate].
  destruct (dexec_deferred _ groups) as [[dpls rv2]|]; [|discriminate].
  inversion H; subst; clear H.
  destruct (groups_shape _ _ _ _ _ _ _ Eg) as [-> [_ [_ Hok]]]. rewrite Forall_forall in Hok.
  destruct (Hok _ Hinit) as [Hs|[j [e1 [c1 [p1 [r1 Hv]]]]]]; [contradiction|].
  rewrite kvs4_keys. exact (in_map e4_key _ _ (ents4_intro _ _ _ _ _ _ _ _ _ Hinit Hv)).
Qed.
Print Assumptions C04_defer_nondeferred_occurrence_in_initial_data.

(* the plan of one position (initial part + deferred grouped field sets) is a partition of the collected
   response keys with their complete field lists *)
Theorem C04_defer_plan_partition : forall dg parent,
  Permutation (fst (plan_of dg parent) ++ flat_map snd (snd (plan_of dg parent))) dg.
Proof. exact plan_of_partition. Qed.
Print Assumptions C04_defer_plan_partition.

(* [reassemble] is the merge oracle of Incr/Merge.v fed with one subsequent payload per execution group *)
Theorem C04_defer_merge_oracle : forall j0 pls,
  Merge.reassemble j0 [] (merge_payloads 0 pls) = apply_pls j0 pls.
Proof. exact reassemble_apply_pls. Qed.
Print Assumptions C04_defer_merge_oracle.

(* ---- the hypotheses are satisfiable: nested, labelled defers inside an object ---- *)
Module Ex.
  Definition sa : str := [97].
  Definition sx : str := [120].
  Definition sy : str := [121].
  Definition so : str := [111].
  Definition Obj : str := [79].
  Definition Q : str := [81].
  Definition sch : schema := mkSchema
    [(Q, TObject [mkField sa (TNamed Obj) []] []);
     (Obj, TObject [mkField sx (TNamed n_Int) []; mkField sy (TNamed n_Int) []; mkField so (TNamed Obj) []] [])]
    Q None.
  Definition fld n sub := SField None n [] [] sub.
  Definition dfr lab sub := SInline None [(n_defer, [(n_label, VStr lab)])] sub.
  Definition inner := DObj Obj [(sx, DLeaf (LInt 3)); (sy, DLeaf (LInt 4))].
  Definition root := DObj Q [(sa, DObj Obj [(sx, DLeaf (LInt 1)); (sy, DLeaf (LInt 2)); (so, inner)])].
  (* { a { x ... @defer(label: "A") { y o { x ... @defer(label: "B") { y } } } } } *)
  Definition doc := mkDoc OpQuery []
    [fld sa [fld sx []; dfr [65] [fld sy []; fld so [fld sx []; dfr [66] [fld sy []]]]]] [].
End Ex.

Example C04_defer_example :
  (exists j cs, dexecute_plain Ex.sch Ex.doc [] Ex.root = DResp j [] cs [] false) /\
  (exists j0 cs0 p1 p2, dexecute Ex.sch Ex.doc [] Ex.root = DResp j0 [] cs0 [p1; p2] false /\
     j0 = JObj [(Ex.sa, JObj [(Ex.sx, JInt 1)])] /\
     pl_path p1 = [PKey Ex.sa] /\ pl_path p2 = [PKey Ex.sa; PKey Ex.so] /\
     reassemble j0 [p1; p2]
     = Some (JObj [(Ex.sa, JObj [(Ex.sx, JInt 1); (Ex.sy, JInt 2);
                                 (Ex.so, JObj [(Ex.sx, JInt 3); (Ex.sy, JInt 4)])])]) /\
     (* the nested payload before the payload that creates its position: rejected by the oracle *)
     reassemble j0 [p2; p1] = None).
Proof.
  split.
  - eexists _, _. vm_compute. reflexivity.
  - eexists _, _, _, _. split; [vm_compute; reflexivity|]. repeat split; vm_compute; reflexivity.
Qed.

(* ---- the error clause is not vacuous: a deferred fragment with a null in a non-null field fails; its key
   is withheld, the reference (propagation disabled) has it as null with the error ---- *)
Module ExErr.
  Definition sch : schema := mkSchema
    [(Ex.Q, TObject [mkField Ex.sa (TNamed Ex.Obj) []] []);
     (Ex.Obj, TObject [mkField Ex.sx (TNamed n_Int) []; mkField Ex.sy (TNonNull (TNamed n_Int)) []] [])]
    Ex.Q None.
  Definition root := DObj Ex.Q [(Ex.sa, DObj Ex.Obj [(Ex.sx, DLeaf (LInt 1)); (Ex.sy, DNull)])].
  (* { a { x ... @defer(label: "A") { y } } } *)
  Definition doc := mkDoc OpQuery [] [Ex.fld Ex.sa [Ex.fld Ex.sx []; Ex.dfr [65] [Ex.fld Ex.sy []]]] [].
End ExErr.

Example C04_defer_error_example :
  exists p,
    dexecute_raw ExErr.sch ExErr.doc [] ExErr.root
      = DResp (JObj [(Ex.sa, JObj [(Ex.sx, JInt 1)])]) [] [([PKey Ex.sa], Ex.sa, []); ([PKey Ex.sa; PKey Ex.sx], Ex.sx, [])] [p] false /\
    pl_path p = [PKey Ex.sa] /\ pl_data p = None /\ pl_keys p = [Ex.sy] /\
    pl_errs p = [([PKey Ex.sy], CauseNull)] /\
    deliver [p] = [p] /\
    reassemble (JObj [(Ex.sa, JObj [(Ex.sx, JInt 1)])]) [p] = Some (JObj [(Ex.sa, JObj [(Ex.sx, JInt 1)])]) /\
    exists cs, dexecute_np ExErr.sch ExErr.doc [] ExErr.root
      = DResp (JObj [(Ex.sa, JObj [(Ex.sx, JInt 1); (Ex.sy, JNull)])]) [([PKey Ex.sa; PKey Ex.sy], CauseNull)] cs [] false.
Proof.
  eexists. split; [vm_compute; reflexivity|]. repeat split; try (vm_compute; reflexivity).
  eexists. vm_compute. reflexivity.
Qed.
