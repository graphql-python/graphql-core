(* C11 (machine part) - the explicit-stack loop of visit() refines the recursive traversal model.
   The machine is Lang/VisitMachine.v (one [step] per iteration of `while True` in
   language/visitor.py); the simulation is proved in Lang/VisitMachineProps.v, its short corollaries here. *)
From GV Require Import Base.Prelude Lang.Visit Lang.VisitProps Lang.VisitParallelProps
  Lang.VisitMachine Lang.VisitMachineProps.

(* For EVERY visitor (any state-passing decision function: idle, SKIP, BREAK, REMOVE and replacement,
   on enter and on leave, root included) and every tree: whenever the recursive model has an answer
   with nesting fuel f, the machine, given enough loop iterations, never raises and ends with
   exactly the model's call log (phase, node, key, path, #ancestors, decision of every call), the
   model's visitor state, and the model's result: keep = the root object itself is returned,
   REdit None = REMOVE is returned, REdit (Some t) = t is returned, break = the loop was left by
   BREAK.  (After a BREAK the recursive model does not say which value is returned; the machine
   does: the last edit of the level it broke in, else the root - compared with the implementation
   by ./check CVISITM.)  The number n of iterations needed is at most msteps root if the visitor never
   replaces on enter (NR), and at most msteps root + R per enter-replacement the model made (nrep log)
   if every replacement tree it can answer with has msteps <= R (HR R). *)
Theorem C11_machine_refines_model : forall St decide f root s0 r s log,
  visit St decide f root s0 = (r, s, log) -> r <> ROutOfFuel ->
  exists n, (NR St decide -> (n <= msteps root)%nat) /\
    (forall R, HR St decide R -> (n <= msteps root + R * nrep log)%nat) /\
    forall fuel, (n <= fuel)%nat ->
      exists b mr, visit_machine St decide fuel root s0 = MRet b mr s log /\ res_match r b mr.
Proof. exact machine_refines_model. Qed.
Print Assumptions C11_machine_refines_model.

(* A visitor that never answers with a replacement node on enter (it may skip, break, remove, and
   replace on leave): msteps root loop iterations always suffice - out-of-fuel and a raised
   exception are unreachable - and the recursive model needs only fuel = depth; both agree. *)
Theorem C11_machine_fuel_sufficient : forall St decide, NR St decide ->
  forall root s0 fuel, (msteps root <= fuel)%nat ->
  exists r s log b mr, r <> ROutOfFuel /\
    visit St decide (depth_tree root) root s0 = (r, s, log) /\
    visit_machine St decide fuel root s0 = MRet b mr s log /\ res_match r b mr.
Proof. exact machine_fuel_sufficient. Qed.
Print Assumptions C11_machine_fuel_sufficient.

(* Visitors that do replace on enter: replacing X by a tree that contains X again makes the real loop
   run forever, so no budget in the tree alone exists; whenever the recursive model terminates (with
   any nesting fuel f), the explicit budget msteps root + R * (number of enter-replacements in the
   model's log) suffices, R bounding the replacement trees.  For a scripted visitor R = script_R sc,
   the largest replacement of the script. *)
Theorem C11_machine_fuel_general : forall St decide R, HR St decide R ->
  forall f root s0 r s log, visit St decide f root s0 = (r, s, log) -> r <> ROutOfFuel ->
  forall fuel, (msteps root + R * nrep log <= fuel)%nat ->
    exists b mr, visit_machine St decide fuel root s0 = MRet b mr s log /\ res_match r b mr.
Proof.
  intros St decide R HRr f root s0 r s log E Hr fuel Hf.
  destruct (machine_refines_model _ _ _ _ _ _ _ _ E Hr) as (n & _ & Hb & Hm).
  apply Hm. specialize (Hb R HRr). lia.
Qed.
Print Assumptions C11_machine_fuel_general.

Theorem C11_machine_scripted_fuel : forall sc f root r log,
  visit_scripted f root sc = (r, log) -> r <> ROutOfFuel ->
  forall fuel, (msteps root + script_R sc * nrep log <= fuel)%nat ->
    exists b mr, machine_scripted fuel root sc = MRet b mr tt log /\ res_match r b mr.
Proof.
  intros sc f root r log. unfold visit_scripted, machine_scripted.
  destruct (visit unit (scripted sc) f root tt) as [[r0 u] lg] eqn:E. destruct u.
  intros H Hr fuel Hf. inversion H; subst r0 lg.
  exact (C11_machine_fuel_general unit (scripted sc) (script_R sc) (scripted_HR sc) f root tt r tt log E Hr fuel Hf).
Qed.
Print Assumptions C11_machine_scripted_fuel.

(* C11_no_edit_identity on the machine: a visitor that never returns REMOVE or a replacement gets
   the identical root object back, whatever it skips or breaks, for every step budget (shown on
   the machine itself: every `edits` list of every stack frame stays empty). *)
Theorem C11_machine_no_edit_identity : forall St decide, non_editing St decide ->
  forall fuel root s0,
  match visit_machine St decide fuel root s0 with MRet _ mr _ _ => mr = MRoot | _ => True end.
Proof. exact machine_no_edit_identity. Qed.
Print Assumptions C11_machine_no_edit_identity.

(* C11_enter_leave_order on the machine: with the all-idle visitor the loop makes exactly the
   depth-first enter/leave bracket sequence of calls with the key, path and number of ancestors of
   [dfs_tree], within msteps root iterations, and returns the root object. *)
Theorem C11_machine_enter_leave_order : forall root,
  visit_machine unit idle_dec (msteps root) root tt
  = MRet false MRoot tt (dfs_tree root KNone [] 0%nat false).
Proof.
  intro root.
  destruct (machine_refines_model unit idle_dec _ _ _ _ _ _ (idle_visit_log root) ltac:(discriminate))
    as (n & Hb & _ & Hm).
  destruct (Hm (msteps root) (Hb (non_editing_NR _ _ idle_non_editing))) as (b & mr & Hv & Hb' & Hr). subst. exact Hv.
Qed.
Print Assumptions C11_machine_enter_leave_order.

(* C11_parallel_projection on the machine: the loop run with the ParallelVisitor of non-editing
   scripted visitors gives visitor i exactly the calls the loop gives it when it runs alone; both
   runs return the root object. *)
Theorem C11_machine_parallel_projection : forall root scs i sc,
  Forall script_ne scs -> NoDup (ids_tree root) -> nth_error scs i = Some sc ->
  forall fuel, (msteps root <= fuel)%nat ->
  exists b ps log b' log',
    machine_parallel fuel root scs = MRet b MRoot ps log /\
    machine_scripted fuel root sc = MRet b' MRoot tt log' /\
    projsub i (rev (snd ps)) = proj_log log'.
Proof. exact machine_parallel_projection. Qed.
Print Assumptions C11_machine_parallel_projection.

(* non-vacuity: an editing script on a tree with an absent slot, a single child and arrays:
   node 2 is replaced on enter by a node whose child 11 is removed on leave; item 4 of the array is
   removed on enter, item 5 replaced on leave; leave of the root answers SKIP (= no action). *)
Definition mx_leaf (i : N) : tree := Node 1 i SNil.
Definition mx_root : tree :=
  Node 2 1 (SCons SNone
           (SCons (SOne (Node 3 2 (SCons (SOne (mx_leaf 3)) SNil)))
           (SCons (SArr (TCons (mx_leaf 4) (TCons (mx_leaf 5) (TCons (mx_leaf 6) TNil)))) SNil))).
Definition mx_repl : tree := Node 3 10 (SCons (SOne (mx_leaf 11)) (SCons (SArr (TCons (mx_leaf 12) TNil)) SNil)).
Definition mx_script : script :=
  [(2, Enter, Replace mx_repl); (11, Leave, Remove); (4, Enter, Remove); (5, Leave, Replace (mx_leaf 13));
   (1, Leave, Skip)].
Definition mx_result : tree :=
  Node 2 1 (SCons SNone
           (SCons (SOne (Node 3 10 (SCons SNone (SCons (SArr (TCons (mx_leaf 12) TNil)) SNil))))
           (SCons (SArr (TCons (mx_leaf 13) (TCons (mx_leaf 6) TNil))) SNil))).

Example C11_machine_example :
  fst (visit_scripted 5 mx_root mx_script) = REdit (Some mx_result) /\
  exists log, machine_scripted 40 mx_root mx_script = MRet false (MVal (EVal (VNode mx_result))) tt log /\
              log = snd (visit_scripted 5 mx_root mx_script) /\
              map c_id log = [1; 2; 11; 11; 12; 12; 10; 4; 5; 5; 6; 6; 1] /\
              (msteps mx_root + script_R mx_script * nrep log = 23)%nat.
Proof. split; [reflexivity|]. eexists. split; [vm_compute; reflexivity|]. repeat split. Qed.
