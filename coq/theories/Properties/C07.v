(* C07 - a subscription maps source events to responses one-to-one and in order.
   Theorems about the pull-driven pipeline machine (Exec/Subscribe.v), for every source
   (events and a possible failure), every per-event execution function and every
   interleaving of consumer pulls, source readiness and callback completions. *)
From GV Require Import Base.Prelude Exec.Subscribe Exec.SubscribeProps.

(* delivered so far ++ still due = the specified stream, under every interleaving *)
Theorem C07_delivered_is_prefix : forall (E R : Type) (exec : E -> R) src0 evs,
  let '(s', o) := run_steps E R exec (mkSt E src0 (Idle E)) evs in
  o ++ remaining E R exec s' = spec_outputs E R exec src0.
Proof. exact delivered_is_prefix. Qed.
Print Assumptions C07_delivered_is_prefix.

(* once the pipeline is done, exactly the specified stream has been delivered *)
Theorem C07_finished_is_spec : forall (E R : Type) (exec : E -> R) src0 evs s' o,
  run_steps E R exec (mkSt E src0 (Idle E)) evs = (s', o) -> stg E s' = Done E ->
  o = spec_outputs E R exec src0.
Proof.
  intros E R exec src0 evs s' o H Hd. pose proof (delivered_is_prefix E R exec src0 evs) as P. rewrite H in P.
  unfold Subscribe.remaining in P. rewrite Hd in P. rewrite app_nil_r in P. exact P.
Qed.
Print Assumptions C07_finished_is_spec.

(* the specified stream: exactly one response per source event before the first failure, in
   source order, each the execution of that event; then the failure, or the end exactly when
   the source ends *)
Theorem C07_one_to_one_in_order : forall (E R : Type) (exec : E -> R) src0,
  spec_outputs E R exec src0
  = map (fun e => Resp R (exec e)) (events_before_fail E src0)
    ++ [if has_fail E src0 then Raised R else Ended R].
Proof.
  intros E R exec src0.
  induction src0 as [|[e|] r IH]; cbn; try reflexivity. rewrite IH. reflexivity.
Qed.
Print Assumptions C07_one_to_one_in_order.

(* a fair schedule finishes (the model itself never gets stuck) *)
Theorem C07_fair_schedule_finishes : forall (E R : Type) (exec : E -> R) src0,
  stg E (fst (run_steps E R exec (mkSt E src0 (Idle E)) (fair (S (length src0))))) = Done E.
Proof.
  intros E R exec src0.
  induction src0 as [|[e|] r IH]; cbn [length].
  - reflexivity.
  - change (fair (S (S (length r)))) with (Pull :: SourceReady :: CallbackDone :: fair (S (length r))).
    cbn [Subscribe.run_steps Subscribe.step stg src].
    destruct (run_steps E R exec (mkSt E r (Idle E)) (fair (S (length r)))) as [s2 o2] eqn:Er.
    cbn [fst] in *. exact IH.
  - change (fair (S (S (length r)))) with (Pull :: SourceReady :: CallbackDone :: fair (S (length r))).
    cbn [Subscribe.run_steps Subscribe.step stg src].
    pose proof (done_stays E R exec (CallbackDone :: fair (S (length r))) (mkSt E r (Done E)) eq_refl) as G.
    cbn [Subscribe.run_steps Subscribe.step stg src] in G.
    destruct (run_steps E R exec (mkSt E r (Done E)) (fair (S (length r)))) as [s2 o2]. exact G.
Qed.
Print Assumptions C07_fair_schedule_finishes.

Example C07_example :
  snd (run_steps N N (fun x => x * 2) (mkSt N [Ev N 1; Ev N 2; Fail N; Ev N 3] (Idle N))
           [Pull; Pull; SourceReady; CallbackDone; CallbackDone; Pull; SourceReady; Pull; CallbackDone;
            SourceReady; Pull; SourceReady])
  = [Resp N 2; Resp N 4; Raised N].
Proof. reflexivity. Qed.
