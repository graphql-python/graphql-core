(* C18 - introspection describes the schema truthfully.  The lemmas are in SchemaOps/IntrospectProps.v,
   ClientProps.v and Literals.v. *)
From GV Require Import Base.Prelude.
From GV Require Import Lang.Ast Lang.Wf Lang.BlockStringProps.
(* the SchemaOps modules last: their [value], [mkOpts], [full] are the ones meant below *)
From GV Require Import SchemaOps.Schema SchemaOps.Introspect SchemaOps.IntrospectProps
  SchemaOps.Client SchemaOps.ClientProps SchemaOps.Literals.

(* Under every combination of the 7 options the result of the standard introspection query equals
   the full-options result minus exactly the switched-off attributes, the deprecated input values
   (input_value_deprecation off) and the deprecated directives (directive deprecation off);
   for every schema and every printer of default-value literals. *)
Theorem C18_options_prune : forall pv s o, introspect pv s o = prune o (introspect pv s full).
Proof.
  intros pv s o. unfold introspect, prune, at_key. cbn -[schema_json prune_schema full].
  rewrite prune_schema_ok. reflexivity.
Qed.
Print Assumptions C18_options_prune.

(* __type(name: n) { ...FullType } is the entry of the type list carrying that name (null when
   there is none), under every option combination. *)
Theorem C18_type_lookup_agrees : forall pv s o n,
  type_lookup pv s o n = entry_named n (introspect pv s o).
Proof.
  intros pv s o n. unfold entry_named, type_lookup. rewrite types_of_introspect.
  induction (s_types s) as [|t r IH]; cbn [map find find_by]; [reflexivity|].
  rewrite name_of_type_json. destruct (text_eqb (t_name t) n); [reflexivity|exact IH].
Qed.
Print Assumptions C18_type_lookup_agrees.

(* pruning with all options on changes nothing *)
Theorem C18_prune_full_identity : forall pv s, prune full (introspect pv s full) = introspect pv s full.
Proof. intros. symmetry. apply C18_options_prune. Qed.
Print Assumptions C18_prune_full_identity.

(* Building a client schema from the full result gives back the schema: same types of every kind
   in the same order with all fields, arguments, default values, descriptions, deprecations,
   interfaces, union members, enum values, input fields, OneOf and specifiedBy markers, directives
   with locations and repeatability, root types and schema description.
   Partial: (1) default values travel as printed literals - the theorem holds for every printer /
   parser pair of literals that round-trips (print_ast / parse_const_value; properties C08/C15);
   (2) [client_ok]: type references are at most type_depth = 9 wrappers deep, and containers that
   do not apply to a type's kind are empty (introspection cannot carry them). *)
Theorem C18_client_roundtrip_partial : forall pv parse, (forall v, parse (pv v) = Some v) ->
  forall s, client_ok s -> build_client parse (introspect pv s full) = Some s.
Proof. intros pv parse H s. exact (client_roundtrip pv parse any_value (fun v _ => H v) s). Qed.
Print Assumptions C18_client_roundtrip_partial.

(* ... and the client schema introspects to the same result again. *)
Theorem C18_reintrospect_partial : forall pv parse, (forall v, parse (pv v) = Some v) ->
  forall s, client_ok s ->
  exists c, build_client parse (introspect pv s full) = Some c /\ introspect pv c full = introspect pv s full.
Proof. intros pv parse H s. exact (reintrospect pv parse any_value (fun v _ => H v) s). Qed.
Print Assumptions C18_reintrospect_partial.

(* The same two theorems WITHOUT the hypothesis on the printer / parser of literals: default values
   are const-value trees, printed by the printer model of the language (Lang/Printer.pp = print_ast,
   [print_literal]) and read back by the parser model (Lang/Parser.parse_text EConstValue =
   parse_const_value, [parse_literal]); their round trip is C08_print_parse_roundtrip.
   Remaining side conditions ([client_okv literal_ok]):
     - every default value is a literal that the text can carry ([literal_ok]): its node is a parser
       output for a const value (enum names are not true/false/null), names are Name lexemes, number
       texts are Int / Float lexemes, strings consist of Unicode scalar values, leaves in normal form;
       how a Python default VALUE becomes such a literal (value_to_literal) is the subject of C15/C17,
       and a block-flagged string literal is outside the value trees of this model;
     - type references are at most type_depth = 9 wrappers deep;
     - containers that do not apply to a type's kind are empty (introspection cannot carry them). *)
Theorem C18_client_roundtrip_literals : forall s, client_okv literal_ok s ->
  build_client parse_literal (introspect print_literal s full) = Some s.
Proof. exact (client_roundtrip print_literal parse_literal literal_ok literal_roundtrip). Qed.
Print Assumptions C18_client_roundtrip_literals.

Theorem C18_reintrospect_literals : forall s, client_okv literal_ok s ->
  exists c, build_client parse_literal (introspect print_literal s full) = Some c
            /\ introspect print_literal c full = introspect print_literal s full.
Proof. exact (reintrospect print_literal parse_literal literal_ok literal_roundtrip). Qed.
Print Assumptions C18_reintrospect_literals.

(* non-vacuity: a deprecated argument and a deprecated directive disappear, descriptions go *)
Definition ex_pv (v : value) : list N := match v with VLeaf _ x => x | _ => [] end.
Definition ex_q : typedef :=
  mkType 1 [81] (Some [100])
    [mkField [102] [mkArg [97] (TNamed [81]) None None (Some [120]); mkArg [98] (TList (TNamed [81])) (Some (VLeaf 1 [49])) None None]
       (TNonNull (TNamed [81])) (Some [100]) None] [] [] [] [] None false.
Definition ex_s : schema :=
  mkSchema (Some [115]) (Some [81]) None None [ex_q]
    [mkDir [100] None [] [[70]] true (Some [114]); mkDir [101] None [] [[70]] false None].
Definition ex_none : opts := mkOpts false false false false false false false.

Example C18_example :
  introspect ex_pv ex_s ex_none <> introspect ex_pv ex_s full
  /\ (match get_key k_directives (get_key k_schema (introspect ex_pv ex_s ex_none)) with JArr l => length l | _ => O end) = 1%nat
  /\ (match get_key k_directives (get_key k_schema (introspect ex_pv ex_s full)) with JArr l => length l | _ => O end) = 2%nat
  /\ get_key k_name (type_lookup ex_pv ex_s full [81]) = JStr [81]
  /\ type_lookup ex_pv ex_s full [82] = JNull.
Proof. repeat split; try reflexivity. intro H. discriminate H. Qed.

Example C18_example_client_ok : client_ok ex_s.
Proof.
  unfold client_ok, client_okv, type_okv, canonical_type, dir_okv, field_okv, arg_okv, any_value, ex_s, ex_q; cbn.
  repeat match goal with
         | |- _ /\ _ => split
         | |- True => exact I
         | |- Forall _ _ => constructor; cbn
         | H : ?x <> ?x |- _ => exfalso; apply H; reflexivity
         | |- _ -> _ => intro; cbn in *
         | |- _ = _ => reflexivity
         | |- (_ <= _)%nat => unfold TYPE_DEPTH; cbn; lia
         | |- _ <= _ => cbn; lia
         end.
Qed.

Example C18_example_roundtrip :
  build_client (fun t => Some (VLeaf 1 t)) (introspect ex_pv ex_s full) = Some ex_s.
Proof. reflexivity. Qed.

(* non-vacuity of the literal instance: a default value with every kind of literal is [literal_ok],
   prints as print_ast prints it and is read back *)
Definition ex_lit : value :=
  VObj [([97], VList [VLeaf 1 [49]; VLeaf 3 [120; 34]; VLeaf 4 [1]; VLeaf 0 []; VLeaf 5 [69]]); ([102], VLeaf 2 [49; 46; 53])].

Example C18_example_literal :
  literal_ok ex_lit
  /\ print_literal ex_lit = [123; 32; 97; 58; 32; 91; 49; 44; 32; 34; 120; 92; 34; 34; 44; 32; 116; 114; 117; 101; 44; 32;
                             110; 117; 108; 108; 44; 32; 69; 93; 44; 32; 102; 58; 32; 49; 46; 53; 32; 125]
  /\ parse_literal (print_literal ex_lit) = Some ex_lit.
Proof.
  split; [|split; vm_compute; reflexivity].
  unfold literal_ok, ex_lit. split; [cbn; intuition|]. split.
  - cbn. repeat (constructor || (split; reflexivity)).
  - cbn. repeat match goal with
                | |- _ /\ _ => split
                | |- True => exact I
                | |- scalars _ => repeat constructor
                | |- _ = true => vm_compute; reflexivity
                end.
Qed.

Example C18_example_client_literals :
  let q := mkType 1 [81] None [mkField [102] [mkArg [97] (TNamed [81]) (Some ex_lit) None None] (TNamed [81]) None None]
             [] [] [] [] None false in
  let s := mkSchema None (Some [81]) None None [q] [] in
  build_client parse_literal (introspect print_literal s full) = Some s.
Proof. vm_compute. reflexivity. Qed.
