(* C11 (parallel part) - ParallelVisitor projection.  The lemmas are in Lang/VisitParallelProps.v,
   over the traversal model Lang/Visit.v. *)
From GV Require Import Base.Prelude Lang.Visit Lang.VisitProps Lang.VisitParallelProps.

(* For every list [scs] of scripted visitors that never edit (every scripted action is Idle, Skip
   or Break), every tree with pairwise distinct node ids (the implementation identifies the
   skipped node by object identity) and enough fuel (the nesting depth): the sub-calls of
   visitor i inside the parallel run (filtered by visitor index, as (phase, node id)) are exactly
   the calls of the solo run visit_scripted fuel root (nth i scs) - including after SKIP and
   BREAK of visitor i itself and of the other visitors. *)
Theorem C11_parallel_projection : forall fuel root scs i sc,
  Forall script_ne scs -> NoDup (ids_tree root) -> (depth_tree root <= fuel)%nat ->
  nth_error scs i = Some sc ->
  projsub i (snd (visit_parallel fuel root scs)) = proj_log (snd (visit_scripted fuel root sc)).
Proof. exact parallel_projection. Qed.
Print Assumptions C11_parallel_projection.

(* a traversal whose visitor only answers Idle or Break is the fold of the visitor over the
   depth-first enter/leave call list, up to the first Break (used above and by C12) *)
Theorem C11_idle_break_traversal_is_fold : forall St decide,
  idle_or_break St decide -> forall fuel root s0, (depth_tree root <= fuel)%nat ->
  snd (fst (visit St decide fuel root s0)) = snd (run_calls St decide (calls_tree root) s0).
Proof. exact visit_calls. Qed.
Print Assumptions C11_idle_break_traversal_is_fold.

(* the call sequence of one scripted non-editing visitor alone, as a function of the tree *)
Theorem C11_solo_calls : forall sc, script_ne sc -> forall fuel root, (depth_tree root <= fuel)%nat ->
  proj_log (snd (visit_scripted fuel root sc)) = fst (solo_tree sc root).
Proof. exact solo_log. Qed.
Print Assumptions C11_solo_calls.

(* non-vacuity: three visitors; 0 skips node 2, 1 breaks at node 3, 2 is idle *)
Definition ex_root : tree :=
  Node 1 1 (SCons (SArr (TCons (Node 2 2 (SCons (SOne (Node 3 3 SNil)) SNil))
                        (TCons (Node 2 4 SNil) TNil))) SNil).
Definition ex_scs : list script :=
  [ [(2, Enter, Skip); (4, Leave, Skip)]; [(3, Enter, Break)]; [] ].

Example C11_parallel_example :
  Forall script_ne ex_scs /\ NoDup (ids_tree ex_root) /\ (depth_tree ex_root <= 5)%nat /\
  projsub 0 (snd (visit_parallel 5 ex_root ex_scs))
    = [(Enter, 1); (Enter, 2); (Enter, 4); (Leave, 4); (Leave, 1)] /\
  projsub 1 (snd (visit_parallel 5 ex_root ex_scs)) = [(Enter, 1); (Enter, 2); (Enter, 3)] /\
  length (projsub 2 (snd (visit_parallel 5 ex_root ex_scs))) = 8%nat.
Proof.
  split.
  - assert (Hs : forall sc, (forall x, In x sc -> ne_action (snd x)) -> script_ne sc).
    { intros sc H i p a Hin. exact (H (i, p, a) Hin). }
    repeat (apply Forall_cons || apply Forall_nil); apply Hs; intros x H; cbn in H;
      repeat (destruct H as [<-|H]; [unfold ne_action; cbn; auto|]); contradiction.
  - split; [cbn; repeat constructor; cbn; intuition discriminate|].
    split; [cbn; lia|]. vm_compute. repeat split.
Qed.
