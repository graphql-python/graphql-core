(* C11 - AST traversal.  The lemmas are in Lang/VisitProps.v, Lang/VisitParallelProps.v (the two
   ParallelVisitor theorems are those of Properties/C11par.v) and Gen/TableChecks.v. *)
From GV Require Import Base.Prelude Lang.Visit Lang.VisitProps Lang.VisitParallelProps Gen.Tables Gen.TableChecks.
From GV Require Properties.C11par.

(* A visitor that never returns REMOVE or a replacement (whatever its state and whatever it
   skips or breaks) never produces an edit: the traversal answers "keep", i.e. the caller
   gets the identical input tree back (or the traversal was broken off / out of fuel). *)
Theorem C11_no_edit_identity : forall St decide fuel,
  non_editing St decide -> forall t k p n h s,
  not_edit (fst (visit_tree St decide fuel t k p n h s)).
Proof. intros St decide fuel H. exact (visit_tree_pure St decide fuel H). Qed.
Print Assumptions C11_no_edit_identity.

(* With the all-idle visitor every node reachable through the key tables is entered once
   in depth-first order and left after its children; key, path and number of ancestors of
   each call are those of [dfs_tree]; fuel = depth suffices (no out-of-fuel). *)
Theorem C11_enter_leave_order : forall root,
  visit unit idle_dec (depth_tree root) root tt = (RKeep, tt, dfs_tree root KNone [] 0%nat false).
Proof. exact idle_visit_log. Qed.
Print Assumptions C11_enter_leave_order.

(* QUERY_DOCUMENT_KEYS is complete and exact w.r.t. the node classes (re-swept every run) *)
Theorem C11_keys_complete : keys_missing_count = 0 /\ keys_unknown_count = 0.
Proof. exact keys_complete. Qed.
Print Assumptions C11_keys_complete.

(* ParallelVisitor: every non-editing visitor sees in the parallel run exactly the call sequence it
   sees alone, including after SKIP and BREAK of itself and of the others (distinct node ids: the
   implementation identifies the skipped node by object identity). *)
Theorem C11_parallel_projection : forall fuel root scs i sc,
  Forall script_ne scs -> NoDup (ids_tree root) -> (depth_tree root <= fuel)%nat ->
  nth_error scs i = Some sc ->
  projsub i (snd (visit_parallel fuel root scs)) = proj_log (snd (visit_scripted fuel root sc)).
Proof. exact Properties.C11par.C11_parallel_projection. Qed.
Print Assumptions C11_parallel_projection.

(* the call sequence of a single scripted non-editing visitor is a structural function of the
   tree: SKIP = no calls below the node and no leave call, BREAK = nothing afterwards *)
Theorem C11_solo_calls : forall sc, script_ne sc -> forall fuel root, (depth_tree root <= fuel)%nat ->
  proj_log (snd (visit_scripted fuel root sc)) = fst (solo_tree sc root).
Proof. exact Properties.C11par.C11_solo_calls. Qed.
Print Assumptions C11_solo_calls.

(* non-vacuity: a root with an absent slot, a single child and an array of two *)
Example C11_example :
  let leaf i := Node 1 i SNil in
  let root := Node 2 1 (SCons SNone (SCons (SOne (leaf 2)) (SCons (SArr (TCons (leaf 3) (TCons (leaf 4) TNil))) SNil))) in
  map c_id (dfs_tree root KNone [] 0%nat false) = [1; 2; 2; 3; 3; 4; 4; 1].
Proof. reflexivity. Qed.
