(* C09 - the token stream is the one of the specification's lexical grammar.
   Lexer: Lang/LexerProps.v; tables: Gen/TableChecks.v; parser statements: Properties/ParserThms.v. *)
From GV Require Import Base.Prelude Lang.Lexer Lang.LexerProps Gen.Tables Gen.TableChecks Lang.Ast Lang.Parser
  Lang.ParserProps Properties.ParserThms.

(* Every source either is rejected with a position or yields tokens whose spans tile the
   source: gap, lexeme, gap, ..., EOF; gaps contain ignored characters only; lexemes are
   non-empty, start at a non-ignored character, spans are [tstart, tend). Never out of
   fuel, never a crash. *)
Theorem C09_spans : forall s,
  match lex s with Ok ts => spans 0 s ts | SyntaxErr _ => True | _ => False end.
Proof. exact lex_total. Qed.
Print Assumptions C09_spans.

(* spans are ordered, disjoint and within the source *)
Theorem C09_ordered : forall s ts, lex s = Ok ts ->
  ordered 0 ts /\
  Forall (fun t => (tstart t <= tend t)%nat /\ (tend t <= length s)%nat) ts.
Proof.
  intros s ts H. pose proof (lex_total s) as T. rewrite H in T. split.
  - apply (spans_ordered _ _ _ T).
  - exact (spans_bounds _ _ _ T).
Qed.
Print Assumptions C09_ordered.

(* the character-class tables regenerated from the implementation on every run equal the specification's
   ranges (a table the generator does not find is None, and its conjunct then holds trivially) *)
Theorem C09_tables_are_spec :
  tbl_ok digit_tbl spec_digit /\ tbl_ok name_start_tbl spec_name_start /\
  tbl_ok name_continue_tbl spec_name_continue /\ tbl_ok unicode_scalar_tbl spec_scalar /\
  lex_digit_tbl = sweep_filter spec_digit /\ lex_name_start_tbl = sweep_filter spec_name_start /\
  lex_name_continue_tbl = sweep_filter spec_name_continue /\
  lex_ignored_tbl = [9; 10; 13; 32; 44; 65279] /\ lex_line_terminators_tbl = [LF; CR] /\
  lex_punct_tbl = [(33, 2); (36, 3); (38, 4); (40, 5); (41, 6); (58, 9); (61, 10); (64, 11);
                   (91, 12); (93, 13); (123, 14); (124, 15); (125, 16)].
Proof.
  exact (conj digit_is_spec (conj name_start_is_spec (conj name_continue_is_spec
        (conj unicode_scalar_is_spec (conj lex_digit_is_spec (conj lex_name_start_is_spec
        (conj lex_name_continue_is_spec (conj lex_ignored_is_spec
        (conj lex_line_terminators_is_spec lex_punct_is_spec))))))))).
Qed.
Print Assumptions C09_tables_are_spec.

(* The parser consumes only (kind, value) of the significant tokens: any two token lists with the
   same (kind, value) sequence - whatever ignored material, positions, lines - give the same tree
   and token count, or are both rejected. *)
Theorem C09_parse_independent_of_layout : forall e o ts1 ts2,
  map sig ts1 = map sig ts2 ->
  (forall d c, parse_entry e o ts1 = Ok (d, c) <-> parse_entry e o ts2 = Ok (d, c)) /\
  ((exists p, parse_entry e o ts1 = SyntaxErr p) <-> (exists p, parse_entry e o ts2 = SyntaxErr p)).
Proof. exact parser_layout_independent. Qed.
Print Assumptions C09_parse_independent_of_layout.

(* a token limit of n accepts exactly the sources the unlimited parser accepts with at most n tokens *)
Theorem C09_token_limit : forall e o n s d c,
  parse_text e (with_max o (Some n)) s = Ok (d, c) <->
  parse_text e (with_max o None) s = Ok (d, c) /\ (c <= n)%nat.
Proof. exact parser_text_token_limit_iff. Qed.
Print Assumptions C09_token_limit.

(* sources that do not lex are rejected by every entry point *)
Theorem C09_unlexable_rejected : forall e o s q, e <> ECoordinate -> lex s = SyntaxErr q ->
  exists p, parse_text e o s = SyntaxErr p.
Proof. exact parser_unlexable_rejected. Qed.
Print Assumptions C09_unlexable_rejected.

(* non-vacuity: a source with comment, string escape, number and CR LF *)
Example C09_example :
  match lex [123; 32; 97; 49; 35; 120; 13; 10; 34; 92; 110; 34; 45; 49; 46; 53; 125] with
  | Ok ts => length ts = 7%nat | _ => False end.
Proof. vm_compute. reflexivity. Qed.
