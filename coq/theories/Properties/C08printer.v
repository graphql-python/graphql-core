(* C08 (printer part) - print_ast then parse gives the same tree back, at the level of TEXT.
   The proofs combine Lang/PrinterProps.v (the printed text lexes to tokens_of), Lang/PrinterParsed.v and
   Lang/PrinterCoord.v with the parser theorems of Properties/ParserThms.v.
   Model: Lang/Printer.v (pp = print_ast, written from language/printer.py) over the trees of Lang/Ast.v,
   the lexer model Lang/Lexer.v, the parser model Lang/Parser.v and the token-level unparse Lang/Unparse.v.

   Side conditions on the tree x:
     wf_ast e xfa xdd x   x has the shape of a parser output for entry point e under the experimental flags
                          (Lang/Wf.v; C08_parser_output_wf: every tree the parser returns has it)
     lex_ok x             the leaves are lexically possible: every Name value is a Name lexeme, every
                          IntValue / FloatValue value is an Int / Float lexeme (it lexes alone to that
                          token), every quoted string value is a string of Unicode scalar values, every
                          block-flagged string value is in the range of the lexer's block-string
                          denotation (C08_block_range_char) with surrogates only in lead-trail pairs.
   A tree built by hand that violates lex_ok (a name "a b", an int "1x", a block string " x") prints to
   a text that denotes a different tree or none; such trees are outside the property. *)
From GV Require Import Base.Prelude Lang.Lexer Lang.LexerProps Lang.BlockString Lang.BlockStringProps
  Lang.StripBlock Lang.Strip Lang.StripProps Lang.Ast Lang.Parser Lang.Unparse Lang.Wf Lang.Printer
  Lang.PrinterProps Lang.PrinterParsed Lang.PrinterCoord Lang.ParserProps Lang.WfProps Lang.UnparseProps Properties.ParserThms.

(* the printed text lexes, and its significant tokens are exactly the token-level unparse of the tree *)
Theorem C08_print_lexes_to_tokens : forall e xfa xdd x,
  e <> ECoordinate -> wf_ast e xfa xdd x -> lex_ok x ->
  exists ts, lex (pp x) = Ok ts /\ map sig (significant ts) = tokens_of x ++ [(K_EOF, [])].
Proof. exact print_lexes. Qed.
Print Assumptions C08_print_lexes_to_tokens.

(* text-level round trip: parsing the printed text gives the tree back, with the token count of the
   unparse, for every entry point that uses the text lexer and under every flag setting *)
Theorem C08_print_parse_roundtrip : forall e o x,
  e <> ECoordinate -> max_tokens o = None ->
  wf_ast e (exp_fragment_arguments o) (exp_directives_on_directive_definitions o) x -> lex_ok x ->
  parse_text e o (pp x) = Ok (x, length (tokens_of x)).
Proof.
  intros e o x He Hm W Hok.
  destruct (print_lexes e _ _ x He W Hok) as (ts & El & Hs).
  rewrite (parse_text_lex e o (pp x) ts He El).
  exact (parse_entry_roundtrip e o (significant ts) x [] Hm W Hs).
Qed.
Print Assumptions C08_print_parse_roundtrip.

(* with a token limit: accepted as soon as the limit is at least the number of tokens of the tree *)
Theorem C08_print_parse_roundtrip_limited : forall e o n x,
  e <> ECoordinate ->
  wf_ast e (exp_fragment_arguments o) (exp_directives_on_directive_definitions o) x -> lex_ok x ->
  (length (tokens_of x) <= n)%nat ->
  parse_text e (with_max o (Some n)) (pp x) = Ok (x, length (tokens_of x)).
Proof.
  intros e o n x He W Hok Hn.
  destruct (print_lexes e _ _ x He W Hok) as (ts & El & Hs).
  rewrite (parse_text_lex e _ (pp x) ts He El).
  exact (parser_unparse_roundtrip_limited e o n (significant ts) x [] W Hs Hn).
Qed.
Print Assumptions C08_print_parse_roundtrip_limited.

(* printing is a fixed point of parse-then-print *)
Theorem C08_print_fixed_point : forall e o x x' c,
  e <> ECoordinate -> max_tokens o = None ->
  wf_ast e (exp_fragment_arguments o) (exp_directives_on_directive_definitions o) x -> lex_ok x ->
  parse_text e o (pp x) = Ok (x', c) -> x' = x /\ pp x' = pp x.
Proof.
  intros e o x x' c He Hm W Hok H.
  rewrite (C08_print_parse_roundtrip e o x He Hm W Hok) in H. inversion H; subst. split; reflexivity.
Qed.
Print Assumptions C08_print_fixed_point.

(* schema coordinates (their own lexer: names and . ( ) : @, nothing ignored) *)
Theorem C08_print_parse_roundtrip_coordinate : forall o x,
  max_tokens o = None -> wf_coordinate x -> lex_ok x ->
  parse_text ECoordinate o (pp x) = Ok (x, length (tokens_of x)).
Proof.
  intros o x Hm W Hok. destruct (print_coordinate_tokens x W Hok) as (ts & E & Hs).
  unfold parse_text. rewrite E. cbn [obind].
  exact (parse_entry_roundtrip ECoordinate o ts x [] Hm W Hs).
Qed.
Print Assumptions C08_print_parse_roundtrip_coordinate.

(* the side conditions are no restriction on parsed trees: whatever the parser returns for a source text of
   Unicode scalar values is well formed (C08_parser_output_wf) and satisfies lex_ok *)
Theorem C08_parsed_lex_ok : forall e o s x c,
  e <> ECoordinate -> Forall (fun ch => is_scalar ch = true) s -> parse_text e o s = Ok (x, c) -> lex_ok x.
Proof.
  intros e o s x c He Hs H. pose proof (lex_total s) as T.
  destruct (lex s) as [ts|q| |] eqn:El; try contradiction.
  - rewrite (parse_text_lex e o s ts He El) in H.
    exact (parse_entry_lex_ok e o (significant ts) x c He (lex_tok_ok s ts Hs El) H).
  - destruct (parser_unlexable_rejected e o s q He El) as (p & Hp). congruence.
Qed.
Print Assumptions C08_parsed_lex_ok.

(* hence parse, print, parse is the identity on every text of Unicode scalar values that parses
   (whatever the token limit of the first parse), and printing the re-parsed tree gives the same text *)
Theorem C08_parse_print_parse : forall e o s x c,
  e <> ECoordinate -> Forall (fun ch => is_scalar ch = true) s -> parse_text e o s = Ok (x, c) ->
  parse_text e (with_max o None) (pp x) = Ok (x, length (tokens_of x)).
Proof.
  intros e o s x c He Hs H.
  assert (Hok : lex_ok x) by (eapply C08_parsed_lex_ok; eauto).
  assert (W : wf_ast e (exp_fragment_arguments o) (exp_directives_on_directive_definitions o) x).
  { pose proof (lex_total s) as T. destruct (lex s) as [ts|q| |] eqn:El; try contradiction.
    - rewrite (parse_text_lex e o s ts He El) in H. exact (parse_entry_wf e o _ x c H).
    - destruct (parser_unlexable_rejected e o s q He El) as (p & Hp). congruence. }
  exact (C08_print_parse_roundtrip e (with_max o None) x He eq_refl W Hok).
Qed.
Print Assumptions C08_parse_print_parse.

(* the printed text of a document never uses the query short form where it would be read as the
   continuation of the previous definition: instance with a type definition without fields *)
Example C08_print_example :
  let name s := Nd KName [AStr s] in
  let sel := Nd KSelectionSet [AList [Nd KField [ANone; ANode (name [97]); ANone; ANone; ANone]]] in
  let d := Nd KDocument [AList
    [Nd KObjectTypeDefinition [ANode (name [84]); ANode (Nd KStringValue [AStr [100; 10; 32; 101]; ABool true]); ANone; ANone; ANone];
     Nd KOperationDefinition [ANode sel; ANone; ANone; ANone; ANone; AEnum 0]]] in
  wf_document false false d /\
  pp d = [34; 34; 34; 10; 100; 10; 32; 101; 10; 34; 34; 34; 10; 116; 121; 112; 101; 32; 84; 10; 10;
          113; 117; 101; 114; 121; 32; 123; 10; 32; 32; 97; 10; 125] /\
  parse_text EDocument (mkOpts None false false) (pp d) = Ok (d, length (tokens_of d)).
Proof.
  cbv zeta. split; [|split; vm_compute; reflexivity].
  apply wf_document_intro.
  - apply wf_def_type_system, wf_object_def; repeat constructor.
  - constructor; [|constructor]. apply wf_def_operation. constructor; repeat constructor.
Qed.
