(* C17 - a schema survives printing to SDL and rebuilding.  The lemmas are in SchemaOps/BuildProps.v
   ([build_sdl_of_cases]: what build makes of a print) and DiffProps.v. *)
From GV Require Import Base.Prelude SchemaOps.Schema SchemaOps.Build SchemaOps.Sdl SchemaOps.BuildProps
  SchemaOps.Diff SchemaOps.DiffProps.

(* Building the printed document gives back the schema itself: same types of every kind with all
   members, arguments, default literals, descriptions, deprecations, directives with locations and
   repeatability, interfaces, union members, enum values, OneOf / specifiedBy markers, root
   operation types, all in the same order - for every schema with a query root.
   Partial: the document is the SDL *definition list* (the schema-definition omission rule, the
   ordering of directives and types and the by-convention root lookup are what is proved); the
   text level (string / block-string printing and lexing of descriptions, number and string
   literals) is property C08's round trip and is covered here by the direct laws. *)
Theorem C17_build_sdl_of_partial : forall s, s_query s <> None -> build (sdl_of s) = Some s.
Proof.
  intros s Hq. rewrite build_sdl_of_cases. destruct (omit_schema_def s) eqn:Eo; [|reflexivity].
  apply (omit_schema_def_spec s Hq) in Eo. destruct Eo as [Ed Er].
  apply default_roots_spec in Er. destruct Er as (Eq & Em & Es).
  unfold by_convention. rewrite <- Eq, <- Em, <- Es, <- Ed. destruct s; reflexivity.
Qed.
Print Assumptions C17_build_sdl_of_partial.

(* Printing the rebuilt schema gives the identical document, for EVERY schema (also without roots). *)
Theorem C17_print_idempotent : forall s, exists s', build (sdl_of s) = Some s' /\ sdl_of s' = sdl_of s.
Proof.
  intro s. rewrite build_sdl_of_cases. destruct (omit_schema_def s) eqn:Eo.
  - exists (by_convention s). split; [reflexivity|].
    unfold sdl_of. rewrite omit_by_convention, Eo. reflexivity.
  - exists s. split; reflexivity.
Qed.
Print Assumptions C17_print_idempotent.

(* The two schemas have no differences (C19's change detector; names unique per container). *)
Theorem C17_no_changes_partial : forall leb s, s_query s <> None -> wf s ->
  exists s', build (sdl_of s) = Some s' /\ diff leb s s' = [] /\ diff leb s' s = [].
Proof.
  intros leb s Hq Hwf. exists s. split; [apply C17_build_sdl_of_partial; exact Hq|].
  split; apply diff_refl; exact Hwf.
Qed.
Print Assumptions C17_no_changes_partial.

(* The schema definition is omitted exactly when it can be re-derived: no description and every
   root is the type carrying the conventional name (and no other type carries such a name). *)
Theorem C17_schema_block_rule : forall s, s_query s <> None ->
  (omit_schema_def s = true <->
   s_desc s = None /\ s_query s = conv nQuery (s_types s) None
   /\ s_mutation s = conv nMutation (s_types s) None /\ s_subscription s = conv nSubscription (s_types s) None).
Proof. intros s Hq. rewrite (omit_schema_def_spec s Hq), default_roots_spec. reflexivity. Qed.
Print Assumptions C17_schema_block_rule.

(* non-vacuity: a schema with non-conventional root names keeps its schema definition, one with
   conventional names drops it; both rebuild to themselves *)
Definition ex_t (n : name) : typedef :=
  mkType 1 n (Some [100]) [mkField [102] [mkArg [97] (TNamed [73; 110; 116]) (Some (VLeaf 1 [49])) None None]
                              (TNonNull (TNamed [73; 110; 116])) None (Some [120])] [] [] [] [] None false.
Definition ex_conv : schema := mkSchema None (Some nQuery) None None [ex_t nQuery] [].
Definition ex_named : schema := mkSchema None (Some [82]) (Some nQuery) None [ex_t [82]; ex_t nQuery] [].

Example C17_example :
  length (sdl_of ex_conv) = 1%nat /\ length (sdl_of ex_named) = 3%nat
  /\ build (sdl_of ex_conv) = Some ex_conv /\ build (sdl_of ex_named) = Some ex_named.
Proof. repeat split; reflexivity. Qed.
