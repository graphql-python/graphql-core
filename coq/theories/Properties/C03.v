(* C03 - the response does not depend on when resolvers complete.
   Proved: the algebra of CollectedErrors (which errors are kept, which positions are nulled)
   under every arrival order and under cancellation of attempts below another attempt.
   These theorems are about the error collection alone, hence the suffix _partial; the scheduling
   (gather with cancellation, abandoned siblings, serial roots) is modelled in Exec/Async.v and its
   theorems are in Properties/C03async.v.  The asyncio event loop itself is explored, not modelled. *)
From GV Require Import Base.Prelude Exec.ErrorsAlg Exec.ErrorsAlgProps.

(* every error that was raised is at or below a nulled position that was kept *)
Theorem C03_errors_covered_partial : forall adds p,
  In p adds -> nulled (kept_positions adds) p = true.
Proof. exact covered. Qed.
Print Assumptions C03_errors_covered_partial.

(* the outermost nulled positions are exactly the outermost positions at which an error was
   handled; they do not depend on the arrival order, nor on attempts dropped because they
   lie below another handled position (sibling cancellation) *)
Theorem C03_nulled_positions_order_independent_partial : forall adds adds' p,
  (forall q, In q adds' -> In q adds) ->
  (forall q, outermost adds q -> In q adds') ->
  (outermost (kept_positions adds) p <-> outermost (kept_positions adds') p).
Proof. exact outermost_order_independent. Qed.
Print Assumptions C03_nulled_positions_order_independent_partial.

Theorem C03_nulled_positions_permutation_partial : forall adds adds' p,
  (forall q, In q adds <-> In q adds') ->
  (outermost (kept_positions adds) p <-> outermost (kept_positions adds') p).
Proof.
  intros adds adds' p H. apply outermost_order_independent.
  - intros q. apply H.
  - intros q [Hq _]. apply H. exact Hq.
Qed.
Print Assumptions C03_nulled_positions_permutation_partial.

(* data and outermost nulled positions of every schedule equal the synchronous ones: Properties/C03async.v
   for the model Exec/Async.v; for the asyncio runtime itself, the controlled-loop exploration of
   harness/c03.py *)
Example C03_example :
  kept_indices [[1; 2]; [1]; [1; 2; 3]; [4]; []; [4; 0]] = [0; 1; 3; 4]%nat.
Proof. reflexivity. Qed.
