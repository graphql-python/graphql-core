(* The recursive-descent parser (Lang/Parser.v, model of src/graphql/language/parser.py).
   The longer proofs are in Lang/ParserProps.v, Lang/UnparseProps.v and Lang/WfProps.v; the short ones
   are here.  C01 (totality), C08 (print/parse round trip) and C09 (layout, token limit) state some of
   these theorems again. *)
From GV Require Import Base.Prelude Lang.Lexer Lang.Ast Lang.Parser Lang.Unparse Lang.Wf
  Lang.ParserProps Lang.UnparseProps Lang.WfProps.

(* For EVERY token list (not only lexer output), every option setting and each of the five entry
   points the parser answers with a tree or a located syntax error: the fuel S (number of tokens)
   is never exhausted (every recursive call and every loop iteration consumes a token) and no
   other failure exists.  Nesting depth is unbounded. *)
Theorem parser_total_on_tokens : forall e o ts,
  (exists d c, parse_entry e o ts = Ok (d, c)) \/ (exists p, parse_entry e o ts = SyntaxErr p).
Proof. exact parse_entry_total. Qed.
Print Assumptions parser_total_on_tokens.

(* The same for every source text (any code point list): lexing lazily and parsing never crashes
   and never runs out of fuel. *)
Theorem parser_total_on_text : forall e o s,
  (exists d c, parse_text e o s = Ok (d, c)) \/ (exists p, parse_text e o s = SyntaxErr p).
Proof.
  intros e o s. unfold parse_text.
  destruct (token_stream_total (match e with ECoordinate => true | _ => false end) s) as [ts ->].
  cbn [obind]. apply parse_entry_total.
Qed.
Print Assumptions parser_total_on_text.

(* The lazily lexed token stream always exists (lexer total, LexerProps). *)
Theorem parser_token_stream_total : forall coord s, exists ts, token_stream coord s = Ok ts.
Proof. exact token_stream_total. Qed.
Print Assumptions parser_token_stream_total.

(* Full grammar: executable definitions, all type-system definitions and extensions, descriptions,
   variable definitions with descriptions and directives, fragment arguments and directives on
   directive definitions under their flags, values, types, schema coordinates.
   For every well-formed tree x (Lang/Wf.v: the shapes the productions can return) and every token
   list whose (kind, value) sequence is tokens_of x followed by EOF - whatever the positions -
   the unlimited parser returns exactly x and counts exactly the tokens of x. *)
Theorem parser_unparse_roundtrip : forall e o ts x v,
  max_tokens o = None ->
  wf_ast e (exp_fragment_arguments o) (exp_directives_on_directive_definitions o) x ->
  map sig ts = tokens_of x ++ [(K_EOF, v)] ->
  parse_entry e o ts = Ok (x, length (tokens_of x)).
Proof. exact parse_entry_roundtrip. Qed.
Print Assumptions parser_unparse_roundtrip.

(* the document instance, as in the property text: parse_document (tokens_of d ++ [EOF]) = Ok d
   with token_count d = length (tokens_of d) *)
Theorem parser_unparse_roundtrip_document : forall o ts d v,
  max_tokens o = None ->
  wf_document (exp_fragment_arguments o) (exp_directives_on_directive_definitions o) d ->
  map sig ts = tokens_of d ++ [(K_EOF, v)] ->
  parse_document o ts = Ok (d, length (tokens_of d)).
Proof. intros o ts d v Hm W E. exact (parse_entry_roundtrip EDocument o ts d v Hm W E). Qed.
Print Assumptions parser_unparse_roundtrip_document.

(* with a token limit: accepted as soon as the limit is at least the number of tokens *)
Theorem parser_unparse_roundtrip_limited : forall e o n ts x v,
  wf_ast e (exp_fragment_arguments o) (exp_directives_on_directive_definitions o) x ->
  map sig ts = tokens_of x ++ [(K_EOF, v)] ->
  (length (tokens_of x) <= n)%nat ->
  parse_entry e (with_max o (Some n)) ts = Ok (x, length (tokens_of x)).
Proof.
  intros e o n ts x v W E Hn. apply parse_entry_limit_iff. split; [|exact Hn].
  apply (parse_entry_roundtrip e (with_max o None) ts x v eq_refl W E).
Qed.
Print Assumptions parser_unparse_roundtrip_limited.

(* Every tree an entry point returns is well formed: the hypothesis of the round trip is exactly
   "x is a parser output shape". *)
Theorem parser_output_wf : forall e o ts x c,
  parse_entry e o ts = Ok (x, c) ->
  wf_ast e (exp_fragment_arguments o) (exp_directives_on_directive_definitions o) x.
Proof. exact parse_entry_wf. Qed.
Print Assumptions parser_output_wf.

(* Hence: whatever parses (with or without token limit, any flags) re-parses from its own
   token-level unparse, in any layout, to the identical tree. *)
Theorem parser_reparse_identity : forall e o ts x c ts' v,
  parse_entry e o ts = Ok (x, c) ->
  map sig ts' = tokens_of x ++ [(K_EOF, v)] ->
  parse_entry e (with_max o None) ts' = Ok (x, length (tokens_of x)).
Proof.
  intros e o ts x c ts' v H E.
  apply (parse_entry_roundtrip e (with_max o None) ts' x v eq_refl); [|exact E].
  exact (parse_entry_wf e o ts x c H).
Qed.
Print Assumptions parser_reparse_identity.

(* the unparse never has more tokens than the parser counted is NOT claimed (`query {a}` has 4
   tokens, its unparse `{a}` 3); what holds is that the re-parse counts the tokens of the unparse *)

(* max_tokens = n accepts exactly the inputs the unlimited parser accepts with at most n tokens,
   with the same tree and the same count *)
Theorem parser_token_limit_iff : forall e o n ts d c,
  parse_entry e (with_max o (Some n)) ts = Ok (d, c) <->
  parse_entry e (with_max o None) ts = Ok (d, c) /\ (c <= n)%nat.
Proof. exact parse_entry_limit_iff. Qed.
Print Assumptions parser_token_limit_iff.

(* an accepted input with more than n tokens is rejected at the start of its (n+1)-th token *)
Theorem parser_token_limit_exceeded : forall e o n ts d c,
  parse_entry e (with_max o None) ts = Ok (d, c) -> (n < c)%nat ->
  parse_entry e (with_max o (Some n)) ts = SyntaxErr (pos_of ts (length ts - n)).
Proof.
  intros e o n ts d c H Hc. pose proof (parse_entry_limit_cases e o n ts) as C. rewrite H in C.
  destruct C as [[Hle _]|[_ E]]; [lia|exact E].
Qed.
Print Assumptions parser_token_limit_exceeded.

(* an input rejected without limit is rejected with the same error, or at the (n+1)-th token *)
Theorem parser_token_limit_error : forall e o n ts p,
  parse_entry e (with_max o None) ts = SyntaxErr p ->
  parse_entry e (with_max o (Some n)) ts = SyntaxErr p \/
  parse_entry e (with_max o (Some n)) ts = SyntaxErr (pos_of ts (length ts - n)).
Proof.
  intros e o n ts p H. pose proof (parse_entry_limit_cases e o n ts) as C. rewrite H in C. exact C.
Qed.
Print Assumptions parser_token_limit_error.

(* pos_of ts (length ts - n) is the start of the token with index n *)
Theorem parser_limit_position : forall ts n, (n <= length ts)%nat ->
  pos_of ts (length ts - n) = match skipn n ts with t :: _ => tstart t | [] => O end.
Proof.
  intros ts n H. unfold pos_of. replace (length ts - (length ts - n))%nat with n by lia. reflexivity.
Qed.
Print Assumptions parser_limit_position.

(* token_count is the number of tokens in front of the first EOF; all of them were consumed *)
Theorem parser_token_count : forall e o ts d c,
  parse_entry e o ts = Ok (d, c) ->
  exists pre rest, map sig ts = pre ++ rest /\ c = length pre /\
                   Forall (fun t => (fst t =? K_EOF) = false) pre /\ kind_at rest = K_EOF.
Proof. exact parse_entry_count. Qed.
Print Assumptions parser_token_count.

(* on source text: token_count + 1 (the EOF) = number of significant tokens of the lexer *)
Theorem parser_token_count_text : forall e o s ts d c, e <> ECoordinate -> lex s = Ok ts ->
  parse_text e o s = Ok (d, c) -> S c = length (significant ts).
Proof. exact parse_text_count. Qed.
Print Assumptions parser_token_count_text.

Theorem parser_text_token_limit_iff : forall e o n s d c,
  parse_text e (with_max o (Some n)) s = Ok (d, c) <->
  parse_text e (with_max o None) s = Ok (d, c) /\ (c <= n)%nat.
Proof. exact parse_text_limit_iff. Qed.
Print Assumptions parser_text_token_limit_iff.

(* "a token limit of n accepts exactly the documents with at most n tokens" *)
Theorem parser_text_token_limit_tokens : forall e o n s ts d c, e <> ECoordinate -> lex s = Ok ts ->
  (parse_text e (with_max o (Some n)) s = Ok (d, c) <->
   parse_text e (with_max o None) s = Ok (d, c) /\ (length (significant ts) <= S n)%nat).
Proof.
  intros e o n s ts d c He Hl. rewrite parse_text_limit_iff. split.
  - intros [H Hc]. split; [exact H|]. rewrite <- (parse_text_count e _ s ts d c He Hl H). lia.
  - intros [H Hc]. split; [exact H|]. pose proof (parse_text_count e _ s ts d c He Hl H). lia.
Qed.
Print Assumptions parser_text_token_limit_tokens.

(* the parser consumes only (kind, value) of the significant tokens: equal sequences give equal
   trees and counts, and fail together *)
Theorem parser_layout_independent : forall e o ts1 ts2,
  map sig ts1 = map sig ts2 ->
  (forall d c, parse_entry e o ts1 = Ok (d, c) <-> parse_entry e o ts2 = Ok (d, c)) /\
  ((exists p, parse_entry e o ts1 = SyntaxErr p) <-> (exists p, parse_entry e o ts2 = SyntaxErr p)).
Proof. exact parse_entry_layout. Qed.
Print Assumptions parser_layout_independent.

(* ... and fail at the same token: positions only decide where that token starts *)
Theorem parser_error_token_layout_independent : forall e o ts1 ts2,
  map sig ts1 = map sig ts2 -> error_index e o ts1 = error_index e o ts2.
Proof. intros e o ts1 ts2 E. unfold error_index. rewrite E. reflexivity. Qed.
Print Assumptions parser_error_token_layout_independent.

Theorem parser_error_position : forall e o ts p,
  parse_entry e o ts = SyntaxErr p ->
  exists i, error_index e o ts = Some i /\
            p = match skipn i ts with t :: _ => tstart t | [] => O end.
Proof.
  intros e o ts p. unfold parse_entry, error_index.
  destruct (core e _ _ _ _) as [d r|x|]; try discriminate.
  intros H; inversion H; subst. eexists; split; [reflexivity|].
  unfold pos_of. rewrite map_length. reflexivity.
Qed.
Print Assumptions parser_error_position.

(* for a source that lexes, parsing the text is parsing the significant tokens of Lexer.lex *)
Theorem parser_text_is_tokens : forall e o s ts, e <> ECoordinate -> lex s = Ok ts ->
  parse_text e o s = parse_entry e o (significant ts).
Proof. exact parse_text_lex. Qed.
Print Assumptions parser_text_is_tokens.

(* two sources whose significant tokens agree in kind and value (any rewrite of the ignored
   material) parse to the same tree with the same token count, or are both rejected *)
Theorem parser_text_layout_independent : forall e o s1 s2 ts1 ts2,
  e <> ECoordinate -> lex s1 = Ok ts1 -> lex s2 = Ok ts2 ->
  map sig (significant ts1) = map sig (significant ts2) ->
  (forall d c, parse_text e o s1 = Ok (d, c) <-> parse_text e o s2 = Ok (d, c)) /\
  ((exists p, parse_text e o s1 = SyntaxErr p) <-> (exists p, parse_text e o s2 = SyntaxErr p)).
Proof.
  intros e o s1 s2 ts1 ts2 He H1 H2 E.
  rewrite (parse_text_lex e o s1 ts1 He H1), (parse_text_lex e o s2 ts2 He H2).
  apply parse_entry_layout. exact E.
Qed.
Print Assumptions parser_text_layout_independent.

(* a source that does not lex is rejected by every entry point (at the lexical error or at an
   earlier parse error), never accepted *)
Theorem parser_unlexable_rejected : forall e o s q, e <> ECoordinate -> lex s = SyntaxErr q ->
  exists p, parse_text e o s = SyntaxErr p.
Proof.
  intros e o s q He H. unfold parse_text.
  replace (match e with ECoordinate => true | _ => false end) with false by (destruct e; congruence).
  unfold token_stream. unfold lex in H.
  pose proof (lazy_loop_lex (S (length s)) init_cursor s) as L. rewrite H in L. destruct L as [pre L].
  rewrite L. cbn [obind]. apply parse_entry_lexerr.
  eapply lazy_loop_no_eof. exact L.
Qed.
Print Assumptions parser_unlexable_rejected.

(* `{ a }` *)
Definition ex_doc_text : list N := [123; 32; 97; 32; 125].
Definition ex_doc : node :=
  Nd KDocument [AList [Nd KOperationDefinition
    [ANode (Nd KSelectionSet [AList [Nd KField [ANone; ANode (Nd KName [AStr [97]]); ANone; ANone; ANone]]]);
     ANone; ANone; ANone; ANone; AEnum 0]]].
Definition no_opts : options := mkOpts None false false.

Example ex_parse_text : parse_text EDocument no_opts ex_doc_text = Ok (ex_doc, 3%nat).
Proof. vm_compute. reflexivity. Qed.

Example ex_wf : wf_document false false ex_doc.
Proof.
  repeat constructor.
Qed.

Example ex_tokens : tokens_of ex_doc = [(K_BRACE_L, []); (K_NAME, [97]); (K_BRACE_R, [])].
Proof. reflexivity. Qed.

(* token limit: 2 tokens are not enough for `{ a }`, error at the third token (offset 4) *)
Example ex_limit :
  parse_text EDocument (mkOpts (Some 2%nat) false false) ex_doc_text = SyntaxErr 4%nat /\
  parse_text EDocument (mkOpts (Some 3%nat) false false) ex_doc_text = Ok (ex_doc, 3%nat).
Proof. split; vm_compute; reflexivity. Qed.

(* laziness: the parse error at `}` (offset 0... the unexpected token) comes before the lexical
   error further right *)
Example ex_lazy : parse_text EDocument no_opts [125; 32; 34] = SyntaxErr 0%nat.
Proof. vm_compute. reflexivity. Qed.

(* SDL with an extension and a description, both experimental syntaxes *)
Definition ex_sdl_text : list N :=
  (* "d" directive @a @b on FIELD extend directive @a @c *)
  [34;100;34;32;100;105;114;101;99;116;105;118;101;32;64;97;32;64;98;32;111;110;32;70;73;69;76;68;32;
   101;120;116;101;110;100;32;100;105;114;101;99;116;105;118;101;32;64;97;32;64;99].
Example ex_sdl :
  match parse_text EDocument (mkOpts None true true) ex_sdl_text with
  | Ok (d, c) => c = 14%nat /\ length (tokens_of d) = 14%nat
  | _ => False
  end.
Proof. vm_compute. split; reflexivity. Qed.
