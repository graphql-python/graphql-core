(* C12 (rules, continued) - 28 DeferStreamDirectiveOnRootField as a function of the parser's AST and
   the presence of the root operation types (Valid/RulesRoot.v): the depth-first walk of the root
   level of a mutation / subscription through inline fragments (structural) and fragment spreads
   (one visited set per operation, fuel).  The longer proofs in Valid/RulesRootProps.v.
   Correspondence with the implementation, alone and together with the other directive rules:
   harness/crulesdir.py (model `rules`, op 5, rule code 28).

   Vocabulary: rf fuel fr p ss (visited, errors) = forbid_defer_stream on the selection set ss at
   path p, fr = the fragments dict (last definition wins); unc fr visited = number of defined
   fragment names not yet visited; ext st st' = every visited name stays visited and the error list
   of st' extends that of st. *)
From GV Require Import Base.Prelude Lang.Lexer Lang.Ast Lang.Parser
  Valid.Rules Valid.RulesBase Valid.RulesDir Valid.RulesRoot Valid.RulesRootProps.

(* the walk terminates within rf_fuel = 1 + number of fragment definitions, whatever the document:
   cyclic spreads, undefined fragments, duplicate fragment names included *)
Theorem C12_root_fuel_sufficient : forall fr p ss,
  exists st, rf (rf_fuel fr) fr p ss ([], []) = Some st.
Proof.
  intros fr p ss.
  destruct (rf_good fr (rf_fuel fr) p ss ([], [])) as (st & E & _).
  - cbn [fst]. rewrite unc_nil. unfold rf_fuel. lia.
  - eauto.
Qed.
Print Assumptions C12_root_fuel_sufficient.

Theorem C12_root_rule_total : forall ds d, exists es, rule_root_field ds d = Some es.
Proof.
  intros ds d.
  unfold rule_root_field. apply opt_concat_total. intros o Hin.
  apply In_mapi in Hin as (j & n & _ & ->).
  destruct n as [k attrs]. destruct k; eauto.
  destruct attrs as [|[| ss | | | |] r]; eauto.
  destruct (op_code _); eauto.
  destruct (_ && _); eauto.
  destruct (C12_root_fuel_sufficient (rf_frags d) [(O, j); (O, O)]%nat ss) as (st & ->). cbn. eauto.
Qed.
Print Assumptions C12_root_rule_total.

(* from any state with enough fuel: visited fragments stay visited, reported errors are never
   withdrawn or reordered, and the number of unvisited defined fragments never grows *)
Theorem C12_root_walk_monotone : forall fr fuel p ss st st',
  (unc fr (fst st) < fuel)%nat -> rf fuel fr p ss st = Some st' ->
  ext st st' /\ (unc fr (fst st') <= unc fr (fst st))%nat.
Proof.
  intros fr fuel p ss st st' Hm E. destruct (rf_good fr fuel p ss st Hm) as (st1 & E1 & H1 & X1).
  rewrite E in E1. inversion E1; subst. auto.
Qed.
Print Assumptions C12_root_walk_monotone.

(* any fuel above the number of unvisited defined fragments succeeds *)
Theorem C12_root_any_sufficient_fuel : forall fr fuel p ss st,
  (unc fr (fst st) < fuel)%nat -> exists st', rf fuel fr p ss st = Some st'.
Proof.
  intros fr fuel p ss st H. destruct (rf_good fr fuel p ss st H) as (st' & E & _). eauto.
Qed.
Print Assumptions C12_root_any_sufficient_fuel.

(* query operations (and documents without operations) are never reported *)
Theorem C12_root_queries_never_reported : forall ds d,
  (forall n, In n (ddefs d) -> op_code n = Some 0 \/ op_code n = None) ->
  rule_root_field ds d = Some [].
Proof.
  intros ds d H. unfold rule_root_field. apply opt_concat_all_nil. intros o Ho.
  apply In_mapi in Ho as (j & n & Hj & ->).
  destruct (H n (nth_error_In _ _ Hj)) as [E|E];
    destruct n as [k attrs]; destruct k; try reflexivity;
    destruct attrs as [|[| ss | | | |] r]; try reflexivity; rewrite E; reflexivity.
Qed.
Print Assumptions C12_root_queries_never_reported.

(* non-vacuity, evaluated on the parser model's tree of
   mutation { ...A @defer x @stream @stream } fragment A on M { a @stream ...B ...Z @defer }
   fragment B on M { ...A @defer ... @defer { b ...B } }
   (cyclic spreads, an undefined fragment, a second spread of a visited fragment that is NOT examined,
   a repeated directive reported once): four errors in the implementation's order *)
Example C12_root_example :
  match parse_text EDocument (mkOpts None false false)
          [109;117;116;97;116;105;111;110;32;123;32;46;46;46;65;32;64;100;101;102;101;114;32;120;32;64;115;116;114;101;97;109;32;64;115;116;114;101;97;109;32;125;32;102;114;97;103;109;101;110;116;32;65;32;111;110;32;77;32;123;32;97;32;64;115;116;114;101;97;109;32;46;46;46;66;32;46;46;46;90;32;64;100;101;102;101;114;32;125;32;102;114;97;103;109;101;110;116;32;66;32;111;110;32;77;32;123;32;46;46;46;65;32;64;100;101;102;101;114;32;46;46;46;32;64;100;101;102;101;114;32;123;32;98;32;46;46;46;66;32;125;32;125] with
  | Ok (d, _) => rule_root_field (DS [true; true; false] []) d
  | _ => None
  end
  = Some [VE R_ROOT [[(0, 0); (0, 0); (0, 0); (0, 0)]]; VE R_ROOT [[(0, 1); (0, 0); (0, 0); (0, 0)]];
          VE R_ROOT [[(0, 2); (0, 0); (0, 1); (0, 0)]]; VE R_ROOT [[(0, 0); (0, 0); (0, 1); (0, 0)]]]%nat.
Proof. vm_compute. reflexivity. Qed.
