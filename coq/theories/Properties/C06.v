(* C06 - stopping early never hangs or leaks.  The invariants and their preservation are in
   Incr/ComputationProps.v and Incr/LifecycleProps.v.  The runtime part of the property (the event loop reaches quiescence,
   "promptly") is not provable in these machines and is decided by exploration (harness/c06.py). *)
From GV Require Import Base.Prelude Incr.Computation Incr.ComputationProps Incr.Lifecycle Incr.LifecycleProps.

(* Computation: fn runs at most once on every trace of prime/result/abort/settle events *)
Theorem C06_computation_once : forall c es, (runs (crun c cinit es) <= 1)%nat.
Proof. intros c es. apply (cinv_run c es cinit cinv_init). Qed.
Print Assumptions C06_computation_once.

(* abort of a settled computation changes nothing and returns None *)
Theorem C06_computation_abort_after_settle_noop : forall c s, settled s -> do_abort c s = (s, RNone).
Proof. intros c s. unfold settled, do_abort. intros [H|H]; rewrite H; reflexivity. Qed.
Print Assumptions C06_computation_abort_after_settle_noop.

(* abort of an unprimed computation prevents the run, whatever is called afterwards *)
Theorem C06_computation_abort_unprimed_prevents_run : forall c es, runs (crun c cinit (EAbort :: es)) = 0%nat.
Proof. intros c es. cbn. apply frozen. discriminate. Qed.
Print Assumptions C06_computation_abort_unprimed_prevents_run.

(* the abort callback (sub-executor abort: closes what the task started) is called at most once on
   every trace, and exactly once when a running computation is aborted *)
Theorem C06_computation_on_abort_at_most_once : forall c es, (on_abort_calls (crun c cinit es) <= 1)%nat.
Proof. intros c es. apply (cinv_run c es cinit cinv_init). Qed.
Print Assumptions C06_computation_on_abort_at_most_once.

Theorem C06_computation_abort_running_calls_once : forall c es s,
  has_on_abort c = true -> status s = CPending -> cinv s -> on_abort_calls (crun c s (EAbort :: es)) = 1%nat.
Proof.
  intros c es s.
  destruct s as [st f r a]; cbn. intros Hc Hs (_ & _ & _ & H4 & _). cbn in *. subst st.
  unfold do_abort; cbn. rewrite Hc. cbn.
  match goal with |- on_abort_calls (crun c ?s' es) = _ => destruct (frozen c es s') as [_ O]; [discriminate|] end.
  rewrite O by discriminate. cbn. rewrite (H4 eq_refl). reflexivity.
Qed.
Print Assumptions C06_computation_abort_running_calls_once.

(* WorkQueue.cancel / Executor.abort: every listed task (listed once or several times) is settled
   afterwards - rejected by the walk, or fulfilled / rejected already before it -, fn is not run by
   the walk, a running task's callback is called exactly once, a task that was not running gets no
   callback *)
Theorem C06_cancel_reaches_everything : forall c ids tbl j d,
  (j < length tbl)%nat -> In j ids -> cinv (nth j tbl d) ->
  let s := nth j tbl d in let s' := nth j (cancel_tasks c ids tbl) d in
  caborted s' /\ runs s' = runs s /\
  (status s = CPending -> has_on_abort c = true -> on_abort_calls s' = 1%nat) /\
  (status s <> CPending -> on_abort_calls s' = on_abort_calls s).
Proof.
  intros c ids tbl j d.
  intros Hj Hin Hinv. cbn. rewrite cancel_entry by exact Hj.
  assert (E : existsb (Nat.eqb j) ids = true).
  { apply existsb_exists. exists j. split; auto. apply Nat.eqb_refl. }
  rewrite E. split; [apply do_abort_aborted|].
  destruct (nth j tbl d) as [st f r a]. destruct Hinv as (_ & _ & _ & H4 & _). cbn in *.
  unfold do_abort; cbn. destruct st; cbn.
  - repeat split; auto; intros; congruence.
  - destruct (has_on_abort c) eqn:Hc; cbn; repeat split; auto; intros; try congruence;
      try (rewrite (H4 eq_refl); reflexivity).
  - repeat split; auto; intros; congruence.
  - repeat split; auto; intros; congruence.
Qed.
Print Assumptions C06_cancel_reaches_everything.

(* StreamItemQueue: control flags, bounded entries queue (producer blocked in push / parked on its
   final entry, _settle_parked), failure of the source incl. a cancellation turned into an exception,
   abort at any point.  Steps between two QTick events happen without the loop running.
   _partial: the machine has no event for a producer that swallows its cancellation and goes on pushing or
   finishing (it only has the cancellation turned into an exception), and does not model the content of the
   entries (batching); the runtime statement of the property is decided by exploration.
   The abort callback (closing the source) runs at most once on every trace. *)
Theorem C06_source_closed_at_most_once_partial : forall c es, (q_cb_calls (qrun c (qinit c) es) <= 1)%nat.
Proof.
  intros c es.
  destruct (qinv_run c es _ (qinv_init c)) as (H1 & _). rewrite H1.
  destruct (_ && _); lia.
Qed.
Print Assumptions C06_source_closed_at_most_once_partial.

(* after any trace, once the loop has settled: exactly one close if the trace contains an abort or
   failure that took effect before the source finished; none if the source finished by itself *)
Theorem C06_source_closed_exactly_once_partial : forall c es,
  let s := settle c (qrun c (qinit c) es) in
  (stopped_early s = true -> q_cb_calls s = if q_has_cb c then 1%nat else 0%nat) /\
  (q_finished s = true -> q_cb_calls s = 0%nat).
Proof.
  intros c es.
  apply (cb_calls_settled c).
  - apply qinv_settle, qinv_run, qinv_init.
  - apply settle_due_none.
Qed.
Print Assumptions C06_source_closed_exactly_once_partial.

(* model-level quiescence: after ANY trace, abort() followed by one settling of the loop leaves no producer
   task (running, blocked or parked), no pending item future and no cleanup continuation *)
Theorem C06_no_pending_after_quiescence_partial : forall c es,
  let s := qrun c (qinit c) es in quiescent (settle c (fst (do_qabort c s))) = true.
Proof. intros c es. cbn. apply g_settle, g_abort. apply (qinv_run c es _ (qinv_init c)). Qed.
Print Assumptions C06_no_pending_after_quiescence_partial.

(* work-finished hook: on every interleaving of background work with the single call of
   run_async_work_finished_hook the hook fires at most once; once no background work is left and the
   waiting task has been resumed it has fired exactly once *)
Theorem C06_hook_once_after_work : forall es,
  count_runhook es = 1%nat ->
  (h_fired (hrun hinit es) <= 1)%nat /\
  (h_bg (hrun hinit es) = 0%nat -> h_fired (hrun (hrun hinit es) (wakes 1)) = 1%nat).
Proof.
  intro es.
  intros H. pose proof (hook_conservation es hinit) as C. cbn in C. rewrite H in C.
  split; [lia|]. intros Hb.
  rewrite (wake_all 1 (hrun hinit es) Hb); lia.
Qed.
Print Assumptions C06_hook_once_after_work.

(* ... and a firing step is only possible in a state with no tracked background work outstanding *)
Theorem C06_hook_only_when_idle : forall s e,
  h_fired (hstep s e) <> h_fired s -> h_bg s = 0%nat /\ h_fired (hstep s e) = S (h_fired s).
Proof.
  intros s e.
  destruct s as [b w f fb]; destruct e; cbn; try congruence.
  - destruct b; cbn; intros H; [split; reflexivity|congruence].
  - destruct w; cbn; try congruence. destruct b; cbn; intros H; [split; reflexivity|congruence].
Qed.
Print Assumptions C06_hook_only_when_idle.

(* every way an operation ends calls run_async_work_finished_hook exactly once *)
Theorem C06_hook_called_once_per_path : forall p, count_runhook (path_calls p) = 1%nat.
Proof. intro p. destruct p; reflexivity. Qed.
Print Assumptions C06_hook_called_once_per_path.

(* subscription: map_async_iterable closes the source once *)
Theorem C06_aclosing_at_most_once : forall es, (a_close_calls (arun ainit es) <= 1)%nat.
Proof.
  intro es. pose proof (aclose_at_most_once es ainit (le_n 0)) as H.
  destruct (a_gen (arun ainit es)); lia.
Qed.
Print Assumptions C06_aclosing_at_most_once.

Theorem C06_aclosing_exactly_once : forall es,
  entered es = true -> a_gen (arun ainit es) = GClosed -> a_close_calls (arun ainit es) = 1%nat.
Proof.
  assert (G : forall es k, a_gen (arun (mkA GSuspended k) es) = GClosed ->
              a_close_calls (arun (mkA GSuspended k) es) = S k).
  { induction es as [|e es IH]; intros k; cbn; [discriminate|].
    destruct e; cbn; try apply IH; intros _; rewrite arun_closed; reflexivity. }
  intros [|e es]; cbn; [discriminate|].
  destruct e; cbn; try discriminate; intros _.
  - apply G.
  - intros _. rewrite arun_closed. reflexivity.
  - intros _. rewrite arun_closed. reflexivity.
Qed.
Print Assumptions C06_aclosing_exactly_once.

(* non-vacuity: a running computation aborted twice, then asked again *)
Example C06_example :
  let c := {| has_on_abort := true; on_abort_async := true |} in
  let s := crun c cinit [EPrime FnAwaitable; EAbort; ECallback; EAbort; EResult FnValue] in
  (status s, runs s, on_abort_calls s) = (CRejected, 1%nat, 1%nat) /\ cinv s.
Proof. split; [reflexivity|]. apply cinv_run, cinv_init. Qed.
