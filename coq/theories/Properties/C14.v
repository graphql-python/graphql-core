(* C14 - field-merge validation equals the specification.  The theorems, each proved in a few lines
   from the lemmas of Valid/Overlap*.v and Valid/PairSetProps.v.

   What is proved here: laws of the two memo tables as the code has them; termination of the
   specification function on every document (cyclic spreads included); sanity of the
   specification function, and its adequacy: it decides the declarative (inductive) reading of
   FieldsInSetCanMerge / SameResponseShape; for the memoised algorithm as modelled in Valid/OverlapOpt.v (steps
   A-J with both memo tables, tied to the real rule by verdict, final memo tables and the
   sequence of memo decisions): termination on every document; every comparison skipped on a memo hit was started earlier
   under a flag that subsumes the query.
   Relation of the memoised algorithm to [spec_conflicts]: equivalence is proved for every typable,
   well-formed document, named / nested / mutually recursive / cyclic fragments included
   ([C14_equiv]), from its two halves: the memoisation never hides a conflict
   ([C14_memo_never_hides]: specification conflict => the algorithm reports one) and the algorithm
   reports no conflict the specification does not have ([C14_memo_sound]).  What remains outside
   Coq is the tie between the memoised model and the real rule (verdict, memo decision trace and
   final memo tables compared on every generated document by harness/c14.py). *)
From Coq Require Import Permutation.
From GV Require Import Base.Prelude Valid.Overlap Valid.OverlapProps Valid.PairSet Valid.PairSetProps
  Valid.OverlapOpt Valid.OverlapOptProps Valid.OverlapAdequacy Valid.OverlapEquiv Valid.OverlapOptTerm
  Valid.OverlapMemoSound Valid.OverlapMemoConv.

(* PairSet: has after add; a non-exclusive entry answers the exclusive and the non-exclusive
   query, an exclusive entry only the exclusive query; the set is unordered; an addition is
   invisible to every other unordered pair. *)
Theorem C14_pairset_laws : forall s a b,
  (forall e, ps_has (ps_add s a b e) a b e = true) /\
  (forall q, ps_has (ps_add s a b false) a b q = true) /\
  (ps_has (ps_add s a b true) a b true = true /\ ps_has (ps_add s a b true) a b false = false) /\
  (forall e, ps_has s a b e = ps_has s b a e /\ ps_add s a b e = ps_add s b a e) /\
  (forall e c d q, order c d <> order a b -> ps_has (ps_add s a b e) c d q = ps_has s c d q).
Proof.
  intros s a b. repeat split; intros; unfold ps_has.
  - rewrite ps_get_add_same. destruct e; reflexivity.
  - rewrite ps_get_add_same. destruct q; reflexivity.
  - rewrite ps_get_add_same. reflexivity.
  - rewrite ps_get_add_same. reflexivity.
  - unfold ps_get. rewrite (order_sym a b). reflexivity.
  - unfold ps_add. rewrite (order_sym a b). reflexivity.
  - rewrite ps_get_add_other by assumption. reflexivity.
Qed.
Print Assumptions C14_pairset_laws.

(* Used as the rule uses it (`if has(..): return` then `add(..)`): an entry never disappears,
   only moves from exclusive (true) to non-exclusive (false), and no answer once given is
   ever withdrawn. *)
Theorem C14_pairset_monotone : forall s c d e a b,
  (forall r, ps_get s a b = Some r ->
     exists r', ps_get (ps_record s c d e) a b = Some r' /\ (r = false -> r' = false)) /\
  (forall q, ps_has s a b q = true -> ps_has (ps_record s c d e) a b q = true).
Proof.
  intros. split; intros.
  - apply ps_record_monotone; assumption.
  - apply ps_record_keeps_answers; assumption.
Qed.
Print Assumptions C14_pairset_monotone.

(* OrderedPairSet: same flag laws; the pair is ordered (first component by identity, second by
   value): an addition is visible only to queries with the same first and the same second
   component; under has-then-add an entry never disappears and only moves from true to false. *)
Theorem C14_ordered_pairset_laws : forall s a b,
  (forall e, ops_has (ops_add s a b e) a b e = true) /\
  (forall q, ops_has (ops_add s a b false) a b q = true) /\
  (ops_has (ops_add s a b true) a b true = true /\ ops_has (ops_add s a b true) a b false = false) /\
  (forall e c d q, (c, d) <> (a, b) -> ops_has (ops_add s a b e) c d q = ops_has s c d q) /\
  (forall c d e r, ops_get s a b = Some r ->
     exists r', ops_get (ops_record s c d e) a b = Some r' /\ (r = false -> r' = false)).
Proof.
  intros s a b. repeat split; intros; unfold ops_has.
  - rewrite ops_get_add_same. destruct e; reflexivity.
  - rewrite ops_get_add_same. destruct q; reflexivity.
  - rewrite ops_get_add_same. reflexivity.
  - rewrite ops_get_add_same. reflexivity.
  - rewrite ops_get_add_other by assumption. reflexivity.
  - apply ops_record_monotone; assumption.
Qed.
Print Assumptions C14_ordered_pairset_laws.

(* The specification function terminates on every schema and document: with
   collect_fuel = #fragment definitions and depth_fuel = 2 * #fields^2 + 1 (the number of distinct (field, field, mode) pairs + 1) neither fuel is
   exhausted, whatever the spread graph (cyclic, mutually recursive). *)
Theorem C14_terminates : forall s d, spec_verdict s d <> VFuel.
Proof. exact spec_verdict_terminates. Qed.
Print Assumptions C14_terminates.

(* The memoised algorithm (Valid/OverlapOpt.v, the shape of the implementation) terminates on
   every document, cyclic and mutually recursive spreads included, in whatever order the
   definitions are visited: with opt_fuel d = (2*#sets*#fragments + 2*#fragments^2 + 1) *
   (2*depth + 3) it never runs out of fuel.  (Every memo miss strictly decreases a potential
   over the finite set of memo keys; between two misses calls descend into sub-selections.) *)
Theorem C14_memoised_terminates : forall s d order fuel,
  (opt_fuel d <= fuel)%nat -> opt_run s d order fuel <> RFuel.
Proof. exact opt_terminates. Qed.
Print Assumptions C14_memoised_terminates.

(* The executable specification function (a search with a visited set) decides the declarative
   reading of section 5.3.2: [DocConf s d] = some selection set of the document (operation,
   fragment, field or inline-fragment selection set, with the type it applies to), with fragments
   expanded once per set, contains two fields with the same response name that have a finite
   derivation [Conf] of "cannot be merged": a direct conflict (different field or arguments
   unless the parent types are different object types or an enclosing pair already was; or
   return types of different response shape), or a conflicting pair of the merged
   sub-selections.  Hypotheses: field ids are unique (checked at run time by the extracted
   entry) and the document can be typed (inside the modelled fragment). *)
Theorem C14_spec_adequate : forall s d,
  nodupb (doc_fids d) = true -> spec_verdict s d <> VUntyped ->
  (spec_conflicts s d = true <-> DocConf s d).
Proof.
  intros s d Hn Hu. split.
  - apply spec_sound.
  - intro H. apply spec_complete; auto. apply unique_ids_identify. exact Hn.
Qed.
Print Assumptions C14_spec_adequate.

(* SameResponseShape on return types is symmetric and reflexive *)
Theorem C14_shape_symmetric : forall s a b,
  shape_conflict s a b = shape_conflict s b a /\ shape_conflict s a a = false.
Proof. intros. split; [apply shape_conflict_sym | apply shape_conflict_refl]. Qed.
Print Assumptions C14_shape_symmetric.

(* a selection set of plain fields with pairwise distinct response names never conflicts at
   its own level, whatever the schema, the fragments and the fuels *)
Theorem C14_distinct_names_never_conflict : forall s frags cf df p ss,
  fields_only ss -> NoDup (rnames ss) -> check_set s frags cf df p ss = VNo.
Proof.
  intros s frags cf df p ss Hf Hn. unfold check_set.
  assert (collect frags cf p ss ([], []) = Some ([], [] ++ entries_of p ss)) as ->.
  { destruct cf; cbn [collect]; apply (collect_go_fields _ _ _ _ ([], [])); exact Hf. }
  cbn [snd app]. rewrite pairs_distinct; [reflexivity|].
  rewrite entries_rnames. exact Hn.
Qed.
Print Assumptions C14_distinct_names_never_conflict.

(* The memoisation of compared pairs never replaces a comparison by a weaker one: whenever the
   memoised algorithm (Valid/OverlapOpt.v) skips a fields-vs-fragment or fragment-vs-fragment
   comparison on a memo hit, the same pair was started earlier in the run under a flag that
   subsumes the queried one (recorded non-exclusive, or recorded with the same flag): an entry
   made under "mutually exclusive" never answers a non-exclusive query.  The log is latest
   first. *)
Theorem C14_no_hidden_comparison : forall s d order fuel m,
  opt_run s d order fuel = ROk m \/ opt_run s d order fuel = RConflict m ->
  forall l1 t a b q l2, m_log m = l1 ++ EvSkip t a b q :: l2 ->
    exists a' b' r, In (EvStart t a' b' r) l2 /\ same_key t a b a' b' /\ (r = false \/ r = q).
Proof.
  intros s d order fuel m H. pose proof (opt_run_inv s d order fuel) as Hi.
  destruct H as [H|H]; rewrite H in Hi; exact (proj1 Hi).
Qed.
Print Assumptions C14_no_hidden_comparison.

(* The memoisation never hides a conflict - for all documents, named and cyclic fragments
   included: whenever the specification function finds a conflict, the memoised algorithm (both
   memo tables, field maps per selection set, any visiting order that covers all definitions)
   reports one.  Hypotheses are well-formedness only: field / inline-fragment ids identify
   occurrences, fragment names are unique, argument names are unique per field, enough fuel.
   Proof (Valid/OverlapOptTrace, OverlapOptClosure, OverlapMemoSound): a traced copy of the
   algorithm computes the same verdict; if it completes without a conflict its log is closed
   (every logged comparison was carried out completely, a memo hit being covered by an earlier
   start under a subsuming flag); a closed log covers, under a subsuming flag, every pair of
   every merged set the specification looks at; a covered pair has no derivation of a conflict. *)
Theorem C14_memo_never_hides : forall s d ord fuel,
  covers_all d ord -> nodupb (doc_all_ids d) = true -> NoDup (map fr_name (d_frags d)) ->
  (forall o, In o (d_ops d) -> args_ok (snd o)) ->
  (forall fd, In fd (d_frags d) -> args_ok (fr_body fd)) ->
  (opt_fuel d <= fuel)%nat ->
  spec_conflicts s d = true -> opt_conflicts s d ord fuel = Some true.
Proof. intros s d ord fuel H1 H2 H3 H4 H5. exact (memo_never_hides s d ord H1 H2 H3 H4 H5 fuel). Qed.
Print Assumptions C14_memo_never_hides.

(* Every conflict the memoised algorithm reports is a conflict of the specification - for all
   typable documents, cyclic fragments included (no false rejection).  Every pair of fields the
   algorithm compares (within a set, fields vs fragment, fragment vs fragment, between the
   sub-selections of two merged fields) co-occurs, under the same flag, in a merged set of the
   specification; a conflict of such a pair yields - using that conflicts are symmetric up to a
   conflict of the document, and that fragment collection is complete - a conflict of some
   selection set of the document.  Hypotheses: the document can be typed (composite root and
   fragment types, every field and type condition known), unique argument names, unique field ids. *)
Theorem C14_memo_sound : forall s d ord fuel,
  (forall o, In o (d_ops d) -> is_composite s (fst o) = true /\ typed_sels s (fst o) (snd o)) ->
  (forall fd, In fd (d_frags d) -> is_composite s (fr_type fd) = true /\ typed_sels s (fr_type fd) (fr_body fd)) ->
  (forall o, In o (d_ops d) -> args_ok (snd o)) ->
  (forall fd, In fd (d_frags d) -> args_ok (fr_body fd)) ->
  nodupb (doc_fids d) = true ->
  opt_conflicts s d ord fuel = Some true -> spec_conflicts s d = true.
Proof. intros s d ord fuel H1 H2 H3 H4 H5. exact (memo_sound s d H1 H2 H3 H4 H5 ord fuel). Qed.
Print Assumptions C14_memo_sound.

(* The memoised algorithm accepts exactly what the specification function accepts: for every typable
   well-formed document (unique ids, fragment names and argument names), every visiting order that
   covers all definitions, and the fuel opt_fuel d (which C14_memoised_terminates shows sufficient). *)
Theorem C14_equiv : forall s d ord fuel,
  (forall o, In o (d_ops d) -> is_composite s (fst o) = true /\ typed_sels s (fst o) (snd o)) ->
  (forall fd, In fd (d_frags d) -> is_composite s (fr_type fd) = true /\ typed_sels s (fr_type fd) (fr_body fd)) ->
  (forall o, In o (d_ops d) -> args_ok (snd o)) ->
  (forall fd, In fd (d_frags d) -> args_ok (fr_body fd)) ->
  nodupb (doc_fids d) = true -> nodupb (doc_all_ids d) = true -> NoDup (map fr_name (d_frags d)) ->
  covers_all d ord -> (opt_fuel d <= fuel)%nat ->
  opt_conflicts s d ord fuel = Some (spec_conflicts s d).
Proof.
  intros s d ord fuel H1 H2 H3 H4 H5 H6 H7 Hcov Hfuel.
  destruct (spec_conflicts s d) eqn:Es.
  - apply memo_never_hides; auto.
  - pose proof (opt_terminates s d ord fuel Hfuel) as Ht.
    destruct (opt_conflicts s d ord fuel) as [[|]|] eqn:Eo; auto.
    + rewrite (memo_sound s d H1 H2 H3 H4 H5 ord fuel Eo) in Es. discriminate.
    + unfold opt_conflicts in Eo. destruct (opt_run s d ord fuel); try discriminate. contradiction.
Qed.
Print Assumptions C14_equiv.

(* The hypotheses of the theorems above can be met. *)
Definition ex_schema : schema :=
  [ mkTdef 1 KLeaf []; mkTdef 2 KLeaf [];
    mkTdef 10 KObject [(20, TNamed 11); (21, TNamed 12); (22, TNamed 10)];
    mkTdef 11 KObject [(30, TNamed 1); (31, TNamed 2); (32, TNonNull (TNamed 1)); (22, TNamed 11)];
    mkTdef 12 KObject [(30, TNamed 1); (31, TNamed 2); (22, TNamed 12)] ].
Definition fl (id rn nm : N) : fld := mkFld id rn nm [].

(* hypotheses of C14_distinct_names_never_conflict are satisfiable *)
Example C14_example_distinct :
  let ss := SelField (fl 1 20 20) SelNil (SelField (fl 2 21 21) SelNil SelNil) in
  fields_only ss /\ NoDup (rnames ss).
Proof. cbn. split; auto. repeat constructor; cbn; intuition discriminate. Qed.

(* { a: self { ...F } }  fragment F on T11 { x: f30  self { ...F  x: f31 } }  -- cyclic, conflict found *)
Example C14_example_cyclic_conflict :
  spec_verdict ex_schema
    (mkDoc [(10, SelField (fl 1 22 22) (SelSpread 50 SelNil) SelNil)]
           [mkFrag 50 11 (SelField (fl 2 40 30) SelNil
                          (SelField (fl 3 22 22) (SelSpread 50 (SelField (fl 4 40 31) SelNil SelNil)) SelNil))])
  = VConflict.
Proof. vm_compute. reflexivity. Qed.

(* fragment F on T11 { self { ...F } self { ...F } }  -- the literal algorithm would not terminate *)
Example C14_example_cyclic_mergeable :
  spec_verdict ex_schema
    (mkDoc [(10, SelField (fl 1 20 20) (SelSpread 50 SelNil) SelNil)]
           [mkFrag 50 11 (SelField (fl 2 22 22) (SelSpread 50 SelNil)
                          (SelField (fl 3 22 22) (SelSpread 50 SelNil) SelNil))])
  = VNo.
Proof. vm_compute. reflexivity. Qed.

(* different object parents: differing field names are allowed, differing shapes are not *)
Example C14_example_exclusive :
  let doc (n2 : N) := mkDoc [(10, SelInline 90 (Some 11) (SelField (fl 1 40 30) SelNil SelNil)
                                  (SelInline 91 (Some 12) (SelField (fl 2 40 n2) SelNil SelNil) SelNil))] [] in
  spec_verdict ex_schema (doc 30) = VNo /\ spec_verdict ex_schema (doc 31) = VConflict /\
  spec_verdict ex_schema
    (mkDoc [(10, SelInline 90 (Some 11) (SelField (fl 1 40 30) SelNil (SelField (fl 2 40 31) SelNil SelNil)) SelNil)] [])
  = VConflict.
Proof. vm_compute. repeat split. Qed.

(* the memoised model on the cyclic example: same verdict, and a memo hit in its log *)
Example C14_example_opt :
  let d := mkDoc [(10, SelField (fl 1 22 22) (SelSpread 50 SelNil) SelNil)]
                 [mkFrag 50 11 (SelField (fl 2 40 30) SelNil
                                (SelField (fl 3 22 22) (SelSpread 50 (SelField (fl 4 40 31) SelNil SelNil)) SelNil))] in
  opt_conflicts ex_schema d (default_order d) 100 = Some (spec_conflicts ex_schema d) /\
  let d2 := mkDoc [(10, SelField (fl 1 20 20) (SelSpread 50 SelNil) SelNil)]
                  [mkFrag 50 11 (SelField (fl 2 22 22) (SelSpread 50 SelNil)
                                 (SelField (fl 3 22 22) (SelSpread 50 SelNil) SelNil))] in
  match opt_run ex_schema d2 (default_order d2) 100 with
  | ROk m => existsb (fun e => match e with EvSkip _ _ _ _ => true | _ => false end) (m_log m) = true
  | _ => False
  end.
Proof. vm_compute. split; reflexivity. Qed.

(* the hypotheses of C14_equiv are satisfiable: a cyclic fragment, typable, with a conflict *)
Example C14_example_equiv_hyps :
  let d := mkDoc [(10, SelField (fl 1 22 22) (SelSpread 50 SelNil) SelNil)]
                 [mkFrag 50 11 (SelField (fl 2 40 30) SelNil
                                (SelField (fl 3 22 22) (SelSpread 50 (SelField (fl 4 40 31) SelNil SelNil)) SelNil))] in
  (forall o, In o (d_ops d) -> is_composite ex_schema (fst o) = true /\ typed_sels ex_schema (fst o) (snd o)) /\
  (forall fd, In fd (d_frags d) ->
     is_composite ex_schema (fr_type fd) = true /\ typed_sels ex_schema (fr_type fd) (fr_body fd)) /\
  nodupb (doc_fids d) = true /\ spec_conflicts ex_schema d = true.
Proof.
  cbn zeta. split.
  { intros o [<-|[]]. cbn [fst snd typed_sels]. split; [reflexivity|]. split; [|exact I].
    exists (TNamed 10). split; [reflexivity | exact I]. }
  split.
  { intros fd [<-|[]]. cbn [fr_type fr_body typed_sels]. split; [reflexivity|]. split.
    - exists (TNamed 1). split; [reflexivity | exact I].
    - split; [|exact I]. exists (TNamed 11). split; [reflexivity|]. cbn [named typed_sels].
      split; [|exact I]. exists (TNamed 2). split; [reflexivity | exact I]. }
  split; vm_compute; reflexivity.
Qed.

(* the hypotheses of C14_memo_never_hides hold on the cyclic example (and so does its conclusion) *)
Example C14_example_memo_hyps :
  let d := mkDoc [(10, SelField (fl 1 22 22) (SelSpread 50 SelNil) SelNil)]
                 [mkFrag 50 11 (SelField (fl 2 40 30) SelNil
                                (SelField (fl 3 22 22) (SelSpread 50 (SelField (fl 4 40 31) SelNil SelNil)) SelNil))] in
  covers_all d (default_order d) /\ nodupb (doc_all_ids d) = true /\ NoDup (map fr_name (d_frags d)) /\
  (forall o, In o (d_ops d) -> args_ok (snd o)) /\ (forall fd, In fd (d_frags d) -> args_ok (fr_body fd)) /\
  spec_conflicts ex_schema d = true /\ opt_conflicts ex_schema d (default_order d) (opt_fuel d) = Some true.
Proof.
  cbn zeta. split.
  - split; intros i Hi; cbn in *; assert (i = 0%nat) by lia; subst; auto.
  - split; [reflexivity|]. split; [repeat constructor; intros []|].
    split; [intros o [<-|[]]; cbn; repeat split; constructor|].
    split; [intros fd [<-|[]]; cbn; repeat split; constructor|].
    split; vm_compute; reflexivity.
Qed.

(* PairSet: an exclusive entry does not answer the non-exclusive query; after re-recording
   non-exclusively it answers both *)
Example C14_example_pairset :
  let s1 := ps_record [] [98] [97] true in
  let s2 := ps_record s1 [97] [98] false in
  ps_has s1 [97] [98] true = true /\ ps_has s1 [97] [98] false = false /\
  ps_has s2 [98] [97] true = true /\ ps_has s2 [98] [97] false = true.
Proof. vm_compute. repeat split. Qed.
