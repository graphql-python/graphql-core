(* C13 - a document that passes validation cannot go wrong at execution time.
   The lemmas are those of Exec/Soundness.v (the shape checker included) and, for the shape of a
   response, Exec/SpecProps.v.

   [well_typed s d] is the model's typing judgment for the validation rules execution depends on
   (Exec/Typing.v); harness/c13.py checks on every run that validate(schema, doc) == [] implies it.
   [well_typed_at s d cv] is the same judgment evaluated with the knowledge which variables of
   nullable type are null at run time: it differs from [well_typed] exactly when such a variable
   sits in a non-null position (legal because a default exists) - the one case the specification
   defers to run time.  [conforms_root] says the data graph matches the schema's types.
   Statements hold for every fuel and speak about runs that return a response. *)
From GV Require Import Base.Prelude Exec.Value Exec.Schema Exec.Spec Exec.SpecProps Exec.Typing
  Exec.Soundness.

(* TOTAL for the modelled fragment (objects, interfaces, unions, enums, scalars, lists, non-null,
   arguments, variables with defaults, fragments, inline fragments, @skip/@include, aliases):
   no errors, and data is not null (its shape: C13_shape below). *)
Theorem C13_sound : forall fuel s d vars root cv rt j es cs,
  schema_ok s = true ->
  coerce_variable_values s (d_vars d) vars = Some cv ->
  well_typed_at s d cv = true ->
  root_type s (d_kind d) = Some rt ->
  conforms_root s rt root = true ->
  execute_fuel fuel s d vars root = Resp j es cs ->
  es = [] /\ j <> JNull.
Proof. exact soundness. Qed.
Print Assumptions C13_sound.

Theorem C13_sound_static : forall fuel s d vars root cv rt j es cs,
  schema_ok s = true ->
  well_typed s d = true ->
  coerce_variable_values s (d_vars d) vars = Some cv ->
  nulls_of (d_vars d) cv = [] ->
  root_type s (d_kind d) = Some rt ->
  conforms_root s rt root = true ->
  execute_fuel fuel s d vars root = Resp j es cs ->
  es = [] /\ j <> JNull.
Proof.
  intros fuel s d vars root cv rt j es cs Hs Hwt Hcv Hn Hrt Hc He.
  (* the arguments are given: unifying [well_typed] with [well_typed_at _ _ ?cv] unfolds the checker *)
  apply (soundness fuel s d vars root cv rt j es cs Hs Hcv); [|assumption..].
  unfold well_typed_at. rewrite Hn. exact Hwt.
Qed.
Print Assumptions C13_sound_static.

(* ... and the response has exactly the shape the selection set and the types prescribe (this part
   needs no hypothesis on the document or the data: C02) *)
Theorem C13_shape : forall fuel s d vars root j es cs,
  execute_fuel fuel s d vars root = Resp j es cs -> j <> JNull ->
  exists cv tn kvs,
    coerce_variable_values s (d_vars d) vars = Some cv /\ root_type s (d_kind d) = Some tn /\
    j = JObj kvs /\ shaped_obj s (d_frags d) cv tn (d_sels d) kvs.
Proof.
  intros fuel s d vars root j es cs H Hn.
  destruct (response_invariants _ _ _ _ _ _ _ _ H) as [cv [tn [H1 [H2 [[->|[kvs [-> H3]]] _]]]]];
    [congruence | exists cv, tn, kvs; repeat split; assumption].
Qed.
Print Assumptions C13_shape.

(* With ARBITRARY data: every field execution can reach has a defined field and arguments that
   coerce - an error is never attributable to an argument, a variable or an unknown field of a
   well-typed operation.  (The remaining sources of field errors in Spec.complete are properties
   of the data: raising resolver, null in a non-null position, non-list, unserialisable leaf,
   unresolvable runtime type; harness/c13.py classifies every error of /repo accordingly.) *)
Theorem C13_arguments_coerce : forall s frags vdefs cv rt top k f,
  schema_ok s = true -> cv_ok vdefs cv ->
  set_typed s frags vdefs (nulls_of vdefs cv) rt top ->
  reach s frags rt top k f ->
  str_eqb (fs_name f) n_typename = false ->
  exists fd args, lookup_field s rt (fs_name f) = Some fd /\
                  coerce_args s cv (f_args fd) (fs_args f) = Some args.
Proof. exact arguments_coerce. Qed.
Print Assumptions C13_arguments_coerce.

(* ... hence, with ARBITRARY data, no error of a well-typed operation has the cause "argument
   coercion failed": every error carries one of the data causes of Spec.cause. *)
Theorem C13_errors_attributable : forall fuel s d vars root cv j es cs,
  schema_ok s = true ->
  coerce_variable_values s (d_vars d) vars = Some cv ->
  well_typed_at s d cv = true ->
  execute_fuel fuel s d vars root = Resp j es cs ->
  Forall (fun e : err => snd e <> CauseArgs) es.
Proof.
  intros fuel s d vars root cv j es cs Hs Hcv Hwt Hex.
  destruct (typed_run _ _ _ _ _ _ _ _ _ Hcv Hwt Hex) as (rt & r & _ & _ & Hty & Hok & He & _).
  exact (proj1 (exec_attrib s (d_frags d) (d_vars d) cv Hs Hok fuel) _ _ _ _ He Hty).
Qed.
Print Assumptions C13_errors_attributable.

(* the boolean checker run by the harness decides (soundly) the declarative judgment *)
Theorem C13_checker_sound : forall s frags vdefs nulls fuel rt sels,
  check_set s frags vdefs nulls fuel rt sels = true -> set_typed s frags vdefs nulls rt sels.
Proof. exact check_set_sound. Qed.
Print Assumptions C13_checker_sound.

(* the extracted shape predicate the harness evaluates on /repo's responses implies [shaped] *)
Theorem C13_shape_checker_sound : forall s frags cv fuel t sels j,
  shape_ok s frags cv fuel t sels j = true -> shaped s frags cv t sels j.
Proof. intros s frags cv fuel. exact (proj1 (shape_ok_sound s frags cv fuel)). Qed.
Print Assumptions C13_shape_checker_sound.

(* every variable of non-null type, or with a non-null default, has a value; of non-null type, not null *)
Theorem C13_variables : forall s vdefs given cv,
  nodup_names (map v_name vdefs) = true ->
  coerce_variable_values s vdefs given = Some cv -> cv_ok vdefs cv.
Proof. exact coerce_vars_ok. Qed.
Print Assumptions C13_variables.

(* witnesses:  type Q { f(x: Int! = 7): Int }   query ($v: Int = 1) { f(x: $v) } *)
Definition ex_q : str := [81].
Definition ex_f : str := [102].
Definition ex_x : str := [120].
Definition ex_v : str := [118].
Definition ex_schema : schema :=
  mkSchema [(ex_q, TObject [mkField ex_f (TNamed n_Int)
                              [mkArg ex_x (TNonNull (TNamed n_Int)) (Some (VInt 7))]] [])] ex_q None.
Definition ex_doc : document :=
  mkDoc OpQuery [mkVar ex_v (TNamed n_Int) (Some (VInt 1))]
        [SField None ex_f [(ex_x, VVar ex_v)] [] []] [].
Definition ex_root : data := DObj [] [(ex_f, DLeaf (LInt 5))].

(* the hypotheses of C13_sound are satisfiable, and the conclusion is what execution gives *)
Example C13_example :
  schema_ok ex_schema = true /\
  coerce_variable_values ex_schema (d_vars ex_doc) [] = Some [(ex_v, VInt 1)] /\
  well_typed_at ex_schema ex_doc [(ex_v, VInt 1)] = true /\
  conforms_root ex_schema ex_q ex_root = true /\
  execute ex_schema ex_doc [] ex_root
  = Resp (JObj [(ex_f, JInt 5)]) [] [([PKey ex_f], ex_f, [(ex_x, VInt 1)])].
Proof. vm_compute. repeat split. Qed.

(* the exception is exact: the same operation with $v explicitly null is accepted by the static
   judgment, rejected by the judgment at run time, and does produce the deferred error *)
Example C13_exception_is_exact :
  well_typed ex_schema ex_doc = true /\
  coerce_variable_values ex_schema (d_vars ex_doc) [(ex_v, VNull)] = Some [(ex_v, VNull)] /\
  well_typed_at ex_schema ex_doc [(ex_v, VNull)] = false /\
  conforms_root ex_schema ex_q ex_root = true /\
  execute ex_schema ex_doc [(ex_v, VNull)] ex_root = Resp (JObj [(ex_f, JNull)]) [([PKey ex_f], CauseArgs)] [].
Proof. vm_compute. repeat split. Qed.
