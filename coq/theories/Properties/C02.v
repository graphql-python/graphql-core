(* C02 - execution computes exactly what the specification's algorithm computes.
   The lemmas are those of Exec/SpecProps.v; the short compositions are proved here.  The model Exec/Spec.v IS the specification's
   algorithm (hand-written from spec section 6); the correspondence run of harness/c02.py ties it
   to /repo.  The theorems below establish, for ALL schemas, documents, variables and data graphs
   of the model, the invariants the property names.  Fuel is explicit: the statements hold for
   every fuel and only speak about runs that produce a response (`Resp`); `execute` is
   `execute_fuel` at `default_fuel`, so every statement covers it. *)
From GV Require Import Base.Prelude Exec.Value Exec.Schema Exec.Spec Exec.SpecProps.

(* Every response: data is null or an object of the shape the root type and the operation's
   selection set prescribe ([shaped_obj]: keys, nesting, nullability, leaf kinds - see Spec.v);
   every error path leads to a null in data (at the path or at one of its prefixes: the nearest
   nullable ancestor); a null data has an error; every logged resolver call carries exactly the
   result of CoerceArgumentValues for some field of the schema. *)
Theorem C02_response_invariants : forall fuel s d vars root j es cs,
  execute_fuel fuel s d vars root = Resp j es cs ->
  exists cv tn,
    coerce_variable_values s (d_vars d) vars = Some cv /\ root_type s (d_kind d) = Some tn /\
    (j = JNull \/ exists kvs, j = JObj kvs /\ shaped_obj s (d_frags d) cv tn (d_sels d) kvs) /\
    Forall (fun e : err => hits_null (fst e) j = true) es /\
    (j = JNull -> es <> []) /\
    Forall (call_ok s cv) cs.
Proof. exact response_invariants. Qed.
Print Assumptions C02_response_invariants.

(* non-null propagation is correct: a null sits only at a nullable position *)
Theorem C02_null_only_where_nullable : forall s frags cv t sels,
  shaped s frags cv t sels JNull -> is_nonnull t = false.
Proof.
  intros s frags cv t sels H. inversion H; subst; try reflexivity; try assumption; congruence.
Qed.
Print Assumptions C02_null_only_where_nullable.

(* keys of every response object = response keys of the collected field set (those whose field
   the runtime type defines), in the order of the collected field set ... *)
Theorem C02_object_keys : forall s frags cv rt g kvs,
  shaped_fields s frags cv rt g kvs -> keys kvs = keys (filter (field_known s rt) g).
Proof.
  intros s frags cv rt g kvs.
  induction 1; cbn [filter field_known snd keys map fst].
  - reflexivity.
  - exact IHshaped_fields.
  - rewrite H, H0. cbn. exact IHshaped_fields.
  - rewrite H. cbn. f_equal. exact IHshaped_fields.
  - rewrite H, H0. cbn. f_equal. exact IHshaped_fields.
Qed.
Print Assumptions C02_object_keys.

(* ... which is the order of first appearance among the fields CollectFields visits *)
Theorem C02_keys_first_appearance : forall s frags cv tn fuel sels v g,
  collect s frags cv tn fuel sels ([], []) = Some (v, g) ->
  exists fl, collect_flat s frags cv tn fuel sels ([], []) = Some (v, fl) /\
             g = group fl /\ keys g = first_occ (map fst fl) /\ NoDup (keys g).
Proof.
  intros s frags cv tn fuel sels v g H. destruct (collect_is_group_of_flat _ _ _ _ _ _ _ _ H) as (fl & Hfl & ->).
  exists fl. repeat split; [exact Hfl | apply group_keys | apply group_nodup].
Qed.
Print Assumptions C02_keys_first_appearance.

(* data is null iff a field error propagated through the root selection set *)
Theorem C02_data_null_iff_propagated : forall fuel s d vars root j es cs,
  execute_fuel fuel s d vars root = Resp j es cs ->
  (j = JNull <-> root_propagated fuel s d vars root).
Proof.
  intros fuel s d vars root j es cs H. apply execute_fuel_resp in H. destruct H as [cv [tn [r [Hcv [Hrt [Ho [He ->]]]]]]].
  split.
  - intro Hn. destruct r as [j|].
    + destruct (exec_invariants s (d_frags d) cv fuel) as [Hs _].
      specialize (Hs _ _ _ _ He). cbn in Hs. destruct Hs as [_ [[kvs [-> _]] _]]. discriminate.
    + exists cv, tn, es, cs. repeat split; assumption.
  - intros [cv' [tn' [es' [cs' [Hcv' [Hrt' He']]]]]].
    rewrite Hcv in Hcv'. inversion Hcv'; subst. rewrite Hrt in Hrt'. inversion Hrt'; subst.
    rewrite He in He'. inversion He'; subst. reflexivity.
Qed.
Print Assumptions C02_data_null_iff_propagated.

(* "a null exactly where the specification nulls": value completion yields null only for a null
   value; a null field is either a null value with nothing wrong below, or has an error recorded at
   or below it (field errors, non-null propagation to this nearest nullable ancestor) *)
Theorem C02_null_accounted : forall s frags cv fuel rt obj f1 fs es cs,
  exec_field s frags cv fuel rt obj (f1 :: fs) = Some (FRes (CVal JNull, es, cs)) ->
  (match lookup (fs_name f1) obj with Some d => d | None => DNull end = DNull /\ es = []) \/ es <> [].
Proof.
  intros s frags cv fuel rt obj f1 fs es cs.
  destruct fuel as [|f]; [discriminate|]. rewrite exec_field_S.
  destruct (str_eqb (fs_name f1) n_typename); [discriminate|].
  destruct (lookup_field s rt (fs_name f1)) as [fd|]; [|discriminate].
  destruct (coerce_args s cv (f_args fd) (fs_args f1)) as [args|].
  - destruct (complete s frags cv f (f_type fd) (merged_sels (f1 :: fs)) _) as [[[r es0] cs0]|] eqn:Ec;
      [|discriminate].
    destruct r as [j|]; cbn [catch].
    + intro H. inversion H; subst. apply complete_null in Ec. left. exact Ec.
    + destruct (exec_invariants s frags cv f) as [_ [_ Hc]].
      specialize (Hc _ _ _ _ Ec). cbn in Hc. destruct Hc as [_ Hne].
      destruct (is_nonnull (f_type fd)); [discriminate|]. intro H. inversion H; subst. right. exact Hne.
  - cbn. destruct (is_nonnull (f_type fd)); [discriminate|]. intro H. inversion H; subst. right. discriminate.
Qed.
Print Assumptions C02_null_accounted.

Theorem C02_completion_null_is_data_null : forall s frags cv fuel t sels d es cs,
  complete s frags cv fuel t sels d = Some (CVal JNull, es, cs) -> d = DNull /\ es = [].
Proof. exact complete_null. Qed.
Print Assumptions C02_completion_null_is_data_null.

(* fuel is only fuel: two runs that are not out of fuel give the same response, so `execute`
   (= execute_fuel at default_fuel) is THE response whenever it is not OutOfFuelR *)
Theorem C02_fuel_independent : forall f1 f2 s d vars root,
  execute_fuel f1 s d vars root <> OutOfFuelR -> execute_fuel f2 s d vars root <> OutOfFuelR ->
  execute_fuel f1 s d vars root = execute_fuel f2 s d vars root.
Proof.
  intros f1 f2 s d vars root H1 H2.
  rewrite <- (execute_fuel_mono f1 (Nat.max f1 f2) s d vars root (Nat.le_max_l _ _) H1).
  rewrite <- (execute_fuel_mono f2 (Nat.max f1 f2) s d vars root (Nat.le_max_r _ _) H2).
  reflexivity.
Qed.
Print Assumptions C02_fuel_independent.

(* Determinism and history independence.  The specification's algorithm is a function of
   (schema, document, variables, data): there is no state a previous request could leave behind.
   Stated for the record; what it rules out in /repo (memoised defaults, cached sub-selections
   changing an answer) is checked by the harness, which executes every request three times. *)
Theorem C02_history_independent : forall s (earlier : list (document * list (str * value) * data)) d vars root,
  last (map (fun q => execute s (fst (fst q)) (snd (fst q)) (snd q)) (earlier ++ [(d, vars, root)]))
       RequestError
  = execute s d vars root.
Proof. intros. rewrite map_app. cbn. apply last_last. Qed.
Print Assumptions C02_history_independent.

(* non-vacuity: { a { x y } } where T.x : Int! is absent in the data: the error at a.x nulls the
   nearest nullable ancestor a; y is not executed any more *)
Example C02_example :
  let q := [81] in let t := [84] in let a := [97] in let x := [120] in let y := [121] in
  let s := mkSchema [(q, TObject [mkField a (TNamed t) []] []);
                     (t, TObject [mkField x (TNonNull (TNamed n_Int)) [];
                                  mkField y (TNamed n_String) []] [])] q None in
  let d := mkDoc OpQuery [] [SField None a [] [] [SField None x [] [] []; SField None y [] [] []]] [] in
  let root := DObj [] [(a, DObj [] [(y, DLeaf (LStr [104]))])] in
  execute s d [] root
  = Resp (JObj [(a, JNull)]) [([PKey a; PKey x], CauseNull)] [([PKey a], a, []); ([PKey a; PKey x], x, [])].
Proof. vm_compute. reflexivity. Qed.
