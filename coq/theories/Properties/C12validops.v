(* C12 (rules, continued) - 29 DeferStreamDirectiveOnValidOperationsRule as a function of the
   parser's AST (Valid/RulesValidOps.v): the depth-first walk of the whole selection tree of a
   subscription, through fields and inline fragments (structural) and fragment spreads (one visited
   set per operation, the spreads on the way recorded; fuel).  The longer proofs in
   Valid/RulesValidOpsProps.v.  Correspondence with the implementation, alone and together with the
   other directive rules: harness/crulesdir.py (model `rules`, op 5, rule code 29).
   Vocabulary as in Properties/C12root.v (unc, ext, rf_fuel). *)
From GV Require Import Base.Prelude Lang.Ast
  Valid.Rules Valid.RulesBase Valid.RulesDir Valid.RulesRoot Valid.RulesRootProps Valid.RulesValidOps Valid.RulesValidOpsProps.

(* the walk terminates within rf_fuel = 1 + number of fragment definitions, whatever the document *)
Theorem C12_validops_fuel_sufficient : forall fr parents p ss,
  exists st, vf (rf_fuel fr) fr parents p ss ([], []) = Some st.
Proof.
  intros fr parents p ss.
  destruct (vf_good fr (rf_fuel fr) parents p ss ([], [])) as (st & E & _).
  - cbn [fst]. rewrite unc_nil. unfold rf_fuel. lia.
  - eauto.
Qed.
Print Assumptions C12_validops_fuel_sufficient.

Theorem C12_validops_rule_total : forall d, exists es, rule_valid_operations d = Some es.
Proof.
  intro d.
  unfold rule_valid_operations. apply opt_concat_total. intros o Hin.
  apply In_mapi in Hin as (j & n & _ & ->).
  destruct n as [k attrs]. destruct k; eauto.
  destruct attrs as [|[| ss | | | |] r]; eauto.
  destruct (op_code _) as [o|]; eauto.
  destruct o as [|q]; eauto. destruct q as [q|q|]; eauto. destruct q; eauto.
  destruct (C12_validops_fuel_sufficient (rf_frags d) [] [(O, j); (O, O)]%nat ss) as (st & ->). cbn. eauto.
Qed.
Print Assumptions C12_validops_rule_total.

Theorem C12_validops_walk_monotone : forall fr fuel parents p ss st st',
  (unc fr (fst st) < fuel)%nat -> vf fuel fr parents p ss st = Some st' ->
  ext st st' /\ (unc fr (fst st') <= unc fr (fst st))%nat.
Proof.
  intros fr fuel parents p ss st st' Hm E. destruct (vf_good fr fuel parents p ss st Hm) as (st1 & E1 & H1 & X1).
  rewrite E in E1. inversion E1; subst. auto.
Qed.
Print Assumptions C12_validops_walk_monotone.

(* a defer / stream directive is exempt exactly when its first `if` argument is the literal false or a
   variable *)
Theorem C12_validops_if_can_be_false : forall dn,
  if_can_be_false dn = true <->
  (exists r, first_if (dir_args dn) = Some (Some (Nd KBooleanValue (ABool false :: r)))) \/
  (exists a, first_if (dir_args dn) = Some (Some (Nd KVariable a))).
Proof.
  intro dn.
  unfold if_can_be_false. split.
  - destruct (first_if (dir_args dn)) as [[[k a]|]|]; try discriminate.
    destruct k; try discriminate.
    + destruct a as [|[| | | |b|] r]; try discriminate. destruct b; [discriminate|]. intros _. left. eauto.
    + intros _. right. eauto.
  - intros [[r ->]|[a ->]]; reflexivity.
Qed.
Print Assumptions C12_validops_if_can_be_false.
