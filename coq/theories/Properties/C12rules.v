(* C12 (rules) - the twelve validation rules that never consult the schema, as concrete functions
   of the parser AST (Lang/Ast.v), against declarative specifications.
   Model Valid/Rules.v, specifications Valid/RulesSpec.v; the longer proofs in Valid/RulesProps.v,
   RulesNames, RulesGraph, RulesCycles, RulesErase, RulesPaths, RulesExact, RulesSpreads, RulesWf.

   d ranges over ALL trees (no well-formedness hypothesis).  The data of a document:
     xdefs d (definitions in order), ops_of / frags_of (operations / fragment definitions with name,
     variable definitions, fragment spreads, variable usages), all_spreads d, arg_lists d,
     object_fields d.  An error is (rule number, paths of the AST nodes it points at).
   Each rule: (a) exactly what is reported and when nothing is; (b) fuel sufficiency where the
   code loops through fragments; (c) independence of descriptions, and of layout for parsed text.
   (d) Each rule is a function of the document alone (no shared state): "rule alone = rule among
   the others" for these rules is exactly the correspondence harness/crules.py establishes between
   this function and the rule run alone and inside validate() with all specified rules. *)
From Coq Require Import Relations.
From GV Require Import Base.Prelude Base.ListFacts Lang.Lexer Lang.Ast Lang.Parser Lang.ParserProps Lang.Wf Lang.WfProps
  Valid.RulesWf
  Valid.Rules Valid.RulesBase Valid.RulesSpec Valid.RulesNames Valid.RulesGraph Valid.RulesCycles Valid.RulesErase
  Valid.RulesProps Valid.RulesSpreads Valid.RulesPaths Valid.RulesExact.

(* 1 ExecutableDefinitions: one error per definition that is neither operation nor fragment *)
Theorem C12_rule_executable_definitions : forall d e,
  In e (rule_executable_definitions d) <-> exists p, NonExecutable d p /\ e = VE R_EXEC [p].
Proof.
  intros d e. unfold rule_executable_definitions, NonExecutable. rewrite in_flat_map. split.
  - intros (x & Hx & He). destruct x; cbn in He; try tauto. destruct He as [<-|[]]. eauto.
  - intros (p & Hp & ->). exists (XOther p). cbn. auto.
Qed.
Print Assumptions C12_rule_executable_definitions.

Theorem C12_rule_executable_definitions_silent : forall d,
  rule_executable_definitions d = [] <-> forall p, ~ NonExecutable d p.
Proof.
  intro d. rewrite nil_iff_no_In. split.
  - intros H p Hp. apply (H (VE R_EXEC [p])). apply C12_rule_executable_definitions. eauto.
  - intros H e He. apply C12_rule_executable_definitions in He as (p & Hp & _). exact (H p Hp).
Qed.
Print Assumptions C12_rule_executable_definitions_silent.

(* 2 UniqueOperationNames: one error per named operation whose name was defined before,
   pointing at the FIRST definition's name and at its own *)
Theorem C12_rule_unique_operation_names : forall d e,
  In e (rule_unique_operation_names d) <->
  exists p0 p, Dup (named_ops (xdefs d)) p0 p /\ e = VE R_UOPN [p0; p].
Proof. intros d e. apply dup_rule_In. Qed.
Print Assumptions C12_rule_unique_operation_names.

Theorem C12_rule_unique_operation_names_silent : forall d,
  rule_unique_operation_names d = [] <-> UniqueNames (named_ops (xdefs d)).
Proof. intro d. apply dup_rule_nil. Qed.
Print Assumptions C12_rule_unique_operation_names_silent.

(* 3 LoneAnonymousOperation *)
Theorem C12_rule_lone_anonymous_operation : forall d e,
  In e (rule_lone_anonymous_operation d) <->
  exists o, In o (ops_of (xdefs d)) /\ o_name o = None /\ (1 < length (ops_of (xdefs d)))%nat /\
            e = VE R_LONE [o_path o].
Proof.
  intros d e. unfold rule_lone_anonymous_operation. rewrite in_flat_map. split.
  - intros (o & Ho & He). destruct (o_name o) eqn:En; [destruct He|].
    destruct (1 <? length (ops_of (xdefs d)))%nat eqn:El; [|destruct He]. destruct He as [<-|[]].
    apply Nat.ltb_lt in El. exists o. auto.
  - intros (o & Ho & En & El & ->). exists o. split; [exact Ho|]. rewrite En.
    apply Nat.ltb_lt in El. rewrite El. cbn. auto.
Qed.
Print Assumptions C12_rule_lone_anonymous_operation.

Theorem C12_rule_lone_anonymous_operation_silent : forall d,
  rule_lone_anonymous_operation d = [] <-> LoneAnonymous (ops_of (xdefs d)).
Proof.
  intro d. rewrite nil_iff_no_In. unfold LoneAnonymous. set (os := ops_of (xdefs d)). split.
  - intros H o Ho En. destruct (Nat.lt_ge_cases 1 (length os)) as [Hl|Hl].
    + destruct (H (VE R_LONE [o_path o])). apply C12_rule_lone_anonymous_operation. eauto.
    + destruct os; [destruct Ho | cbn in *; lia].
  - intros H e He. apply C12_rule_lone_anonymous_operation in He as (o & Ho & En & Hl & _).
    fold os in Hl. rewrite (H o Ho En) in Hl. lia.
Qed.
Print Assumptions C12_rule_lone_anonymous_operation_silent.

(* 4 KnownFragmentNames: one error per fragment spread (anywhere in the document) whose name
   no fragment definition carries, pointing at the spread's name *)
Theorem C12_rule_known_fragment_names : forall d e,
  In e (rule_known_fragment_names d) <->
  exists s, UnknownSpread d s /\ e = VE R_KFRAG [sp_path s ++ name_step].
Proof.
  intros d e. unfold rule_known_fragment_names, UnknownSpread. rewrite in_flat_map. split.
  - intros (s & Hs & He). destruct (get_fragment (frags_of (xdefs d)) (sp_name s)) eqn:Eg; [destruct He|].
    destruct He as [<-|[]]. apply get_fragment_None in Eg. eauto.
  - intros (s & [Hs Hn] & ->). exists s. split; [exact Hs|].
    apply get_fragment_None in Hn. rewrite Hn. cbn. auto.
Qed.
Print Assumptions C12_rule_known_fragment_names.

Theorem C12_rule_known_fragment_names_silent : forall d,
  rule_known_fragment_names d = [] <->
  forall s, In s (all_spreads d) -> Defined (frags_of (xdefs d)) (sp_name s).
Proof.
  intro d. rewrite nil_iff_no_In. split.
  - intros H s Hs. destruct (get_fragment (frags_of (xdefs d)) (sp_name s)) as [f|] eqn:Eg.
    + apply get_fragment_Some in Eg as [H1 H2]. exists f. auto.
    + destruct (H (VE R_KFRAG [sp_path s ++ name_step])). apply C12_rule_known_fragment_names.
      exists s. split; [|reflexivity]. split; [exact Hs | apply get_fragment_None; exact Eg].
  - intros H e He. apply C12_rule_known_fragment_names in He as (s & [Hs Hn] & _). exact (Hn (H s Hs)).
Qed.
Print Assumptions C12_rule_known_fragment_names_silent.

(* 5 UniqueFragmentNames *)
Theorem C12_rule_unique_fragment_names : forall d e,
  In e (rule_unique_fragment_names d) <->
  exists p0 p, Dup (named_frags (xdefs d)) p0 p /\ e = VE R_UFRAG [p0; p].
Proof. intros d e. apply dup_rule_In. Qed.
Print Assumptions C12_rule_unique_fragment_names.

Theorem C12_rule_unique_fragment_names_silent : forall d,
  rule_unique_fragment_names d = [] <-> NoDup (map f_name (frags_of (xdefs d))).
Proof. exact unique_fragment_names_NoDup. Qed.
Print Assumptions C12_rule_unique_fragment_names_silent.

(* the fragment table: the work list of get_recursively_referenced_fragments never runs out
   of fuel (cyclic spreads included) and returns exactly the fragments reachable through fragment
   spreads, each once *)
Theorem C12_rule_referenced_fragments_fuel : forall fs start, exists r, refs fs start = Some r.
Proof. exact refs_total. Qed.
Print Assumptions C12_rule_referenced_fragments_fuel.

Theorem C12_rule_referenced_fragments : forall fs start r, refs fs start = Some r ->
  (forall f, In f r <-> Reach fs start f) /\ NoDup (map f_name r).
Proof. exact refs_spec. Qed.
Print Assumptions C12_rule_referenced_fragments.

(* a name resolves to THE definition of that name when fragment names are unique (rule 5 silent) *)
Theorem C12_rule_resolves_unique : forall fs s f, NoDup (map f_name fs) ->
  (Resolves fs s f <-> In f fs /\ f_name f = s).
Proof. exact resolves_unique. Qed.
Print Assumptions C12_rule_resolves_unique.

(* 6 NoUnusedFragments *)
Theorem C12_rule_no_unused_fragments_fuel : forall d, exists es, rule_no_unused_fragments d = Some es.
Proof.
  intro d. unfold rule_no_unused_fragments.
  destruct (used_names_total d (ops_of (xdefs d))) as [u ->]. eauto.
Qed.
Print Assumptions C12_rule_no_unused_fragments_fuel.

Theorem C12_rule_no_unused_fragments : forall d es e, rule_no_unused_fragments d = Some es ->
  (In e es <-> exists f, In f (frags_of (xdefs d)) /\
                         ~ Used (frags_of (xdefs d)) (ops_of (xdefs d)) (f_name f) /\
                         e = VE R_UNUSEDF [f_path f]).
Proof. exact no_unused_fragments_In. Qed.
Print Assumptions C12_rule_no_unused_fragments.

Theorem C12_rule_no_unused_fragments_silent : forall d es, rule_no_unused_fragments d = Some es ->
  (es = [] <-> forall f, In f (frags_of (xdefs d)) ->
                         Used (frags_of (xdefs d)) (ops_of (xdefs d)) (f_name f)).
Proof. exact no_unused_fragments_nil. Qed.
Print Assumptions C12_rule_no_unused_fragments_silent.

(* 7 NoFragmentCycles: the depth-first search with visited_frags terminates within fuel
   S (number of fragment definitions) on every document; every error is a closed chain of
   fragment spreads; with unique fragment names it is silent iff no fragment is cyclic *)
Theorem C12_rule_no_fragment_cycles_fuel : forall d, exists es, rule_no_fragment_cycles d = Some es.
Proof.
  intro d. unfold rule_no_fragment_cycles.
  destruct (detect_all_total _ _ ([], []) (incl_refl (frags_of (xdefs d)))) as [st ->]. eauto.
Qed.
Print Assumptions C12_rule_no_fragment_cycles_fuel.

Theorem C12_rule_no_fragment_cycles_sound : forall d es e,
  rule_no_fragment_cycles d = Some es -> In e es ->
  exists c, IsCycle (frags_of (xdefs d)) c /\ e = VE R_CYCLES (map sp_path c).
Proof. exact no_fragment_cycles_sound. Qed.
Print Assumptions C12_rule_no_fragment_cycles_sound.

Theorem C12_rule_cycle_is_cyclic : forall fs c, IsCycle fs c -> exists a, Cyclic fs a.
Proof. exact IsCycle_cyclic. Qed.
Print Assumptions C12_rule_cycle_is_cyclic.

Theorem C12_rule_no_fragment_cycles_silent : forall d es,
  NoDup (map f_name (frags_of (xdefs d))) -> rule_no_fragment_cycles d = Some es ->
  (es = [] <-> forall a, ~ Cyclic (frags_of (xdefs d)) a).
Proof. exact no_fragment_cycles_nil. Qed.
Print Assumptions C12_rule_no_fragment_cycles_silent.

(* 8 UniqueVariableNames: per operation one error per variable name defined more than once,
   pointing at all its definitions *)
Theorem C12_rule_unique_variable_names : forall d e,
  In e (rule_unique_variable_names d) <->
  exists o s, In o (ops_of (xdefs d)) /\ In s (map fst (var_names o)) /\
              e = VE R_UVAR (occ s (var_names o)) /\ (2 <= length (occ s (var_names o)))%nat.
Proof. intros d e. apply (dup_groups_rule_In R_UVAR var_names). Qed.
Print Assumptions C12_rule_unique_variable_names.

Theorem C12_rule_unique_variable_names_silent : forall d,
  rule_unique_variable_names d = [] <-> forall o, In o (ops_of (xdefs d)) -> UniqueNames (var_names o).
Proof. exact unique_variable_names_nil. Qed.
Print Assumptions C12_rule_unique_variable_names_silent.

(* group_by reporting: the exact list - names in order of first occurrence *)
Theorem C12_rule_duplicate_groups : forall r l,
  dup_groups r l =
  flat_map (fun s => match occ s l with _ :: _ :: _ => [VE r (occ s l)] | _ => [] end)
           (distinct (map fst l)).
Proof. exact dup_groups_spec. Qed.
Print Assumptions C12_rule_duplicate_groups.

(* 9 NoUndefinedVariables *)
Theorem C12_rule_recursive_usages : forall fs o us, op_usages fs o = Some us ->
  forall u, In u us <-> InScope fs o u.
Proof. exact op_usages_spec. Qed.
Print Assumptions C12_rule_recursive_usages.

Theorem C12_rule_no_undefined_variables_fuel : forall d, exists es, rule_no_undefined_variables d = Some es.
Proof.
  intro d. unfold rule_no_undefined_variables. apply opt_concat_total. intros o Ho.
  apply in_map_iff in Ho as (op & <- & _). unfold undefined_in.
  destruct (op_usages_total (frags_of (xdefs d)) op) as [us ->]. eauto.
Qed.
Print Assumptions C12_rule_no_undefined_variables_fuel.

Theorem C12_rule_no_undefined_variables : forall d es e, rule_no_undefined_variables d = Some es ->
  (In e es <-> exists o u, In o (ops_of (xdefs d)) /\ UndefinedUse (frags_of (xdefs d)) o u /\
                           e = VE R_UNDEFV [us_path u; o_path o]).
Proof. exact no_undefined_variables_In. Qed.
Print Assumptions C12_rule_no_undefined_variables.

Theorem C12_rule_no_undefined_variables_silent : forall d es, rule_no_undefined_variables d = Some es ->
  (es = [] <-> forall o u, In o (ops_of (xdefs d)) -> ~ UndefinedUse (frags_of (xdefs d)) o u).
Proof.
  intros d es H. rewrite nil_iff_no_In. split.
  - intros Hn o u Ho Hu. apply (Hn (VE R_UNDEFV [us_path u; o_path o])).
    apply (C12_rule_no_undefined_variables d es _ H). eauto.
  - intros Hn e He. apply (C12_rule_no_undefined_variables d es e H) in He as (o & u & Ho & Hu & _).
    exact (Hn o u Ho Hu).
Qed.
Print Assumptions C12_rule_no_undefined_variables_silent.

(* 10 NoUnusedVariables *)
Theorem C12_rule_no_unused_variables_fuel : forall d, exists es, rule_no_unused_variables d = Some es.
Proof.
  intro d. unfold rule_no_unused_variables. apply opt_concat_total. intros o Ho.
  apply in_map_iff in Ho as (x & <- & _). unfold unused_in.
  destruct x as [op|f|p]; [|eauto|eauto].
  destruct (op_usages_total (frags_of (xdefs d)) op) as [us ->]. eauto.
Qed.
Print Assumptions C12_rule_no_unused_variables_fuel.

Theorem C12_rule_no_unused_variables : forall d es e, rule_no_unused_variables d = Some es ->
  (In e es <->
   (exists o v, In o (ops_of (xdefs d)) /\ UnusedVar (frags_of (xdefs d)) o v /\
                e = VE R_UNUSEDV [vd_path v]) \/
   (exists f v, In f (frags_of (xdefs d)) /\ UnusedFragVar f v /\ e = VE R_UNUSEDV [vd_path v])).
Proof. exact no_unused_variables_In. Qed.
Print Assumptions C12_rule_no_unused_variables.

Theorem C12_rule_no_unused_variables_silent : forall d es, rule_no_unused_variables d = Some es ->
  (es = [] <-> (forall o v, In o (ops_of (xdefs d)) -> ~ UnusedVar (frags_of (xdefs d)) o v) /\
               (forall f v, In f (frags_of (xdefs d)) -> ~ UnusedFragVar f v)).
Proof.
  intros d es H. rewrite nil_iff_no_In. split.
  - intros Hn. split; intros a v Ha Hu;
      apply (Hn (VE R_UNUSEDV [vd_path v])); apply (C12_rule_no_unused_variables d es _ H); [left|right]; eauto.
  - intros [H1 H2] e He. apply (C12_rule_no_unused_variables d es e H) in He
      as [(o & v & Ho & Hu & _)|(f & v & Hf & Hu & _)]; [exact (H1 o v Ho Hu) | exact (H2 f v Hf Hu)].
Qed.
Print Assumptions C12_rule_no_unused_variables_silent.

(* 11 UniqueArgumentNames: per field and per directive (anywhere, type-system definitions
   included) one error per argument name given more than once *)
Theorem C12_rule_unique_argument_names : forall d e,
  In e (rule_unique_argument_names d) <->
  exists args s, In args (arg_lists d) /\ In s (map fst args) /\
                 e = VE R_UARG (occ s args) /\ (2 <= length (occ s args))%nat.
Proof. intros d e. apply (dup_groups_rule_In R_UARG (fun a => a)). Qed.
Print Assumptions C12_rule_unique_argument_names.

Theorem C12_rule_unique_argument_names_silent : forall d,
  rule_unique_argument_names d = [] <-> forall args, In args (arg_lists d) -> UniqueNames args.
Proof. intro d. apply (dup_groups_rule_nil R_UARG (fun a => a)). Qed.
Print Assumptions C12_rule_unique_argument_names_silent.

(* 12 UniqueInputFieldNames *)
Theorem C12_rule_unique_input_field_names : forall d e,
  In e (rule_unique_input_field_names d) <->
  exists before s p pre p0 post,
    In (before, (s, p)) (object_fields d) /\ before = pre ++ (s, p0) :: post /\
    ~ In s (map fst pre) /\ e = VE R_UINF [p0; p].
Proof.
  intros d e. unfold rule_unique_input_field_names. rewrite in_flat_map. split.
  - intros ([before [s p]] & Hin & He). cbn [fst snd] in He.
    destruct (lookup s before) as [p0|] eqn:El; [|destruct He]. destruct He as [<-|[]].
    apply lookup_first in El as (pre & post & Hb & Hn). exists before, s, p, pre, p0, post. auto.
  - intros (before & s & p & pre & p0 & post & Hin & Hb & Hn & ->).
    exists (before, (s, p)). split; [exact Hin|]. cbn [fst snd].
    assert (El : lookup s before = Some p0) by (apply lookup_first; eauto).
    rewrite El. cbn. auto.
Qed.
Print Assumptions C12_rule_unique_input_field_names.

Theorem C12_rule_unique_input_field_names_silent : forall d,
  rule_unique_input_field_names d = [] <->
  forall before s p, In (before, (s, p)) (object_fields d) -> ~ In s (map fst before).
Proof. exact unique_input_field_names_nil. Qed.
Print Assumptions C12_rule_unique_input_field_names_silent.

(* a path denotes the node the traversal found there, and no path is visited twice *)
Theorem C12_rule_paths_identify_nodes : forall d it,
  In it (doc_items d) -> get d (it_path it) = Some (it_node it).
Proof. exact doc_items_get. Qed.
Print Assumptions C12_rule_paths_identify_nodes.

Theorem C12_rule_paths_distinct : forall d, NoDup (map it_path (doc_items d)).
Proof. exact doc_items_NoDup. Qed.
Print Assumptions C12_rule_paths_distinct.

(* hence the node-by-node rules report nothing twice: with the membership theorems above their
   reported lists are determined as multisets *)
Theorem C12_rule_no_repetition : forall d,
  NoDup (rule_executable_definitions d) /\ NoDup (rule_lone_anonymous_operation d) /\
  NoDup (rule_known_fragment_names d) /\ NoDup (rule_unique_input_field_names d) /\
  (forall es, rule_no_unused_fragments d = Some es -> NoDup es).
Proof.
  intro d. repeat split;
    [apply executable_definitions_NoDup | apply lone_anonymous_NoDup | apply known_fragment_names_NoDup
    | apply unique_input_field_names_NoDup | apply no_unused_fragments_NoDup].
Qed.
Print Assumptions C12_rule_no_repetition.

(* the dictionary scan of rules 2, 5 (and 12), state-free: exact list *)
Theorem C12_rule_duplicate_scan_exact : forall l, dup_scan [] l = dup_spec [] l.
Proof. intro l. apply dup_scan_spec. reflexivity. Qed.
Print Assumptions C12_rule_duplicate_scan_exact.

(* the usages an operation answers for, with multiplicity: its own, then those of every
   transitively spread fragment exactly once *)
Theorem C12_rule_scope_exact : forall fs o,
  exists rf, NoDup (map f_name rf) /\ (forall f, In f rf <-> Reach fs (o_spreads o) f) /\
             scope fs o = o_usages o ++
                          flat_map (fun f => filter (fun u => negb (frag_local fs f u)) (f_usages f)) rf.
Proof.
  intros fs o. unfold scope, op_usages. destruct (refs_total fs (o_spreads o)) as [rf E]. rewrite E.
  destruct (refs_spec fs _ _ E) as [H1 H2]. exists rf. auto.
Qed.
Print Assumptions C12_rule_scope_exact.

Theorem C12_rule_no_undefined_variables_exact : forall d es, rule_no_undefined_variables d = Some es ->
  es = flat_map (fun o =>
         flat_map (fun u => if mem (us_name u) (map vd_name (o_vdefs o)) then []
                            else [VE R_UNDEFV [us_path u; o_path o]])
                  (scope (frags_of (xdefs d)) o))
       (ops_of (xdefs d)).
Proof.
  intros d es H. unfold rule_no_undefined_variables in H. apply opt_concat_map in H as [_ ->].
  apply flat_map_ext_in. intros o _. unfold undefined_in, scope.
  destruct (op_usages (frags_of (xdefs d)) o); reflexivity.
Qed.
Print Assumptions C12_rule_no_undefined_variables_exact.

Theorem C12_rule_no_unused_variables_exact : forall d es, rule_no_unused_variables d = Some es ->
  es = flat_map (fun x =>
         match x with
         | XOp o => flat_map (fun v => if mem (vd_name v) (map us_name (scope (frags_of (xdefs d)) o))
                                       then [] else [VE R_UNUSEDV [vd_path v]]) (o_vdefs o)
         | XFrag f => flat_map (fun v => if mem (vd_name v) (map us_name (f_usages f))
                                         then [] else [VE R_UNUSEDV [vd_path v]]) (f_vdefs f)
         | XOther _ => []
         end) (xdefs d).
Proof.
  intros d es H. unfold rule_no_unused_variables in H. apply opt_concat_map in H as [_ ->].
  apply flat_map_ext_in. intros x Hx.
  destruct x as [o|f|p]; cbn [unused_in]; try reflexivity.
  unfold scope. destruct (op_usages_total (frags_of (xdefs d)) o) as [us ->]. reflexivity.
Qed.
Print Assumptions C12_rule_no_unused_variables_exact.

(* get_fragment_spreads as the code runs it (a stack of selection sets popped from the end, fuel
   = number of selection sets + 1) returns the structurally defined list the rules use *)
Theorem C12_rule_fragment_spreads_worklist : forall p s,
  get_fragment_spreads p s = Some (set_spreads p s).
Proof.
  intros p s. unfold get_fragment_spreads. rewrite spreads_loop_spec.
  - cbn [flat_map app]. unfold ss. cbn [fst snd]. rewrite app_nil_r. reflexivity.
  - unfold stack_size. cbn [map snd]. rewrite list_sum_cons. cbn [list_sum fold_right]. lia.
Qed.
Print Assumptions C12_rule_fragment_spreads_worklist.

(* rule 12 in the words of the specification: when it is silent, every visited input object value
   (whose fields are object fields) has pairwise different field names *)
Theorem C12_rule_input_object_fields_unique : forall d, rule_unique_input_field_names d = [] ->
  forall it fl r, In it (doc_items d) -> it_node it = Nd KObjectValue (AList fl :: r) ->
    forallb is_object_field fl = true -> NoDup (map arg_name fl).
Proof. exact input_object_fields_unique. Qed.
Print Assumptions C12_rule_input_object_fields_unique.

Theorem C12_rule_all_fuel : forall d, exists es, all_rules d = Some es.
Proof.
  intro d. unfold all_rules. apply opt_concat_total. intros o Ho. cbn in Ho.
  repeat (destruct Ho as [<-|Ho]; [try (eexists; reflexivity)|]); try destruct Ho.
  - apply C12_rule_no_unused_fragments_fuel.
  - apply C12_rule_no_fragment_cycles_fuel.
  - apply C12_rule_no_undefined_variables_fuel.
  - apply C12_rule_no_unused_variables_fuel.
Qed.
Print Assumptions C12_rule_all_fuel.

(* descriptions: what the rules read from the tree is unchanged by erasing descriptions *)
Theorem C12_rule_descriptions_data : forall d,
  xdefs (erase_descriptions d) = xdefs d /\ all_spreads (erase_descriptions d) = all_spreads d /\
  arg_lists (erase_descriptions d) = arg_lists d /\ object_fields (erase_descriptions d) = object_fields d.
Proof.
  intro d. repeat split; [apply xdefs_erase | apply all_spreads_erase | apply arg_lists_erase | apply object_fields_erase].
Qed.
Print Assumptions C12_rule_descriptions_data.

Theorem C12_rule_descriptions : forall d,
  rule_executable_definitions (erase_descriptions d) = rule_executable_definitions d /\
  rule_unique_operation_names (erase_descriptions d) = rule_unique_operation_names d /\
  rule_lone_anonymous_operation (erase_descriptions d) = rule_lone_anonymous_operation d /\
  rule_known_fragment_names (erase_descriptions d) = rule_known_fragment_names d /\
  rule_unique_fragment_names (erase_descriptions d) = rule_unique_fragment_names d /\
  rule_no_unused_fragments (erase_descriptions d) = rule_no_unused_fragments d /\
  rule_no_fragment_cycles (erase_descriptions d) = rule_no_fragment_cycles d /\
  rule_unique_variable_names (erase_descriptions d) = rule_unique_variable_names d /\
  rule_no_undefined_variables (erase_descriptions d) = rule_no_undefined_variables d /\
  rule_no_unused_variables (erase_descriptions d) = rule_no_unused_variables d /\
  rule_unique_argument_names (erase_descriptions d) = rule_unique_argument_names d /\
  rule_unique_input_field_names (erase_descriptions d) = rule_unique_input_field_names d.
Proof.
  intro d.
  unfold rule_executable_definitions, rule_unique_operation_names,
    rule_lone_anonymous_operation, rule_known_fragment_names, rule_unique_fragment_names,
    rule_no_unused_fragments, rule_no_fragment_cycles, rule_unique_variable_names,
    rule_no_undefined_variables, rule_no_unused_variables, rule_unique_argument_names,
    rule_unique_input_field_names.
  rewrite xdefs_erase, all_spreads_erase, arg_lists_erase, object_fields_erase. repeat split.
Qed.
Print Assumptions C12_rule_descriptions.

(* ignored characters: the AST carries no layout, so for two sources whose significant
   tokens agree in kind and value the rules report the same errors (same rule, same node paths) *)
Theorem C12_rule_layout_independent : forall o s1 s2 ts1 ts2 d1 c1 d2 c2,
  lex s1 = Ok ts1 -> lex s2 = Ok ts2 -> map sig (significant ts1) = map sig (significant ts2) ->
  parse_text EDocument o s1 = Ok (d1, c1) -> parse_text EDocument o s2 = Ok (d2, c2) ->
  all_rules d1 = all_rules d2.
Proof.
  intros o s1 s2 ts1 ts2 d1 c1 d2 c2 L1 L2 E P1 P2.
  rewrite (parse_text_lex EDocument o s1 ts1) in P1 by (discriminate || assumption).
  rewrite (parse_text_lex EDocument o s2 ts2) in P2 by (discriminate || assumption).
  destruct (parse_entry_layout EDocument o _ _ E) as [H _].
  apply H in P1. rewrite P1 in P2. inversion P2. reflexivity.
Qed.
Print Assumptions C12_rule_layout_independent.

(* parser outputs: every definition of a parsed document is read as what the grammar says it
   is - operation, fragment definition, or a type-system definition / extension (the ones rule 1
   reports), at path [(0, j)] *)
Theorem C12_rule_parsed_definitions : forall o s d c,
  parse_text EDocument o s = Ok (d, c) ->
  let xfa := exp_fragment_arguments o in
  let xdd := exp_directives_on_directive_definitions o in
  exists l, d = Nd KDocument [AList l] /\ length (xdefs d) = length l /\
    forall j m, nth_error l j = Some m ->
      (wf_operation xfa m /\ exists op, nth_error (xdefs d) j = Some (XOp op) /\ o_path op = [(O, j)]) \/
      (wf_fragment_definition xfa m /\ exists f, nth_error (xdefs d) j = Some (XFrag f) /\ f_path f = [(O, j)]) \/
      ((wf_type_system_definition xdd m \/ wf_extension xdd m) /\
       nth_error (xdefs d) j = Some (XOther [(O, j)])).
Proof.
  intros o s d c H. unfold parse_text in H.
  destruct (token_stream false s) as [ts| | |] eqn:Et; cbn in H; try discriminate.
  apply (wf_document_xdefs _ _ d). exact (parse_entry_wf EDocument o ts d c H).
Qed.
Print Assumptions C12_rule_parsed_definitions.

(* a rule reads nothing but the extracted data of the document *)
Theorem C12_rule_function_of_document_data : forall d d',
  xdefs d = xdefs d' -> all_spreads d = all_spreads d' -> arg_lists d = arg_lists d' ->
  object_fields d = object_fields d' -> all_rules d = all_rules d'.
Proof. exact all_rules_of_data. Qed.
Print Assumptions C12_rule_function_of_document_data.

(* non-vacuity: a parsed document on which ten of the rules report *)
(* query Q($a:Int,$a:Int){...A f(x:$b,x:{y:1,y:2})} {g} fragment A on T{...B}
   fragment B on T{...A ...Z} fragment C on T{f} type T{f:Int} *)
Definition ex_text : list N :=
  [113;117;101;114;121;32;81;40;36;97;58;73;110;116;44;36;97;58;73;110;116;41;123;46;46;46;65;32;102;
   40;120;58;36;98;44;120;58;123;121;58;49;44;121;58;50;125;41;125;32;123;103;125;32;102;114;97;103;
   109;101;110;116;32;65;32;111;110;32;84;123;46;46;46;66;125;32;102;114;97;103;109;101;110;116;32;66;
   32;111;110;32;84;123;46;46;46;65;32;46;46;46;90;125;32;102;114;97;103;109;101;110;116;32;67;32;111;
   110;32;84;123;102;125;32;116;121;112;101;32;84;123;102;58;73;110;116;125].

Example C12_rule_example :
  match parse_text EDocument (mkOpts None false false) ex_text with
  | Ok (d, _) =>
    option_map (map ve_rule) (all_rules d) = Some [1; 3; 4; 6; 7; 8; 9; 10; 10; 11; 12] /\
    option_map (map ve_nodes) (rule_no_fragment_cycles d) =
      Some [[[(0, 2); (0, 0); (0, 0)]; [(0, 3); (0, 0); (0, 0)]]%nat] /\
    Cyclic (frags_of (xdefs d)) [65] /\
    NoDup (map f_name (frags_of (xdefs d)))
  | _ => False
  end.
Proof.
  vm_compute. repeat split.
  - apply t_trans with [66]; apply t_step.
    + eexists _, _. split; [left; reflexivity|]. split; [reflexivity|]. split; [left; reflexivity | reflexivity].
    + eexists _, _. split; [right; left; reflexivity|]. split; [reflexivity|]. split; [left; reflexivity | reflexivity].
  - repeat constructor; cbn; intuition discriminate.
Qed.

(* the hypothesis "unique fragment names" of C12_rule_no_fragment_cycles_silent cannot be dropped:
   `fragment A on T{f} fragment A on T{...A}` - the second A spreads itself, the search looks
   at one definition per name only (the implementation answers [] as well; rule 5 reports the
   duplicate name) *)
Definition ex_dup_text : list N :=
  [102;114;97;103;109;101;110;116;32;65;32;111;110;32;84;123;102;125;32;102;114;97;103;109;101;110;116;
   32;65;32;111;110;32;84;123;46;46;46;65;125].

Example C12_rule_cycles_need_unique_names :
  match parse_text EDocument (mkOpts None false false) ex_dup_text with
  | Ok (d, _) =>
    rule_no_fragment_cycles d = Some [] /\ Cyclic (frags_of (xdefs d)) [65] /\
    rule_unique_fragment_names d <> []
  | _ => False
  end.
Proof.
  vm_compute. repeat split.
  - apply t_step. eexists _, _. split; [right; left; reflexivity|]. split; [reflexivity|].
    split; [left; reflexivity | reflexivity].
  - discriminate.
Qed.

