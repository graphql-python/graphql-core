(* C01 - the request pipeline is total.  Lexer: Lang/LexerProps.v; parser: Properties/ParserThms.v. *)
From GV Require Import Base.Prelude Lang.Lexer Lang.LexerProps Lang.Ast Lang.Parser Lang.ParserProps
  Properties.ParserThms.

(* For every source text (any code point list, lone surrogates included, cut off anywhere)
   the lexer model answers with tokens or a located syntax error: it never crashes and its
   fuel (length of the source + 1) is never exhausted. *)
Theorem C01_lexer_total : forall s,
  (exists ts, lex s = Ok ts) \/ (exists p, lex s = SyntaxErr p).
Proof.
  intros s. pose proof (lex_total s) as H. destruct (lex s); [left|right|contradiction|contradiction]; eauto.
Qed.
Print Assumptions C01_lexer_total.

Theorem C01_coordinate_lexer_total : forall s,
  (exists ts, coord_lex s = Ok ts) \/ (exists p, coord_lex s = SyntaxErr p).
Proof.
  intros s. pose proof (coord_lex_total s) as H.
  destruct (coord_lex s); [left|right|contradiction|contradiction]; eauto.
Qed.
Print Assumptions C01_coordinate_lexer_total.

(* an escape sequence is only accepted when all its characters exist: the accepted size is
   within the remaining text (this is the bounds-safety of read_escaped_* / hex readers) *)
Theorem C01_escape_in_bounds : forall pos s v size,
  s <> [] -> read_escape pos s = Ok (v, size) -> (1 <= size <= length s)%nat.
Proof. exact read_escape_size. Qed.
Print Assumptions C01_escape_in_bounds.

(* The five parsing entry points (document, value, const value, type, schema coordinate) of the
   parser model answer every source text - any code-point list, cut off anywhere, nested to any
   depth - and every option setting with a tree or a located syntax error: never a crash, fuel
   (number of tokens + 1) never exhausted.  Proofs: Lang/ParserProps.v. *)
Theorem C01_parse_entries_total : forall e o s,
  (exists d c, parse_text e o s = Ok (d, c)) \/ (exists p, parse_text e o s = SyntaxErr p).
Proof. exact parser_total_on_text. Qed.
Print Assumptions C01_parse_entries_total.

Theorem C01_parse_entries_total_on_tokens : forall e o ts,
  (exists d c, parse_entry e o ts = Ok (d, c)) \/ (exists p, parse_entry e o ts = SyntaxErr p).
Proof. exact parser_total_on_tokens. Qed.
Print Assumptions C01_parse_entries_total_on_tokens.

(* non-vacuity: two escapes cut off by the end of the text are plain syntax errors *)
Example C01_truncated_escapes :
  lex [34; 92] = SyntaxErr 1 /\ lex [34; 92; 117; 49; 50] = SyntaxErr 1.
Proof. split; reflexivity. Qed.
