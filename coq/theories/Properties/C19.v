(* C19 - schema transformations preserve meaning.  The lemmas are in SchemaOps/SortProps.v, DiffProps.v,
   DiffSound.v, BuildProps.v, NatOrderProps.v. *)
From Coq Require Import Permutation.
From GV Require Import Base.Prelude SchemaOps.Schema SchemaOps.NatOrder SchemaOps.NatOrderProps
  SchemaOps.Sort SchemaOps.SortProps SchemaOps.Diff SchemaOps.DiffProps SchemaOps.Build
  SchemaOps.BuildProps SchemaOps.DiffSound.

(* Sorting, for EVERY comparison of names: each container of [sort s] (type map, fields, arguments,
   enum values, union members, interfaces, input fields, directives, directive locations and
   directive arguments) is a permutation of the original one, and nothing else changes
   ([schema_rel] fixes descriptions, root names, kinds, types, defaults, deprecations, flags). *)
Theorem C19_sort_perm : forall leb s, schema_rel s (sort leb s).
Proof. exact sort_perm. Qed.
Print Assumptions C19_sort_perm.

(* Sorting twice equals sorting once, for every total comparison ... *)
Theorem C19_sort_idem : forall leb, (forall a b, leb a b = false -> leb b a = true) ->
  forall s, sort leb (sort leb s) = sort leb s.
Proof.
  intros leb Ht s. destruct s; unfold sort; cbn.
  rewrite (isort_map_idem leb Ht t_name (sort_type leb)); [|intros []; reflexivity|apply sort_type_idem; exact Ht].
  rewrite (isort_map_idem leb Ht d_name (sort_directive leb));
    [|intros []; reflexivity|apply sort_directive_idem; exact Ht].
  reflexivity.
Qed.
Print Assumptions C19_sort_idem.

(* ... in particular for the natural order of the implementation (natural_comparison_key). *)
Theorem C19_sort_idem_natural : forall s, sort natural_leb (sort natural_leb s) = sort natural_leb s.
Proof. exact (C19_sort_idem natural_leb natural_leb_total). Qed.
Print Assumptions C19_sort_idem_natural.

(* Comparing a schema with itself reports no change ([wf]: names unique inside each keyed container). *)
Theorem C19_diff_refl : forall leb s, wf s -> diff leb s s = [].
Proof. exact diff_refl. Qed.
Print Assumptions C19_diff_refl.

(* No change is reported between a schema and any rearrangement of its containers ([schema_rel]) ... *)
Theorem C19_diff_order_insensitive : forall leb a b, wf a -> schema_rel a b -> diff leb a b = [].
Proof. exact diff_rel_nil. Qed.
Print Assumptions C19_diff_order_insensitive.

(* ... so no difference is detected between a schema and its sort (for any order used by either). *)
Theorem C19_sort_no_diff : forall leb leb' s, wf s -> diff leb s (sort leb' s) = [].
Proof. intros leb leb' s H. apply diff_rel_nil; [exact H|apply sort_perm]. Qed.
Print Assumptions C19_sort_no_diff.

(* A document without type-system definitions returns the argument itself. *)
Theorem C19_extend_noop_identity : forall s ds, forallb is_executable ds = true -> extend s ds = s.
Proof. intros s ds H. unfold extend. rewrite H. reflexivity. Qed.
Print Assumptions C19_extend_noop_identity.

(* extend (build A) B = build (A ++ B), in any definition order of A and of B, for every extension
   document B (without a schema definition of its own) that adds fields, interfaces, union members,
   enum values, input fields to existing types of any kind (several extensions per type allowed),
   new types, new directives and - through schema extensions - operation types for roots the schema
   does not have yet.  Side conditions: A does not extend a type that only B defines; B's new types
   do not carry a conventional root name (build_ast_schema would adopt such a type as a root,
   extend_schema does not).
   Scalar extensions may carry @specifiedBy (a non-empty URL of a later extension wins, an
   extension without it keeps the URL), directive-only extensions of every kind are covered
   (@oneOf on an extension has no effect in either function; other applied directives are not part
   of a schema).
   Partial: directive extensions (`extend directive @d @deprecated`) are not modelled. *)
Theorem C19_extend_hom_partial : forall A B sA,
  build A = Some sA ->
  schema_defs B = [] ->
  ops_wellformed (schema_ext_ops B) ->
  (forall k n, In (k, n) (schema_ext_ops B) -> root_of k sA = None) ->
  (forall e t, In e (type_exts A) -> In t (type_defs B) -> t_name e <> t_name t) ->
  (forall t, In t (type_defs B) -> t_name t <> nQuery /\ t_name t <> nMutation /\ t_name t <> nSubscription) ->
  build (A ++ B) = Some (extend sA B).
Proof. exact extend_hom_ops. Qed.
Print Assumptions C19_extend_hom_partial.

(* Each reported change - of every kind - has a witness in the two schemas: [witness] is a decidable
   predicate that, per change kind, states the actual difference at the named place: the type /
   directive / field / input field / enum value / union member / interface / argument / location is
   present in one schema and absent from the same container of the other; the kinds of the two
   types differ; the two type references differ; the default value was removed / added / differs
   (as sorted literals); the repeatable flags differ; the two descriptions differ.  Kinds outside
   the list of the implementation have no witness (the predicate is false for them). *)
Theorem C19_diff_sound : forall leb a b c, wf a -> In c (diff leb a b) -> witness leb c a b = true.
Proof. exact diff_sound. Qed.
Print Assumptions C19_diff_sound.

(* non-vacuity: a well-formed two-type schema whose sort differs from it; an extension *)
Definition ex_Q : typedef :=
  mkType 1 nQuery None
    [mkField ([98]) [mkArg ([122]) (TNamed ([73])) None None None;
                          mkArg ([97]) (TNonNull (TNamed ([73]))) (Some (VLeaf 1 [49])) None None]
       (TList (TNamed ([65]))) None None;
     mkField ([97; 49; 48]) [] (TNamed ([65])) (Some [100]) None;
     mkField ([97; 50]) [] (TNamed ([65])) None None]
    [] [] [] [] None false.
Definition ex_A : typedef := mkType 4 ([65]) None [] [] [] [mkEnumVal ([89]) None None; mkEnumVal ([88]) None None] [] None false.
Definition ex_s : schema := mkSchema None (Some nQuery) None None [ex_Q; ex_A] [].

Example C19_example_sort :
  map f_name (t_fields (nth 1 (s_types (sort natural_leb ex_s)) ex_A)) = [[97; 50]; [97; 49; 48]; [98]]
  /\ map t_name (s_types (sort natural_leb ex_s)) = [[65]; nQuery]
  /\ sort natural_leb ex_s <> ex_s.
Proof. repeat split; try reflexivity. intro H. discriminate H. Qed.

Example C19_example_wf : wf ex_s.
Proof.
  unfold wf, wf_type, wf_field, ex_s; cbn.
  repeat (split || constructor || (intro H; cbn in H; repeat (destruct H as [H|H]; try discriminate H); try contradiction)).
Qed.

(* the witness predicate is not trivially true, and a real removal is reported with its witness *)
Example C19_example_witness :
  witness natural_leb (mkChange TYPE_REMOVED [nQuery]) ex_s ex_s = false
  /\ witness natural_leb (mkChange FIELD_REMOVED [nQuery; [98]]) ex_s ex_s = false
  /\ witness natural_leb (mkChange DESCRIPTION_CHANGED [nQuery]) ex_s ex_s = false
  /\ let b := mkSchema None (Some nQuery) None None [ex_Q] [] in
     map c_kind (diff natural_leb ex_s b) = [TYPE_REMOVED]
     /\ witness natural_leb (mkChange TYPE_REMOVED [[65]]) ex_s b = true.
Proof. repeat split; reflexivity. Qed.

(* a scalar with a URL keeps it through an extension without @specifiedBy; a later URL wins *)
Example C19_example_scalar_ext :
  let S u := mkType 0 [83] None [] [] [] [] [] u false in
  apply_exts [S None] (S (Some [117])) = S (Some [117])
  /\ apply_exts [S (Some [118]); S None] (S (Some [117])) = S (Some [118])
  /\ apply_exts [S (Some [])] (S (Some [117])) = S (Some [117]).
Proof. repeat split; reflexivity. Qed.

Example C19_example_extend :
  let A := [DType ex_Q; DType ex_A] in
  let B := [DExtend (mkType 4 ([65]) None [] [] [] [mkEnumVal ([90]) None None] [] None false); DExecutable] in
  exists sA, build A = Some sA /\ schema_defs B = []
             /\ map e_name (t_values (nth 1 (s_types (extend sA B)) ex_Q)) = [[89]; [88]; [90]].
Proof. eexists. repeat split; reflexivity. Qed.
