(* C09 (strip part) - strip_ignored_characters.  Proofs: Lang/StripProps.v (strip_all, by strip_main);
   the consequences stand under their statements.
   Model: Lang/Strip.v (strip, written from utilities/strip_ignored_characters.py) over the lexer model
   Lang/Lexer.v and the block-string printer Lang/BlockString.v.  No hypothesis on the source text:
   every list of code points, lone surrogates and surrogate pairs included. *)
From GV Require Import Base.Prelude Lang.Lexer Lang.LexerProps Lang.BlockString Lang.BlockStringProps
  Lang.StripBlock Lang.Strip Lang.StripProps Lang.Ast Lang.Parser Lang.ParserProps Properties.ParserThms.

(* (a) every source that lexes is stripped to a text that lexes, and the significant tokens of the
   two agree in kind and value (their spans differ) *)
Theorem C09_strip_preserves_tokens : forall s ts, lex s = Ok ts ->
  exists out ts2, strip s = Ok out /\ lex out = Ok ts2 /\
    map tok_sig (significant ts2) = map tok_sig (significant ts).
Proof. exact strip_preserves_tokens. Qed.
Print Assumptions C09_strip_preserves_tokens.

(* (b) stripping is idempotent *)
Theorem C09_strip_idempotent : forall s out, strip s = Ok out -> strip out = Ok out.
Proof.
  intros s out H. destruct (strip_ok_lex s out H) as (ts & Hl).
  destruct (strip_all s ts Hl) as (out1 & ts2 & H1 & _ & _ & _ & H5). congruence.
Qed.
Print Assumptions C09_strip_idempotent.

(* (c) a source that does not lex is rejected by strip, at the position where the lexer rejects it;
   and strip rejects nothing else *)
Theorem C09_strip_rejects_stay : forall s q, lex s = SyntaxErr q -> strip s = SyntaxErr q.
Proof.
  unfold lex, strip. intros s q H.
  pose proof (strip_loop_lex (S (length s)) s init_cursor s false) as L. rewrite H in L. exact L.
Qed.
Print Assumptions C09_strip_rejects_stay.

Theorem C09_strip_accepts : forall s ts, lex s = Ok ts -> exists out, strip s = Ok out.
Proof.
  unfold lex, strip. intros s ts H.
  pose proof (strip_loop_lex (S (length s)) s init_cursor s false) as L. rewrite H in L. exact L.
Qed.
Print Assumptions C09_strip_accepts.

(* (d) the stripped text is tight (Strip.tight): its tokens - none a comment - are laid out as
   sep lexeme sep lexeme ... lexeme with no ignored character before the first or after the last
   lexeme, each sep is exactly the separator of the rule (one SPACE between two non-punctuators or
   between a non-punctuator and a spread, nothing otherwise), and the lexeme of every token other than
   a quoted string or a block string contains no ignored character *)
Theorem C09_strip_tight : forall s out, strip s = Ok out ->
  exists ts2, lex out = Ok ts2 /\ tight false 0 out ts2.
Proof.
  intros s out H. destruct (strip_ok_lex s out H) as (ts & Hl).
  destruct (strip_all s ts Hl) as (out1 & ts2 & H1 & H2 & _ & H4 & _).
  assert (out1 = out) by congruence. subst out1. exists ts2. auto.
Qed.
Print Assumptions C09_strip_tight.

(* consequence of (a) with the parser's layout independence: the stripped text parses to the same
   tree with the same token count, or both are rejected (all entry points that use this lexer) *)
Theorem C09_strip_preserves_parse : forall e o s out, e <> ECoordinate -> strip s = Ok out ->
  (forall d c, parse_text e o s = Ok (d, c) <-> parse_text e o out = Ok (d, c)) /\
  ((exists p, parse_text e o s = SyntaxErr p) <-> (exists p, parse_text e o out = SyntaxErr p)).
Proof.
  intros e o s out He H. destruct (strip_ok_lex s out H) as (ts & Hl).
  destruct (strip_preserves_tokens s ts Hl) as (out1 & ts2 & H1 & H2 & H3).
  assert (out1 = out) by congruence. subst out1.
  exact (parser_text_layout_independent e o s out ts ts2 He Hl H2 (eq_sym H3)).
Qed.
Print Assumptions C09_strip_preserves_parse.

(* non-vacuity: comment, commas, CR LF, BOM, a block string that is re-printed, a number before a
   spread *)
Example C09_strip_example :
  let s := [65279; 123; 97; 35; 120; 13; 10; 44; 34; 34; 34; 10; 32; 32; 120; 10; 34; 34; 34; 32; 49; 32; 46; 46; 46; 98; 125] in
  strip s = Ok [123; 97; 32; 34; 34; 34; 120; 34; 34; 34; 32; 49; 32; 46; 46; 46; 98; 125] /\
  match lex s with Ok ts => length (significant ts) = 8%nat | _ => False end.
Proof.
  cbv zeta. split; vm_compute; reflexivity.
Qed.

(* a block string with a surrogate pair (U+D83D U+DE00 as two code points) and indentation *)
Example C09_strip_example_pair :
  strip [34; 34; 34; 10; 32; 32; 55357; 56832; 10; 32; 32; 32; 97; 10; 34; 34; 34; 35]
  = Ok [34; 34; 34; 10; 55357; 56832; 10; 32; 97; 34; 34; 34].
Proof. vm_compute. reflexivity. Qed.
