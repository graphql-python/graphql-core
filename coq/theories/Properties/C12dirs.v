(* C12 (rules, continued) - four further rules of specified_rules as functions of the parser's AST,
   the presence of the root operation types and the schema's directive table (Valid/RulesDir.v):
     23 KnownOperationTypesRule   24 KnownDirectivesRule   25 UniqueDirectivesPerLocationRule
     26 DeferStreamDirectiveLabel
   The longer proofs in Valid/RulesDirProps.v.  Correspondence with the implementation, each
   rule alone and the three together: harness/crulesdir.py (model `rules`, op 5).

   Vocabulary: Rules.doc_items d = the nodes validate() visits, in order, with their paths;
   RulesDir.chain d p [] = the containers on the way to the node at p, nearest first (the visitor's
   `ancestors` is its tail); RulesSpec.Dup l p0 p = p repeats the key first seen at p0. *)
From GV Require Import Base.Prelude Base.ListFacts Lang.Lexer Lang.Ast Lang.Parser
  Valid.Rules Valid.RulesBase Valid.RulesSpec Valid.RulesNames Valid.RulesPaths Valid.RulesDir Valid.RulesDirProps.

(* 23 KnownOperationTypes: one error per operation definition whose root type is absent *)
Theorem C12_dirs_known_operation_types : forall ds d e,
  In e (rule_known_operation_types ds d) <->
  exists j n o, nth_error (ddefs d) j = Some n /\ op_code n = Some o /\ has_root ds o = false /\
                e = VE R_KOPT [[(O, j)]].
Proof. exact known_operation_types_In. Qed.
Print Assumptions C12_dirs_known_operation_types.

Theorem C12_dirs_known_operation_types_silent : forall ds d,
  rule_known_operation_types ds d = [] <->
  forall n o, In n (ddefs d) -> op_code n = Some o -> has_root ds o = true.
Proof. exact known_operation_types_nil. Qed.
Print Assumptions C12_dirs_known_operation_types_silent.

(* the `ancestors` of a visited node *)
Theorem C12_dirs_ancestors_defined : forall d it,
  In it (doc_items d) -> exists up, chain d (it_path it) [] = Some up.
Proof. intros d it. intro H. apply chain_defined. exists (it_node it). apply doc_items_get. exact H. Qed.
Print Assumptions C12_dirs_ancestors_defined.

Theorem C12_dirs_ancestors_step : forall q n acc i j,
  chain n (q ++ [(i, j)]) acc =
  match chain n q acc, get n q with
  | Some up, Some m =>
    match nth i (attrs_of m) ANone with
    | ANode _ => if (j =? 0)%nat then Some (uitem_of m :: up) else None
    | AList l => match nth_error l j with Some _ => Some (UList :: uitem_of m :: up) | None => None end
    | _ => None
    end
  | _, _ => None
  end.
Proof. exact chain_snoc. Qed.
Print Assumptions C12_dirs_ancestors_step.

(* get_directive_location_for_ast_path: a directive in a tuple of its owner *)
Theorem C12_dirs_location_by_kind : forall d q i j owner l up,
  get d q = Some owner -> chain d q [] = Some up ->
  nth i (attrs_of owner) ANone = AList l -> (j < length l)%nat ->
  kind_of owner <> KOperationDefinition -> kind_of owner <> KInputValueDefinition ->
  kind_of owner <> KVariableDefinition ->
  exists up', chain d (q ++ [(i, j)]) [] = Some up' /\ loc_of (tl up') = Some (kind_loc (kind_of owner)).
Proof.
  intros d q i j owner l up Hg Hc Ha Hj H1 H2 H3. rewrite chain_snoc, Hc, Hg, Ha.
  destruct (nth_error l j) as [m|] eqn:Em; [|apply nth_error_None in Em; lia].
  eexists. split; [reflexivity|]. cbn [tl]. unfold uitem_of, loc_of.
  destruct (is_kind (kind_of owner) KOperationDefinition) eqn:E1; [apply is_kind_eq in E1; contradiction|].
  destruct (is_kind (kind_of owner) KInputValueDefinition) eqn:E2; [apply is_kind_eq in E2; contradiction|].
  destruct (is_kind (kind_of owner) KVariableDefinition) eqn:E3; [apply is_kind_eq in E3; contradiction|].
  reflexivity.
Qed.
Print Assumptions C12_dirs_location_by_kind.

Theorem C12_dirs_location_operation : forall d q i j owner l up o,
  get d q = Some owner -> chain d q [] = Some up ->
  nth i (attrs_of owner) ANone = AList l -> (j < length l)%nat ->
  kind_of owner = KOperationDefinition -> op_code owner = Some o -> o < 3 ->
  exists up', chain d (q ++ [(i, j)]) [] = Some up' /\ loc_of (tl up') = Some (Some o).
Proof.
  intros d q i j owner l up o Hg Hc Ha Hj Hk Ho Hlt. rewrite chain_snoc, Hc, Hg, Ha.
  destruct (nth_error l j) as [m|] eqn:Em; [|apply nth_error_None in Em; lia].
  eexists. split; [reflexivity|]. cbn [tl]. unfold uitem_of, loc_of. rewrite Hk, Ho. cbn [is_kind kind_code N.eqb Pos.eqb].
  apply N.ltb_lt in Hlt. rewrite Hlt. reflexivity.
Qed.
Print Assumptions C12_dirs_location_operation.

Theorem C12_dirs_location_variable : forall d q0 i0 j0 i j gp l0 vd l up,
  get d q0 = Some gp -> chain d q0 [] = Some up ->
  nth i0 (attrs_of gp) ANone = AList l0 -> nth_error l0 j0 = Some vd ->
  kind_of vd = KVariableDefinition ->
  nth i (attrs_of vd) ANone = AList l -> (j < length l)%nat ->
  exists up', chain d ((q0 ++ [(i0, j0)]) ++ [(i, j)]) [] = Some up' /\
              loc_of (tl up') = Some (Some (if is_kind (kind_of gp) KOperationDefinition then L_VARDEF else L_FRAGVARDEF)).
Proof.
  intros d q0 i0 j0 i j gp l0 vd l up Hg Hc Ha0 Hj0 Hk Ha Hj.
  assert (Hg1 : get d (q0 ++ [(i0, j0)]) = Some vd).
  { rewrite get_app, Hg. cbn [get]. rewrite Ha0, Hj0. reflexivity. }
  rewrite chain_snoc, Hg1, chain_snoc, Hc, Hg, Ha0, Hj0, Ha.
  destruct (nth_error l j) as [m|] eqn:Em; [|apply nth_error_None in Em; lia].
  eexists. split; [reflexivity|]. cbn [tl]. unfold uitem_of at 1. unfold loc_of. rewrite Hk.
  cbn [is_kind kind_code N.eqb Pos.eqb nth_error]. reflexivity.
Qed.
Print Assumptions C12_dirs_location_variable.

(* 24 KnownDirectives: one error per visited directive that is unknown (no entry, or an entry
   without locations) or stands at a location it is not declared for *)
Theorem C12_dirs_known_directives : forall ds d lm es e,
  locations_map ds d = Some lm -> rule_known_directives ds d = Some es ->
  (In e es <-> exists it, In it (doc_items d) /\ is_directive (it_node it) = true /\
                          e = VE R_KDIR [it_path it] /\
                          (Unknown lm (dir_name (it_node it)) \/ Misplaced lm d (it_path it) (dir_name (it_node it)))).
Proof.
  intros ds d lm es e Hlm H. unfold rule_known_directives in H. rewrite Hlm in H.
  apply opt_concat_map in H as [Hsome ->]. rewrite in_flat_map. split.
  - intros (it & Hit & He). exists it. split; [exact Hit|]. destruct (Hsome it Hit) as [x Hx]. rewrite Hx in He.
    destruct (is_directive (it_node it)); [|inversion Hx; subst; destruct He].
    split; [reflexivity|]. apply (kd_check_spec _ _ _ _ _ Hx). exact He.
  - intros (it & Hit & Hd & -> & Hbad). exists it. split; [exact Hit|].
    destruct (Hsome it Hit) as [x Hx]. rewrite Hx. rewrite Hd in Hx. apply (kd_check_spec _ _ _ _ _ Hx). auto.
Qed.
Print Assumptions C12_dirs_known_directives.

(* 25 UniqueDirectivesPerLocation: [first, this] for every directive that must be unique and
   repeats a (dictionary, name) key *)
Theorem C12_dirs_unique_directives : forall ds d e,
  In e (rule_unique_directives_per_location ds d) <->
  exists p0 p, Dup (udir_occs ds d) p0 p /\ e = VE R_UDIR [p0; p].
Proof. intros ds d e. apply dup_rule_In. Qed.
Print Assumptions C12_dirs_unique_directives.

Theorem C12_dirs_unique_directives_silent : forall ds d,
  rule_unique_directives_per_location ds d = [] <-> UniqueNames (udir_occs ds d).
Proof. intros ds d. apply dup_rule_nil. Qed.
Print Assumptions C12_dirs_unique_directives_silent.

(* the single dictionary of the model separates the implementation's dictionaries *)
Theorem C12_dirs_unique_directives_keys : forall g x g' x', dkey g x = dkey g' x' -> g = g' /\ x = x'.
Proof.
  intros g x g' x'.
  unfold dkey. intro H. inversion H as [[Hl Hr]]. apply Nat2N.inj in Hl.
  destruct (app_inv_length _ _ _ _ Hl Hr) as [Hg Hx]. split; [apply group_code_inj; exact Hg | exact Hx].
Qed.
Print Assumptions C12_dirs_unique_directives_keys.

Theorem C12_dirs_unique_directives_per_node : forall ds d it,
  rule_unique_directives_per_location ds d = [] -> In it (doc_items d) ->
  NoDup (map fst (item_dirs (unique_map ds d) it)).
Proof.
  intros ds d it H Hit. apply C12_dirs_unique_directives_silent in H. unfold UniqueNames, udir_occs in H.
  rewrite flat_map_concat_map, concat_map, map_map, <- flat_map_concat_map in H.
  exact (NoDup_flat_map_each _ _ it H Hit).
Qed.
Print Assumptions C12_dirs_unique_directives_per_node.

(* 26 DeferStreamDirectiveLabel: one error per @defer / @stream whose label is neither null nor
   a string literal; [first, this] for every string label that repeats *)
Theorem C12_dirs_defer_stream_label : forall d e,
  In e (rule_defer_stream_label d) <->
  (exists it p, In it (doc_items d) /\ label_of it = LStatic p /\ e = VE R_LABEL [p]) \/
  (exists p0 p, Dup (labels d) p0 p /\ e = VE R_LABEL [p0; p]).
Proof.
  intros d e.
  unfold rule_defer_stream_label. rewrite in_app_iff, dup_rule_In, in_map_iff.
  apply or_iff_compat_r. unfold label_statics. split.
  - intros (p & <- & Hp). apply in_flat_map in Hp as (it & Hit & Hp).
    destruct (label_of it) as [|p'|s p'] eqn:El; try destruct Hp as [<-|[]]; try destruct Hp. eauto.
  - intros (it & p & Hit & Hl & ->). exists p. split; [reflexivity|]. apply in_flat_map. exists it.
    rewrite Hl. cbn. auto.
Qed.
Print Assumptions C12_dirs_defer_stream_label.

Theorem C12_dirs_defer_stream_label_silent : forall d,
  rule_defer_stream_label d = [] <->
  (forall it p, In it (doc_items d) -> label_of it <> LStatic p) /\ UniqueNames (labels d).
Proof.
  intros d.
  rewrite nil_iff_no_In, <- (dup_rule_nil R_LABEL), (nil_iff_no_In (map _ _)). split.
  - intros H. split.
    + intros it p Hit Hl. apply (H (VE R_LABEL [p])). apply C12_dirs_defer_stream_label. left. eauto.
    + intros e He. apply (H e). apply in_app_iff. right. exact He.
  - intros [H1 H2] e He. apply C12_dirs_defer_stream_label in He as [(it & p & Hit & Hl & _)|He].
    + exact (H1 it p Hit Hl).
    + apply dup_rule_In in He. exact (H2 e He).
Qed.
Print Assumptions C12_dirs_defer_stream_label_silent.

(* non-vacuity
   schema: query and mutation types, no subscription type;
           directive @once on FIELD | QUERY | INPUT_FIELD_DEFINITION      (not repeatable)
           directive @rep repeatable on FIELD
   subscription S @once @once @nope { f @rep @rep @once @once ...F @once }
   extend input A { j: Int @once } *)
Definition n_once : str := [111;110;99;101].   Definition n_rep : str := [114;101;112].
Definition ex_ds : dschema :=
  DS [true; true; false] [DI n_once [L_FIELD; L_QUERY; L_INPUTFIELDDEF] false; DI n_rep [L_FIELD] true].
Definition ex_dirs_text : list N :=
  [115;117;98;115;99;114;105;112;116;105;111;110;32;83;32;64;111;110;99;101;32;64;111;110;99;101;32;64;110;111;
   112;101;32;123;32;102;32;64;114;101;112;32;64;114;101;112;32;64;111;110;99;101;32;64;111;110;99;101;32;46;46;
   46;70;32;64;111;110;99;101;32;125;32;101;120;116;101;110;100;32;105;110;112;117;116;32;65;32;123;32;106;58;
   32;73;110;116;32;64;111;110;99;101;32;125].

Example C12_dirs_example :
  match parse_text EDocument (mkOpts None false false) ex_dirs_text with
  | Ok (d, _) =>
    (* subscription is not supported *)
    map ve_nodes (rule_known_operation_types ex_ds d) = [[[(0, 0)]]]%nat /\
    (* @once, @once on SUBSCRIPTION; @nope unknown; @once on FRAGMENT_SPREAD; and the @once on the
       input field of an `extend input`, which get_directive_location_for_ast_path takes for an
       ARGUMENT_DEFINITION (reported as a finding) *)
    option_map (map ve_nodes) (rule_known_directives ex_ds d) =
      Some [[[(0, 0); (4, 0)]]; [[(0, 0); (4, 1)]]; [[(0, 0); (4, 2)]]; [[(0, 0); (0, 0); (0, 1); (0, 0)]];
            [[(0, 1); (2, 0); (4, 0)]]]%nat /\
    (* the second @once of the operation and of the field; @rep may repeat *)
    map ve_nodes (rule_unique_directives_per_location ex_ds d) =
      [[[(0, 0); (4, 0)]; [(0, 0); (4, 1)]];
       [[(0, 0); (0, 0); (0, 0); (0, 2)]; [(0, 0); (0, 0); (0, 0); (0, 3)]]]%nat
  | _ => False
  end.
Proof. vm_compute. repeat split. Qed.

(* { a @defer(label: "x") ... @defer(label: $v) { b @stream(label: "x") c @defer(label: null) } } *)
Definition ex_label_text : list N :=
  [123;32;97;32;64;100;101;102;101;114;40;108;97;98;101;108;58;32;34;120;34;41;32;46;46;46;32;64;100;101;102;
   101;114;40;108;97;98;101;108;58;32;36;118;41;32;123;32;98;32;64;115;116;114;101;97;109;40;108;97;98;101;108;
   58;32;34;120;34;41;32;99;32;64;100;101;102;101;114;40;108;97;98;101;108;58;32;110;117;108;108;41;32;125;32;125].

Example C12_dirs_label_example :
  match parse_text EDocument (mkOpts None false false) ex_label_text with
  | Ok (d, _) =>
    map ve_nodes (rule_defer_stream_label d) =
      [[[(0, 0); (0, 0); (0, 1); (0, 0)]];
       [[(0, 0); (0, 0); (0, 0); (0, 0)]; [(0, 0); (0, 0); (0, 1); (1, 0); (0, 0); (0, 0)]]]%nat
  | _ => False
  end.
Proof. vm_compute. reflexivity. Qed.
