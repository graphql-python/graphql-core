(* Proofs about the printer model (Lang/Printer.v): the printed text of a well-formed tree lexes to
   Unparse.tokens_of of the tree (print_lexes).
   A text that is a sequence of valid lexemes and layout gaps, in which every non-punctuator lexeme is
   followed by a gap, a one-character punctuator or the end, lexes to the tokens of the lexemes
   (lex_items).  That form (G) is closed under the printer's combinators (concatenation with literals,
   join, wrap, indent, block), and every leave_* method produces it, by induction on the
   well-formedness derivation of the tree; leave_document also needs the first and the last character
   of a printed definition (starts_definition, ends_definition). *)
From GV Require Import Base.Prelude Lang.Lexer Lang.LexerLoc Lang.BlockString Lang.BlockStringProps
  Lang.StripBlock Lang.Strip Lang.StripProps Lang.PrintString Lang.PrintStringProps Lang.Ast Lang.Parser
  Lang.Unparse Lang.Wf Lang.UnparseFacts Lang.Printer.

Definition gapchar (c : N) : Prop := c = 32 \/ c = LF \/ c = 44.

(* [lx] is read as the token (k, v) in front of any text that cannot extend it *)
Definition lexeme_for (k : N) (v lx : list N) : Prop :=
  (k =? K_EOF) = false /\ (k =? K_COMMENT) = false /\
  forall cu rest, (is_punct_kind k = true \/ follow_ok rest) ->
    exists tk cu', read_token cu (lx ++ rest) = Ok (tk, cu', rest) /\ tkind tk = k /\ tvalue tk = v.

Lemma lexeme_nonempty k v lx : lexeme_for k v lx -> lx <> [].
Proof.
  intros (Hk & _ & H) ->. destruct (H init_cursor [] (or_intror I)) as (tk & cu' & E & Ek & _).
  cbn in E. inversion E; subst tk. cbn in Ek. subst k. discriminate.
Qed.

(* a piece is valid if it is a gap of spaces, commas and line feeds, or a lexeme that survives the
   printer's re-indentation: one without line feed, or a printed block string under any indentation *)
Definition ivalid (i : item) : Prop :=
  match i with
  | Gap g => Forall gapchar g
  | Lx k v lx =>
    (nolf lx /\ lexeme_for k v lx) \/
    (k = K_BLOCK_STRING /\ in_block_range v = true /\ lines_wp (split_lf v) /\
     exists pads, Forall blanks pads /\ lx = indent_all pads (print_block_string v false))
  end.

Lemma ivalid_lexeme k v lx : ivalid (Lx k v lx) -> lexeme_for k v lx.
Proof.
  intros [[_ H]|(-> & Hr & Hw & pads & Hp & ->)]; [exact H|].
  split; [reflexivity|]. split; [reflexivity|]. intros cu rest _.
  destruct (block_roundtrip_wp v false pads cu rest Hr Hw Hp) as (tk & cu' & E & Ek & _ & Ev & _).
  exists tk, cu'. auto.
Qed.

(* every piece of d is valid *)
Definition V (d : doc) : Prop := Forall ivalid d.

Definition itoks (d : doc) : list sigtok :=
  flat_map (fun i => match i with Gap _ => [] | Lx k v _ => [(k, v)] end) d.

(* every lexeme of d that is not a punctuator is followed (in d, then k) by a safe character *)
Fixpoint sepk (d : doc) (k : list N) : Prop :=
  match d with
  | [] => True
  | Gap _ :: r => sepk r k
  | Lx kd _ _ :: r => (is_punct_kind kd = true \/ follow_ok (flat r ++ k)) /\ sepk r k
  end.

Lemma lex_loop_gap g fuel cu s : Forall gapchar g -> exists cu1, lex_loop fuel cu (g ++ s) = lex_loop fuel cu1 s.
Proof.
  intros Hg. destruct fuel as [|f]; [exists cu; reflexivity|]. cbn [lex_loop].
  assert (R : exists cu1, read_token cu (g ++ s) = read_token cu1 s).
  { revert cu. induction Hg as [|c g [->|[->| ->]] _ IH]; intros cu; [exists cu; reflexivity|..];
      cbn [app]; apply IH. }
  destruct R as (cu1 & ->). exists cu1. reflexivity.
Qed.

Lemma flat_app a b : flat (a ++ b) = flat a ++ flat b.
Proof. unfold flat. apply flat_map_app. Qed.

Lemma itoks_app a b : itoks (a ++ b) = itoks a ++ itoks b.
Proof. unfold itoks. apply flat_map_app. Qed.

Lemma lex_items_loop d : V d -> sepk d [] -> forall fuel cu, (length (flat d) < fuel)%nat ->
  exists ts, lex_loop fuel cu (flat d) = Ok ts /\
             map tok_sig (significant ts) = itoks d ++ [(K_EOF, [])].
Proof.
  induction d as [|i r IH]; intros Hv Hs fuel cu Hf.
  - destruct fuel; [lia|]. cbn [flat flat_map lex_loop]. rewrite eof_token_nil. cbn [mk tkind].
    change (K_EOF =? K_EOF) with true. cbv iota. eexists. split; reflexivity.
  - inversion Hv as [|? ? Hi Hr]; subst. destruct i as [g|k v lx].
    + change (flat (Gap g :: r)) with (g ++ flat r) in *.
      destruct (lex_loop_gap g fuel cu (flat r) Hi) as (cu1 & ->).
      apply IH; [exact Hr|exact Hs|]. rewrite app_length in Hf. lia.
    + change (flat (Lx k v lx :: r)) with (lx ++ flat r) in *. cbn [sepk] in Hs. destruct Hs as [Hs1 Hs2].
      rewrite app_nil_r in Hs1.
      destruct (ivalid_lexeme _ _ _ Hi) as (Hk1 & Hk2 & HL).
      destruct (HL cu (flat r) Hs1) as (tk & cu' & E & Ek & Ev).
      destruct fuel as [|f]; [lia|]. cbn [lex_loop]. rewrite E, Ek, Hk1.
      pose proof (lexeme_nonempty _ _ _ (ivalid_lexeme _ _ _ Hi)) as Hne.
      destruct (IH Hr Hs2 f cu') as (ts & El & Hsig).
      { rewrite app_length in Hf. destruct lx; [congruence|]. cbn [length] in Hf. lia. }
      rewrite El. eexists. split; [reflexivity|].
      unfold significant. cbn [filter]. rewrite Ek, Hk2. cbn [negb map]. fold (significant ts).
      rewrite Hsig. unfold tok_sig at 1. rewrite Ek, Ev. reflexivity.
Qed.

Theorem lex_items d : V d -> sepk d [] ->
  exists ts, lex (flat d) = Ok ts /\ map tok_sig (significant ts) = itoks d ++ [(K_EOF, [])].
Proof. intros Hv Hs. unfold lex. apply lex_items_loop; auto. Qed.

Definition is_name (v : list N) : bool :=
  match v with c :: b => is_name_start c && forallb is_name_continue b | [] => false end.

Lemma lexeme_of_lexeme tk lx : lexeme_of tk lx [] ->
  (tkind tk =? K_EOF) = false -> (tkind tk =? K_COMMENT) = false -> (tkind tk =? K_BLOCK_STRING) = false ->
  lexeme_for (tkind tk) (tvalue tk) lx.
Proof.
  intros HL H1 H2 H3. split; [exact H1|]. split; [exact H2|]. intros cu rest Hf.
  pose proof (relex0 tk lx [] HL H2 cu rest Hf) as R. unfold retext in R. rewrite H3 in R.
  destruct R as (tk2 & cu2 & E & Ek & Ev & _). exists tk2, cu2. rewrite Ek, Ev. auto.
Qed.

Lemma not_ignored_not_lf c : is_ignored_char c = false -> (c =? LF) = false.
Proof.
  unfold is_ignored_char. intros H. apply orb_false_iff in H as [H _]. apply orb_false_iff in H as [_ H]. exact H.
Qed.

Lemma name_lexeme v : is_name v = true -> lexeme_for K_NAME v v /\ nolf v.
Proof.
  destruct v as [|c b]; [discriminate|]. cbn [is_name]. intros H. apply andb_true_iff in H as [Hc Hb].
  rewrite forallb_forall in Hb.
  assert (Hb' : Forall (fun x => is_name_continue x = true) b) by (apply Forall_forall; exact Hb).
  split.
  - apply (lexeme_of_lexeme (mkTok K_NAME 0 0 0 0 true (c :: b)) (c :: b)); try reflexivity.
    eapply L_name; eauto; reflexivity.
  - constructor.
    + destruct (range_not_punct c) as (_ & _ & _ & E); [apply name_start_range in Hc; lia|].
      apply not_ignored_not_lf, E.
    + eapply Forall_impl; [|exact Hb']. intros x Hx. apply not_ignored_not_lf, name_continue_not_ignored, Hx.
Qed.

Lemma punct_lexeme c k : punct_kind c = Some k -> lexeme_for k [] [c] /\ nolf [c].
Proof.
  intros H. destruct (punct_kind_some _ _ H) as (Hin & _ & _ & E1 & E2 & E3). split.
  - apply (lexeme_of_lexeme (mkTok k 0 0 0 0 false []) [c]); auto.
    eapply L_punct; eauto.
  - constructor; [|constructor]. apply punct_char_facts in Hin. destruct Hin as (_ & _ & Hi & _).
    apply not_ignored_not_lf, Hi.
Qed.

Lemma spread_lexeme : lexeme_for K_SPREAD [] [46; 46; 46].
Proof.
  apply (lexeme_of_lexeme (mkTok K_SPREAD 0 0 0 0 false []) [46; 46; 46]); try reflexivity.
  apply L_spread; reflexivity.
Qed.

(* lx alone is exactly the token (k, v) *)
Definition alone (k : N) (v lx : list N) : bool :=
  match read_token init_cursor lx with
  | Ok (tk, _, []) => (tkind tk =? k) && nat_list_eqb (tvalue tk) v && Nat.eqb (tstart tk) 0
  | _ => false
  end.

Lemma alone_lexeme k v lx : alone k v lx = true ->
  (k =? K_EOF) = false -> (k =? K_COMMENT) = false -> (k =? K_BLOCK_STRING) = false -> lexeme_for k v lx.
Proof.
  unfold alone. destruct (read_token init_cursor lx) as [[[tk cu'] r]| | |] eqn:E; try discriminate.
  destruct r; [|discriminate]. intros H H1 H2 H3.
  apply andb_true_iff in H as [H Hs]. apply andb_true_iff in H as [Hk Hv].
  apply N.eqb_eq in Hk. apply nat_list_eqb_eq in Hv. apply Nat.eqb_eq in Hs. subst k v.
  destruct (read_token_ana _ _ _ _ _ E) as (g & lx0 & Es & _ & Hst & _ & _ & Hcls).
  rewrite H1 in Hcls. cbn [cpos init_cursor] in Hst.
  assert (g = []) by (destruct g; [reflexivity|cbn in Hst; lia]). subst g.
  rewrite app_nil_r in Es. cbn [app] in Es. subst lx0.
  apply lexeme_of_lexeme; assumption.
Qed.

Lemma number_nolf k v lx : alone k v lx = true -> (k = K_INT \/ k = K_FLOAT) -> nolf lx.
Proof.
  unfold alone. destruct (read_token init_cursor lx) as [[[tk cu'] r]| | |] eqn:E; try discriminate.
  destruct r; [|discriminate]. intros H Hk.
  apply andb_true_iff in H as [H Hs]. apply andb_true_iff in H as [Hk' _].
  apply N.eqb_eq in Hk'. apply Nat.eqb_eq in Hs.
  destruct (read_token_ana _ _ _ _ _ E) as (g & lx0 & Es & _ & Hst & _ & _ & Hcls).
  cbn [cpos init_cursor] in Hst.
  assert (g = []) by (destruct g; [reflexivity|cbn in Hst; lia]). subst g.
  rewrite app_nil_r in Es. cbn [app] in Es. subst lx0.
  replace (tkind tk =? K_EOF) with false in Hcls by (rewrite Hk'; destruct Hk as [->| ->]; reflexivity).
  assert (Hni : Forall (fun c => is_ignored_char c = false) lx).
  { apply (lexeme_no_ignored tk lx [] Hcls); rewrite Hk'; destruct Hk as [->| ->]; discriminate. }
  eapply Forall_impl; [|exact Hni]. intros c Hc. apply not_ignored_not_lf, Hc.
Qed.

Lemma print_string_lexeme s : scalars s -> lexeme_for K_STRING s (print_string s) /\ nolf (print_string s).
Proof.
  intros Hs. unfold print_string.
  set (body := print_string_body s).
  assert (R : forall fuel pos tail, (length (body ++ 34%N :: tail) < fuel)%nat ->
              read_string_loop fuel pos [] (body ++ 34 :: tail) = Ok ((pos + length body + 1)%nat, s, tail)).
  { intros fuel pos tail Hf. exact (read_printed fuel s pos [] tail Hs Hf). }
  split.
  - apply (lexeme_of_lexeme (mkTok K_STRING 0 0 0 0 true s) (34 :: body ++ [34])); try reflexivity.
    eapply (L_string _ _ _ (body ++ [34])); try reflexivity.
    + intros E. apply app_eq_nil in E as [_ E]. discriminate.
    + rewrite app_nil_r. destruct body as [|c b] eqn:Eb; [reflexivity|].
      destruct (c =? 34) eqn:Ec.
      * exfalso. specialize (R (S (length ((c :: b) ++ [34]))) 0%nat [] ltac:(lia)).
        cbn [app read_string_loop] in R. rewrite Ec in R. inversion R. cbn [length] in *. lia.
      * cbn [app]. destruct (b ++ [34]); cbn [starts2]; rewrite ?Ec; reflexivity.
    + intros fuel2 pos2 r2 Hf. cbn [tvalue]. rewrite <- app_assoc in *. cbn [app] in *.
      rewrite R by exact Hf. rewrite app_length. cbn [length]. f_equal. f_equal. f_equal. lia.
  - assert (C : clean (body ++ [34])).
    { pose proof (R (S (length (body ++ [34]))) 0%nat [] ltac:(lia)) as E.
      apply read_string_loop_clean in E as [E _].
      replace (0 + length body + 1 - 0)%nat with (length (body ++ [34])) in E by (rewrite app_length; cbn; lia).
      rewrite firstn_all in E. exact E. }
    constructor; [reflexivity|]. eapply Forall_impl; [|exact C]. intros c Hc. unfold is_lt in Hc.
    apply orb_false_iff in Hc as [Hc _]. exact Hc.
Qed.

(* the lexemes of d are separated: A in front of a text that starts safely, closedP in front of any
   text; sokP: d in front of a safe start is a safe start, ssokP: d is a safe start by itself *)
Definition A (d : doc) : Prop := forall k, follow_ok k -> sepk d k.
Definition closedP (d : doc) : Prop := forall k, sepk d k.
Definition sokP (d : doc) : Prop := forall k, follow_ok k -> follow_ok (flat d ++ k).
Definition ssokP (d : doc) : Prop := forall k, follow_ok (flat d ++ k).
(* d is a good rendering of the tokens t *)
Definition G (d : doc) (t : list sigtok) : Prop := V d /\ A d /\ itoks d = t.

Lemma sepk_app a b k : sepk a (flat b ++ k) -> sepk b k -> sepk (a ++ b) k.
Proof.
  induction a as [|i r IH]; intros Ha Hb; [exact Hb|]. destruct i as [g|kd v lx]; cbn [app sepk] in *.
  - apply IH; assumption.
  - destruct Ha as [H1 H2]. split; [|apply IH; assumption].
    rewrite flat_app, <- app_assoc. exact H1.
Qed.

Lemma closed_A d : closedP d -> A d.
Proof. intros H k _. apply H. Qed.
Lemma A_app_r a b : A a -> A b -> sokP b -> A (a ++ b).
Proof. intros Ha Hb Hs k Hk. apply sepk_app; [apply Ha, Hs, Hk|apply Hb, Hk]. Qed.
Lemma A_app_l a b : closedP a -> A b -> A (a ++ b).
Proof. intros Ha Hb k Hk. apply sepk_app; [apply Ha|apply Hb, Hk]. Qed.
Lemma closedP_app a b : closedP a -> closedP b -> closedP (a ++ b).
Proof. intros Ha Hb k. apply sepk_app; [apply Ha|apply Hb]. Qed.
Lemma closedP_app_r a b : A a -> ssokP b -> closedP b -> closedP (a ++ b).
Proof. intros Ha Hs Hb k. apply sepk_app; [apply Ha, Hs|apply Hb]. Qed.
Lemma closedP_nil : closedP [].
Proof. intros k. exact I. Qed.
Lemma sokP_nil : sokP [].
Proof. intros k Hk. exact Hk. Qed.
Lemma sokP_app a b : sokP a -> sokP b -> sokP (a ++ b).
Proof. intros Ha Hb k Hk. rewrite flat_app, <- app_assoc. apply Ha, Hb, Hk. Qed.
Lemma ssokP_sokP d : ssokP d -> sokP d.
Proof. intros H k _. apply H. Qed.
Lemma ssokP_app a b : ssokP a -> ssokP (a ++ b).
Proof. intros Ha k. rewrite flat_app, <- app_assoc. apply Ha. Qed.
Lemma V_app a b : V a -> V b -> V (a ++ b).
Proof. unfold V. intros. apply Forall_app. split; assumption. Qed.

Lemma G_nil : G [] [].
Proof. split; [constructor|]. split; [intros k _; exact I|reflexivity]. Qed.
Lemma G_app_r a b ta tb : G a ta -> G b tb -> sokP b -> G (a ++ b) (ta ++ tb).
Proof.
  intros (Va & Aa & <-) (Vb & Ab & <-) Hs. split; [apply V_app; assumption|].
  split; [apply A_app_r; assumption|apply itoks_app].
Qed.
Lemma G_app_l a b ta tb : G a ta -> closedP a -> G b tb -> G (a ++ b) (ta ++ tb).
Proof.
  intros (Va & Aa & <-) Hc (Vb & Ab & <-). split; [apply V_app; assumption|].
  split; [apply A_app_l; assumption|apply itoks_app].
Qed.
Lemma G_eq d t t' : G d t -> t = t' -> G d t'.
Proof. intros H <-. exact H. Qed.

Lemma truthy_false d : truthy d = false -> flat d = [].
Proof. unfold truthy. destruct (flat d); [reflexivity|discriminate]. Qed.
Lemma truthy_true d : truthy d = true -> flat d <> [].
Proof. unfold truthy. destruct (flat d); discriminate. Qed.

Lemma empty_no_tokens d : V d -> flat d = [] -> itoks d = [].
Proof.
  induction 1 as [|i r Hi _ IH]; [reflexivity|]. destruct i as [g|k v lx].
  - change (flat (Gap g :: r)) with (g ++ flat r). intros E. apply app_eq_nil in E as [_ E]. exact (IH E).
  - change (flat (Lx k v lx :: r)) with (lx ++ flat r). intros E. apply app_eq_nil in E as [E _].
    exfalso. exact (lexeme_nonempty _ _ _ (ivalid_lexeme _ _ _ Hi) E).
Qed.

Lemma G_truthy d t : G d t -> t <> [] -> truthy d = true.
Proof.
  intros (Hv & _ & <-) Ht. destruct (truthy d) eqn:E; [reflexivity|].
  exfalso. apply Ht. apply empty_no_tokens; [exact Hv|apply truthy_false, E].
Qed.
Lemma G_falsy d t : G d t -> truthy d = false -> t = [].
Proof. intros (Hv & _ & <-) E. apply empty_no_tokens; [exact Hv|apply truthy_false, E]. Qed.

Definition safe_charb (c : N) : bool := is_ignored_char c || existsb (N.eqb c) punct_chars.
Lemma safe_charb_ok c r : safe_charb c = true -> follow_ok (c :: r).
Proof.
  unfold safe_charb. intros H. apply orb_true_iff in H as [H|H]; [left; exact H|right].
  apply existsb_exists in H as (x & Hin & E). apply N.eqb_eq in E. subst x. exact Hin.
Qed.
Definition ssokb (d : doc) : bool := match flat d with c :: _ => safe_charb c | [] => false end.
Lemma ssokb_ok d : ssokb d = true -> ssokP d.
Proof.
  unfold ssokb. intros H k. destruct (flat d) as [|c t]; [discriminate|]. apply safe_charb_ok, H.
Qed.
Fixpoint closedb (d : doc) : bool :=
  match d with
  | [] => true
  | Gap _ :: r => closedb r
  | Lx k _ _ :: r => (is_punct_kind k || ssokb r) && closedb r
  end.
Lemma closedb_ok d : closedb d = true -> closedP d.
Proof.
  induction d as [|i r IH]; intros H k; [exact I|]. destruct i as [g|kd v lx]; cbn [closedb sepk] in *.
  - apply IH, H.
  - apply andb_true_iff in H as [H1 H2]. split; [|apply IH, H2].
    apply orb_true_iff in H1 as [H1|H1]; [left; exact H1|right; apply (ssokb_ok _ H1)].
Qed.
(* A, for literals that end with a keyword *)
Fixpoint openb (d : doc) : bool :=
  match d with
  | [] => true
  | Gap _ :: r => openb r
  | Lx k _ _ :: r => (is_punct_kind k || ssokb r || match flat r with [] => true | _ => false end) && openb r
  end.
Lemma openb_ok d : openb d = true -> A d.
Proof.
  induction d as [|i r IH]; intros H k Hk; [exact I|]. destruct i as [g|kd v lx]; cbn [openb sepk] in *.
  - apply IH; assumption.
  - apply andb_true_iff in H as [H1 H2]. split; [|apply IH; assumption].
    apply orb_true_iff in H1 as [H1|H1].
    + apply orb_true_iff in H1 as [H1|H1]; [left; exact H1|right; apply (ssokb_ok _ H1)].
    + right. destruct (flat r); [exact Hk|discriminate].
Qed.

Definition gapcharb (c : N) : bool := (c =? 32) || (c =? LF) || (c =? 44).
Definition litb (i : item) : bool :=
  match i with
  | Gap g => forallb gapcharb g
  | Lx k v lx =>
    match v, lx with
    | [], [c] => match punct_kind c with Some k' => k' =? k | None => false end
    | _, _ => false
    end
    || ((k =? K_SPREAD) && nat_list_eqb v [] && nat_list_eqb lx [46; 46; 46])
    || ((k =? K_NAME) && nat_list_eqb v lx && is_name v)
  end.
Lemma litb_ok i : litb i = true -> ivalid i.
Proof.
  destruct i as [g|k v lx]; cbn [litb ivalid].
  - intros H. rewrite forallb_forall in H. apply Forall_forall. intros c Hc. specialize (H c Hc).
    unfold gapcharb in H. unfold gapchar.
    apply orb_true_iff in H as [H|H]; [apply orb_true_iff in H as [H|H]|]; apply N.eqb_eq in H; auto.
  - intros H. left. apply orb_true_iff in H as [H|H]; [apply orb_true_iff in H as [H|H]|].
    + destruct v; [|discriminate]. destruct lx as [|c [|? ?]]; try discriminate.
      destruct (punct_kind c) as [k'|] eqn:E; [|discriminate]. apply N.eqb_eq in H. subst k'.
      destruct (punct_lexeme c k E). split; assumption.
    + apply andb_true_iff in H as [H H3]. apply andb_true_iff in H as [H1 H2].
      apply N.eqb_eq in H1. apply nat_list_eqb_eq in H2, H3. subst. split; [repeat constructor|apply spread_lexeme].
    + apply andb_true_iff in H as [H H3]. apply andb_true_iff in H as [H1 H2].
      apply N.eqb_eq in H1. apply nat_list_eqb_eq in H2. subst. destruct (name_lexeme lx H3). split; assumption.
Qed.
Lemma lit_V d : forallb litb d = true -> V d.
Proof. intros H. rewrite forallb_forall in H. apply Forall_forall. intros i Hi. apply litb_ok, H, Hi. Qed.
Lemma G_lit d : forallb litb d = true -> openb d = true -> G d (itoks d).
Proof. intros H1 H2. split; [apply lit_V, H1|]. split; [apply openb_ok, H2|reflexivity]. Qed.

Lemma wrap_true start d stop : truthy d = true -> wrap start d stop = start ++ d ++ stop.
Proof. unfold wrap. intros ->. reflexivity. Qed.
Lemma wrap_false start d stop : truthy d = false -> wrap start d stop = [].
Proof. unfold wrap. intros ->. reflexivity. Qed.

Lemma G_wrap start d stop ts td te :
  G start ts -> closedP start -> G d td -> G stop te -> sokP stop -> td <> [] ->
  G (wrap start d stop) (ts ++ td ++ te).
Proof.
  intros Hs Hc Hd He Hse Hne. rewrite wrap_true by (eapply G_truthy; eauto).
  apply G_app_l; [exact Hs|exact Hc|]. apply G_app_r; assumption.
Qed.

Lemma closedP_wrap start d stop :
  closedP start -> A d -> closedP stop -> ssokP stop -> closedP (wrap start d stop).
Proof.
  intros Hs Hd Hc Hss. unfold wrap. destruct (truthy d); [|apply closedP_nil].
  apply closedP_app; [exact Hs|]. apply closedP_app_r; assumption.
Qed.

Lemma sokP_wrap start d stop : ssokP start -> sokP (wrap start d stop).
Proof.
  intros H. unfold wrap. destruct (truthy d); [|apply sokP_nil]. apply ssokP_sokP, ssokP_app, H.
Qed.

Fixpoint intercalate (ts : list sigtok) (tl : list (list sigtok)) : list sigtok :=
  match tl with
  | [] => []
  | [t] => t
  | t :: r => t ++ ts ++ intercalate ts r
  end.

Lemma G_join_ne sep ts parts tl : G sep ts -> closedP sep -> ssokP sep ->
  Forall2 G parts tl -> G (join_ne sep parts) (intercalate ts tl).
Proof.
  intros Hsep Hc Hs. induction 1 as [|p t parts tl Hp Hr IH]; [apply G_nil|].
  destruct parts as [|q parts'].
  - inversion Hr; subst. exact Hp.
  - destruct tl as [|t' tl']; [inversion Hr|]. cbn [join_ne intercalate].
    apply G_app_r; [exact Hp| |].
    + apply G_app_l; [exact Hsep|exact Hc|exact IH].
    + apply ssokP_sokP, ssokP_app, Hs.
Qed.

(* with a separator that carries no token: the empty parts disappear without trace *)
Lemma G_join_gap sep parts tl : G sep [] -> closedP sep -> ssokP sep ->
  Forall2 G parts tl -> G (join sep parts) (concat tl).
Proof.
  intros Hsep Hc Hs. unfold join. induction 1 as [|p t parts tl Hp Hr IH]; [apply G_nil|].
  cbn [filter concat]. destruct (truthy p) eqn:Et.
  - destruct (filter truthy parts) as [|q r'] eqn:Ef.
    + cbn [join_ne] in *. destruct IH as (_ & _ & IH). cbn [itoks flat_map] in IH. rewrite <- IH, app_nil_r. exact Hp.
    + cbn [join_ne]. apply G_app_r; [exact Hp| |apply ssokP_sokP, ssokP_app, Hs].
      apply (G_app_l sep _ [] _ Hsep Hc IH).
  - rewrite (G_falsy _ _ Hp Et). exact IH.
Qed.

(* with a separator that carries tokens, for parts that all print something *)
Lemma G_join_tok sep ts parts tl : G sep ts -> closedP sep -> ssokP sep ->
  Forall2 G parts tl -> Forall (fun t => t <> []) tl -> G (join sep parts) (intercalate ts tl).
Proof.
  intros Hsep Hc Hs H2 Hne. unfold join.
  replace (filter truthy parts) with parts; [apply G_join_ne; assumption|].
  clear Hsep Hc Hs. induction H2 as [|p t parts tl Hp _ IH]; [reflexivity|].
  inversion Hne; subst. cbn [filter]. rewrite (G_truthy _ _ Hp) by assumption. f_equal. apply IH. assumption.
Qed.

Lemma flat_indent p d : flat (map (indent_item p) d) = indent_by p (flat d).
Proof.
  induction d as [|i r IH]; [reflexivity|]. cbn [map]. change (flat (?x :: ?y)) with (item_text x ++ flat y).
  rewrite indent_by_app, IH. destruct i; reflexivity.
Qed.
Lemma itoks_indent p d : itoks (map (indent_item p) d) = itoks d.
Proof.
  induction d as [|i r IH]; [reflexivity|]. unfold itoks in *. cbn [map flat_map]. rewrite IH.
  destruct i; reflexivity.
Qed.
Lemma indent_by_nil_iff p x : indent_by p x = [] <-> x = [].
Proof. destruct x as [|c t]; [tauto|]. cbn. destruct (c =? LF); split; discriminate. Qed.
Lemma truthy_indent p d : truthy (map (indent_item p) d) = truthy d.
Proof.
  unfold truthy. rewrite flat_indent. destruct (flat d) as [|c t]; [reflexivity|].
  cbn. destruct (c =? LF); reflexivity.
Qed.
Lemma follow_ok_indent p x k : follow_ok (indent_by p x ++ k) <-> follow_ok (x ++ k).
Proof.
  destruct x as [|c t]; [tauto|]. cbn [indent_by]. destruct (c =? LF) eqn:E; [|tauto].
  apply N.eqb_eq in E. subst c. cbn. tauto.
Qed.
Lemma sepk_indent p d k : sepk d k -> sepk (map (indent_item p) d) k.
Proof.
  induction d as [|i r IH]; intros H; [exact I|]. destruct i as [g|kd v lx]; cbn [map indent_item sepk] in *.
  - apply IH, H.
  - destruct H as [H1 H2]. split; [|apply IH, H2]. destruct H1 as [H1|H1]; [left; exact H1|right].
    rewrite flat_indent. apply follow_ok_indent. exact H1.
Qed.
Lemma indent_all_snoc pads p s : indent_all (pads ++ [p]) s = indent_by p (indent_all pads s).
Proof. revert s. induction pads as [|q r IH]; intros s; [reflexivity|]. cbn [app indent_all]. apply IH. Qed.

Definition spaces (p : list N) : Prop := Forall (fun c => c = 32) p.
Lemma spaces_blanks p : spaces p -> blanks p.
Proof. apply Forall_impl. intros c ->. reflexivity. Qed.
Lemma gap_indent p g : spaces p -> Forall gapchar g -> Forall gapchar (indent_by p g).
Proof.
  intros Hp. induction 1 as [|c g Hc _ IH]; [constructor|]. cbn [indent_by].
  destruct (c =? LF) eqn:E.
  - constructor; [right; left; reflexivity|]. apply Forall_app. split; [|exact IH].
    eapply Forall_impl; [|exact Hp]. intros x ->. left. reflexivity.
  - constructor; assumption.
Qed.
Lemma V_indent p d : spaces p -> V d -> V (map (indent_item p) d).
Proof.
  intros Hp. induction 1 as [|i r Hi _ IH]; [constructor|]. constructor; [|exact IH].
  destruct i as [g|k v lx]; cbn [indent_item ivalid] in *.
  - apply gap_indent; assumption.
  - destruct Hi as [[Hn HL]|(Hk & Hr & Hw & pads & Hpads & ->)].
    + left. rewrite indent_by_nolf by exact Hn. split; assumption.
    + right. split; [exact Hk|]. split; [exact Hr|]. split; [exact Hw|]. exists (pads ++ [p]).
      split; [apply Forall_app; split; [exact Hpads|constructor; [apply spaces_blanks, Hp|constructor]]|].
      apply eq_sym, indent_all_snoc.
Qed.

Lemma G_indent_map p d t : spaces p -> G d t -> G (map (indent_item p) d) t.
Proof.
  intros Hp (Hv & Ha & <-). split; [apply V_indent; assumption|].
  split; [intros k Hk; apply sepk_indent, Ha, Hk|apply itoks_indent].
Qed.

Lemma spaces_pad2 : spaces pad2.
Proof. repeat constructor. Qed.

Lemma G_indent d t : G d t -> G (indent d) t.
Proof.
  intros H. unfold indent, wrap. rewrite truthy_indent. destruct (truthy d) eqn:E.
  - rewrite app_nil_r. apply (G_app_l [Gap pad2] _ [] t).
    + apply G_lit; reflexivity.
    + apply closedb_ok. reflexivity.
    + apply G_indent_map; [apply spaces_pad2|exact H].
  - rewrite (G_falsy _ _ H E). apply G_nil.
Qed.

Lemma truthy_indent_doc d : truthy (indent d) = truthy d.
Proof.
  unfold indent, wrap. rewrite truthy_indent. destruct (truthy d); reflexivity.
Qed.

Lemma G_block parts tl : Forall2 G parts tl -> concat tl <> [] ->
  G (block parts) (pt K_BRACE_L :: concat tl ++ [pt K_BRACE_R]).
Proof.
  intros H Hne. unfold block.
  assert (Hj : G (indent (join [nl] parts)) (concat tl)).
  { apply G_indent. apply G_join_gap; [apply G_lit; reflexivity|apply closedb_ok; reflexivity|
                                      apply ssokb_ok; reflexivity|exact H]. }
  apply (G_wrap [p_lbrace; nl] _ [nl; p_rbrace] [pt K_BRACE_L] (concat tl) [pt K_BRACE_R]).
  - apply G_lit; reflexivity.
  - apply closedb_ok. reflexivity.
  - exact Hj.
  - apply G_lit; reflexivity.
  - apply ssokP_sokP, ssokb_ok. reflexivity.
  - exact Hne.
Qed.

(* a block-flagged string value must be in the range of the lexer's block-string denotation
   (C08_block_range_char), with surrogates, if any, in lead-trail pairs *)
Definition block_ok (s : list N) : Prop := in_block_range s = true /\ lines_wp (split_lf s).

Definition leaf_ok (k : nkind) (attrs : list attr) : Prop :=
  match k, attrs with
  | KName, [AStr v] => is_name v = true
  | KIntValue, [AStr s] => alone K_INT s s = true
  | KFloatValue, [AStr s] => alone K_FLOAT s s = true
  | KEnumValue, [AStr s] => is_name s = true
  | KStringValue, [AStr s; ABool b] => if b then block_ok s else scalars s
  | _, _ => True
  end.

(* every name is a Name lexeme, every Int / Float value an Int / Float lexeme, every quoted string
   value a string of Unicode scalar values, every block string value in the lexer's range *)
Fixpoint lex_ok (n : node) : Prop :=
  match n with
  | Nd k attrs =>
    leaf_ok k attrs /\
    fold_right and True
      (map (fun a => match a with
                     | ANode m => lex_ok m
                     | AList l => fold_right and True (map lex_ok l)
                     | _ => True
                     end) attrs)
  end.

Lemma all_ok l : fold_right and True (map lex_ok l) <-> Forall lex_ok l.
Proof.
  induction l as [|x l IH]; cbn; [split; auto|]. rewrite IH. split.
  - intros [H1 H2]. constructor; assumption.
  - intros H. inversion H; auto.
Qed.

(* the printed attributes *)
Definition pa (a : attr) : pattr :=
  match a with
  | ANone => PNone
  | ANode m => PDoc (pp_doc m)
  | AList l => PList (map pp_doc l)
  | AStr s => PStr s
  | ABool b => PBool b
  | AEnum c => PEnum c
  end.
Lemma pp_doc_eq k attrs : pp_doc (Nd k attrs) = leave k (map pa attrs).
Proof. reflexivity. Qed.

Lemma G_single k v lx : ivalid (Lx k v lx) -> G [Lx k v lx] [(k, v)].
Proof.
  intros H. split; [constructor; [exact H|constructor]|]. split; [|reflexivity].
  intros r Hr. cbn. split; [right; exact Hr|exact I].
Qed.

Lemma G_kw s : is_name s = true -> G (kw s) [nm s].
Proof. intros H. apply G_single. left. destruct (name_lexeme s H). split; assumption. Qed.

Lemma G_name n : wf_name n -> lex_ok n -> G (pp_doc n) (toks_name n).
Proof. intros [v] [Hv _]. cbn in Hv. apply G_kw, Hv. Qed.

(* concat / flat_map *)
Lemma Forall2_map_G (Pn : node -> Prop) (f : node -> list sigtok) l :
  (forall x, Pn x -> lex_ok x -> G (pp_doc x) (f x)) ->
  Forall Pn l -> Forall lex_ok l -> Forall2 G (map pp_doc l) (map f l).
Proof.
  intros H. induction 1 as [|x l Hx _ IH]; intros Hok; [constructor|].
  inversion Hok; subst. constructor; [apply H; assumption|apply IH; assumption].
Qed.

Ltac lit := first [apply G_lit; reflexivity | apply closedb_ok; reflexivity | apply ssokb_ok; reflexivity
                  | apply ssokP_sokP, ssokb_ok; reflexivity | apply closed_A, closedb_ok; reflexivity
                  | apply sokP_nil | apply closedP_nil ].

Lemma G_name_colon n d t : wf_name n -> lex_ok n -> G d t ->
  G (pp_doc n ++ colon_sp ++ d) (toks_name n ++ [pt K_COLON] ++ t).
Proof.
  intros Hn Hok Hd. apply G_app_r; [apply G_name; assumption| |lit]. apply G_app_l; [lit|lit|exact Hd].
Qed.

Lemma G_value_all c :
  (forall v, wf_value c v -> lex_ok v -> G (pp_doc v) (toks_value v)) /\
  (forall l, wf_values c l -> Forall lex_ok l -> Forall2 G (map pp_doc l) (map toks_value l)) /\
  (forall fs, wf_object_fields c fs -> Forall lex_ok fs ->
              Forall2 G (map pp_doc fs) (map toks_object_field fs)).
Proof.
  apply wf_value_mutind.
  - (* variable *) intros n _ Hn [_ [Hok _]].
    change (pp_doc (Nd KVariable [ANode n])) with ([p_dollar] ++ pp_doc n).
    change (toks_value (Nd KVariable [ANode n])) with ([pt K_DOLLAR] ++ toks_name n).
    apply G_app_l; [lit|lit|apply G_name; assumption].
  - intros s [Hs _]. cbn in Hs. apply G_single. left. split.
    + eapply number_nolf; [exact Hs|left; reflexivity].
    + apply alone_lexeme; [exact Hs|reflexivity..].
  - intros s [Hs _]. cbn in Hs. apply G_single. left. split.
    + eapply number_nolf; [exact Hs|right; reflexivity].
    + apply alone_lexeme; [exact Hs|reflexivity..].
  - intros s b [Hs _]. cbn in Hs. destruct b.
    + apply G_single. right. destruct Hs as [H1 H2]. split; [reflexivity|]. split; [exact H1|]. split; [exact H2|].
      exists []. split; [constructor|reflexivity].
    + apply G_single. left. destruct (print_string_lexeme s Hs). split; assumption.
  - intros b _. destruct b; apply G_kw; reflexivity.
  - intros _. apply G_kw. reflexivity.
  - intros s _ [Hs _]. cbn in Hs. apply G_kw, Hs.
  - (* list *) intros l _ IH [_ [Hok _]]. apply all_ok in Hok. specialize (IH Hok).
    rewrite pp_doc_eq. cbn [map pa leave pl]. cbv zeta. cbn [toks_value]. rewrite flat_map_concat_map.
    match goal with |- G (if ?b then _ else _) _ => destruct b end.
    + change (?x :: ?y ++ ?z) with ([x] ++ y ++ z).
      apply (G_app_l [p_lbracket; nl] _ [pt K_BRACKET_L]); [lit|lit|].
      apply G_app_r; [|lit|lit]. apply G_indent. apply G_join_gap; [lit|lit|lit|exact IH].
    + change (?x :: ?y ++ ?z) with ([x] ++ y ++ z).
      apply (G_app_l [p_lbracket] _ [pt K_BRACKET_L]); [lit|lit|].
      apply G_app_r; [|lit|lit]. apply G_join_gap; [lit|lit|lit|exact IH].
  - (* object *) intros fs Hwf IH [_ [Hok _]]. apply all_ok in Hok. specialize (IH Hok).
    rewrite pp_doc_eq. cbn [map pa leave pl]. cbv zeta.
    change (toks_value (Nd KObjectValue [AList fs]))
      with ([pt K_BRACE_L] ++ flat_map toks_object_field fs ++ [pt K_BRACE_R]).
    rewrite flat_map_concat_map.
    match goal with |- G (if ?b then _ else _) _ => destruct b eqn:Eb end.
    + destruct fs as [|f fs']; [cbn in Eb; discriminate|]. apply G_block; [exact IH|].
      cbn [map concat]. inversion Hwf; subst. intros E. apply app_eq_nil in E as [E _].
      cbn [toks_object_field] in E. apply app_eq_nil in E as [_ E]. discriminate.
    + apply (G_app_l [p_lbrace; sp] _ [pt K_BRACE_L]); [lit|lit|].
      apply G_app_r; [|lit|lit]. apply G_join_gap; [lit|lit|lit|exact IH].
  - constructor.
  - intros v l _ IHv _ IHl Hok. inversion Hok; subst. constructor; [apply IHv; assumption|apply IHl; assumption].
  - constructor.
  - intros n v fs Hn _ IHv _ IHfs Hok. inversion Hok as [|? ? Hf Hr]; subst.
    constructor; [|apply IHfs; assumption].
    destruct Hf as [_ [Hn' [Hv' _]]]. exact (G_name_colon n _ _ Hn Hn' (IHv Hv')).
Qed.

Definition attr_ok (a : attr) : Prop :=
  match a with
  | ANode m => lex_ok m
  | AList l => fold_right and True (map lex_ok l)
  | _ => True
  end.

Definition alist (a : attr) : list node := match a with AList l => l | _ => [] end.

Lemma pl_pa a : pl (pa a) = map pp_doc (alist a).
Proof. destruct a; reflexivity. Qed.

Lemma nelist_parts (Pn : node -> Prop) f a :
  (forall x, Pn x -> lex_ok x -> G (pp_doc x) (f x)) -> wf_nelist Pn a -> attr_ok a ->
  Forall2 G (pl (pa a)) (map f (alist a)).
Proof.
  intros H W Hok. rewrite pl_pa. destruct W as [|x l Hx Hl]; [constructor|]. cbn [alist].
  apply all_ok in Hok. apply (Forall2_map_G Pn f (x :: l) H); [constructor; assumption|exact Hok].
Qed.

Lemma toks_block_eq o f c a (Pn : node -> Prop) : wf_nelist Pn a ->
  toks_block o f c a = match alist a with [] => [] | l => pt o :: concat (map f l) ++ [pt c] end.
Proof. intros [|x l _ _]; [reflexivity|]. cbn [toks_block alist]. rewrite <- flat_map_concat_map. reflexivity. Qed.

Lemma concat_ne (Pn : node -> Prop) (f : node -> list sigtok) x l :
  (forall y, Pn y -> f y <> []) -> Pn x -> concat (map f (x :: l)) <> [].
Proof. intros H Hx E. cbn in E. apply app_eq_nil in E as [E _]. exact (H x Hx E). Qed.

(* the three layouts of a parenthesised list *)
Lemma G_lay1 parts tl : Forall2 G parts tl -> concat tl <> [] ->
  G (wrap [p_lparen] (join comma_sp parts) [p_rparen]) (pt K_PAREN_L :: concat tl ++ [pt K_PAREN_R]).
Proof.
  intros H Hne. apply (G_wrap [p_lparen] _ [p_rparen] [pt K_PAREN_L] (concat tl) [pt K_PAREN_R]); try lit; [|exact Hne].
  apply G_join_gap; [lit|lit|lit|exact H].
Qed.
Lemma G_lay2 parts tl : Forall2 G parts tl -> concat tl <> [] ->
  G (wrap [p_lparen; nl] (indent (join [nl] parts)) [nl; p_rparen]) (pt K_PAREN_L :: concat tl ++ [pt K_PAREN_R]).
Proof.
  intros H Hne. apply (G_wrap [p_lparen; nl] _ [nl; p_rparen] [pt K_PAREN_L] (concat tl) [pt K_PAREN_R]); try lit;
    [|exact Hne].
  apply G_indent. apply G_join_gap; [lit|lit|lit|exact H].
Qed.
Lemma G_lay3 parts tl : Forall2 G parts tl -> concat tl <> [] ->
  G (wrap [p_lparen; nl] (join [nl] parts) [nl; p_rparen]) (pt K_PAREN_L :: concat tl ++ [pt K_PAREN_R]).
Proof.
  intros H Hne. apply (G_wrap [p_lparen; nl] _ [nl; p_rparen] [pt K_PAREN_L] (concat tl) [pt K_PAREN_R]); try lit;
    [|exact Hne].
  apply G_join_gap; [lit|lit|lit|exact H].
Qed.

Section AttrLayouts.
Variable Pn : node -> Prop.
Variable f : node -> list sigtok.
Hypothesis HG : forall x, Pn x -> lex_ok x -> G (pp_doc x) (f x).
Hypothesis Hne : forall x, Pn x -> f x <> [].

Lemma G_parens1 a : wf_nelist Pn a -> attr_ok a ->
  G (wrap [p_lparen] (join comma_sp (pl (pa a))) [p_rparen]) (toks_block K_PAREN_L f K_PAREN_R a).
Proof.
  intros W Hok. pose proof (nelist_parts Pn f a HG W Hok) as HP.
  rewrite (toks_block_eq _ _ _ _ Pn W). destruct W as [|x l Hx Hl]; [apply G_nil|].
  cbn [alist] in *. apply G_lay1; [exact HP|]. eapply concat_ne; eauto.
Qed.

Lemma G_def_args a : wf_nelist Pn a -> attr_ok a ->
  G (def_args (pl (pa a))) (toks_block K_PAREN_L f K_PAREN_R a).
Proof.
  intros W Hok. pose proof (nelist_parts Pn f a HG W Hok) as HP.
  rewrite (toks_block_eq _ _ _ _ Pn W). destruct W as [|x l Hx Hl]; [apply G_nil|].
  cbn [alist] in *. unfold def_args. destruct (has_multiline_items _);
    [apply G_lay2|apply G_lay1]; try exact HP; eapply concat_ne; eauto.
Qed.

Lemma G_var_defs a : wf_nelist Pn a -> attr_ok a ->
  G (if has_multiline_items (pl (pa a))
     then wrap [p_lparen; nl] (join [nl] (pl (pa a))) [nl; p_rparen]
     else wrap [p_lparen] (join comma_sp (pl (pa a))) [p_rparen]) (toks_block K_PAREN_L f K_PAREN_R a).
Proof.
  intros W Hok. pose proof (nelist_parts Pn f a HG W Hok) as HP.
  rewrite (toks_block_eq _ _ _ _ Pn W). destruct W as [|x l Hx Hl]; [apply G_nil|].
  cbn [alist] in *. destruct (has_multiline_items _);
    [apply G_lay3|apply G_lay1]; try exact HP; eapply concat_ne; eauto.
Qed.

Lemma G_wlaa prefix tp a : G prefix tp -> wf_nelist Pn a -> attr_ok a ->
  G (wrapped_line_and_args prefix (pl (pa a))) (tp ++ toks_block K_PAREN_L f K_PAREN_R a).
Proof.
  intros Hp W Hok. pose proof (nelist_parts Pn f a HG W Hok) as HP.
  rewrite (toks_block_eq _ _ _ _ Pn W). unfold wrapped_line_and_args. cbv zeta.
  destruct W as [|x l Hx Hl].
  - cbn [pa pl alist].
    change (wrap [p_lparen] (join comma_sp []) [p_rparen]) with (@nil item).
    change (wrap [p_lparen; nl] (indent (join [nl] [])) [nl; p_rparen]) with (@nil item).
    rewrite !app_nil_r. destruct (Nat.ltb _ _); exact Hp.
  - cbn [alist] in *.
    assert (N : concat (map f (x :: l)) <> []) by (eapply concat_ne; eauto).
    destruct (Nat.ltb _ _).
    + apply G_app_r; [exact Hp|apply G_lay2; assumption|]. apply sokP_wrap. lit.
    + apply G_app_r; [exact Hp|apply G_lay1; assumption|]. apply sokP_wrap. lit.
Qed.

Lemma G_block_attr a : wf_nelist Pn a -> attr_ok a ->
  G (block (pl (pa a))) (toks_block K_BRACE_L f K_BRACE_R a).
Proof.
  intros W Hok. pose proof (nelist_parts Pn f a HG W Hok) as HP.
  rewrite (toks_block_eq _ _ _ _ Pn W). destruct W as [|x l Hx Hl]; [apply G_nil|].
  cbn [alist] in *. apply G_block; [exact HP|]. eapply concat_ne; eauto.
Qed.
End AttrLayouts.

Lemma G_opt (Pn : node -> Prop) f a :
  (forall x, Pn x -> lex_ok x -> G (pp_doc x) (f x)) -> wf_opt Pn a -> attr_ok a ->
  G (pd (pa a)) (toks_opt f a).
Proof. intros H [|n Hn] Hok; [apply G_nil|]. apply H; assumption. Qed.

Lemma G_type t : wf_type t -> lex_ok t -> G (pp_doc t) (toks_type t).
Proof.
  induction 1 as [n Hn|t _ IH|n Hn|t _ IH]; intros Hok.
  - destruct Hok as [_ [Hok _]]. change (pp_doc (Nd KNamedType [ANode n])) with (pp_doc n).
    apply G_name; assumption.
  - destruct Hok as [_ [Hok _]].
    change (pp_doc (Nd KListType [ANode t])) with ([p_lbracket] ++ pp_doc t ++ [p_rbracket]).
    change (toks_type (Nd KListType [ANode t])) with ([pt K_BRACKET_L] ++ toks_type t ++ [pt K_BRACKET_R]).
    apply G_app_l; [lit|lit|]. apply G_app_r; [apply IH, Hok|lit|lit].
  - destruct Hok as [_ [[_ [Hok _]] _]].
    change (pp_doc (Nd KNonNullType [ANode (Nd KNamedType [ANode n])])) with (pp_doc n ++ [p_bang]).
    change (toks_type (Nd KNonNullType [ANode (Nd KNamedType [ANode n])])) with (toks_name n ++ [pt K_BANG]).
    apply G_app_r; [apply G_name; assumption|lit|lit].
  - destruct Hok as [_ [[_ [Hok _]] _]].
    change (pp_doc (Nd KNonNullType [ANode (Nd KListType [ANode t])]))
      with (([p_lbracket] ++ pp_doc t ++ [p_rbracket]) ++ [p_bang]).
    change (toks_type (Nd KNonNullType [ANode (Nd KListType [ANode t])]))
      with (([pt K_BRACKET_L] ++ toks_type t ++ [pt K_BRACKET_R]) ++ [pt K_BANG]).
    apply G_app_r; [|lit|lit]. apply G_app_l; [lit|lit|]. apply G_app_r; [apply IH, Hok|lit|lit].
Qed.

Lemma named_type_wf t : wf_named_type t -> wf_type t.
Proof. intros [n Hn]. constructor. exact Hn. Qed.
Lemma G_named_type t : wf_named_type t -> lex_ok t -> G (pp_doc t) (toks_type t).
Proof. intros H. apply G_type, named_type_wf, H. Qed.
Lemma toks_named_type_ne t : wf_named_type t -> toks_type t <> [].
Proof. intros H. apply toks_type_ne, named_type_wf, H. Qed.

Lemma G_argument c a : wf_argument c a -> lex_ok a -> G (pp_doc a) (toks_argument a).
Proof.
  intros [n v Hn Hv] [_ [Hn' [Hv' _]]].
  exact (G_name_colon n _ _ Hn Hn' (proj1 (G_value_all c) v Hv Hv')).
Qed.
Lemma toks_argument_ne c a : wf_argument c a -> toks_argument a <> [].
Proof. intros [n v [w] Hv]. discriminate. Qed.

Lemma G_fragment_argument a : wf_fragment_argument a -> lex_ok a -> G (pp_doc a) (toks_argument a).
Proof.
  intros [n v Hn Hv] [_ [Hn' [Hv' _]]].
  exact (G_name_colon n _ _ Hn Hn' (proj1 (G_value_all false) v Hv Hv')).
Qed.
Lemma toks_fragment_argument_ne a : wf_fragment_argument a -> toks_argument a <> [].
Proof. intros [n v [w] Hv]. discriminate. Qed.

Lemma G_directive c d : wf_directive c d -> lex_ok d -> G (pp_doc d) (toks_directive d).
Proof.
  intros [n a Hn Ha] [_ [Hn' [Ha' _]]].
  change (pp_doc (Nd KDirective [ANode n; a]))
    with ([p_at] ++ pp_doc n ++ wrap [p_lparen] (join comma_sp (pl (pa a))) [p_rparen]).
  change (toks_directive (Nd KDirective [ANode n; a])) with ([pt K_AT] ++ toks_name n ++ toks_arguments a).
  apply G_app_l; [lit|lit|]. apply G_app_r; [apply G_name; assumption| |apply sokP_wrap; lit].
  apply (G_parens1 (wf_argument c) toks_argument (G_argument c) (toks_argument_ne c)); assumption.
Qed.
Lemma toks_directive_ne c d : wf_directive c d -> toks_directive d <> [].
Proof. intros [n a _ _]. discriminate. Qed.

Lemma G_dirs c a : wf_directives c a -> attr_ok a -> G (dirs (pa a)) (toks_directives a).
Proof.
  intros W Hok. pose proof (nelist_parts _ _ a (G_directive c) W Hok) as HP.
  unfold dirs. replace (toks_directives a) with (concat (map toks_directive (alist a))).
  - apply G_join_gap; [lit|lit|lit|exact HP].
  - destruct W; [reflexivity|]. cbn [alist toks_directives toks_list]. symmetry. apply flat_map_concat_map.
Qed.

(* wrap(" ", join(directives, " ")) *)
Lemma G_sp_dirs c a : wf_directives c a -> attr_ok a ->
  G (wrap [sp] (dirs (pa a)) []) (toks_directives a) /\ sokP (wrap [sp] (dirs (pa a)) []).
Proof.
  intros W Hok. split; [|apply sokP_wrap; lit]. pose proof (G_dirs c a W Hok) as HD.
  destruct (truthy (dirs (pa a))) eqn:E.
  - rewrite wrap_true by exact E. rewrite app_nil_r. apply (G_app_l [sp] _ [] _); [lit|lit|exact HD].
  - rewrite wrap_false by exact E. rewrite (G_falsy _ _ HD E). apply G_nil.
Qed.

Lemma G_join2 a b ta tb : G a ta -> G b tb -> (closedP a \/ sokP b) -> G (join [] [a; b]) (ta ++ tb).
Proof.
  intros Ha Hb Hab. unfold join. cbn [filter]. destruct (truthy a) eqn:Ea, (truthy b) eqn:Eb; cbn [join_ne app].
  - destruct Hab as [H|H]; [apply G_app_l|apply G_app_r]; assumption.
  - rewrite (G_falsy _ _ Hb Eb), app_nil_r. exact Ha.
  - rewrite (G_falsy _ _ Ha Ea). exact Hb.
  - rewrite (G_falsy _ _ Ha Ea), (G_falsy _ _ Hb Eb). apply G_nil.
Qed.

Lemma G_join3 a b c ta tb tc : G a ta -> G b tb -> G c tc -> sokP b -> sokP c ->
  G (join [] [a; b; c]) (ta ++ tb ++ tc).
Proof.
  intros Ha Hb Hc Sb Sc. unfold join. cbn [filter].
  destruct (truthy a) eqn:Ea, (truthy b) eqn:Eb, (truthy c) eqn:Ec; cbn [join_ne app];
    rewrite ?(G_falsy _ _ Ha Ea), ?(G_falsy _ _ Hb Eb), ?(G_falsy _ _ Hc Ec), ?app_nil_r; cbn [app];
    try assumption; try apply G_nil.
  - apply G_app_r; [exact Ha|apply G_app_r; assumption|apply sokP_app; assumption].
  - apply G_app_r; assumption.
  - apply G_app_r; assumption.
  - apply G_app_r; assumption.
Qed.

Lemma fragment_name_wf n : wf_fragment_name n -> wf_name n.
Proof. intros [v _]. constructor. Qed.

(* wrap("", alias, ": ") *)
Lemma G_alias al : wf_opt wf_name al -> attr_ok al ->
  G (wrap [] (pd (pa al)) colon_sp) (match al with ANode an => toks_name an ++ [pt K_COLON] | _ => [] end) /\
  closedP (wrap [] (pd (pa al)) colon_sp).
Proof.
  intros [|an Han] Hok; [split; [apply G_nil|apply closedP_nil]|].
  cbn [pa pd]. pose proof (G_name an Han Hok) as Hn. split.
  - apply (G_wrap [] _ colon_sp [] _ [pt K_COLON]); try lit; [exact Hn|].
    apply toks_name_ne, Han.
  - apply closedP_wrap; [apply closedP_nil|apply Hn|lit|lit].
Qed.

Section Executable.
Variable xfa : bool.

Lemma G_spread_args a : wf_spread_arguments xfa a -> attr_ok a -> forall prefix tp, G prefix tp ->
  G (wrapped_line_and_args prefix (pl (pa a))) (tp ++ toks_arguments a).
Proof.
  unfold wf_spread_arguments. intros W Hok prefix tp Hp. destruct xfa.
  - apply (G_wlaa wf_fragment_argument toks_argument G_fragment_argument toks_fragment_argument_ne); assumption.
  - subst a. apply (G_wlaa wf_fragment_argument toks_argument G_fragment_argument toks_fragment_argument_ne);
      [assumption|constructor|exact I].
Qed.

Lemma toks_selection_set_unfold x l :
  toks_selection_set (Nd KSelectionSet [AList (x :: l)])
  = pt K_BRACE_L :: concat (map toks_selection (x :: l)) ++ [pt K_BRACE_R].
Proof. rewrite <- flat_map_concat_map. reflexivity. Qed.

Lemma G_selection_all :
  (forall s, wf_selection_set xfa s -> lex_ok s -> G (pp_doc s) (toks_selection_set s)) /\
  (forall l, wf_selections xfa l -> Forall lex_ok l -> Forall2 G (map pp_doc l) (map toks_selection l)) /\
  (forall x, wf_selection xfa x -> lex_ok x -> G (pp_doc x) (toks_selection x)).
Proof.
  apply wf_selection_mutind.
  - (* selection set *)
    intros x l Hx IHx Hl IHl [_ [Hok _]]. apply all_ok in Hok. inversion Hok; subst.
    rewrite toks_selection_set_unfold.
    change (pp_doc (Nd KSelectionSet [AList (x :: l)])) with (block (map pp_doc (x :: l))).
    apply G_block.
    + cbn [map]. constructor; [apply IHx; assumption|apply IHl; assumption].
    + cbn [map concat]. intros E. apply app_eq_nil in E as [E _]. exact (toks_selection_ne xfa x Hx E).
  - constructor.
  - intros x l _ IHx _ IHl Hok. inversion Hok; subst. constructor; [apply IHx; assumption|apply IHl; assumption].
  - (* field without selection set *)
    intros d n al a Hd Hn Hal Ha [_ [Hd' [Hn' [Hal' [Ha' _]]]]].
    rewrite pp_doc_eq. cbn [map leave]. cbv zeta. cbn [toks_selection].
    destruct (G_alias al Hal Hal') as [GA CA]. destruct (G_sp_dirs false d Hd Hd') as [GD SD].
    change (pd (pa ANone)) with (@nil item). change (wrap [sp] [] []) with (@nil item).
    eapply G_eq.
    { apply G_join3; [|exact GD|apply G_nil|exact SD|apply sokP_nil].
      apply (G_wlaa (wf_argument false) toks_argument (G_argument false) (toks_argument_ne false)); try assumption.
      apply G_join2; [exact GA|apply G_name; assumption|left; exact CA]. }
    rewrite <- !app_assoc. reflexivity.
  - (* field with selection set *)
    intros d n al a s Hd Hn Hal Ha Hs IHs [_ [Hd' [Hn' [Hal' [Ha' [Hs' _]]]]]].
    rewrite pp_doc_eq. cbn [map leave]. cbv zeta. cbn [toks_selection].
    destruct (G_alias al Hal Hal') as [GA CA]. destruct (G_sp_dirs false d Hd Hd') as [GD SD].
    cbn [pa pd].
    eapply G_eq.
    { apply G_join3; [|exact GD| |exact SD|apply sokP_wrap; lit].
      - apply (G_wlaa (wf_argument false) toks_argument (G_argument false) (toks_argument_ne false)); try assumption.
        apply G_join2; [exact GA|apply G_name; assumption|left; exact CA].
      - specialize (IHs Hs').
        assert (N : toks_selection_set s <> []) by (destruct Hs; discriminate).
        rewrite wrap_true by (eapply G_truthy; eauto). rewrite app_nil_r.
        exact (G_app_l [sp] (pp_doc s) [] (toks_selection_set s) ltac:(lit) ltac:(lit) IHs). }
    cbn [app]. rewrite <- !app_assoc. reflexivity.
  - (* fragment spread *)
    intros d n a Hd Hn Ha [_ [Hd' [Hn' [Ha' _]]]].
    rewrite pp_doc_eq. cbn [map leave pa pd]. cbn [toks_selection].
    destruct (G_sp_dirs false d Hd Hd') as [GD SD].
    change (pt K_SPREAD :: toks_name n ++ toks_arguments a ++ toks_directives d)
      with (([pt K_SPREAD] ++ toks_name n) ++ toks_arguments a ++ toks_directives d).
    rewrite app_assoc. apply G_app_r; [|exact GD|exact SD].
    apply G_spread_args; [exact Ha|exact Ha'|].
    apply (G_app_l [p_spread] _ [pt K_SPREAD]); [lit|lit|]. apply G_name; [apply fragment_name_wf, Hn|exact Hn'].
  - (* inline fragment *)
    intros d s tc Hd Hs IHs Htc [_ [Hd' [Hs' [Htc' _]]]].
    rewrite pp_doc_eq. cbn [map leave pa pd]. cbn [toks_selection].
    replace (pt K_SPREAD :: match tc with ANode t => nm s_on :: toks_type t | _ => [] end ++
             toks_directives d ++ toks_selection_set s)
      with (concat [[pt K_SPREAD]; match tc with ANode t => nm s_on :: toks_type t | _ => [] end;
                    toks_directives d; toks_selection_set s])
      by (cbn [concat app]; rewrite app_nil_r; reflexivity).
    apply G_join_gap; [lit|lit|lit|]. constructor; [lit|]. constructor.
    { destruct Htc as [|t Ht]; [apply G_nil|]. cbn [pa pd].
      eapply G_eq.
      - apply (G_wrap (kw s_on ++ [sp]) (pp_doc t) [] [nm s_on] (toks_type t) []); try lit.
        + apply G_named_type; assumption.
        + apply toks_named_type_ne, Ht.
      - cbn [app]. rewrite app_nil_r. reflexivity. }
    constructor; [apply (G_dirs false); assumption|]. constructor; [apply IHs, Hs'|constructor].
Qed.
End Executable.

Ltac sok :=
  first [ apply sokP_nil
        | apply ssokP_sokP, ssokb_ok; reflexivity
        | apply ssokP_sokP, ssokP_app, ssokb_ok; reflexivity
        | apply sokP_wrap; apply ssokb_ok; reflexivity
        | assumption
        | apply sokP_app; [sok|sok] ].
Ltac gl := eapply G_app_l; [lit|lit|].
Ltac gr := eapply G_app_r; [ | |sok].

Lemma G_descr d : wf_description d -> attr_ok d ->
  G (descr (pa d)) (toks_description d) /\ closedP (descr (pa d)).
Proof.
  intros [|n Hn] Hok; [split; [apply G_nil|apply closedP_nil]|].
  unfold descr. cbn [pa pd toks_description toks_opt].
  assert (Hv : G (pp_doc n) (toks_value n)).
  { destruct Hn as [v b]. apply (proj1 (G_value_all true)); [constructor|exact Hok]. }
  assert (N : toks_value n <> []) by (destruct Hn; discriminate).
  split.
  - eapply G_eq; [apply (G_wrap [] (pp_doc n) [nl] [] (toks_value n) []); try lit; assumption|].
    cbn [app]. apply app_nil_r.
  - apply closedP_wrap; [lit|apply Hv|lit|lit].
Qed.

Lemma toks_description_ne d : wf_description d -> d <> ANone -> toks_description d <> [].
Proof. intros [|n [v b]] H; [congruence|discriminate]. Qed.

(* wrap(" = ", default_value) and wrap("= ", default_value) *)
Lemma G_default start dv : G start [pt K_EQUALS] -> closedP start ->
  wf_opt (wf_value true) dv -> attr_ok dv -> G (wrap start (pd (pa dv)) []) (toks_default dv).
Proof.
  intros Hs Hc [|v Hv] Hok; [apply G_nil|]. cbn [pa pd toks_default].
  eapply G_eq; [apply (G_wrap start (pp_doc v) [] [pt K_EQUALS] (toks_value v) []); try lit; try assumption|].
  - apply (proj1 (G_value_all true)); assumption.
  - eapply toks_value_ne; eauto.
  - cbn [app]. rewrite app_nil_r. reflexivity.
Qed.

Lemma G_variable v : wf_variable v -> lex_ok v -> G (pp_doc v) (toks_value v).
Proof. intros [n Hn] Hok. apply (proj1 (G_value_all false)); [constructor; [reflexivity|exact Hn]|exact Hok]. Qed.

Lemma G_variable_definition v : wf_variable_definition v -> lex_ok v ->
  G (pp_doc v) (toks_variable_definition v).
Proof.
  intros [d var t dv ds Hd Hvar Ht Hdv Hds] [_ [Hd' [Hvar' [Ht' [Hdv' [Hds' _]]]]]].
  rewrite pp_doc_eq. cbn [map leave pa pd]. cbn [toks_variable_definition].
  destruct (G_descr d Hd Hd') as [GD CD]. destruct (G_sp_dirs true ds Hds Hds') as [GS SS].
  eapply G_eq.
  { eapply G_app_l; [exact GD|exact CD|]. gr; [apply G_variable; assumption|].
    gl. gr; [apply G_type; assumption|]. gr; [apply G_default; [lit|lit|assumption|assumption]|exact GS]. }
  cbn [app]. rewrite <- ?app_assoc. reflexivity.
Qed.
Lemma toks_variable_definition_ne v : wf_variable_definition v -> toks_variable_definition v <> [].
Proof.
  intros [d var t dv ds Hd [n Hn] Ht Hdv Hds]. cbn [toks_variable_definition toks_value].
  intros E. apply app_eq_nil in E as [_ E]. discriminate.
Qed.

Ltac toks_eq := repeat progress (cbn [app]; rewrite <- ?app_assoc); rewrite ?app_nil_r; reflexivity.

(* a text that is a good rendering determines its tokens *)
Lemma G_tokens_of_text d t ts : G d t -> lex (flat d) = Ok ts ->
  map tok_sig (significant ts) = t ++ [(K_EOF, [])].
Proof.
  intros (Hv & Ha & <-) E. destruct (lex_items d Hv (Ha [] I)) as (ts' & E' & H).
  rewrite E in E'. inversion E'; subst. exact H.
Qed.

Lemma op_name_is_name o : wf_operation_code o -> is_name (op_name o) = true.
Proof. intros [->|[->| ->]]; reflexivity. Qed.

Section Executable2.
Variable xfa : bool.

Lemma G_operation x : wf_operation xfa x -> lex_ok x -> G (pp_doc x) (toks_operation x).
Proof.
  intros [s d n vs ds o Hs Hd Hn Hvs Hds Ho] [_ [Hs' [Hd' [Hn' [Hvs' [Hds' _]]]]]].
  rewrite pp_doc_eq. cbn [map leave pa pd]. cbv zeta.
  pose proof (proj1 (G_selection_all xfa) s Hs Hs') as GS.
  destruct (G_descr d Hd Hd') as [GD CD].
  set (var_defs := if has_multiline_items (pl (pa vs))
                   then wrap [p_lparen; nl] (join [nl] (pl (pa vs))) [nl; p_rparen]
                   else wrap [p_lparen] (join comma_sp (pl (pa vs))) [p_rparen]).
  assert (GV : G var_defs (toks_variable_definitions vs)).
  { apply (G_var_defs wf_variable_definition toks_variable_definition G_variable_definition
                      toks_variable_definition_ne); assumption. }
  assert (SV : sokP var_defs) by (unfold var_defs; destruct (has_multiline_items _); sok).
  set (prefix := descr (pa d) ++ join [sp] [kw (op_text o); join [] [pd (pa n); var_defs]; dirs (pa ds)]).
  assert (GP : G prefix (toks_description d ++ nm (op_name o) :: toks_opt toks_name n ++
                         toks_variable_definitions vs ++ toks_directives ds)).
  { unfold prefix. eapply G_eq.
    - eapply G_app_l; [exact GD|exact CD|]. apply G_join_gap; [lit|lit|lit|].
      constructor; [apply G_kw, op_name_is_name, Ho|].
      constructor; [apply G_join2; [apply (G_opt wf_name toks_name n G_name); assumption|exact GV|right; exact SV]|].
      constructor; [apply (G_dirs false); assumption|constructor].
    - cbn [concat]. toks_eq. }
  cbn [toks_operation].
  destruct (is_shorthand d n vs ds o) eqn:Esh.
  - apply is_shorthand_true in Esh as (-> & -> & -> & -> & ->). exact GS.
  - assert (Eq : seqb (flat prefix) s_query = false).
    { destruct (seqb (flat prefix) s_query) eqn:E; [|reflexivity]. exfalso.
      apply nat_list_eqb_eq in E.
      assert (EL : lex (flat prefix) = lex s_query) by (rewrite E; reflexivity).
      pose proof (G_tokens_of_text _ _ _ GP EL) as HT. cbn in HT.
      (* HT equates the tokens of the prefix with [query; EOF].  With everything optional absent and
         o = 0 that is the short form, excluded by Esh; in every other case the two lists differ. *)
      destruct Hd as [|m [v b]], Hn as [|m' [v']], Hvs as [|y l _ _], Hds as [|y' l' [? ? ? ?] _],
        Ho as [->|[->| ->]]; cbn in HT.
      all: try discriminate Esh; try discriminate HT.
      all: destruct b; discriminate HT. }
    rewrite Eq. eapply G_eq.
    + rewrite <- app_assoc. gr; [exact GP|]. gl. exact GS.
    + toks_eq.
Qed.

Lemma G_fragment_definition x : wf_fragment_definition xfa x -> lex_ok x ->
  G (pp_doc x) (toks_fragment_definition x).
Proof.
  intros [s d n vs ds tc Hs Hd Hn Hvs Hds Htc] [_ [Hs' [Hd' [Hn' [Hvs' [Hds' [Htc' _]]]]]]].
  rewrite pp_doc_eq. cbn [map leave pa pd]. cbn [toks_fragment_definition].
  pose proof (proj1 (G_selection_all xfa) s Hs Hs') as GS.
  destruct (G_descr d Hd Hd') as [GD CD].
  assert (GV : G (wrap [p_lparen] (join comma_sp (pl (pa vs))) [p_rparen]) (toks_variable_definitions vs)).
  { destruct xfa.
    - apply (G_parens1 wf_variable_definition toks_variable_definition G_variable_definition
                       toks_variable_definition_ne); assumption.
    - subst vs. apply G_nil. }
  assert (GDs : G (wrap [] (dirs (pa ds)) [sp]) (toks_directives ds) /\ closedP (wrap [] (dirs (pa ds)) [sp])).
  { pose proof (G_dirs false ds Hds Hds') as HD. split.
    - destruct (truthy (dirs (pa ds))) eqn:E.
      + rewrite wrap_true by exact E. cbn [app]. eapply G_eq; [gr; [exact HD|lit]|toks_eq].
      + rewrite wrap_false by exact E. rewrite (G_falsy _ _ HD E). apply G_nil.
    - apply closedP_wrap; [lit|apply HD|lit|lit]. }
  destruct GDs as [GDs CDs].
  eapply G_eq.
  { eapply G_app_l; [exact GD|exact CD|].
    eapply G_app_r; [apply G_kw; reflexivity| |sok].
    gl. gr; [apply G_name; [apply fragment_name_wf, Hn|exact Hn']|].
    gr; [exact GV|]. gl.
    eapply G_app_r; [apply G_kw; reflexivity| |sok].
    gl. gr; [apply G_named_type; assumption|]. gl.
    eapply G_app_l; [exact GDs|exact CDs|exact GS]. }
  toks_eq.
Qed.
End Executable2.

Lemma intercalate_sep sk f (l : list node) :
  intercalate [pt sk] (map f l) = toks_sep sk f l.
Proof.
  induction l as [|x r IH]; [reflexivity|]. destruct r as [|y r']; [reflexivity|].
  cbn [map intercalate toks_sep] in *. rewrite IH. reflexivity.
Qed.

Lemma G_def d parts tl : wf_description d -> attr_ok d -> Forall2 G parts tl ->
  G (descr (pa d) ++ join [sp] parts) (toks_description d ++ concat tl).
Proof.
  intros Hd Hd' H. destruct (G_descr d Hd Hd') as [GD CD].
  eapply G_app_l; [exact GD|exact CD|]. apply G_join_gap; [lit|lit|lit|exact H].
Qed.

Lemma G_delimited (start : doc) (ts : list sigtok) (sep : doc) (sk : N) a :
  G start ts -> closedP start -> G sep [pt sk] -> closedP sep -> ssokP sep ->
  wf_nelist wf_named_type a -> attr_ok a ->
  G (wrap start (join sep (pl (pa a))) []) (toks_delimited ts sk toks_type a).
Proof.
  intros Hs Hc Hsep Hsc Hss W Hok. pose proof (nelist_parts _ _ a G_named_type W Hok) as HP.
  destruct W as [|x l Hx Hl]; [apply G_nil|]. cbn [alist] in HP. cbn [toks_delimited].
  rewrite <- intercalate_sep.
  assert (N : Forall (fun t => t <> []) (map toks_type (x :: l))).
  { apply Forall_forall. intros t Ht. apply in_map_iff in Ht as (y & <- & Hy).
    apply toks_named_type_ne. destruct Hy as [<-|Hy]; [exact Hx|]. rewrite Forall_forall in Hl. apply Hl, Hy. }
  pose proof (G_join_tok sep [pt sk] _ _ Hsep Hsc Hss HP N) as HJ.
  eapply G_eq.
  - apply (G_wrap start _ [] ts (intercalate [pt sk] (map toks_type (x :: l))) []); try lit; try eassumption.
    cbn [map intercalate]. destruct l; cbn [map intercalate]; [apply toks_named_type_ne, Hx|].
    intros E. apply app_eq_nil in E as [E _]. exact (toks_named_type_ne x Hx E).
  - rewrite app_nil_r. reflexivity.
Qed.

Lemma G_implements i : wf_nelist wf_named_type i -> attr_ok i -> G (implements_of (pa i)) (toks_implements i).
Proof.
  intros W Hok. unfold implements_of, toks_implements.
  apply (G_delimited (kw s_implements ++ [sp]) [nm s_implements] [sp; p_amp; sp] K_AMP); try lit; assumption.
Qed.
Lemma G_union_of ts : wf_nelist wf_named_type ts -> attr_ok ts -> G (union_of (pa ts)) (toks_union_types ts).
Proof.
  intros W Hok. unfold union_of, toks_union_types.
  apply (G_delimited [p_equals; sp] [pt K_EQUALS] [sp; p_pipe; sp] K_PIPE); try lit; assumption.
Qed.

Ltac f2 := repeat (first [apply Forall2_nil | apply Forall2_cons]).

Lemma G_operation_type_definition x : wf_operation_type_definition x -> lex_ok x ->
  G (pp_doc x) (toks_operation_type_definition x).
Proof.
  intros [o t Ho Ht] [_ [_ [Ht' _]]].
  rewrite pp_doc_eq. cbn [map leave pa pd]. cbn [toks_operation_type_definition].
  eapply G_eq.
  - eapply G_app_r; [apply G_kw, op_name_is_name, Ho| |sok]. gl. apply G_named_type; assumption.
  - toks_eq.
Qed.
Lemma toks_otd_ne x : wf_operation_type_definition x -> toks_operation_type_definition x <> [].
Proof. intros [o t _ _]. discriminate. Qed.

Lemma G_input_value_definition x : wf_input_value_definition x -> lex_ok x ->
  G (pp_doc x) (toks_input_value_definition x).
Proof.
  intros [n t d dv ds Hn Ht Hd Hdv Hds] [_ [Hn' [Ht' [Hd' [Hdv' [Hds' _]]]]]].
  rewrite pp_doc_eq. cbn [map leave pa pd]. cbn [toks_input_value_definition].
  eapply G_eq.
  - apply G_def; [exact Hd|exact Hd'|]. f2.
    + gr; [apply G_name; assumption|]. gl. apply G_type; assumption.
    + apply G_default; [lit|lit|assumption|assumption].
    + apply (G_dirs true); assumption.
  - cbn [concat]. toks_eq.
Qed.
Lemma toks_ivd_ne x : wf_input_value_definition x -> toks_input_value_definition x <> [].
Proof.
  intros [n t d dv ds [v] _ _ _ _]. cbn [toks_input_value_definition toks_name].
  intros E. apply app_eq_nil in E as [_ E]. discriminate.
Qed.

Lemma sokP_def_args parts : sokP (def_args parts).
Proof. unfold def_args. destruct (has_multiline_items parts); sok. Qed.

Lemma G_field_definition x : wf_field_definition x -> lex_ok x -> G (pp_doc x) (toks_field_definition x).
Proof.
  intros [n t d a ds Hn Ht Hd Ha Hds] [_ [Hn' [Ht' [Hd' [Ha' [Hds' _]]]]]].
  rewrite pp_doc_eq. cbn [map leave pa pd]. cbn [toks_field_definition].
  destruct (G_descr d Hd Hd') as [GD CD]. destruct (G_sp_dirs true ds Hds Hds') as [GS SS].
  pose proof (sokP_def_args (pl (pa a))) as SA.
  eapply G_eq.
  - eapply G_app_l; [exact GD|exact CD|]. gr; [apply G_name; assumption|].
    gr; [apply (G_def_args wf_input_value_definition toks_input_value_definition
                           G_input_value_definition toks_ivd_ne); assumption|].
    gl. gr; [apply G_type; assumption|exact GS].
  - toks_eq.
Qed.
Lemma toks_fd_ne x : wf_field_definition x -> toks_field_definition x <> [].
Proof.
  intros [n t d a ds [v] _ _ _ _]. cbn [toks_field_definition toks_name].
  intros E. apply app_eq_nil in E as [_ E]. discriminate.
Qed.

Lemma enum_value_name_wf n : wf_enum_value_name n -> wf_name n.
Proof. intros [v _]. constructor. Qed.

Lemma G_enum_value_definition x : wf_enum_value_definition x -> lex_ok x ->
  G (pp_doc x) (toks_enum_value_definition x).
Proof.
  intros [n d ds Hn Hd Hds] [_ [Hn' [Hd' [Hds' _]]]].
  rewrite pp_doc_eq. cbn [map leave pa pd]. cbn [toks_enum_value_definition].
  eapply G_eq.
  - apply G_def; [exact Hd|exact Hd'|]. f2.
    + apply G_name; [apply enum_value_name_wf, Hn|exact Hn'].
    + apply (G_dirs true); assumption.
  - cbn [concat]. toks_eq.
Qed.
Lemma toks_evd_ne x : wf_enum_value_definition x -> toks_enum_value_definition x <> [].
Proof.
  intros [n d ds [v _] _ _]. cbn [toks_enum_value_definition toks_name].
  intros E. apply app_eq_nil in E as [_ E]. discriminate.
Qed.

Definition G_fields := G_block_attr wf_field_definition toks_field_definition G_field_definition toks_fd_ne.
Definition G_input_fields :=
  G_block_attr wf_input_value_definition toks_input_value_definition G_input_value_definition toks_ivd_ne.
Definition G_enum_values :=
  G_block_attr wf_enum_value_definition toks_enum_value_definition G_enum_value_definition toks_evd_ne.
Definition G_operation_types :=
  G_block_attr wf_operation_type_definition toks_operation_type_definition G_operation_type_definition toks_otd_ne.

Lemma G_location x : wf_location x -> lex_ok x -> G (pp_doc x) (toks_name x).
Proof. intros [v _] Hok. apply G_name; [constructor|exact Hok]. Qed.

(* the conditions on the attributes of a node, one hypothesis per attribute *)
Ltac attrs H :=
  destruct H as [_ H];
  repeat (hnf in H; lazymatch type of H with _ /\ _ => let H' := fresh H in destruct H as [H' H] end).

(* the parts of a definition printed as join(" ", parts), each by its own lemma *)
Create HintDb gpart.
#[export] Hint Resolve G_kw G_name G_implements G_dirs G_union_of G_fields G_input_fields G_enum_values
  G_operation_types list1_nelist : gpart.
#[export] Hint Extern 1 (is_name _ = true) => reflexivity : gpart.

Section TypeSystem.
Variable xdd : bool.

Lemma G_type_system x : wf_type_system_definition xdd x -> lex_ok x -> G (pp_doc x) (toks_type_system x).
Proof.
  intros W. destruct W as [d ds ots Hd Hds Hots|n d ds Hn Hd Hds|n d ds i f Hn Hd Hds Hi Hf
                          |n d ds i f Hn Hd Hds Hi Hf|n d ds ts Hn Hd Hds Hts|n d ds vs Hn Hd Hds Hvs
                          |n d ds f Hn Hd Hds Hf|n ls d a ds r Hn Hls Hd Ha Hds].
  1-7: intros Hok; attrs Hok; rewrite pp_doc_eq; cbn [map leave pa pd toks_type_system];
       (eapply G_eq; [apply G_def; [assumption|assumption|f2; eauto with gpart nocore]|cbn [concat]; toks_eq]).
  (* directive definition *)
  - intros [_ [Hn' [Hls' [Hd' [Ha' [Hds' _]]]]]]. destruct Hls as [l0 ls Hl0 Hls].
    rewrite pp_doc_eq. cbn [map leave pa pd pl]. cbn [toks_type_system].
    destruct (G_descr d Hd Hd') as [GD CD].
    assert (GDs : G (wrap [sp] (dirs (pa ds)) []) (toks_directives ds) /\ sokP (wrap [sp] (dirs (pa ds)) [])).
    { destruct xdd; [apply (G_sp_dirs true); assumption|]. subst ds. split; [apply G_nil|sok]. }
    destruct GDs as [GS SS].
    pose proof (sokP_def_args (pl (pa a))) as SA.
    assert (GL : G (join [sp; p_pipe; sp] (map pp_doc (l0 :: ls))) (toks_sep K_PIPE toks_name (l0 :: ls))).
    { rewrite <- intercalate_sep. apply all_ok in Hls'.
      apply G_join_tok; [lit|lit|lit| |].
      - apply (Forall2_map_G wf_location toks_name (l0 :: ls) G_location); [constructor; assumption|exact Hls'].
      - apply Forall_forall. intros t Ht. apply in_map_iff in Ht as (y & <- & Hy).
        assert (Wy : wf_location y).
        { destruct Hy as [<-|Hy]; [exact Hl0|]. rewrite Forall_forall in Hls. apply Hls, Hy. }
        destruct Wy. discriminate. }
    assert (SR : sokP (if r then sp :: kw s_repeatable else [])) by (destruct r; sok).
    assert (GR : G (if r then sp :: kw s_repeatable else []) (if r then [nm s_repeatable] else [])).
    { destruct r; [apply (G_lit (sp :: kw s_repeatable)); reflexivity|apply G_nil]. }
    eapply G_eq.
    + eapply G_app_l; [exact GD|exact CD|].
      eapply G_app_r; [apply G_kw; reflexivity| |sok].
      gl. gr; [apply G_name; assumption|].
      gr; [apply (G_def_args wf_input_value_definition toks_input_value_definition
                             G_input_value_definition toks_ivd_ne); assumption|].
      gr; [exact GS|]. gr; [exact GR|]. gl.
      eapply G_app_r; [apply G_kw; reflexivity| |sok]. gl. exact GL.
    + toks_eq.
Qed.
End TypeSystem.

Section Extensions.
Variable xdd : bool.

Lemma G_ext_head s : is_name s = true -> G (kw s_extend ++ [sp] ++ kw s) [nm s_extend; nm s].
Proof.
  intros H. eapply G_eq.
  - eapply G_app_r; [apply G_kw; reflexivity| |sok]. gl. apply G_kw, H.
  - reflexivity.
Qed.
#[local] Hint Resolve G_ext_head : gpart.

Lemma G_extension x : wf_extension xdd x -> lex_ok x -> G (pp_doc x) (toks_extension x).
Proof.
  intros W. destruct W as [ds ots Hds Hots _|n ds Hn Hds _|n ds i f Hn Hds Hi Hf _|n ds i f Hn Hds Hi Hf _
                          |n ds ts Hn Hds Hts _|n ds vs Hn Hds Hvs _|n ds f Hn Hds Hf _|n ds _ Hn Hds _].
  1-7: intros Hok; attrs Hok; rewrite pp_doc_eq; cbn [map leave pa pd toks_extension];
       (eapply G_eq; [apply G_join_gap; [lit|lit|lit|f2; eauto with gpart nocore]
                     |cbn [concat]; toks_eq]).
  intros [_ [Hn' [Hds' _]]]. rewrite pp_doc_eq. cbn [map leave pa pd]. cbn [toks_extension].
  eapply G_eq.
  { apply G_join_gap; [lit|lit|lit|]. f2.
    + eapply G_app_r; [apply G_kw; reflexivity| |sok]. gl.
      eapply G_app_r; [apply G_kw; reflexivity| |sok]. gl. apply G_name; assumption.
    + apply (G_dirs true); assumption. }
  cbn [concat]. toks_eq.
Qed.
End Extensions.

Lemma G_definition xfa xdd x : wf_definition xfa xdd x -> lex_ok x -> G (pp_doc x) (toks_definition x).
Proof.
  intros [y W|y W|y W|y W] Hok.
  - replace (toks_definition y) with (toks_operation y) by (destruct W; reflexivity). apply (G_operation xfa); assumption.
  - replace (toks_definition y) with (toks_fragment_definition y) by (destruct W; reflexivity).
    apply (G_fragment_definition xfa); assumption.
  - replace (toks_definition y) with (toks_type_system y) by (destruct W; reflexivity).
    apply (G_type_system xdd); assumption.
  - replace (toks_definition y) with (toks_extension y) by (destruct W; reflexivity).
    apply (G_extension xdd); assumption.
Qed.

Lemma truthy_app a b : truthy (a ++ b) = truthy a || truthy b.
Proof. unfold truthy. rewrite flat_app. destruct (flat a); reflexivity. Qed.
Lemma truthy_app_r a b : truthy b = true -> truthy (a ++ b) = true.
Proof. intros H. rewrite truthy_app, H. apply orb_true_r. Qed.
Lemma truthy_app_l a b : truthy a = true -> truthy (a ++ b) = true.
Proof. intros H. rewrite truthy_app, H. reflexivity. Qed.

Lemma starts_app c a b : starts_with c (a ++ b) = if truthy a then starts_with c a else starts_with c b.
Proof. unfold starts_with, truthy. rewrite flat_app. destruct (flat a); reflexivity. Qed.

Lemma ends_app c a b : ends_with_char c (a ++ b) = if truthy b then ends_with_char c b else ends_with_char c a.
Proof.
  unfold ends_with_char, truthy. rewrite flat_app, rev_app_distr. destruct (flat b) as [|x t]; [reflexivity|].
  destruct (rev (x :: t)) eqn:E; [|reflexivity]. apply (f_equal (@length N)) in E.
  rewrite rev_length in E. discriminate.
Qed.
Lemma ends_app_r c a b : truthy b = true -> ends_with_char c (a ++ b) = ends_with_char c b.
Proof. intros H. rewrite ends_app, H. reflexivity. Qed.
Lemma ends_falsy c d : truthy d = false -> ends_with_char c d = false.
Proof. unfold ends_with_char. intros H. rewrite (truthy_false _ H). reflexivity. Qed.

(* the text does not end with a closing brace *)
Definition nb (d : doc) : Prop := ends_with_char 125 d = false.

Lemma nb_app a b : nb a -> nb b -> nb (a ++ b).
Proof. unfold nb. intros Ha Hb. rewrite ends_app. destruct (truthy b); assumption. Qed.
Lemma ends_app_nb a b : nb a -> ends_with_char 125 (a ++ b) = ends_with_char 125 b.
Proof.
  intros Ha. rewrite ends_app. destruct (truthy b) eqn:E; [reflexivity|]. rewrite (ends_falsy _ _ E). exact Ha.
Qed.
Lemma nb_nil : nb [].
Proof. reflexivity. Qed.

Lemma nb_join_ne sep ps : nb sep -> Forall nb ps -> nb (join_ne sep ps).
Proof.
  intros Hs. induction 1 as [|p r Hp _ IH]; [reflexivity|]. destruct r as [|q r']; [exact Hp|].
  change (join_ne sep (p :: q :: r')) with (p ++ sep ++ join_ne sep (q :: r')).
  apply nb_app; [exact Hp|]. apply nb_app; [exact Hs|exact IH].
Qed.
Lemma Forall_filter {X} (Q : X -> Prop) f l : Forall Q l -> Forall Q (filter f l).
Proof. induction 1; cbn; [constructor|]. destruct (f x); [constructor|]; assumption. Qed.
Lemma nb_join sep parts : nb sep -> Forall nb parts -> nb (join sep parts).
Proof. intros Hs H. apply nb_join_ne; [exact Hs|apply Forall_filter, H]. Qed.

Lemma ends_join_snoc sep parts p : nb sep -> Forall nb parts ->
  ends_with_char 125 (join sep (parts ++ [p])) = ends_with_char 125 p.
Proof.
  intros Hs Hp. unfold join. rewrite filter_app. cbn [filter]. destruct (truthy p) eqn:E.
  - pose proof (Forall_filter nb truthy parts Hp) as HF. induction HF as [|x r Hx _ IH]; [reflexivity|].
    cbn [app]. destruct (r ++ [p]) as [|q r'] eqn:Er; [destruct r; discriminate|].
    change (join_ne sep (x :: q :: r')) with (x ++ sep ++ join_ne sep (q :: r')).
    rewrite ends_app_nb by exact Hx. rewrite ends_app_nb by exact Hs. exact IH.
  - rewrite app_nil_r. rewrite (ends_falsy _ _ E). apply (nb_join sep parts Hs Hp).
Qed.

Lemma ends_join_last sep parts : nb sep -> Forall nb (removelast parts) ->
  ends_with_char 125 (join sep parts) = ends_with_char 125 (last parts []).
Proof.
  intros Hs Hp. destruct parts as [|p0 r]; [reflexivity|].
  rewrite (app_removelast_last [] (l := p0 :: r)) at 1 by discriminate.
  apply ends_join_snoc; assumption.
Qed.

Lemma nb_wrap_stop start d stop : truthy stop = true -> nb stop -> nb (wrap start d stop).
Proof.
  intros Ht Hn. unfold wrap. destruct (truthy d); [|reflexivity]. unfold nb.
  rewrite ends_app_r by (apply truthy_app_r, Ht). rewrite ends_app_r by exact Ht. exact Hn.
Qed.
Lemma nb_wrap_nil start d : nb start -> nb d -> nb (wrap start d []).
Proof.
  intros Hs Hd. unfold wrap. destruct (truthy d); [|reflexivity]. rewrite app_nil_r. apply nb_app; assumption.
Qed.

Lemma name_chars v : is_name v = true -> Forall (fun c => is_name_continue c = true) v.
Proof.
  destruct v as [|c b]; [discriminate|]. cbn [is_name]. intros H. apply andb_true_iff in H as [Hc Hb].
  constructor.
  - unfold is_name_continue. unfold is_name_start in Hc. apply orb_true_iff in Hc as [Hc|Hc]; rewrite Hc;
      [reflexivity|apply orb_true_r].
  - apply Forall_forall. rewrite forallb_forall in Hb. exact Hb.
Qed.

Lemma nb_kw s : is_name s = true -> nb (kw s).
Proof.
  intros H. apply name_chars in H. unfold nb, ends_with_char, kw. cbn [flat flat_map item_text]. rewrite app_nil_r.
  destruct (rev s) as [|x t] eqn:E; [reflexivity|].
  assert (Hin : In x s) by (apply in_rev; rewrite E; left; reflexivity).
  rewrite Forall_forall in H. specialize (H x Hin).
  destruct (N.eqb_spec x 125) as [->|]; [discriminate|reflexivity].
Qed.
Lemma nb_name n : wf_name n -> lex_ok n -> nb (pp_doc n).
Proof. intros [v] [Hv _]. apply nb_kw, Hv. Qed.

Ltac nbl := first [reflexivity | apply nb_nil].

Lemma nb_named_type t : wf_named_type t -> lex_ok t -> nb (pp_doc t).
Proof.
  intros [n Hn] [_ [Hn' _]]. change (pp_doc (Nd KNamedType [ANode n])) with (pp_doc n).
  apply nb_name; assumption.
Qed.

Lemma nb_directive c d : wf_directive c d -> lex_ok d -> nb (pp_doc d).
Proof.
  intros [n a Hn Ha] [_ [Hn' _]].
  change (pp_doc (Nd KDirective [ANode n; a]))
    with ([p_at] ++ pp_doc n ++ wrap [p_lparen] (join comma_sp (pl (pa a))) [p_rparen]).
  apply nb_app; [reflexivity|]. apply nb_app; [apply nb_name; assumption|]. apply nb_wrap_stop; reflexivity.
Qed.

Lemma Forall_nb_map (Pn : node -> Prop) l :
  (forall x, Pn x -> lex_ok x -> nb (pp_doc x)) -> Forall Pn l -> Forall lex_ok l -> Forall nb (map pp_doc l).
Proof.
  intros H. induction 1 as [|x l Hx _ IH]; intros Hok; [constructor|]. inversion Hok; subst.
  constructor; [apply H; assumption|apply IH; assumption].
Qed.

Lemma nb_nelist (Pn : node -> Prop) a :
  (forall x, Pn x -> lex_ok x -> nb (pp_doc x)) -> wf_nelist Pn a -> attr_ok a -> Forall nb (pl (pa a)).
Proof.
  intros H W Hok. rewrite pl_pa. destruct W as [|x l Hx Hl]; [constructor|]. cbn [alist].
  apply all_ok in Hok. apply (Forall_nb_map Pn (x :: l) H); [constructor; assumption|exact Hok].
Qed.

Lemma nb_dirs c a : wf_directives c a -> attr_ok a -> nb (dirs (pa a)).
Proof. intros W Hok. apply nb_join; [reflexivity|]. apply (nb_nelist _ a (nb_directive c)); assumption. Qed.

Lemma nb_implements i : wf_nelist wf_named_type i -> attr_ok i -> nb (implements_of (pa i)).
Proof.
  intros W Hok. apply nb_wrap_nil; [reflexivity|]. apply nb_join; [reflexivity|].
  apply (nb_nelist _ i nb_named_type); assumption.
Qed.
Lemma nb_union_of ts : wf_nelist wf_named_type ts -> attr_ok ts -> nb (union_of (pa ts)).
Proof.
  intros W Hok. apply nb_wrap_nil; [reflexivity|]. apply nb_join; [reflexivity|].
  apply (nb_nelist _ ts nb_named_type); assumption.
Qed.

Lemma nb_descr d : nb (descr (pa d)).
Proof. apply nb_wrap_stop; reflexivity. Qed.

Lemma ends_block parts tl : Forall2 G parts tl -> concat tl <> [] ->
  ends_with_char 125 (block parts) = true /\ truthy (block parts) = true.
Proof.
  intros H Hne. pose proof (G_block parts tl H Hne) as GB.
  assert (T : truthy (block parts) = true) by (eapply G_truthy; [exact GB|discriminate]).
  split; [|exact T]. unfold block, wrap in *. destruct (truthy (indent (join [nl] parts))); [|discriminate].
  rewrite ends_app_r by (apply truthy_app_r; reflexivity). rewrite ends_app_r by reflexivity. reflexivity.
Qed.

Lemma ends_block_attr (Pn : node -> Prop) f :
  (forall x, Pn x -> lex_ok x -> G (pp_doc x) (f x)) -> (forall x, Pn x -> f x <> []) ->
  forall a, wf_nelist Pn a -> attr_ok a -> ends_with_char 125 (block (pl (pa a))) = is_block a.
Proof.
  intros HG Hne a W Hok. pose proof (nelist_parts Pn f a HG W Hok) as HP.
  destruct W as [|x l Hx Hl]; [reflexivity|]. cbn [alist is_block] in *.
  apply (ends_block _ _ HP). eapply concat_ne; eauto.
Qed.

Definition ends_fields := ends_block_attr wf_field_definition toks_field_definition G_field_definition toks_fd_ne.
Definition ends_input_fields :=
  ends_block_attr wf_input_value_definition toks_input_value_definition G_input_value_definition toks_ivd_ne.
Definition ends_enum_values :=
  ends_block_attr wf_enum_value_definition toks_enum_value_definition G_enum_value_definition toks_evd_ne.
Definition ends_operation_types :=
  ends_block_attr wf_operation_type_definition toks_operation_type_definition G_operation_type_definition
                  toks_otd_ne.

Lemma ends_selection_set xfa s : wf_selection_set xfa s -> lex_ok s ->
  ends_with_char 125 (pp_doc s) = true /\ truthy (pp_doc s) = true /\ starts_with 123 (pp_doc s) = true.
Proof.
  intros W Hok. pose proof (proj1 (G_selection_all xfa) s W Hok) as GS.
  destruct W as [x l Hx Hl]. destruct Hok as [_ [Hok _]]. apply all_ok in Hok.
  change (pp_doc (Nd KSelectionSet [AList (x :: l)])) with (block (map pp_doc (x :: l))) in *.
  assert (HP : Forall2 G (map pp_doc (x :: l)) (map toks_selection (x :: l))).
  { inversion Hok; subst. cbn [map]. constructor.
    - apply (proj2 (proj2 (G_selection_all xfa))); assumption.
    - apply (proj1 (proj2 (G_selection_all xfa))); assumption. }
  assert (N : concat (map toks_selection (x :: l)) <> []).
  { cbn [map concat]. intros E. apply app_eq_nil in E as [E _]. exact (toks_selection_ne xfa x Hx E). }
  destruct (ends_block _ _ HP N) as [E T]. split; [exact E|]. split; [exact T|].
  unfold block, wrap in *. destruct (truthy (indent (join [nl] (map pp_doc (x :: l))))); [reflexivity|discriminate].
Qed.

Ltac nbs :=
  repeat (first [apply Forall_nil | apply Forall_cons]);
  first [ reflexivity | apply nb_name; assumption | apply nb_implements; assumption
        | apply (nb_dirs true); assumption | apply (nb_dirs false); assumption
        | apply nb_union_of; assumption ].

Lemma nb_def_args parts : nb (def_args parts).
Proof. unfold def_args. destruct (has_multiline_items parts); apply nb_wrap_stop; reflexivity. Qed.

Lemma nb_location x : wf_location x -> lex_ok x -> nb (pp_doc x).
Proof. intros [v _] Hok. apply nb_name; [constructor|exact Hok]. Qed.

(* the last part: a block, or directives / member types, which never end with "}" *)
Create HintDb elast.
#[export] Hint Resolve ends_fields ends_input_fields ends_enum_values ends_operation_types nb_dirs nb_union_of
  list1_nelist : elast.
#[export] Hint Extern 1 (ends_with_char 125 ?d = false) => change (nb d) : elast.

Lemma ends_definition xfa xdd x : wf_definition xfa xdd x -> lex_ok x ->
  ends_with_char 125 (pp_doc x) = ends_with_block x.
Proof.
  intros [y W|y W|y W|y W] Hok.
  - (* operation *)
    destruct W as [s d n vs ds o Hs Hd Hn Hvs Hds Ho]. destruct Hok as [_ [Hs' _]].
    destruct (ends_selection_set xfa s Hs Hs') as (E & T & _).
    rewrite pp_doc_eq. cbn [map leave pa pd]. cbv zeta. rewrite ends_app_r by exact T. exact E.
  - destruct W as [s d n vs ds tc Hs Hd Hn Hvs Hds Htc]. destruct Hok as [_ [Hs' _]].
    destruct (ends_selection_set xfa s Hs Hs') as (E & T & _).
    rewrite pp_doc_eq. cbn [map leave pa pd].
    repeat (rewrite ends_app_r by (repeat apply truthy_app_r; exact T)). exact E.
  - destruct W as [d ds ots Hd Hds Hots|n d ds Hn Hd Hds|n d ds i f Hn Hd Hds Hi Hf
                  |n d ds i f Hn Hd Hds Hi Hf|n d ds ts Hn Hd Hds Hts|n d ds vs Hn Hd Hds Hvs
                  |n d ds f Hn Hd Hds Hf|n ls d a ds r Hn Hls Hd Ha Hds].
    1-7: attrs Hok; rewrite pp_doc_eq; cbn [map leave pa pd ends_with_block];
         rewrite ends_app_nb by apply nb_descr;
         (rewrite ends_join_last; [|reflexivity|cbn [removelast]; nbs]); cbn [last]; eauto with elast nocore.
    + destruct Hok as [_ [Hn' [Hls' [Hd' [Ha' [Hds' _]]]]]]. destruct Hls as [l0 ls Hl0 Hls].
      rewrite pp_doc_eq. cbn [map leave pa pd pl]. cbn [ends_with_block].
      assert (ND : nb (wrap [sp] (dirs (pa ds)) [])).
      { apply nb_wrap_nil; [reflexivity|]. destruct xdd; [apply (nb_dirs true); assumption|subst ds; reflexivity]. }
      apply all_ok in Hls'.
      assert (NL : nb (join [sp; p_pipe; sp] (map pp_doc (l0 :: ls)))).
      { apply nb_join; [reflexivity|].
        apply (Forall_nb_map wf_location (l0 :: ls) nb_location); [constructor; assumption|exact Hls']. }
      repeat (apply nb_app; [first [apply nb_descr|reflexivity|apply nb_name; assumption|apply nb_def_args
                                  |exact ND|destruct r; reflexivity]|]).
      exact NL.
  - destruct W as [ds ots Hds Hots _|n ds Hn Hds _|n ds i f Hn Hds Hi Hf _|n ds i f Hn Hds Hi Hf _
                  |n ds ts Hn Hds Hts _|n ds vs Hn Hds Hvs _|n ds f Hn Hds Hf _|n ds _ Hn Hds _].
    1-7: attrs Hok; rewrite pp_doc_eq; cbn [map leave pa pd ends_with_block];
         (rewrite ends_join_last; [|reflexivity|cbn [removelast]; nbs]); cbn [last]; eauto with elast nocore.
    + destruct Hok as [_ [Hn' [Hds' _]]]. rewrite pp_doc_eq. cbn [map leave pa pd]. cbn [ends_with_block].
      apply nb_join; [reflexivity|]. constructor; [|nbs].
      repeat (apply nb_app; [reflexivity|]). apply nb_name; assumption.
Qed.

Lemma starts_kw s : is_name s = true -> starts_with 123 (kw s) = false /\ truthy (kw s) = true.
Proof.
  destruct s as [|c b]; [discriminate|]. cbn [is_name]. intros H. apply andb_true_iff in H as [Hc _].
  split; [|reflexivity]. unfold starts_with, kw. cbn [flat flat_map item_text app].
  apply name_start_range in Hc. apply N.eqb_neq. lia.
Qed.

Lemma starts_join_head c sep p parts : truthy p = true ->
  starts_with c (join sep (p :: parts)) = starts_with c p /\ truthy (join sep (p :: parts)) = true.
Proof.
  intros T. unfold join. cbn [filter]. rewrite T. destruct (filter truthy parts) as [|q r]; [split; [reflexivity|exact T]|].
  change (join_ne sep (p :: q :: r)) with (p ++ sep ++ join_ne sep (q :: r)).
  rewrite starts_app, T. split; [reflexivity|apply truthy_app_l, T].
Qed.

Lemma starts_descr d X : wf_description d -> starts_with 123 X = false -> truthy X = true ->
  starts_with 123 (descr (pa d) ++ X) = false /\ truthy (descr (pa d) ++ X) = true.
Proof.
  intros W HX TX. split; [|apply truthy_app_r, TX]. rewrite starts_app.
  destruct W as [|n [v b]]; [exact HX|]. destruct b.
  - unfold descr. cbn [pa pd]. change (pp_doc (Nd KStringValue [AStr v; ABool true]))
      with [Lx K_BLOCK_STRING v (print_block_string v false)].
    unfold print_block_string. cbv zeta. reflexivity.
  - reflexivity.
Qed.

Lemma starts_join_head_false sep p parts : truthy p = true -> starts_with 123 p = false ->
  starts_with 123 (join sep (p :: parts)) = false.
Proof. intros T H. rewrite (proj1 (starts_join_head 123 sep p parts T)). exact H. Qed.

Lemma starts_def_join d s parts : wf_description d -> is_name s = true ->
  starts_with 123 (descr (pa d) ++ join [sp] (kw s :: parts)) = false.
Proof.
  intros Hd Hs. destruct (starts_kw s Hs) as [K1 K2].
  destruct (starts_join_head 123 [sp] (kw s) parts K2) as [J1 J2]. rewrite K1 in J1.
  exact (proj1 (starts_descr d _ Hd J1 J2)).
Qed.
Lemma starts_def_kw d s X : wf_description d -> is_name s = true ->
  starts_with 123 (descr (pa d) ++ kw s ++ X) = false.
Proof.
  intros Hd Hs. destruct (starts_kw s Hs) as [K1 K2].
  apply (starts_descr d (kw s ++ X) Hd); [rewrite starts_app, K2; exact K1|apply truthy_app_l, K2].
Qed.

Lemma starts_definition xfa xdd x : wf_definition xfa xdd x -> lex_ok x ->
  starts_with 123 (pp_doc x) = is_shorthand_operation x.
Proof.
  intros W Hok. pose proof (G_definition xfa xdd x W Hok) as GX. destruct W as [y W|y W|y W|y W].
  - (* operation *)
    replace (toks_definition y) with (toks_operation y) in GX by (destruct W; reflexivity).
    destruct W as [s d n vs ds o Hs Hd Hn Hvs Hds Ho]. destruct Hok as [_ [Hs' _]].
    destruct (ends_selection_set xfa s Hs Hs') as (_ & T & St).
    pose proof (proj1 (G_selection_all xfa) s Hs Hs') as GS.
    cbn [is_shorthand_operation toks_operation] in *.
    rewrite pp_doc_eq in *. cbn [map leave pa pd] in *. cbv zeta in *.
    match goal with |- context [seqb ?p s_query] => destruct (seqb p s_query) eqn:Eq end.
    + (* printed in short form: then it is a short form *)
      cbn [app] in *. rewrite St. destruct (is_shorthand d n vs ds o) eqn:Esh; [reflexivity|]. exfalso.
      destruct GX as (_ & _ & E1). destruct GS as (_ & _ & E2). rewrite E2 in E1.
      apply (f_equal (@length sigtok)) in E1. rewrite app_length in E1. cbn [length] in E1.
      rewrite !app_length in E1. lia.
    + destruct (is_shorthand d n vs ds o) eqn:Esh.
      * apply is_shorthand_true in Esh as (-> & -> & -> & -> & ->). cbn in Eq. discriminate.
      * rewrite <- app_assoc. rewrite starts_app.
        assert (op_name_is : is_name (op_text o) = true) by (apply op_name_is_name, Ho).
        destruct (starts_kw _ op_name_is) as [K1 K2].
        destruct (starts_join_head 123 [sp] (kw (op_text o))
                    [join [] [pd (pa n); if has_multiline_items (pl (pa vs))
                                         then wrap [p_lparen; nl] (join [nl] (pl (pa vs))) [nl; p_rparen]
                                         else wrap [p_lparen] (join comma_sp (pl (pa vs))) [p_rparen]];
                     dirs (pa ds)] K2) as [J1 J2].
        rewrite K1 in J1.
        destruct (starts_descr d _ Hd J1 J2) as [D1 D2]. rewrite D2. exact D1.
  - destruct W as [s d n vs ds tc Hs Hd Hn Hvs Hds Htc]. cbn [is_shorthand_operation].
    rewrite pp_doc_eq. cbn [map leave pa pd]. apply starts_def_kw; [exact Hd|reflexivity].
  - destruct W as [d ds ots Hd Hds Hots|n d ds Hn Hd Hds|n d ds i f Hn Hd Hds Hi Hf
                  |n d ds i f Hn Hd Hds Hi Hf|n d ds ts Hn Hd Hds Hts|n d ds vs Hn Hd Hds Hvs
                  |n d ds f Hn Hd Hds Hf|n ls d a ds r Hn Hls Hd Ha Hds];
      cbn [is_shorthand_operation]; rewrite pp_doc_eq; cbn [map leave pa pd];
      first [apply starts_def_join; [exact Hd|reflexivity] | apply starts_def_kw; [exact Hd|reflexivity]].
  - destruct W as [ds ots Hds Hots _|n ds Hn Hds _|n ds i f Hn Hds Hi Hf _|n ds i f Hn Hds Hi Hf _
                  |n ds ts Hn Hds Hts _|n ds vs Hn Hds Hvs _|n ds f Hn Hds Hf _|n ds _ Hn Hds _];
      cbn [is_shorthand_operation]; rewrite pp_doc_eq; cbn [map leave pa pd];
      (apply starts_join_head_false; reflexivity).
Qed.

Lemma truthy_definition xfa xdd x : wf_definition xfa xdd x -> lex_ok x -> truthy (pp_doc x) = true.
Proof.
  intros W Hok. eapply G_truthy; [apply (G_definition xfa xdd x W Hok)|].
  destruct W as [y W|y W|y W|y W].
  - destruct W as [s d n vs ds o Hs Hd Hn Hvs Hds Ho]. cbn [toks_definition toks_operation].
    pose proof (toks_selection_set_ne xfa s Hs) as N. destruct (is_shorthand d n vs ds o); [exact N|].
    intros E. apply app_eq_nil in E as [_ E]. discriminate.
  - destruct W. cbn [toks_definition toks_fragment_definition]. intros E. apply app_eq_nil in E as [_ E]. discriminate.
  - destruct W as [d ds ots Hd Hds Hots|n d ds Hn Hd Hds|n d ds i f Hn Hd Hds Hi Hf
                  |n d ds i f Hn Hd Hds Hi Hf|n d ds ts Hn Hd Hds Hts|n d ds vs Hn Hd Hds Hvs
                  |n d ds f Hn Hd Hds Hf|n ls d a ds r Hn Hls Hd Ha Hds]; try destruct Hls;
      cbn [toks_definition toks_type_system]; intros E; apply app_eq_nil in E as [_ E]; discriminate.
  - destruct W; cbn [toks_definition toks_extension]; discriminate.
Qed.

Lemma fix_short_G xfa xdd : forall r prev pb, ends_with_char 125 prev = pb ->
  Forall (wf_definition xfa xdd) r -> Forall lex_ok r ->
  exists tl, Forall2 G (fix_short prev (map pp_doc r)) tl /\ concat tl = toks_definitions pb r.
Proof.
  induction r as [|x r IH]; intros prev pb Hp W Hok; [exists []; split; [constructor|reflexivity]|].
  inversion W as [|? ? Wx Wr]; subst. inversion Hok as [|? ? Hx Hr]; subst.
  cbn [map fix_short toks_definitions].
  rewrite (starts_definition xfa xdd x Wx Hx).
  pose proof (G_definition xfa xdd x Wx Hx) as GX.
  pose proof (ends_definition xfa xdd x Wx Hx) as EX.
  pose proof (truthy_definition xfa xdd x Wx Hx) as TX.
  set (d' := if is_shorthand_operation x && negb (ends_with_char 125 prev)
             then kw s_query ++ [sp] ++ pp_doc x else pp_doc x).
  assert (E' : ends_with_char 125 d' = ends_with_block x).
  { unfold d'. destruct (is_shorthand_operation x && negb (ends_with_char 125 prev)); [|exact EX].
    rewrite ends_app_r by (apply truthy_app_r, TX). rewrite ends_app_r by exact TX. exact EX. }
  assert (G' : G d' ((if negb (ends_with_char 125 prev) && is_shorthand_operation x then [nm s_query] else [])
                     ++ toks_definition x)).
  { unfold d'. rewrite (andb_comm (negb _)).
    destruct (is_shorthand_operation x && negb (ends_with_char 125 prev)); [|exact GX].
    eapply G_eq; [eapply G_app_r; [apply G_kw; reflexivity| |sok]; gl; exact GX|reflexivity]. }
  destruct (IH d' (ends_with_block x) E' Wr Hr) as (tl & H2 & Hc).
  eexists (_ :: tl). split; [constructor; [exact G'|exact H2]|]. cbn [concat]. rewrite Hc, <- app_assoc.
  reflexivity.
Qed.

Lemma G_document xfa xdd x : wf_document xfa xdd x -> lex_ok x -> G (pp_doc x) (toks_document x).
Proof.
  intros [y l Wy Wl] [_ [Hok _]]. apply all_ok in Hok. inversion Hok as [|? ? Hy Hl]; subst.
  rewrite pp_doc_eq. cbn [map leave pa pl document_defs]. cbn [toks_document toks_definitions].
  destruct (fix_short_G xfa xdd l (pp_doc y) (ends_with_block y) (ends_definition xfa xdd y Wy Hy) Wl Hl)
    as (tl & H2 & Hc).
  eapply G_eq.
  - apply (G_join_gap [Gap [LF; LF]] _ (toks_definition y :: tl)); [lit|lit|lit|].
    constructor; [apply (G_definition xfa xdd); assumption|exact H2].
  - cbn [concat negb andb app]. rewrite Hc. reflexivity.
Qed.

(* every tree an entry point of the text lexer returns *)
Theorem G_ast e xfa xdd x : e <> ECoordinate -> wf_ast e xfa xdd x -> lex_ok x -> G (pp_doc x) (tokens_of x).
Proof.
  intros He W Hok. destruct e; cbn [wf_ast] in W; [| | | |congruence].
  - replace (tokens_of x) with (toks_document x) by (destruct W; reflexivity). apply (G_document xfa xdd); assumption.
  - replace (tokens_of x) with (toks_value x) by (destruct W; reflexivity). apply (proj1 (G_value_all false)); assumption.
  - replace (tokens_of x) with (toks_value x) by (destruct W; reflexivity). apply (proj1 (G_value_all true)); assumption.
  - replace (tokens_of x) with (toks_type x) by (destruct W; reflexivity). apply G_type; assumption.
Qed.

Theorem print_lexes e xfa xdd x : e <> ECoordinate -> wf_ast e xfa xdd x -> lex_ok x ->
  exists ts, lex (pp x) = Ok ts /\ map tok_sig (significant ts) = tokens_of x ++ [(K_EOF, [])].
Proof.
  intros He W Hok. destruct (G_ast e xfa xdd x He W Hok) as (Hv & Ha & Ht).
  destruct (lex_items (pp_doc x) Hv (Ha [] I)) as (ts & E & Hs). exists ts. rewrite <- Ht. auto.
Qed.
