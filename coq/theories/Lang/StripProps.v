(* Proofs about the model of strip_ignored_characters (Lang/Strip.v).
   read_token_ana gives the gap and the lexeme of every token read_token returns; relex0: the text strip
   emits for a token (its lexeme, or the minimised block string re-printed from the value - round trip of
   Lang/StripBlock.v) is read back as a token of the same kind and value in front of whatever strip emits
   next; strip_main, by induction on the lexer's fuel over the ORIGINAL source: the stripped text lexes to
   the same significant tokens, is tight, and is a fixed point of strip. *)
From GV Require Import Base.Prelude Base.ListFacts Lang.Lexer Lang.LexerProps Lang.BlockString Lang.BlockStringProps
  Lang.StripBlock Lang.Strip.

(* rejected sources stay rejected, at the same position; accepted sources are stripped *)
Lemma strip_loop_lex fuel : forall body cu s last,
  match lex_loop fuel cu s with
  | Ok _ => exists out, strip_loop fuel body cu s last = Ok out
  | SyntaxErr q => strip_loop fuel body cu s last = SyntaxErr q
  | Crash w => strip_loop fuel body cu s last = Crash w
  | OutOfFuel => strip_loop fuel body cu s last = OutOfFuel
  end.
Proof.
  induction fuel as [|f IH]; intros body cu s last; [reflexivity|].
  cbn [lex_loop strip_loop].
  destruct (read_token cu s) as [[[tk cu'] s']| | |]; try reflexivity.
  destruct (tkind tk =? K_EOF); [eexists; reflexivity|].
  destruct (tkind tk =? K_COMMENT).
  - specialize (IH body cu' s' last). destruct (lex_loop f cu' s'); exact IH.
  - specialize (IH body cu' s' (negb (is_punct_kind (tkind tk)))).
    destruct (lex_loop f cu' s'); [|rewrite IH; reflexivity..].
    destruct IH as (out & ->). eexists; reflexivity.
Qed.

Lemma skip_ignored_stop cu s : peek_is is_ignored_char s = false -> skip_ignored cu s = (cu, s).
Proof.
  destruct s as [|c t]; [reflexivity|]. cbn [peek_is]. unfold is_ignored_char. intros H.
  apply orb_false_iff in H as [H1 H2]. apply orb_false_iff in H1 as [H0 H1].
  cbn [skip_ignored]. rewrite H0, H1, H2. reflexivity.
Qed.

Lemma read_token_space cu s :
  read_token cu (32 :: s) = read_token (mkCur (S (cpos cu)) (cline cu) (cls cu)) s.
Proof. reflexivity. Qed.

Definition punct_chars : list N := [33; 36; 38; 40; 41; 58; 61; 64; 91; 93; 123; 124; 125].

Lemma punct_kind_some c k : punct_kind c = Some k ->
  In c punct_chars /\ is_punct_kind k = true /\ (k =? K_SPREAD) = false /\ (k =? K_EOF) = false /\
  (k =? K_COMMENT) = false /\ (k =? K_BLOCK_STRING) = false.
Proof.
  unfold punct_kind.
  repeat (match goal with |- context [if ?c =? ?v then _ else _] =>
            destruct (N.eqb_spec c v) as [->|];
            [intros H; inversion H; subst k; cbn [In punct_chars]; repeat split; tauto|] end).
  discriminate.
Qed.

Lemma punct_kind_none c : ~ In c punct_chars -> punct_kind c = None.
Proof.
  unfold punct_kind, punct_chars. cbn [In]. intros H.
  repeat (match goal with |- context [if ?c =? ?v then _ else _] =>
            destruct (N.eqb_spec c v) as [E|]; [exfalso; apply H; rewrite E; tauto|] end).
  reflexivity.
Qed.

Lemma punct_char_facts c : In c punct_chars ->
  (c =? 35) = false /\ (c =? 34) = false /\ is_ignored_char c = false /\ is_name_continue c = false /\
  is_digit c = false /\ is_dot_or_ns c = false /\ (34 =? c) = false.
Proof.
  unfold punct_chars. cbn [In]. intros H.
  repeat (destruct H as [<-|H]; [repeat split; reflexivity|]). destruct H.
Qed.

Lemma name_start_range c : is_name_start c = true -> (65 <= c <= 90 \/ 97 <= c <= 122 \/ c = 95).
Proof.
  unfold is_name_start, is_letter. intros H.
  apply orb_true_iff in H as [H|H]; [|apply N.eqb_eq in H; lia].
  apply orb_true_iff in H as [H|H]; apply andb_true_iff in H as [H1 H2]; apply N.leb_le in H1, H2; lia.
Qed.

Lemma digit_range c : is_digit c = true -> 48 <= c <= 57.
Proof. unfold is_digit. intros H. apply andb_true_iff in H as [H1 H2]. apply N.leb_le in H1, H2. lia. Qed.

Lemma ignored_cases c : is_ignored_char c = true ->
  c = 32 \/ c = 9 \/ c = 44 \/ c = 65279 \/ c = LF \/ c = CR.
Proof.
  unfold is_ignored_char, is_ws_ignored. intros H.
  repeat (apply orb_true_iff in H as [H|H]); apply N.eqb_eq in H; auto 10.
Qed.

Lemma not_ignored_of c : c <> 32 -> c <> 9 -> c <> 44 -> c <> 65279 -> c <> 10 -> c <> 13 ->
  is_ignored_char c = false.
Proof.
  intros. destruct (is_ignored_char c) eqn:E; [|reflexivity].
  apply ignored_cases in E. unfold LF, CR in E. lia.
Qed.

Lemma not_in_punct c : (forall v, In v punct_chars -> c <> v) -> ~ In c punct_chars.
Proof. intros H Hin. exact (H c Hin eq_refl). Qed.

Lemma range_not_punct c : (48 <= c <= 57 \/ 65 <= c <= 90 \/ 97 <= c <= 122 \/ c = 95 \/ c = 45 \/ c = 46) ->
  punct_kind c = None /\ (c =? 35) = false /\ (c =? 34) = false /\ is_ignored_char c = false.
Proof.
  intros H. split; [|split; [|split]].
  - apply punct_kind_none. unfold punct_chars. cbn [In]. lia.
  - apply N.eqb_neq. lia.
  - apply N.eqb_neq. lia.
  - apply not_ignored_of; lia.
Qed.

Lemma name_start_not_num c : is_name_start c = true -> is_digit c || (c =? 45) = false.
Proof.
  intros H. apply name_start_range in H. apply orb_false_iff. split.
  - unfold is_digit. destruct (N.leb_spec 48 c), (N.leb_spec c 57); cbn; try reflexivity. lia.
  - apply N.eqb_neq. lia.
Qed.

Lemma num_head_range c : is_digit c || (c =? 45) = true -> 48 <= c <= 57 \/ c = 45.
Proof.
  intros H. apply orb_true_iff in H as [H|H]; [left; apply digit_range, H|right; apply N.eqb_eq, H].
Qed.

(* what may follow a non-punctuator token without changing it: nothing, an ignored character (the
   separating space of a stripped text; space, comma, line feed in printed text) or a one-character
   punctuator *)
Definition follow_ok (r : list N) : Prop :=
  match r with [] => True | c :: _ => is_ignored_char c = true \/ In c punct_chars end.

Lemma follow_ok_facts r : follow_ok r ->
  peek_is is_name_continue r = false /\ numstop r /\ peek_is (N.eqb 34) r = false.
Proof.
  destruct r as [|c t]; [repeat split; reflexivity|]. cbn [follow_ok peek_is]. unfold numstop. cbn [peek_is].
  intros [H|H].
  - apply ignored_cases in H. unfold LF, CR in H.
    destruct H as [->|[->|[->|[->|[->| ->]]]]]; repeat split; reflexivity.
  - apply punct_char_facts in H. tauto.
Qed.

Lemma starts2_loc a s' r2 : a <> [] -> starts2 34 34 (a ++ s') = false ->
  peek_is (N.eqb 34) r2 = false -> starts2 34 34 (a ++ r2) = false.
Proof.
  destruct a as [|x [|y a']]; [congruence| |]; intros _ H Hr.
  - cbn [app]. destruct r2 as [|y t]; [reflexivity|]. cbn [starts2 peek_is] in *.
    rewrite N.eqb_sym in Hr. rewrite Hr. apply andb_false_r.
  - exact H.
Qed.

Inductive lexeme_of (tk : token) (lx s' : list N) : Prop :=
| L_punct c : lx = [c] -> punct_kind c = Some (tkind tk) -> thasval tk = false -> tvalue tk = [] ->
    lexeme_of tk lx s'
| L_spread : lx = [46; 46; 46] -> tkind tk = K_SPREAD -> thasval tk = false -> tvalue tk = [] ->
    lexeme_of tk lx s'
| L_name c b : lx = c :: b -> is_name_start c = true -> Forall (fun x => is_name_continue x = true) b ->
    peek_is is_name_continue s' = false ->
    tkind tk = K_NAME -> thasval tk = true -> tvalue tk = lx -> lexeme_of tk lx s'
| L_num fl : peek_is (fun c => is_digit c || (c =? 45)) lx = true -> numstop s' ->
    Forall (fun c => num_char c = true) lx ->
    (forall pos2 r2, numstop r2 -> read_number pos2 (lx ++ r2) = Ok ((pos2 + length lx)%nat, fl, r2)) ->
    tkind tk = (if fl then K_FLOAT else K_INT) -> thasval tk = true -> tvalue tk = lx -> lexeme_of tk lx s'
| L_string body : lx = 34 :: body -> body <> [] -> starts2 34 34 (body ++ s') = false ->
    (forall fuel2 pos2 r2, (length (body ++ r2) < fuel2)%nat ->
       read_string_loop fuel2 pos2 [] (body ++ r2) = Ok ((pos2 + length body)%nat, tvalue tk, r2)) ->
    tkind tk = K_STRING -> thasval tk = true -> lexeme_of tk lx s'
| L_block : tkind tk = K_BLOCK_STRING -> thasval tk = true -> in_block_range (tvalue tk) = true ->
    lines_wp (split_lf (tvalue tk)) -> lexeme_of tk lx s'
| L_comment : tkind tk = K_COMMENT -> lexeme_of tk lx s'.

Lemma read_token_ana cu s tk cu' s' : read_token cu s = Ok (tk, cu', s') ->
  exists g lx, s = g ++ lx ++ s' /\ Forall (fun c => is_ignored_char c = true) g /\
    tstart tk = (cpos cu + length g)%nat /\ tend tk = (tstart tk + length lx)%nat /\ cpos cu' = tend tk /\
    (if tkind tk =? K_EOF then lx = [] /\ s' = [] /\ tvalue tk = [] else lexeme_of tk lx s').
Proof.
  intros H.
  destruct (read_token_inv _ _ _ _ _ H) as (g & lx & cu1 & Es & _ & Hg & _ & Hp & Hst & Hen & Hc & _ & _ & HL).
  exists g, lx. split; [exact Es|]. split; [exact Hg|]. split; [lia|]. split; [exact Hen|]. split; [exact Hc|].
  destruct (tkind tk =? K_EOF); [destruct HL as (? & ? & ? & _); auto|].
  destruct HL as [P _ _ _|x e raw ls' _ _ Hk Hhv _ _].
  - destruct P; [eapply L_punct|eapply L_spread|eapply L_name|eapply L_num|eapply L_string|eapply L_comment];
      eassumption.
  - apply L_block; [exact Hk|exact Hhv| |].
    + eapply block_token_in_range; [exact H|exact Hk].
    + eapply block_token_wp; [exact H|exact Hk].
Qed.

(* a class of characters that contains none of the six ignored ones *)
Lemma not_ignored_by (P : N -> bool) :
  P 32 = false -> P 9 = false -> P 44 = false -> P 65279 = false -> P LF = false -> P CR = false ->
  forall c, P c = true -> is_ignored_char c = false.
Proof.
  intros H1 H2 H3 H4 H5 H6 c Hc. destruct (is_ignored_char c) eqn:E; [|reflexivity].
  apply ignored_cases in E. destruct E as [->|[->|[->|[->|[->| ->]]]]]; congruence.
Qed.

Lemma num_char_not_ignored c : num_char c = true -> is_ignored_char c = false.
Proof. apply not_ignored_by; reflexivity. Qed.

Lemma name_continue_not_ignored c : is_name_continue c = true -> is_ignored_char c = false.
Proof. apply not_ignored_by; reflexivity. Qed.

(* the lexeme of a punctuator, name or number contains no ignored character *)
Lemma lexeme_no_ignored tk lx s' : lexeme_of tk lx s' ->
  tkind tk <> K_STRING -> tkind tk <> K_BLOCK_STRING -> tkind tk <> K_COMMENT ->
  Forall (fun c => is_ignored_char c = false) lx.
Proof.
  intros HL H1 H2 H3.
  destruct HL as [c -> Hpk _ _ | -> _ _ _ | c b -> Hns Hb _ _ _ _
                 | fl _ _ Hnc _ _ _ _ | body -> _ _ _ Hk _ | Hk _ _ _ | Hk]; try congruence.
  - destruct (punct_kind_some _ _ Hpk) as (Hin & _). apply punct_char_facts in Hin.
    constructor; [tauto|constructor].
  - repeat constructor.
  - constructor.
    + destruct (range_not_punct c) as (_ & _ & _ & E); [apply name_start_range in Hns; lia|exact E].
    + eapply Forall_impl; [|exact Hb]. apply name_continue_not_ignored.
  - eapply Forall_impl; [|exact Hnc]. apply num_char_not_ignored.
Qed.

(* the text strip emits for a token whose lexeme is lx *)
Definition retext (tk : token) (lx : list N) : list N :=
  if tkind tk =? K_BLOCK_STRING then print_block_string (tvalue tk) true else lx.

(* reading s2 at cu2 gives a token like tk: same kind and value, after a gap of [gap]
   characters, spanning exactly [txt], leaving [rest2] *)
Definition relexed (tk : token) (txt : list N) (cu2 : cursor) (s2 rest2 : list N) (gap : nat) : Prop :=
  exists tk2 cu2', read_token cu2 s2 = Ok (tk2, cu2', rest2) /\
    tkind tk2 = tkind tk /\ tvalue tk2 = tvalue tk /\ thasval tk2 = thasval tk /\
    tstart tk2 = (cpos cu2 + gap)%nat /\ tend tk2 = (tstart tk2 + length txt)%nat /\ cpos cu2' = tend tk2.

Lemma relex0 tk lx s' : lexeme_of tk lx s' -> (tkind tk =? K_COMMENT) = false ->
  forall cu2 rest2, (is_punct_kind (tkind tk) = true \/ follow_ok rest2) ->
  relexed tk (retext tk lx) cu2 (retext tk lx ++ rest2) rest2 0.
Proof.
  intros HL Hnc cu2 rest2 Hfol. unfold relexed, retext.
  assert (Hnp : is_punct_kind (tkind tk) = false -> follow_ok rest2).
  { intros E. destruct Hfol as [F|F]; [congruence|exact F]. }
  destruct HL as [c -> Hpk Hhv Hv | -> Hk Hhv Hv | c b -> Hns Hb Hs' Hk Hhv Hv
                 | fl Hhd Hs' _ L Hk Hhv Hv | body -> Hne Hst L Hk Hhv | Hk Hhv Hr Hw | Hk].
  - (* punctuator *)
    destruct (punct_kind_some _ _ Hpk) as (Hin & _ & _ & _ & _ & Hnb). rewrite Hnb.
    destruct (punct_char_facts _ Hin) as (E35 & E34 & Eig & _).
    cbn [app]. unfold read_token. rewrite skip_ignored_stop by exact Eig. cbv beta iota zeta. rewrite E35, E34, Hpk.
    eexists. eexists. split; [reflexivity|]. cbn [mk tkind tvalue thasval tstart tend cpos length].
    rewrite Hhv, Hv. repeat split; lia.
  - (* spread *)
    rewrite Hk. change (K_SPREAD =? K_BLOCK_STRING) with false. cbv iota. cbn [app].
    unfold read_token. rewrite skip_ignored_stop by reflexivity. cbv beta iota zeta.
    change (46 =? 35) with false. change (46 =? 34) with false. change (punct_kind 46) with (@None N).
    change (is_digit 46 || (46 =? 45)) with false. change (is_name_start 46) with false.
    change (46 =? 46) with true. cbv iota. change (starts2 46 46 (46 :: 46 :: rest2)) with true. cbv iota.
    eexists. eexists. split; [reflexivity|]. cbn [mk tkind tvalue thasval tstart tend cpos length skipn].
    rewrite Hhv, Hv. repeat split; lia.
  - (* name *)
    rewrite Hk. change (K_NAME =? K_BLOCK_STRING) with false. cbv iota.
    assert (F : follow_ok rest2) by (apply Hnp; rewrite Hk; reflexivity).
    destruct (follow_ok_facts _ F) as (Fn & _ & _).
    destruct (range_not_punct c) as (Epk & E35 & E34 & Eig).
    { apply name_start_range in Hns. lia. }
    cbn [app]. unfold read_token. rewrite skip_ignored_stop by exact Eig. cbv beta iota zeta.
    rewrite E35, E34, Epk, (name_start_not_num _ Hns), Hns. rewrite (span_app _ _ _ Hb Fn).
    eexists. eexists. split; [reflexivity|]. cbn [mk tkind tvalue thasval tstart tend cpos length].
    rewrite Hhv, Hv. repeat split; lia.
  - (* number *)
    assert (Hkb : (tkind tk =? K_BLOCK_STRING) = false) by (rewrite Hk; destruct fl; reflexivity).
    rewrite Hkb.
    assert (F : follow_ok rest2) by (apply Hnp; rewrite Hk; destruct fl; reflexivity).
    destruct (follow_ok_facts _ F) as (_ & Fs & _).
    destruct lx as [|c t]; [discriminate|]. cbn [peek_is] in Hhd.
    destruct (range_not_punct c) as (Epk & E35 & E34 & Eig).
    { apply num_head_range in Hhd. lia. }
    cbn [app]. unfold read_token. rewrite skip_ignored_stop by exact Eig. cbv beta iota zeta.
    rewrite E35, E34, Epk, Hhd. change (c :: t ++ rest2) with ((c :: t) ++ rest2).
    rewrite (L (cpos cu2) rest2 Fs).
    eexists. eexists. split; [reflexivity|]. cbn [mk tkind tvalue thasval tstart tend cpos].
    replace (cpos cu2 + length (c :: t) - cpos cu2)%nat with (length (c :: t)) by lia.
    rewrite firstn_app_length. rewrite Hhv, Hv, Hk. repeat split; lia.
  - (* quoted string *)
    rewrite Hk. change (K_STRING =? K_BLOCK_STRING) with false. cbv iota.
    assert (F : follow_ok rest2) by (apply Hnp; rewrite Hk; reflexivity).
    destruct (follow_ok_facts _ F) as (_ & _ & Fq).
    cbn [app]. unfold read_token. rewrite skip_ignored_stop by reflexivity. cbv beta iota zeta.
    change (34 =? 35) with false. change (34 =? 34) with true. cbv iota.
    rewrite (starts2_loc _ _ _ Hne Hst Fq). rewrite L by lia.
    eexists. eexists. split; [reflexivity|]. cbn [mk tkind tvalue thasval tstart tend cpos length].
    rewrite Hhv. repeat split; lia.
  - (* block string *)
    rewrite Hk. change (K_BLOCK_STRING =? K_BLOCK_STRING) with true. cbv iota.
    destruct (block_roundtrip_wp (tvalue tk) true [] cu2 rest2 Hr Hw (Forall_nil _))
      as (tk2 & cu2' & E & Ek & Eh & Ev & Es & Ee & Ec).
    cbn [indent_all] in E, Ee. exists tk2, cu2'. rewrite Hhv. repeat split; auto; lia.
  - rewrite Hk in Hnc. discriminate.
Qed.

Lemma retext_nonempty tk lx s' : lexeme_of tk lx s' -> (tkind tk =? K_COMMENT) = false ->
  (1 <= length (retext tk lx))%nat.
Proof.
  unfold retext. intros HL Hnc.
  destruct (tkind tk =? K_BLOCK_STRING) eqn:Eb.
  { unfold print_block_string. cbv zeta. rewrite app_length. cbn [TQ length]. lia. }
  destruct HL as [c -> _ _ _ | -> _ _ _ | c b -> _ _ _ _ _ _
                 | fl Hhd _ _ _ _ _ _ | body -> _ _ _ _ _ | Hk _ _ _ | Hk]; cbn [length]; try lia.
  - destruct lx; [discriminate|cbn; lia].
  - rewrite Hk in Eb. discriminate.
  - rewrite Hk in Hnc. discriminate.
Qed.

Lemma sep_before_cases last k : sep_before last k = [] \/ sep_before last k = [32].
Proof. unfold sep_before. destruct (last && _); auto. Qed.

Lemma relex_gap tk txt rest2 :
  (forall cu2, relexed tk txt cu2 (txt ++ rest2) rest2 0) ->
  forall sep cu2, (sep = [] \/ sep = [32]) -> relexed tk txt cu2 (sep ++ txt ++ rest2) rest2 (length sep).
Proof.
  intros H sep cu2 [->| ->]; [exact (H cu2)|].
  destruct (H (mkCur (S (cpos cu2)) (cline cu2) (cls cu2))) as (tk2 & cu2' & E & Hk & Hv & Hh & Hs & He & Hc).
  exists tk2, cu2'. cbn [app length]. rewrite read_token_space. cbn [cpos] in Hs.
  repeat split; auto; lia.
Qed.

Lemma slice_lexeme body p g lx s' : skipn p body = g ++ lx ++ s' ->
  slice body (p + length g) (p + length g + length lx) = lx.
Proof.
  intros H. unfold slice. replace (p + length g + length lx - (p + length g))%nat with (length lx) by lia.
  rewrite <- (skipn_skipn' (length g) p body), H, skipn_app_length. apply firstn_app_length.
Qed.

Lemma suffix_step (body : list N) p g lx s' : skipn p body = g ++ lx ++ s' ->
  skipn (p + length g + length lx) body = s'.
Proof.
  intros H. rewrite <- Nat.add_assoc, <- (skipn_skipn' (length g + length lx) p body), H.
  rewrite <- (skipn_skipn' (length lx) (length g)), skipn_app_length. apply skipn_app_length.
Qed.

Lemma token_text_retext body cu tk g lx s' :
  skipn (cpos cu) body = g ++ lx ++ s' ->
  tstart tk = (cpos cu + length g)%nat -> tend tk = (tstart tk + length lx)%nat ->
  token_text body tk = retext tk lx.
Proof.
  intros Hb Hst Hen. unfold token_text, retext. destruct (tkind tk =? K_BLOCK_STRING); [reflexivity|].
  rewrite Hen, Hst. apply (slice_lexeme body (cpos cu) g lx s'). exact Hb.
Qed.

Lemma eof_token_nil cu : read_token cu [] = Ok (mk K_EOF cu (cpos cu) (cpos cu) None, cu, []).
Proof. reflexivity. Qed.

Lemma strip_main fuel : forall body cu s last ts,
  skipn (cpos cu) body = s -> lex_loop fuel cu s = Ok ts ->
  exists out, strip_loop fuel body cu s last = Ok out /\ (last = true -> follow_ok out) /\
    forall fuel2 body2 cu2, (length out < fuel2)%nat -> skipn (cpos cu2) body2 = out ->
      (exists ts2, lex_loop fuel2 cu2 out = Ok ts2 /\
                   map tok_sig (significant ts2) = map tok_sig (significant ts) /\
                   tight last (cpos cu2) out ts2) /\
      strip_loop fuel2 body2 cu2 out last = Ok out.
Proof.
  induction fuel as [|f IH]; intros body cu s last ts Hbody Hlex; [discriminate|].
  cbn [lex_loop] in Hlex. cbn [strip_loop].
  destruct (read_token cu s) as [[[tk cu'] s']| | |] eqn:Ert; try discriminate.
  destruct (read_token_ana _ _ _ _ _ Ert) as (g & lx & Es & Hg & Hst & Hen & Hcu' & Hcls).
  destruct (tkind tk =? K_EOF) eqn:Ek.
  - (* end of the source *)
    destruct Hcls as (_ & _ & Hval). inversion Hlex; subst ts. exists []. split; [reflexivity|].
    split; [intros _; exact I|]. intros fuel2 body2 cu2 Hf _. destruct fuel2 as [|f2]; [cbn in Hf; lia|].
    cbn [lex_loop strip_loop]. rewrite eof_token_nil. cbn [mk tkind]. change (K_EOF =? K_EOF) with true. cbv iota.
    split; [|reflexivity]. eexists. split; [reflexivity|]. split.
    + apply N.eqb_eq in Ek. unfold significant. cbn [filter mk tkind]. rewrite Ek.
      change (negb (K_EOF =? K_COMMENT)) with true. cbv iota. cbn [map]. unfold tok_sig.
      cbn [mk tkind tvalue]. rewrite Ek, Hval. reflexivity.
    + apply tight_eof; reflexivity.
  - destruct (lex_loop f cu' s') as [ts'| | |] eqn:El; try discriminate. inversion Hlex; subst ts. clear Hlex.
    assert (Hbody' : skipn (cpos cu') body = s').
    { rewrite Hcu', Hen, Hst. apply (suffix_step body (cpos cu) g lx s'). congruence. }
    destruct (tkind tk =? K_COMMENT) eqn:Ec.
    + (* a comment is skipped *)
      destruct (IH body cu' s' last ts' Hbody' El) as (out & Eo & Hfo & Hre).
      exists out. split; [exact Eo|]. split; [exact Hfo|]. intros fuel2 body2 cu2 Hf Hb2.
      destruct (Hre fuel2 body2 cu2 Hf Hb2) as ((ts2 & E2 & Hsig & Ht) & Hid).
      split; [|exact Hid]. exists ts2. split; [exact E2|]. split; [|exact Ht].
      rewrite Hsig. unfold significant. cbn [filter]. rewrite Ec. reflexivity.
    + (* a significant token *)
      set (np := negb (is_punct_kind (tkind tk))).
      destruct (IH body cu' s' np ts' Hbody' El) as (out' & Eo & Hfo & Hre). rewrite Eo.
      set (sep := sep_before last (tkind tk)).
      assert (Etxt : token_text body tk = retext tk lx)
        by exact (token_text_retext body cu tk g lx s' (eq_trans Hbody Es) Hst Hen).
      rewrite Etxt. set (txt := retext tk lx).
      exists (sep ++ txt ++ out'). split; [reflexivity|].
      assert (Hfol : is_punct_kind (tkind tk) = true \/ follow_ok out').
      { destruct (is_punct_kind (tkind tk)) eqn:Ep; [left; reflexivity|right]. apply Hfo. reflexivity. }
      assert (Hntxt : (1 <= length txt)%nat) by (eapply retext_nonempty; eauto).
      assert (Hni : tkind tk <> K_STRING -> tkind tk <> K_BLOCK_STRING ->
                    Forall (fun c => is_ignored_char c = false) txt).
      { intros N1 N2. unfold txt, retext.
        destruct (tkind tk =? K_BLOCK_STRING) eqn:Eb; [apply N.eqb_eq in Eb; congruence|].
        apply (lexeme_no_ignored tk lx s' Hcls N1 N2). intros E. rewrite E in Ec. discriminate. }
      split.
      { (* what follows a non-punctuator *)
        intros ->. unfold sep, sep_before. cbn [andb].
        destruct (negb (is_punct_kind (tkind tk)) || (tkind tk =? K_SPREAD)) eqn:Esp.
        - cbn [app follow_ok]. left. reflexivity.
        - apply orb_false_iff in Esp as [Ep Esp]. apply negb_false_iff in Ep. cbn [app].
          destruct Hcls as [c -> Hpk _ _ | _ Hk _ _ | c b _ _ _ _ Hk _ _
                 | fl _ _ _ _ Hk _ _ | body0 _ _ _ _ Hk _ | Hk _ _ _ | Hk];
            try (rewrite Hk in Ep; try destruct fl; discriminate).
          + unfold txt, retext. destruct (punct_kind_some _ _ Hpk) as (Hin & _ & _ & _ & _ & ->).
            cbn [app follow_ok]. right. exact Hin.
          + rewrite Hk in Esp. discriminate. }
      intros fuel2 body2 cu2 Hf Hb2. destruct fuel2 as [|f2]; [cbn in Hf; lia|].
      destruct (relex_gap tk txt out' (fun c2 => relex0 tk lx s' Hcls Ec c2 out' Hfol) sep cu2
                  (sep_before_cases last (tkind tk)))
        as (tk2 & cu2' & E2 & Hk2 & Hv2 & Hh2 & Hs2 & He2 & Hc2).
      assert (Hb2' : skipn (cpos cu2') body2 = out').
      { rewrite Hc2, He2, Hs2. apply (suffix_step body2 (cpos cu2) sep txt out'). exact Hb2. }
      assert (Hf' : (length out' < f2)%nat) by (rewrite !app_length in Hf; lia).
      destruct (Hre f2 body2 cu2' Hf' Hb2') as ((ts2 & El2 & Hsig & Ht) & Hid).
      cbn [lex_loop strip_loop]. rewrite E2, Hk2, Ek, Ec, El2. fold np. rewrite Hid. split.
      * exists (tk2 :: ts2). split; [reflexivity|]. split.
        -- unfold significant. cbn [filter]. rewrite Hk2, Ec. cbn [negb map]. fold (significant ts2).
           fold (significant ts'). rewrite Hsig. unfold tok_sig at 1 3. rewrite Hk2, Hv2. reflexivity.
        -- unfold sep. rewrite <- Hk2. apply tight_tok; rewrite ?Hk2; auto.
           rewrite Hc2 in Ht. exact Ht.
      * fold sep. f_equal. f_equal. f_equal.
        unfold token_text. rewrite Hk2, Hv2. unfold txt, retext.
        destruct (tkind tk =? K_BLOCK_STRING) eqn:Eb; [reflexivity|].
        assert (Hb3 : skipn (cpos cu2) body2 = sep ++ lx ++ out').
        { rewrite Hb2. unfold txt, retext. rewrite Eb. reflexivity. }
        rewrite He2, Hs2. replace (length txt) with (length lx) by (unfold txt, retext; rewrite Eb; reflexivity).
        apply (slice_lexeme body2 (cpos cu2) sep lx out' Hb3).
Qed.

Lemma strip_ok_lex s out : strip s = Ok out -> exists ts, lex s = Ok ts.
Proof.
  unfold strip, lex. intros H.
  pose proof (strip_loop_lex (S (length s)) s init_cursor s false) as L.
  destruct (lex_loop (S (length s)) init_cursor s) as [ts| | |]; [exists ts; reflexivity|congruence..].
Qed.

Lemma strip_all s ts : lex s = Ok ts ->
  exists out ts2, strip s = Ok out /\ lex out = Ok ts2 /\
    map tok_sig (significant ts2) = map tok_sig (significant ts) /\
    tight false 0 out ts2 /\ strip out = Ok out.
Proof.
  unfold lex, strip. intros Hl.
  destruct (strip_main (S (length s)) s init_cursor s false ts eq_refl Hl) as (out & Eo & _ & Hre).
  destruct (Hre (S (length out)) out init_cursor ltac:(lia) eq_refl) as ((ts2 & E2 & Hsig & Ht) & Hid).
  exists out, ts2. auto.
Qed.

Theorem strip_preserves_tokens s ts : lex s = Ok ts ->
  exists out ts2, strip s = Ok out /\ lex out = Ok ts2 /\
    map tok_sig (significant ts2) = map tok_sig (significant ts).
Proof.
  intros Hl. destruct (strip_all s ts Hl) as (out & ts2 & H1 & H2 & H3 & _).
  exists out, ts2. auto.
Qed.

