(* Refinement: the explicit-stack machine Lang/VisitMachine.v computes what the recursive model
   Lang/Visit.v computes (call log, visitor state, result), for every tree and every visitor
   (state-passing decision function, all five actions on enter and leave, root included). *)
From GV Require Import Base.Prelude Lang.Visit Lang.VisitProps Lang.VisitParallelProps Lang.VisitMachine.

Arguments Next {St}.
Arguments Done {St}.
Arguments Stuck {St}.
Arguments MOutOfFuel {St}.
Arguments MStuck {St}.
Arguments MDone {St}.
Arguments MFuel {St}.
Arguments MRaise {St}.
Arguments MRet {St}.

Fixpoint sapp (a b : slots) : slots := match a with SNil => b | SCons s r => SCons s (sapp r b) end.
Fixpoint tapp (a b : trees) : trees := match a with TNil => b | TCons t r => TCons t (tapp r b) end.

Lemma slen_sapp : forall a b, slen (sapp a b) = (slen a + slen b)%nat.
Proof. induction a as [|s r IH]; intros; cbn; [reflexivity|]. rewrite IH. reflexivity. Qed.
Lemma tlen_tapp : forall a b, tlen (tapp a b) = (tlen a + tlen b)%nat.
Proof. induction a as [|s r IH]; intros; cbn; [reflexivity|]. rewrite IH. reflexivity. Qed.

Lemma slot_nth_sapp : forall pre sl rest, slot_nth (sapp pre (SCons sl rest)) (slen pre) = sl.
Proof. induction pre as [|s r IH]; intros; cbn; [reflexivity|]. apply IH. Qed.
Lemma tree_nth_tapp : forall pre c rest, tree_nth (tapp pre (TCons c rest)) (tlen pre) = Some c.
Proof. induction pre as [|s r IH]; intros; cbn; [reflexivity|]. apply IH. Qed.

Lemma slot_set_app : forall pre sl rest x,
  slot_set (sapp pre (SCons sl rest)) (slen pre) x = sapp pre (SCons x rest).
Proof. induction pre as [|s r IH]; intros; cbn; [reflexivity|]. rewrite IH. reflexivity. Qed.

Lemma trees_set_app : forall pre c rest x,
  trees_set (tapp pre (TCons c rest)) (tlen pre) x = tapp pre (TCons x rest).
Proof. induction pre as [|s r IH]; intros; cbn; [reflexivity|]. rewrite IH. reflexivity. Qed.

Lemma trees_pop_app : forall pre c rest,
  trees_pop (tapp pre (TCons c rest)) (tlen pre) = tapp pre rest.
Proof. induction pre as [|s r IH]; intros; cbn; [reflexivity|]. rewrite IH. reflexivity. Qed.

Lemma sapp_snoc : forall pre x rest, sapp (sapp pre (SCons x SNil)) rest = sapp pre (SCons x rest).
Proof. induction pre as [|s r IH]; intros; cbn; [reflexivity|]. rewrite IH. reflexivity. Qed.
Lemma tapp_snoc : forall pre x rest, tapp (tapp pre (TCons x TNil)) rest = tapp pre (TCons x rest).
Proof. induction pre as [|s r IH]; intros; cbn; [reflexivity|]. rewrite IH. reflexivity. Qed.
Lemma slen_snoc pre x : slen (sapp pre (SCons x SNil)) = S (slen pre).
Proof. rewrite slen_sapp. cbn. lia. Qed.
Lemma tlen_snoc pre x : tlen (tapp pre (TCons x TNil)) = S (tlen pre).
Proof. rewrite tlen_tapp. cbn. lia. Qed.

Lemma apply_node_app : forall a b ss, apply_node (a ++ b) ss = apply_node b (apply_node a ss).
Proof. induction a as [|[k e] r IH]; intros; cbn; [reflexivity|]. apply IH. Qed.

Fixpoint arr_st (es : list edit) (l : trees) (off : nat) : trees * nat :=
  match es with
  | [] => (l, off)
  | (k, ev) :: r =>
    let ak := (key_num k - off)%nat in
    match ev with
    | ERemove => arr_st r (trees_pop l ak) (S off)
    | EVal (VNode t) => arr_st r (trees_set l ak t) off
    | EVal (VArr _) => arr_st r l off
    end
  end.

Lemma apply_arr_st : forall es l off, apply_arr es l off = fst (arr_st es l off).
Proof.
  induction es as [|[k e] r IH]; intros; cbn; [reflexivity|].
  destruct e as [|[t|a]]; apply IH.
Qed.

Lemma arr_st_app : forall a b l off,
  arr_st (a ++ b) l off = let '(l1, o1) := arr_st a l off in arr_st b l1 o1.
Proof.
  induction a as [|[k e] r IH]; intros; cbn; [reflexivity|].
  destruct e as [|[t|x]]; apply IH.
Qed.

Lemma is_nil_app {A} (a b : list A) : is_nil (a ++ b) = is_nil a && is_nil b.
Proof. destruct a; reflexivity. Qed.

Definition ev (v : option tree) : eval := match v with None => ERemove | Some t => EVal (VNode t) end.

Definition es_child (k : key) (v : option tree) (es : list edit) : Prop :=
  es = [(k, ev v)] \/ exists t', es = [(k, EVal (VNode t')); (k, ev v)].

Lemma es_child_nonnil k v es : es_child k v es -> is_nil es = false.
Proof. intros [->|[t' ->]]; reflexivity. Qed.

(* the edit of a replacement on enter, if any; after it comes what the leave of the node decides *)
Definition entered_edit (entered : bool) (k : key) (node : tree) : list edit :=
  if entered then [(k, EVal (VNode node))] else [].

Lemma es_child_entered entered node k v : es_child k v (entered_edit entered k node ++ [(k, ev v)]).
Proof. destruct entered; [right; exists node|left]; reflexivity. Qed.

Lemma es_child_node i v es pre sl rest : es_child (KName i) v es -> slen pre = i ->
  apply_node es (sapp pre (SCons sl rest)) = sapp pre (SCons (slot_of v) rest).
Proof.
  intros [->|[t' ->]] <-; cbn [apply_node key_num]; rewrite !slot_set_app; destruct v; reflexivity.
Qed.

Lemma es_child_arr j v es pre off c rest : es_child (KIdx j) v es -> (tlen pre + off = j)%nat ->
  arr_st es (tapp pre (TCons c rest)) off
  = match v with None => (tapp pre rest, S off) | Some t => (tapp pre (TCons t rest), off) end.
Proof.
  intros H E. assert (A : (j - off = tlen pre)%nat) by lia.
  destruct H as [->|[t' ->]]; destruct v as [t|]; cbn [arr_st key_num ev]; rewrite !A;
    rewrite ?trees_set_app, ?trees_pop_app; reflexivity.
Qed.

(* the edits [es] of one level turn the items [l] from position [j] on into [l'] *)
Definition trees_es (j : nat) (l l' : trees) (e : bool) (es : list edit) : Prop :=
  e = negb (is_nil es) /\
  forall pre off, (tlen pre + off = j)%nat -> exists off', arr_st es (tapp pre l) off = (tapp pre l', off').

Definition slots_es (i : nat) (ss ss' : slots) (e : bool) (es : list edit) : Prop :=
  e = negb (is_nil es) /\ forall pre, slen pre = i -> apply_node es (sapp pre ss) = sapp pre ss'.

Lemma trees_es_nil j : trees_es j TNil TNil false [].
Proof. split; [reflexivity|]. intros pre off _. exists off. reflexivity. Qed.

Lemma trees_es_keep j c rest x e es :
  trees_es (S j) rest x e es -> trees_es j (TCons c rest) (TCons c x) e es.
Proof.
  intros [He Hes]. split; [exact He|]. intros pre off Ho.
  destruct (Hes (tapp pre (TCons c TNil)) off) as (off' & Ha); [rewrite tlen_snoc; lia|].
  exists off'. rewrite !tapp_snoc in Ha. exact Ha.
Qed.

Lemma trees_es_edit j c rest v es1 x e es : es_child (KIdx j) v es1 ->
  trees_es (S j) rest x e es ->
  trees_es j (TCons c rest) (match v with None => x | Some t => TCons t x end) true (es1 ++ es).
Proof.
  intros Hc [He Hes]. split; [rewrite is_nil_app, (es_child_nonnil _ _ _ Hc); reflexivity|].
  intros pre off Ho. rewrite arr_st_app, (es_child_arr _ _ _ _ _ _ _ Hc Ho). destruct v as [t|].
  - destruct (Hes (tapp pre (TCons t TNil)) off) as (off' & Ha); [rewrite tlen_snoc; lia|].
    exists off'. rewrite !tapp_snoc in Ha. exact Ha.
  - apply Hes. lia.
Qed.

Lemma slots_es_nil i : slots_es i SNil SNil false [].
Proof. split; reflexivity. Qed.

Lemma slots_es_keep i sl rest x e es :
  slots_es (S i) rest x e es -> slots_es i (SCons sl rest) (SCons sl x) e es.
Proof.
  intros [He Hes]. split; [exact He|]. intros pre Hl.
  specialize (Hes (sapp pre (SCons sl SNil))). rewrite slen_snoc, !sapp_snoc in Hes. apply Hes. lia.
Qed.

Lemma slots_es_edit i sl rest v es1 x e es : es_child (KName i) v es1 ->
  slots_es (S i) rest x e es -> slots_es i (SCons sl rest) (SCons (slot_of v) x) true (es1 ++ es).
Proof.
  intros Hc [He Hes]. split; [rewrite is_nil_app, (es_child_nonnil _ _ _ Hc); reflexivity|].
  intros pre Hl. rewrite apply_node_app, (es_child_node _ _ _ _ _ _ Hc Hl).
  specialize (Hes (sapp pre (SCons (slot_of v) SNil))). rewrite slen_snoc, !sapp_snoc in Hes. apply Hes. lia.
Qed.

(* an array slot: its items' edits [esa] become one edit of the node, the rebuilt tuple *)
Lemma slots_es_arr i l l' ea esa rest x e es : trees_es 0 l l' ea esa -> slots_es (S i) rest x e es ->
  slots_es i (SCons (SArr l) rest) (SCons (SArr (if ea then l' else l)) x) (ea || e)
    ((if is_nil esa then [] else [(KName i, EVal (VArr (apply_arr esa l 0%nat)))]) ++ es).
Proof.
  intros [Hea Hesa] [He Hes]. split.
  - rewrite is_nil_app, Hea, He. destruct (is_nil esa); reflexivity.
  - intros pre Hl. rewrite apply_node_app.
    specialize (Hes (sapp pre (SCons (SArr (if ea then l' else l)) SNil))).
    rewrite slen_snoc, !sapp_snoc in Hes. rewrite <- (Hes ltac:(lia)). f_equal.
    rewrite Hea. destruct (is_nil esa) eqn:En; cbn [negb apply_node]; [reflexivity|].
    cbn [key_num slot_of_eval]. rewrite <- Hl, slot_set_app. do 3 f_equal.
    destruct (Hesa TNil 0%nat eq_refl) as (off' & Ha). cbn [tapp] in Ha.
    rewrite apply_arr_st, Ha. reflexivity.
Qed.

Arguments mkM {St}.
Arguments m_stack {St}. Arguments m_in_array {St}. Arguments m_nxt {St}. Arguments m_klen {St}.
Arguments m_edits {St}. Arguments m_node {St}. Arguments m_key {St}. Arguments m_parent {St}.
Arguments m_path {St}. Arguments m_anc {St}. Arguments m_vs {St}.

Section Sim.
  Variable St : Type.
  Variable decide : phase -> tree -> St -> action * St.
  Notation ms := (mstate St).
  Notation stepf := (step St decide).
  Notation vphase := (visit_phase St decide).

  Fixpoint iter (n : nat) (s : ms) : sres St :=
    match n with
    | O => Next s
    | S n' => match stepf s with Next s' => iter n' s' | r => r end
    end.

  Definition iter_from (o : sres St) (n : nat) : sres St :=
    match o with Next s => iter n s | r => r end.

  Lemma iter_first n s : iter (S n) s = iter_from (stepf s) n.
  Proof. cbn [iter]. destruct (stepf s); reflexivity. Qed.

  Lemma iter_from_0 o : iter_from o 0 = o.
  Proof. destruct o; reflexivity. Qed.

  Lemma iter_add n m s s' : iter n s = Next s' -> iter (n + m) s = iter m s'.
  Proof.
    revert s. induction n as [|n IH]; intros s H; cbn in *.
    - inversion H; reflexivity.
    - destruct (stepf s); try discriminate. apply IH; auto.
  Qed.

  Lemma iter_step n s s' : iter n s = Next s' -> iter (n + 1) s = stepf s'.
  Proof. intros H. rewrite (iter_add _ 1 _ _ H). cbn. destruct (stepf s'); reflexivity. Qed.

  Lemma iter_done n m s b sf : iter n s = Done b sf -> iter (n + m) s = Done b sf.
  Proof.
    revert s. induction n as [|n IH]; intros s H; cbn in *; [discriminate|].
    destruct (stepf s); try discriminate; auto.
  Qed.

  Lemma iter_run n s b sf : iter n s = Done b sf ->
    forall fuel, (n <= fuel)%nat -> run_steps St decide fuel s = MDone b sf.
  Proof.
    revert s. induction n as [|n IH]; intros s H fuel L; cbn in H; [discriminate|].
    destruct fuel as [|f]; [lia|]. cbn. destruct (stepf s) eqn:E; try discriminate.
    - apply IH; auto. lia.
    - inversion H; reflexivity.
  Qed.

  (* the visitor never answers with a replacement node on enter *)
  Definition NR : Prop :=
    forall t s, match fst (decide Enter t s) with Replace _ => False | _ => True end.

  (* every replacement node the visitor answers with on enter needs at most R loop iterations *)
  Definition HR (R : nat) : Prop :=
    forall t s, match fst (decide Enter t s) with Replace t' => (msteps t' <= R)%nat | _ => True end.

  Lemma NR_HR R : NR -> HR R.
  Proof. intros HN t s. specialize (HN t s). destruct (fst (decide Enter t s)); auto. contradiction. Qed.

  (* number of enter calls answered with a replacement in a call log *)
  Definition is_rep (c : call) : bool :=
    match c_phase c with Enter => c_action c =? 4 | Leave => false end.
  Definition nrep (lg : list call) : nat := length (filter is_rep lg).

  (* n iterations between visitor states s and s' are within M plus R per enter-replacement made in
     between; without replacements on enter (HR 0) that is: within M *)
  Definition bounded (n M : nat) (s s' : st St) : Prop :=
    forall R, HR R -> (n + R * nrep (snd s) <= M + R * nrep (snd s'))%nat.

  Lemma bounded_refl M s : bounded 0 M s s.
  Proof. intros R _. lia. Qed.

  Lemma bounded_comb n1 M1 n2 M2 s s1 s2 : bounded n1 M1 s s1 -> bounded n2 M2 s1 s2 ->
    forall k n M, n = (k + n1 + n2)%nat -> (k + M1 + M2 <= M)%nat -> bounded n M s s2.
  Proof. intros B1 B2 k n M -> HM R HRr. specialize (B1 R HRr). specialize (B2 R HRr). lia. Qed.

  Lemma bounded_pad n1 M1 s s1 : bounded n1 M1 s s1 ->
    forall k n M, n = (k + n1)%nat -> (k + M1 <= M)%nat -> bounded n M s s1.
  Proof.
    intros H k n M -> HM. apply (bounded_comb _ _ _ _ _ _ _ H (bounded_refl 0 s1) k); lia.
  Qed.

  Lemma bounded_tail n M s s2 s3 : bounded n M s s2 -> nrep (snd s3) = nrep (snd s2) -> bounded n M s s3.
  Proof. intros B E R HRr. rewrite E. exact (B R HRr). Qed.

  Lemma enter_nrep t k p n s a s1 : do_call St decide Enter t k p n s = (a, s1) ->
    nrep (snd s1) = (nrep (snd s) + match a with Replace _ => 1 | _ => 0 end)%nat.
  Proof.
    unfold do_call. destruct (decide Enter t (fst s)) as [a' x]. intros H; inversion H; subst.
    unfold nrep. cbn [snd filter is_rep c_phase c_action]. destruct a; cbn; lia.
  Qed.

  Lemma leave_nrep t k p n s a s1 : do_call St decide Leave t k p n s = (a, s1) -> nrep (snd s1) = nrep (snd s).
  Proof.
    unfold do_call. destruct (decide Leave t (fst s)) as [a' x]. intros H; inversion H; subst.
    unfold nrep. cbn [snd filter is_rep c_phase c_action]. reflexivity.
  Qed.

  (* the enter iteration in front of n1 further iterations *)
  Lemma bounded_enter c k p nn s a s1 n1 M1 s' :
    do_call St decide Enter c k p nn s = (a, s1) -> bounded n1 M1 s1 s' ->
    match a with Replace t' => M1 = S (msteps_slots (tslots t')) | _ => (S M1 <= msteps c)%nat end ->
    bounded (S n1) (msteps c) s s'.
  Proof.
    intros Ed B Ha R HRr. pose proof (enter_nrep _ _ _ _ _ _ _ Ed) as En.
    pose proof (do_call_action _ _ _ _ _ _ _ _ _ _ Ed) as Ea.
    specialize (B R HRr). pose proof (HRr c (fst s)) as X. rewrite Ea in X. rewrite En in B.
    destruct a as [| | | |t']; try (rewrite Nat.add_0_r in B; lia).
    rewrite Nat.mul_add_distr_l, Nat.mul_1_r in B. subst M1. destruct t' as [kd id ss]. cbn in *. lia.
  Qed.

  Lemma step_child stk ia idx klen E nd0 ky0 par path anc s nd :
    idx <> klen -> truthy (Some par) = true -> fetch par ia idx = FVal nd ->
    let k := if ia then KIdx idx else KName idx in
    stepf (mkM stk ia idx klen E nd0 ky0 (Some par) path anc s)
    = vphase false false (mkM stk ia idx klen E (Some nd) k (Some par) (path ++ [k]) anc s) nd.
  Proof.
    intros Hn Ht Hf k. unfold step. cbn [m_nxt m_klen m_parent m_in_array m_stack m_edits m_node m_key m_path m_anc m_vs].
    apply Nat.eqb_neq in Hn. rewrite Hn. cbn [andb]. rewrite Ht, Hf. reflexivity.
  Qed.

  Lemma step_none stk ia idx klen E nd0 ky0 par path anc s :
    idx <> klen -> truthy (Some par) = true -> fetch par ia idx = FNone ->
    stepf (mkM stk ia idx klen E nd0 ky0 (Some par) path anc s)
    = Next (mkM stk ia (S idx) klen E None (if ia then KIdx idx else KName idx) (Some par) path anc s).
  Proof.
    intros Hn Ht Hf. unfold step. cbn [m_nxt m_klen m_parent m_in_array m_stack m_edits m_node m_key m_path m_anc m_vs].
    apply Nat.eqb_neq in Hn. rewrite Hn. cbn [andb]. rewrite Ht, Hf. reflexivity.
  Qed.

  Lemma step_leave fr K ia klen E nd0 ky0 par path anc s nd :
    (if negb (is_nil E) then apply_edits ia E par else Some par) = Some nd ->
    stepf (mkM (fr :: K) ia klen klen E nd0 ky0 (Some par) path anc s)
    = vphase true (negb (is_nil E))
        (mkM K (f_in_array fr) (f_idx fr) (f_klen fr) (f_edits fr) (Some nd)
             (match anc with [] => KNone | _ => last path KNone end)
             (match anc with [] => None | a :: _ => Some a end) path (tl anc) s) nd.
  Proof.
    intros H. unfold step. cbn [m_nxt m_klen m_parent m_in_array m_stack m_edits m_node m_key m_path m_anc m_vs].
    rewrite Nat.eqb_refl. cbn [andb]. rewrite H. destruct anc; reflexivity.
  Qed.

  Lemma step_root root vs :
    stepf (init St root vs) = vphase false false (init St root vs) (VNode root).
  Proof. reflexivity. Qed.

  Lemma vphase_enter stk ia idx klen E nd0 k opar p anc s t :
    vphase false false (mkM stk ia idx klen E nd0 k opar p anc s) (VNode t)
    = let '(a, s1) := do_call St decide Enter t k p (length anc) s in
      let here E' := mkM stk ia idx klen E' nd0 k opar p anc s1 in
      match a with
      | Idle => finish St false false true (here E) (VNode t)
      | Skip => skip_child St (here E)
      | Break => Done true (here E)
      | Remove => skip_child St (here (E ++ [(k, ERemove)]))
      | Replace t' =>
        finish St false false false
          (mkM stk ia idx klen (E ++ [(k, EVal (VNode t'))]) (Some (VNode t')) k opar p anc s1) (VNode t')
      end.
  Proof.
    unfold visit_phase. cbn [m_key m_path m_anc m_vs].
    destruct (do_call St decide Enter t k p (length anc) s) as [a s1]. destruct a; reflexivity.
  Qed.

  Lemma vphase_leave ie stk ia idx klen E nd0 k opar p anc s t :
    vphase true ie (mkM stk ia idx klen E nd0 k opar p anc s) (VNode t)
    = let '(a, s1) := do_call St decide Leave t k p (length anc) s in
      let here E' := mkM stk ia idx klen E' nd0 k opar p anc s1 in
      match a with
      | Idle | Skip => finish St true ie true (here E) (VNode t)
      | Break => Done true (here E)
      | Remove => finish St true ie false (here (E ++ [(k, ERemove)])) (VNode t)
      | Replace t' => finish St true ie false (here (E ++ [(k, EVal (VNode t'))])) (VNode t)
      end.
  Proof.
    unfold visit_phase. cbn [m_key m_path m_anc m_vs].
    destruct (do_call St decide Leave t k p (length anc) s) as [a s1]. destruct a; reflexivity.
  Qed.

  (* where a node stands: below [opar] (with [anc] above that), or at the root *)
  Definition ctx (opar : option val) (hp : bool) (anc : list val) : Prop :=
    match opar with Some q => truthy opar = true /\ hp = true | None => hp = false /\ anc = [] end.

  Definition inner_anc (opar : option val) (anc : list val) : list val :=
    match opar with Some q => q :: anc | None => anc end.

  Lemma ctx_inner opar hp anc : ctx opar hp anc ->
    inner_nanc hp (length anc) = length (inner_anc opar anc) /\
    match inner_anc opar anc with [] => None | a :: _ => Some a end = opar /\
    tl (inner_anc opar anc) = anc.
  Proof. destruct opar; cbn; [intros [_ ->]|intros [-> ->]]; auto. Qed.

  Lemma finish_enter rn stk ia idx klen E nd0 k opar p anc s nd hp : ctx opar hp anc ->
    finish St false false rn (mkM stk ia idx klen E nd0 k opar p anc s) nd
    = Next (mkM (mkFrame ia idx klen E :: stk) (is_arr nd) 0%nat (vlen nd) [] (Some nd) k (Some nd) p
                (inner_anc opar anc) s).
  Proof.
    intros Hc. unfold finish. rewrite andb_false_r.
    cbn [m_stack m_in_array m_nxt m_klen m_edits m_key m_parent m_path m_anc m_vs].
    destruct opar; [destruct Hc as [-> _]|]; reflexivity.
  Qed.

  (* the iteration is over at index [idx] of the outer level with edits [E]: the next iteration is
     that of index idx + 1 with the path popped; at the root the loop ends *)
  Definition returned stk ia idx klen E opar (p : list key) anc (s' : st St) (out : sres St) : Prop :=
    match stk with
    | [] => exists sf, out = Done false sf /\ m_vs sf = s' /\ m_edits sf = E
    | _ => exists nd ky, out = Next (mkM stk ia (S idx) klen E nd ky opar (removelast p) anc s')
    end.

  Lemma returned_next stk ia idx klen E opar p k anc s' out : stk <> [] ->
    returned stk ia idx klen E opar (p ++ [k]) anc s' out ->
    exists nd ky, out = Next (mkM stk ia (S idx) klen E nd ky opar p anc s').
  Proof. intros Hs H. destruct stk; [contradiction|]. cbn [returned] in H. rewrite removelast_last in H. exact H. Qed.

  Lemma finish_returned ie rn stk ia idx klen E nd k opar p anc s :
    returned stk ia idx klen (if rn && ie then E ++ [(k, EVal nd)] else E) opar p anc s
         (finish St true ie rn (mkM stk ia idx klen E (Some nd) k opar p anc s) nd).
  Proof. unfold finish, returned. cbn. destruct stk; eauto. Qed.

  Lemma skip_returned stk ia idx klen E nd k opar p anc s :
    returned stk ia idx klen E opar p anc s (skip_child St (mkM stk ia idx klen E nd k opar p anc s)).
  Proof. unfold skip_child, returned. cbn. destruct stk; eauto. Qed.

  Definition enter_post (k : key) (r : res) (s' : st St) stk ia idx klen E opar p anc (out : sres St) : Prop :=
    match r with
    | ROutOfFuel => True        (* excluded by hypothesis wherever this is used *)
    | RBreak => exists sf, out = Done true sf /\ m_vs sf = s'
    | RKeep => returned stk ia idx klen E opar p anc s' out
    | REdit v => exists es, es_child k v es /\ returned stk ia idx klen (E ++ es) opar p anc s' out
    end.

  (* what the induction on fuel carries: whenever the loop is about to fetch child [c] at index [idx]
     of an inner level and the model's [rec] answers [r] for that child, some number of iterations
     (bounded by msteps c) brings the loop to what [enter_post] says for [r] *)
  Definition sim_rec (rec : visit_fn St) : Prop :=
    forall c stk ia idx klen E par path anc nd0 ky0 s r s',
      fetch par ia idx = FVal (VNode c) -> truthy (Some par) = true -> idx <> klen ->
      let k := if ia then KIdx idx else KName idx in
      rec c k (path ++ [k]) (length anc) true s = (r, s') -> r <> ROutOfFuel ->
      exists n, bounded n (msteps c) s s' /\
        enter_post k r s' stk ia idx klen E (Some par) (path ++ [k]) anc
                   (iter n (mkM stk ia idx klen E nd0 ky0 (Some par) path anc s)).

  (* the level ends at position [fin] with the edits [es] of its items, or the loop broke off *)
  Definition level_post {X} (mk : nat -> list edit -> option val -> key -> st St -> ms) (fin : nat)
             (ok : X -> bool -> list edit -> Prop) (E : list edit) (r : option (X * bool)) (s' : st St)
             (out : sres St) : Prop :=
    match r with
    | None => exists sf, out = Done true sf /\ m_vs sf = s'
    | Some xe => exists nd ky es, ok (fst xe) (snd xe) es /\ out = Next (mk fin (E ++ es) nd ky s')
    end.

  Lemma level_seq {X} mk fin (ok ok2 : X -> bool -> list edit -> Prop) (g : X * bool -> X * bool)
        E es1 E' r2 s s1 s' st0 st1 n1 M1 M2 M :
    iter n1 st0 = Next st1 ->                       (* the first item: n1 iterations from st0 to st1 ... *)
    bounded n1 M1 s s1 ->                           (* ... within M1 *)
    (exists n2, bounded n2 M2 s1 s' /\ level_post mk fin ok2 E' r2 s' (iter n2 st1)) ->   (* the rest, from st1 *)
    E' = E ++ es1 ->                                (* es1: the edits the first item left *)
    (M1 + M2 <= M)%nat ->
    (forall x e es, ok2 x e es -> ok (fst (g (x, e))) (snd (g (x, e))) (es1 ++ es)) ->      (* g puts the first item back *)
    exists n, bounded n M s s' /\ level_post mk fin ok E (option_map g r2) s' (iter n st0).
  Proof.
    intros Hi Hb1 (n2 & Hb2 & Hp) -> HM Hg. exists (n1 + n2)%nat.
    split; [apply (bounded_comb _ _ _ _ _ _ _ Hb1 Hb2 0); lia|].
    rewrite (iter_add _ _ _ _ Hi). destruct r2 as [[x e]|]; cbn [option_map level_post fst snd] in *.
    - destruct Hp as (nd & ky & es & Hok & Hi2). exists nd, ky, (es1 ++ es).
      split; [apply Hg; exact Hok|]. rewrite app_assoc. exact Hi2.
    - exact Hp.
  Qed.

  Definition arr_at (L : trees) stk p anc (j : nat) E nd ky (s : st St) : ms :=
    mkM stk true j (tlen L) E nd ky (Some (VArr L)) p anc s.
  Definition node_at (P : tree) stk p anc (i : nat) E nd ky (s : st St) : ms :=
    mkM stk false i (slen (tslots P)) E nd ky (Some (VNode P)) p anc s.

  Lemma trees_sim rec : sim_rec rec -> forall L stk p anc, stk <> [] ->
    forall l pre E nd0 ky0 s r s', L = tapp pre l ->
      vtrees St rec l (tlen pre) p (length anc) s = (Some r, s') ->
      exists n, bounded n (msteps_trees l) s s' /\
        level_post (arr_at L stk p anc) (tlen L) (trees_es (tlen pre) l) E r s'
                   (iter n (arr_at L stk p anc (tlen pre) E nd0 ky0 s)).
  Proof.
    intros Hrec L stk p anc Hstk. induction l as [|c rest IH]; intros pre E nd0 ky0 s r s' HL H.
    - cbn in H. inversion H; subst r s'. exists 0%nat. split; [apply bounded_refl|].
      exists nd0, ky0, []. split; [apply trees_es_nil|].
      cbn [iter]. rewrite app_nil_r, HL, tlen_tapp, Nat.add_0_r. reflexivity.
    - rewrite vtrees_cons in H.
      destruct (rec c (KIdx (tlen pre)) (p ++ [KIdx (tlen pre)]) (length anc) true s) as [rc s1] eqn:Ec.
      assert (Hf : fetch (VArr L) true (tlen pre) = FVal (VNode c)) by (cbn; rewrite HL, tree_nth_tapp; reflexivity).
      assert (Ht : truthy (Some (VArr L)) = true) by (rewrite HL; destruct pre; reflexivity).
      assert (Hlt : tlen pre <> tlen L) by (rewrite HL, tlen_tapp; cbn; lia).
      assert (Hrc : rc <> ROutOfFuel) by (intros ->; discriminate H).
      destruct (Hrec c stk true (tlen pre) (tlen L) E (VArr L) p anc nd0 ky0 s rc s1 Hf Ht Hlt Ec Hrc)
        as (n1 & Hb1 & Hp1).
      pose proof (fun E' nd ky r2 => IH (tapp pre (TCons c TNil)) E' nd ky s1 r2 s'
                                        ltac:(rewrite tapp_snoc; exact HL)) as IH'.
      rewrite tlen_snoc in IH'.
      destruct rc as [| |v|]; cbn [enter_post] in Hp1.
      + inversion H; subst r s'. exists n1. split; [|exact Hp1].
        apply (bounded_pad _ _ _ _ Hb1 0%nat); cbn [msteps_trees]; lia.
      + apply lift_some in H as (r2 & E2 & ->).
        destruct (returned_next _ _ _ _ _ _ _ _ _ _ _ Hstk Hp1) as (nd1 & ky1 & Hi).
        eapply level_seq with (E := E) (es1 := []).
        * exact Hi.
        * exact Hb1.
        * exact (IH' _ nd1 ky1 r2 E2).
        * symmetry. apply app_nil_r.
        * cbn [msteps_trees]. lia.
        * intros x e es. apply trees_es_keep.
      + apply lift_some in H as (r2 & E2 & ->).
        destruct Hp1 as (es1 & Hc & Hp1).
        destruct (returned_next _ _ _ _ _ _ _ _ _ _ _ Hstk Hp1) as (nd1 & ky1 & Hi).
        eapply level_seq with (E := E) (es1 := es1).
        * exact Hi.
        * exact Hb1.
        * exact (IH' _ nd1 ky1 r2 E2).
        * reflexivity.
        * cbn [msteps_trees]. lia.
        * intros x e es. apply (trees_es_edit _ _ _ _ _ _ _ _ Hc).
      + contradiction Hrc; reflexivity.
  Qed.

  Lemma step_enter_arr stk i klen E nd0 ky0 P p anc s l :
    i <> klen -> slot_nth (tslots P) i = SArr l ->
    stepf (mkM stk false i klen E nd0 ky0 (Some (VNode P)) p anc s)
    = Next (arr_at l (mkFrame false i klen E :: stk) (p ++ [KName i]) (VNode P :: anc) 0%nat []
                   (Some (VArr l)) (KName i) s).
  Proof.
    intros Hn Hs. rewrite (step_child stk false i klen E nd0 ky0 (VNode P) p anc s (VArr l) Hn eq_refl).
    - reflexivity.
    - cbn. rewrite Hs. reflexivity.
  Qed.

  Lemma step_leave_arr stk i klen E nd0 ky0 P p anc s l es :
    stk <> [] ->
    exists nd ky,
    stepf (arr_at l (mkFrame false i klen E :: stk) (p ++ [KName i]) (VNode P :: anc) (tlen l) es nd0 ky0 s)
    = Next (mkM stk false (S i) klen
                (E ++ (if is_nil es then [] else [(KName i, EVal (VArr (apply_arr es l 0%nat)))]))
                nd ky (Some (VNode P)) p anc s).
  Proof.
    intros Hstk. destruct stk as [|f0 stk]; [contradiction|]. unfold arr_at.
    destruct es as [|e0 es].
    - do 2 eexists. rewrite (step_leave _ _ true (tlen l) [] nd0 ky0 (VArr l) _ _ s (VArr l) eq_refl).
      cbn. rewrite last_last, removelast_last, app_nil_r. reflexivity.
    - do 2 eexists.
      rewrite (step_leave _ _ true (tlen l) (e0 :: es) nd0 ky0 (VArr l) _ _ s
                 (VArr (apply_arr (e0 :: es) l 0%nat)) eq_refl).
      cbn [visit_phase finish negb is_nil andb m_edits m_key m_stack m_in_array m_nxt m_klen m_parent m_path m_anc m_vs
           f_in_array f_idx f_klen f_edits tl].
      rewrite last_last, removelast_last. reflexivity.
  Qed.

  Lemma slots_sim rec : sim_rec rec -> forall P stk p anc, stk <> [] ->
    forall ss pre E nd0 ky0 s r s', tslots P = sapp pre ss ->
      vslots St rec ss (slen pre) p (length anc) s = (Some r, s') ->
      exists n, bounded n (msteps_slots ss) s s' /\
        level_post (node_at P stk p anc) (slen (tslots P)) (slots_es (slen pre) ss) E r s'
                   (iter n (node_at P stk p anc (slen pre) E nd0 ky0 s)).
  Proof.
    intros Hrec P stk p anc Hstk. induction ss as [|sl rest IH]; intros pre E nd0 ky0 s r s' HP H.
    - cbn in H. inversion H; subst r s'. exists 0%nat. split; [apply bounded_refl|].
      exists nd0, ky0, []. split; [apply slots_es_nil|].
      cbn [iter]. rewrite app_nil_r, HP, slen_sapp, Nat.add_0_r. reflexivity.
    - rewrite vslots_cons in H. set (i := slen pre) in *.
      assert (Hn : slot_nth (tslots P) i = sl) by (rewrite HP; apply slot_nth_sapp).
      assert (Hlt : i <> slen (tslots P)) by (rewrite HP, slen_sapp; cbn; lia).
      pose proof (fun E' nd ky s1 r2 => IH (sapp pre (SCons sl SNil)) E' nd ky s1 r2 s'
                                           ltac:(rewrite sapp_snoc; exact HP)) as IH'.
      rewrite slen_snoc in IH'. fold i in IH'.
      destruct sl as [|c|l].
      + (* absent slot *)
        apply lift_some in H as (r2 & E2 & ->).
        assert (S1 := step_none stk false i (slen (tslots P)) E nd0 ky0 (VNode P) p anc s Hlt eq_refl
                        ltac:(cbn; rewrite Hn; reflexivity)).
        eapply level_seq with (E := E) (es1 := []) (n1 := 1%nat) (M1 := 1%nat).
        * unfold node_at. cbn [iter]. rewrite S1. reflexivity.
        * apply (bounded_pad _ _ _ _ (bounded_refl 0 s) 1%nat); lia.
        * exact (IH' _ None (KName i) s r2 E2).
        * symmetry. apply app_nil_r.
        * cbn [msteps_slots msteps_slot]. lia.
        * intros x e es. apply slots_es_keep.
      + (* single child *)
        destruct (rec c (KName i) (p ++ [KName i]) (length anc) true s) as [rc s1] eqn:Ec.
        assert (Hf : fetch (VNode P) false i = FVal (VNode c)) by (cbn; rewrite Hn; reflexivity).
        assert (Hrc : rc <> ROutOfFuel) by (intros ->; discriminate H).
        destruct (Hrec c stk false i (slen (tslots P)) E (VNode P) p anc nd0 ky0 s rc s1 Hf eq_refl Hlt Ec Hrc)
          as (n1 & Hb1 & Hp1).
        destruct rc as [| |v|]; cbn [enter_post] in Hp1.
        * inversion H; subst r s'. exists n1. split; [|exact Hp1].
          apply (bounded_pad _ _ _ _ Hb1 0%nat); cbn [msteps_slots msteps_slot]; lia.
        * apply lift_some in H as (r2 & E2 & ->).
          destruct (returned_next _ _ _ _ _ _ _ _ _ _ _ Hstk Hp1) as (nd1 & ky1 & Hi).
          eapply level_seq with (E := E) (es1 := []).
          -- exact Hi.
          -- exact Hb1.
          -- exact (IH' _ nd1 ky1 s1 r2 E2).
          -- symmetry. apply app_nil_r.
          -- cbn [msteps_slots msteps_slot]. lia.
          -- intros x e es. apply slots_es_keep.
        * apply lift_some in H as (r2 & E2 & ->).
          destruct Hp1 as (es1 & Hc & Hp1).
          destruct (returned_next _ _ _ _ _ _ _ _ _ _ _ Hstk Hp1) as (nd1 & ky1 & Hi).
          eapply level_seq with (E := E) (es1 := es1).
          -- exact Hi.
          -- exact Hb1.
          -- exact (IH' _ nd1 ky1 s1 r2 E2).
          -- reflexivity.
          -- cbn [msteps_slots msteps_slot]. lia.
          -- intros x e es. apply (slots_es_edit _ _ _ _ _ _ _ _ Hc).
        * contradiction Hrc; reflexivity.
      + (* array slot: enter it, its items, leave it *)
        assert (S1 := step_enter_arr stk i (slen (tslots P)) E nd0 ky0 P p anc s l Hlt Hn).
        destruct (vtrees St rec l 0%nat (p ++ [KName i]) (S (length anc)) s) as [rt s1] eqn:Et.
        destruct rt as [rt|]; [|discriminate H].
        destruct (trees_sim rec Hrec l (mkFrame false i (slen (tslots P)) E :: stk) (p ++ [KName i]) (VNode P :: anc)
                    ltac:(discriminate) l TNil [] (Some (VArr l)) (KName i) s rt s1 eq_refl Et)
          as (n1 & Hb1 & Hp1).
        destruct rt as [[l' e]|]; cbn [level_post fst snd tlen] in Hp1.
        * apply lift_some in H as (r2 & E2 & ->).
          destruct Hp1 as (nd1 & ky1 & esa & Hea & Hi1). cbn [app] in Hi1.
          destruct (step_leave_arr stk i (slen (tslots P)) E nd1 ky1 P p anc s1 l esa Hstk) as (nd2 & ky2 & S2).
          eapply (level_seq _ _ _ _ _ E _ _ _ _ _ _ _ _ (S (n1 + 1)) (2 + msteps_trees l)%nat);
            [unfold node_at; rewrite iter_first, S1; cbn [iter_from]; rewrite (iter_step _ _ _ Hi1); exact S2
            | apply (bounded_pad _ _ _ _ Hb1 2%nat); lia
            | exact (IH' _ nd2 ky2 s1 r2 E2) | reflexivity
            | cbn [msteps_slots msteps_slot]; lia
            | intros x e' es; apply (slots_es_arr _ _ _ _ _ _ _ _ _ Hea)].
        * inversion H; subst r s'. destruct Hp1 as (sf & Hi1 & Hv). exists (S n1). split.
          -- apply (bounded_pad _ _ _ _ Hb1 1%nat); cbn [msteps_slots msteps_slot]; lia.
          -- exists sf. split; [|exact Hv]. unfold node_at. rewrite iter_first, S1. exact Hi1.
  Qed.

  Lemma body_sim rec : sim_rec rec ->
    forall node (entered : bool) k p hp stk ia idx klen E opar anc nd0 ky0 s1 r s',
    ctx opar hp anc ->
    (match inner_anc opar anc with [] => KNone | _ => last p KNone end) = k ->
    go St decide rec node entered k p (length anc) hp s1 = (r, s') -> r <> ROutOfFuel ->
    exists n, bounded n (S (msteps_slots (tslots node))) s1 s' /\
      enter_post k r s' stk ia idx klen E opar p anc
        (iter n (node_at node (mkFrame ia idx klen (E ++ entered_edit entered k node) :: stk)
                         p (inner_anc opar anc) 0%nat [] nd0 ky0 s1)).
  Proof.
    intros Hrec node entered k p hp stk ia idx klen E opar anc nd0 ky0 s1 r s' Hctx Hkey H Hr.
    set (pe := entered_edit entered k node).
    destruct (ctx_inner _ _ _ Hctx) as (Hlen & Hpar & Htl).
    unfold go in H. rewrite Hlen in H.
    destruct (vslots St rec (tslots node) 0%nat p (length (inner_anc opar anc)) s1) as [rs s2] eqn:Es.
    destruct rs as [rs|]; [|inversion H; subst r; contradiction Hr; reflexivity].
    destruct (slots_sim rec Hrec node (mkFrame ia idx klen (E ++ pe) :: stk) p (inner_anc opar anc)
                ltac:(discriminate) (tslots node) SNil [] nd0 ky0 s1 rs s2 eq_refl Es) as (n1 & Hb1 & Hp1).
    cbn [slen] in Hp1.
    destruct rs as [[ss' edited]|]; cbn [level_post fst snd] in Hp1.
    2:{ inversion H; subst r s'. exists n1. split; [|exact Hp1]. apply (bounded_pad _ _ _ _ Hb1 0%nat); lia. }
    destruct Hp1 as (nd1 & ky1 & es & (He & Hes) & Hi1). cbn [app] in Hi1.
    specialize (Hes SNil eq_refl). cbn [sapp] in Hes.
    set (node' := if edited then Node (tkindof node) (tid node) ss' else node) in *.
    assert (Hap : (if negb (is_nil es) then apply_edits false es (VNode node) else Some (VNode node))
                  = Some (VNode node')).
    { unfold node'. rewrite He. destruct (negb (is_nil es)); [|reflexivity].
      destruct node as [kd id ss]. cbn in *. rewrite Hes. reflexivity. }
    assert (S2 := step_leave (mkFrame ia idx klen (E ++ pe)) stk false (slen (tslots node)) es nd1 ky1 (VNode node)
                             p (inner_anc opar anc) s2 (VNode node') Hap).
    rewrite Hkey, Hpar, Htl, <- He, vphase_leave in S2. cbn [f_in_array f_idx f_klen f_edits] in S2.
    destruct (do_call St decide Leave node' k p (length anc) s2) as [a2 s3] eqn:Ed.
    assert (s' = s3) as -> by (destruct a2, (edited || entered); inversion H; reflexivity).
    exists (n1 + 1)%nat. split.
    { apply (bounded_tail _ _ _ s2); [|exact (leave_nrep _ _ _ _ _ _ _ Ed)].
      apply (bounded_pad _ _ _ _ Hb1 1%nat); lia. }
    unfold node_at in *. rewrite (iter_step _ _ _ Hi1), S2. clear S2 Hi1.
    (* no answer on leave: an edit only if something below or the enter replaced the node *)
    assert (Hquiet : (if edited || entered then (REdit (Some node'), s3) else (RKeep, s3)) = (r, s3) ->
                     enter_post k r s3 stk ia idx klen E opar p anc
                       (finish St true edited true
                               (mkM stk ia idx klen (E ++ pe) (Some (VNode node')) k opar p anc s3) (VNode node'))).
    { intro H'. pose proof (finish_returned edited true stk ia idx klen (E ++ pe) (VNode node') k opar p anc s3) as F.
      cbn [andb] in F. destruct edited; cbn [orb] in H'.
      - inversion H'; subst r. exists (pe ++ [(k, EVal (VNode node'))]).
        split; [apply (es_child_entered entered node k (Some node'))|]. rewrite app_assoc. exact F.
      - unfold pe, entered_edit in *. destruct entered; inversion H'; subst r.
        + exists [(k, EVal (VNode node))]. split; [left; reflexivity|exact F].
        + cbn [enter_post]. rewrite app_nil_r in *. exact F. }
    destruct a2 as [| | | |t2]; cbn beta iota zeta.
    - exact (Hquiet H).
    - exact (Hquiet H).
    - inversion H; subst r. eexists. split; reflexivity.
    - inversion H; subst r. exists (pe ++ [(k, ERemove)]).
      split; [apply (es_child_entered entered node k None)|]. rewrite app_assoc. apply finish_returned.
    - inversion H; subst r. exists (pe ++ [(k, EVal (VNode t2))]).
      split; [apply (es_child_entered entered node k (Some t2))|]. rewrite app_assoc. apply finish_returned.
  Qed.

  Lemma enter_sim rec : sim_rec rec ->
    forall c k p hp stk ia idx klen E opar anc s r s',
    ctx opar hp anc ->
    (match inner_anc opar anc with [] => KNone | _ => last p KNone end) = k ->
    node_step St decide rec c k p (length anc) hp s = (r, s') -> r <> ROutOfFuel ->
    exists n, bounded (S n) (msteps c) s s' /\
      enter_post k r s' stk ia idx klen E opar p anc
        (iter_from (vphase false false (mkM stk ia idx klen E (Some (VNode c)) k opar p anc s) (VNode c)) n).
  Proof.
    intros Hrec c k p hp stk ia idx klen E opar anc s r s' Hctx Hkey H Hr.
    unfold node_step in H. rewrite vphase_enter.
    destruct (do_call St decide Enter c k p (length anc) s) as [a s1] eqn:Ed.
    assert (Hm : (2 <= msteps c)%nat) by (destruct c; cbn; lia).
    destruct a as [| | | |t']; cbn beta iota zeta.
    - (* idle: descend *)
      rewrite (finish_enter _ _ _ _ _ _ _ _ _ _ _ _ _ _ Hctx).
      destruct (body_sim rec Hrec c false k p hp stk ia idx klen E opar anc (Some (VNode c)) k s1 r s'
                  Hctx Hkey H Hr) as (n1 & Hb1 & Hp1).
      rewrite app_nil_r in Hp1. exists n1. split; [|exact Hp1].
      apply (bounded_enter _ _ _ _ _ _ _ _ _ _ Ed Hb1). destruct c; cbn. lia.
    - inversion H; subst r s'. exists 0%nat. rewrite iter_from_0.
      split; [apply (bounded_enter _ _ _ _ _ _ _ _ _ _ Ed (bounded_refl 0 _)); lia|apply skip_returned].
    - inversion H; subst r s'. exists 0%nat.
      split; [apply (bounded_enter _ _ _ _ _ _ _ _ _ _ Ed (bounded_refl 0 _)); lia|].
      eexists. split; reflexivity.
    - inversion H; subst r s'. exists 0%nat. rewrite iter_from_0.
      split; [apply (bounded_enter _ _ _ _ _ _ _ _ _ _ Ed (bounded_refl 0 _)); lia|].
      exists [(k, ERemove)]. split; [left; reflexivity|apply skip_returned].
    - (* replace: descend into the replacement *)
      rewrite (finish_enter _ _ _ _ _ _ _ _ _ _ _ _ _ _ Hctx).
      destruct (body_sim rec Hrec t' true k p hp stk ia idx klen E opar anc (Some (VNode t')) k s1 r s'
                  Hctx Hkey H Hr) as (n1 & Hb1 & Hp1).
      exists n1. split; [|exact Hp1].
      apply (bounded_enter _ _ _ _ _ _ _ _ _ _ Ed Hb1). reflexivity.
  Qed.

  Lemma node_sim rec : sim_rec rec -> sim_rec (node_step St decide rec).
  Proof.
    intros Hrec c stk ia idx klen E par path anc nd0 ky0 s r s' Hf Ht Hn k H Hr.
    destruct (enter_sim rec Hrec c k (path ++ [k]) true stk ia idx klen E (Some par) anc s r s'
                (conj Ht eq_refl) (last_last _ _ _) H Hr) as (n & Hb & Hp).
    exists (S n). split; [exact Hb|].
    rewrite iter_first, (step_child stk ia idx klen E nd0 ky0 par path anc s (VNode c) Hn Ht Hf). exact Hp.
  Qed.

  Theorem sim_all : forall f, sim_rec (visit_tree St decide f).
  Proof.
    induction f as [|f IH].
    - intros c stk ia idx klen E par path anc nd0 ky0 s r s' _ _ _ k H Hr. cbn in H. inversion H; subst.
      contradiction Hr; reflexivity.
    - cbn [visit_tree]. apply node_sim. exact IH.
  Qed.

  Definition res_match (r : res) (b : bool) (mr : mres) : Prop :=
    match r with
    | RBreak => b = true
    | RKeep => b = false /\ mr = MRoot
    | REdit v => b = false /\ mr = MVal (ev v)
    | ROutOfFuel => False
    end.

  Lemma root_sim f root vs r vs' :
    visit_tree St decide f root KNone [] 0%nat false vs = (r, vs') -> r <> ROutOfFuel ->
    exists n sf b, bounded n (msteps root) vs vs' /\
                   iter n (init St root vs) = Done b sf /\ m_vs sf = vs' /\ res_match r b (final St sf).
  Proof.
    destruct f as [|f]; intros H Hr; [cbn in H; inversion H; subst; contradiction Hr; reflexivity|].
    cbn [visit_tree] in H.
    destruct (enter_sim (visit_tree St decide f) (sim_all f) root KNone [] false [] false 0%nat 1%nat [] None []
                vs r vs' (conj eq_refl eq_refl) eq_refl H Hr) as (n & Hb & Hp).
    exists (S n). rewrite iter_first, step_root. fold (init St root vs) in Hp.
    destruct r as [| |v|]; cbn [enter_post returned app] in Hp.
    - destruct Hp as (sf & Hi & Hv). exists sf, true. repeat split; assumption.
    - destruct Hp as (sf & Hi & Hv & He). exists sf, false. repeat split; auto.
      unfold final. rewrite He. reflexivity.
    - destruct Hp as (es & Hc & sf & Hi & Hv & He). exists sf, false. repeat split; auto.
      unfold final. rewrite He. destruct Hc as [->|[t' ->]]; reflexivity.
    - contradiction Hr; reflexivity.
  Qed.

  Lemma nrep_rev lg : nrep (rev lg) = nrep lg.
  Proof.
    unfold nrep. induction lg as [|c r IH]; [reflexivity|].
    cbn [rev filter]. rewrite filter_app, app_length, IH. cbn [filter]. destruct (is_rep c); cbn; lia.
  Qed.

  (* [log] is the model's call log; nrep log = how many times it replaced a node on enter *)
  Theorem machine_refines_model f root s0 r s log :
    visit St decide f root s0 = (r, s, log) -> r <> ROutOfFuel ->
    exists n, (NR -> (n <= msteps root)%nat) /\
      (forall R, HR R -> (n <= msteps root + R * nrep log)%nat) /\
      forall fuel, (n <= fuel)%nat ->
        exists b mr, visit_machine St decide fuel root s0 = MRet b mr s log /\ res_match r b mr.
  Proof.
    unfold visit. destruct (visit_tree St decide f root KNone [] 0%nat false (s0, [])) as [r0 [s1 lg]] eqn:E.
    intros H Hr. inversion H; subst r0 s1 log. clear H.
    destruct (root_sim f root (s0, []) r (s, lg) E Hr) as (n & sf & b & Hb & Hi & Hv & Hm).
    assert (Hb' : forall R, HR R -> (n <= msteps root + R * nrep (rev lg))%nat).
    { intros R HRr. specialize (Hb R HRr). cbn [snd] in Hb. rewrite nrep_rev. unfold nrep at 1 in Hb. cbn in Hb. lia. }
    exists n. split; [intro HN; specialize (Hb' 0%nat (NR_HR 0 HN)); lia|]. split; [exact Hb'|].
    intros fuel Hf. exists b, (final St sf). split; [|exact Hm].
    unfold visit_machine. rewrite (iter_run _ _ _ _ Hi fuel Hf), Hv. reflexivity.
  Qed.

  (* without replacement on enter the recursive model needs fuel = depth only *)
  Definition total_upto (rec : visit_fn St) (d : nat) : Prop :=
    forall t, (depth_tree t <= d)%nat -> forall k p n h s, fst (rec t k p n h s) <> ROutOfFuel.

  Lemma lift_total {X} (g : X * bool -> X * bool) (os : option (option (X * bool)) * st St) :
    fst os <> None -> fst (lift g os) <> None.
  Proof. destruct os as [[o|] s]; cbn; congruence. Qed.

  Lemma vtrees_total rec d : total_upto rec d -> forall l, (depth_trees l <= d)%nat ->
    forall j p n s, fst (vtrees St rec l j p n s) <> None.
  Proof.
    intros Hr. induction l as [|c rest IH]; intros Hd j p n s; [discriminate|].
    rewrite vtrees_cons. cbn [depth_trees] in Hd.
    pose proof (Hr c ltac:(lia) (KIdx j) (p ++ [KIdx j]) n true s) as Hc.
    destruct (rec c (KIdx j) (p ++ [KIdx j]) n true s) as [[| |v|] s1]; cbn [fst] in Hc;
      try (apply lift_total, IH; lia); [discriminate|contradiction Hc; reflexivity].
  Qed.

  Lemma vslots_total rec d : total_upto rec d -> forall ss, (depth_slots ss <= d)%nat ->
    forall i p n s, fst (vslots St rec ss i p n s) <> None.
  Proof.
    intros Hr. induction ss as [|sl rest IH]; intros Hd i p n s; [discriminate|].
    rewrite vslots_cons. cbn [depth_slots] in Hd. destruct sl as [|c|l]; cbn [depth_slot] in Hd.
    - apply lift_total, IH. lia.
    - pose proof (Hr c ltac:(lia) (KName i) (p ++ [KName i]) n true s) as Hc.
      destruct (rec c (KName i) (p ++ [KName i]) n true s) as [[| |v|] s1]; cbn [fst] in Hc;
        try (apply lift_total, IH; lia); [discriminate|contradiction Hc; reflexivity].
    - pose proof (vtrees_total rec d Hr l ltac:(lia) 0%nat (p ++ [KName i]) (S n) s) as Hl.
      destruct (vtrees St rec l 0%nat (p ++ [KName i]) (S n) s) as [[[[l' e]|]|] s1]; cbn [fst] in Hl;
        [apply lift_total, IH; lia|discriminate|contradiction Hl; reflexivity].
  Qed.

  Lemma nr_total : NR -> forall f, total_upto (visit_tree St decide f) f.
  Proof.
    intros HN. induction f as [|f IH]; intros t Hd k p n h s.
    - destruct t; cbn in Hd; lia.
    - cbn [visit_tree]. unfold node_step.
      destruct (do_call St decide Enter t k p n s) as [a s1] eqn:Ed.
      pose proof (HN t (fst s)) as Hn. rewrite (do_call_action _ _ _ _ _ _ _ _ _ _ Ed) in Hn.
      destruct a; try contradiction; cbn; try discriminate.
      unfold go. destruct t as [kd id ss]. cbn [tslots]. cbn in Hd.
      pose proof (vslots_total _ f IH ss ltac:(lia) 0%nat p (inner_nanc h n) s1) as Hs.
      destruct (vslots St (visit_tree St decide f) ss 0%nat p (inner_nanc h n) s1) as [[[[ss' e]|]|] s2];
        cbn in Hs; try contradiction; cbn; try discriminate.
      destruct (do_call St decide Leave _ k p n s2) as [a2 s3].
      destruct a2; cbn; try discriminate; rewrite orb_false_r; destruct e; discriminate.
  Qed.

  Theorem machine_fuel_sufficient : NR -> forall root s0 fuel, (msteps root <= fuel)%nat ->
    exists r s log b mr, r <> ROutOfFuel /\ visit St decide (depth_tree root) root s0 = (r, s, log) /\
      visit_machine St decide fuel root s0 = MRet b mr s log /\ res_match r b mr.
  Proof.
    intros HN root s0 fuel Hf.
    destruct (visit St decide (depth_tree root) root s0) as [[r s] log] eqn:E.
    assert (Hr : r <> ROutOfFuel).
    { unfold visit in E. pose proof (nr_total HN (depth_tree root) root (le_n _) KNone [] 0%nat false (s0, [])) as T.
      destruct (visit_tree St decide (depth_tree root) root KNone [] 0%nat false (s0, [])) as [r0 [s1 lg]].
      inversion E; subst. exact T. }
    destruct (machine_refines_model _ _ _ _ _ _ E Hr) as (n & Hb & _ & Hm).
    destruct (Hm fuel ltac:(specialize (Hb HN); lia)) as (b & mr & Hv & Hres).
    exists r, s, log, b, mr. auto.
  Qed.

  (* a visitor that never edits: every `edits` list stays empty, so the root object is returned *)
  Definition noedits (s : ms) : Prop := m_edits s = [] /\ Forall (fun fr => f_edits fr = []) (m_stack s).

  Definition post_noedits (o : sres St) : Prop :=
    match o with Next s' | Done _ s' => noedits s' | Stuck => True end.

  Lemma finish_noedit il rn s nd : noedits s -> post_noedits (finish St il false rn s nd).
  Proof.
    intros [HE HS]. unfold finish. rewrite andb_false_r. destruct il.
    - destruct (m_stack s) eqn:Es; cbn; (split; cbn; [exact HE|try rewrite Es; try rewrite Es in HS; exact HS]).
    - cbn. split; cbn; [reflexivity|]. constructor; [exact HE|exact HS].
  Qed.

  Lemma vphase_noedit : non_editing St decide -> forall il s nd, noedits s -> post_noedits (vphase il false s nd).
  Proof.
    intros Hne il s nd Hs. unfold visit_phase. destruct nd as [t|l]; [|apply finish_noedit; exact Hs].
    destruct (do_call St decide (if il then Leave else Enter) t (m_key s) (m_path s) (length (m_anc s)) (m_vs s))
      as [a vs'] eqn:Ed.
    pose proof (Hne (if il then Leave else Enter) t (fst (m_vs s))) as Hn.
    rewrite (do_call_action _ _ _ _ _ _ _ _ _ _ Ed) in Hn.
    assert (Hs1 : noedits (set_vs St s vs')) by exact Hs.
    destruct a; try contradiction.
    - apply finish_noedit; exact Hs1.
    - destruct il; [apply finish_noedit; exact Hs1|].
      unfold skip_child. destruct (m_stack (set_vs St s vs')) eqn:Es; cbn; [exact Hs1|].
      destruct Hs1 as [A B]. split; cbn; [exact A|]. rewrite <- Es. exact B.
    - exact Hs1.
  Qed.

  Lemma step_noedit : non_editing St decide -> forall s, noedits s -> post_noedits (stepf s).
  Proof.
    intros Hne s Hs. unfold step. destruct Hs as [HE HS]. rewrite HE. cbn [is_nil negb]. rewrite andb_false_r.
    destruct (m_nxt s =? m_klen s)%nat.
    - destruct (m_parent s) as [nd0|]; [|exact I]. destruct (m_stack s) as [|fr K] eqn:Es; [exact I|].
      inversion HS; subst.
      destruct (m_anc s); apply vphase_noedit; auto; split; cbn; auto.
    - destruct (truthy (m_parent s)).
      + destruct (m_parent s) as [p|]; [|exact I]. destruct (fetch p (m_in_array s) (m_nxt s)).
        * exact I.
        * split; cbn; auto.
        * apply vphase_noedit; auto. split; cbn; auto.
      + destruct (m_node s); [|exact I]. apply vphase_noedit; auto. split; auto.
  Qed.

  Lemma run_noedit : non_editing St decide -> forall fuel s, noedits s ->
    match run_steps St decide fuel s with MDone _ sf => noedits sf | _ => True end.
  Proof.
    intros Hne. induction fuel as [|f IH]; intros s Hs; cbn; [exact I|].
    pose proof (step_noedit Hne s Hs) as P. destruct (stepf s) as [s1|b s1|]; cbn in P; [apply IH; exact P|exact P|exact I].
  Qed.

  Theorem machine_no_edit_identity : non_editing St decide -> forall fuel root s0,
    match visit_machine St decide fuel root s0 with MRet _ mr _ _ => mr = MRoot | _ => True end.
  Proof.
    intros Hne fuel root s0. unfold visit_machine.
    pose proof (run_noedit Hne fuel (init St root (s0, [])) (conj eq_refl (Forall_nil _))) as P.
    destruct (run_steps St decide fuel (init St root (s0, []))); auto.
    destruct P as [A _]. unfold final. rewrite A. reflexivity.
  Qed.
End Sim.

Lemma non_editing_NR St decide : non_editing St decide -> NR St decide.
Proof. intros H t s. specialize (H Enter t s). destruct (fst (decide Enter t s)); try exact I; exact H. Qed.

Theorem machine_parallel_projection root scs i sc :
  Forall script_ne scs -> NoDup (ids_tree root) -> nth_error scs i = Some sc ->
  forall fuel, (msteps root <= fuel)%nat ->
  exists b ps log b' log',
    machine_parallel fuel root scs = MRet b MRoot ps log /\
    machine_scripted fuel root sc = MRet b' MRoot tt log' /\
    projsub i (rev (snd ps)) = proj_log log'.
Proof.
  intros Hne Hnd Hi fuel Hf.
  assert (Hsc : script_ne sc).
  { rewrite Forall_forall in Hne. apply Hne. eapply nth_error_In; eauto. }
  pose proof (parallel_projection (depth_tree root) root scs i sc Hne Hnd (le_n _) Hi) as P.
  unfold visit_parallel, visit_scripted in P.
  destruct (machine_fuel_sufficient pstate (parallel scs) (non_editing_NR _ _ (ib_non_editing _ _ (parallel_ib scs Hne))) root
              (map (fun _ => SkNone) scs, []) fuel Hf) as (r & ps & log & b & mr & _ & E1 & M1 & _).
  destruct (machine_fuel_sufficient unit (scripted sc) (non_editing_NR _ _ (scripted_non_editing sc Hsc)) root tt fuel Hf)
    as (r' & u & log' & b' & mr' & _ & E2 & M2 & _).
  rewrite E1, E2 in P. cbn [snd] in P. destruct u.
  pose proof (machine_no_edit_identity pstate (parallel scs) (ib_non_editing _ _ (parallel_ib scs Hne)) fuel root
                (map (fun _ => SkNone) scs, [])) as I1.
  unfold machine_parallel. rewrite M1 in I1. subst mr.
  pose proof (machine_no_edit_identity unit (scripted sc) (scripted_non_editing sc Hsc) fuel root tt) as I2.
  unfold machine_scripted. rewrite M2 in I2. subst mr'. exists b, ps, log, b', log'. unfold machine_scripted. auto.
Qed.

(* scripted visitors: R = the largest replacement tree of the script *)
Fixpoint script_R (sc : script) : nat :=
  match sc with
  | [] => O
  | (_, _, Replace t) :: r => Nat.max (msteps t) (script_R r)
  | _ :: r => script_R r
  end.

Lemma lookup_R sc id ph :
  match lookup_script sc id ph with Replace t' => (msteps t' <= script_R sc)%nat | _ => True end.
Proof.
  induction sc as [|[[i p] a] r IH]; cbn [lookup_script script_R]; [exact I|].
  destruct ((i =? id) && phase_eqb p ph).
  - destruct a; try exact I. lia.
  - destruct (lookup_script r id ph); try exact I. destruct a; lia.
Qed.

Lemma scripted_HR sc : HR unit (scripted sc) (script_R sc).
Proof. intros t s. unfold scripted. cbn [fst]. apply lookup_R. Qed.

