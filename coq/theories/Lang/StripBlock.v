(* The block-string round trip: print_block_string, re-indented, is read back by the lexer as the
   value.  Stated for values in which surrogates occur as lead-trail pairs - what the lexer accepts
   inside a block string, hence what every BLOCK_STRING token value is - so that the strip theorems
   need no hypothesis on the source text; values of Unicode scalar values are a special case. *)
From GV Require Import Base.Prelude Base.ListFacts Lang.Location Lang.Lexer Lang.LexerProps Lang.BlockString
  Lang.BlockStringProps.

(* a line: plain characters (scalar, no line terminator) and surrogate pairs *)
Inductive wp : list N -> Prop :=
| wp_nil : wp []
| wp_one c t : plain c -> wp t -> wp (c :: t)
| wp_two c d t : is_lead c = true -> is_trail d = true -> wp t -> wp (c :: d :: t).

Lemma lead_facts c : is_lead c = true ->
  (c =? 34) = false /\ (c =? 92) = false /\ (c =? LF) = false /\ (c =? CR) = false /\
  is_scalar c = false /\ is_blank_char c = false.
Proof.
  unfold is_lead, is_scalar, is_blank_char, LF, CR. intros H. apply andb_true_iff in H as [H1 H2].
  apply N.leb_le in H1, H2.
  assert (E1 : (c <=? 55295) = false) by (apply N.leb_gt; lia).
  assert (E2 : (57344 <=? c) = false) by (apply N.leb_gt; lia).
  rewrite E1, E2.
  repeat split; try reflexivity; try (apply N.eqb_neq; lia).
  apply orb_false_iff. split; apply N.eqb_neq; lia.
Qed.

Lemma trail_facts d : is_trail d = true -> (d =? 34) = false /\ (d =? LF) = false.
Proof.
  intros H. split; [|apply (orb_false_iff (d =? LF) (d =? CR)), trail_lt_free, H].
  unfold is_trail in H. apply andb_true_iff in H as [H _]. apply N.leb_le in H. apply N.eqb_neq. lia.
Qed.

Lemma wp_app a b : wp a -> wp b -> wp (a ++ b).
Proof. induction 1; intros Hb; cbn [app]; [exact Hb|apply wp_one; auto|apply wp_two; auto]. Qed.

Lemma wp_all_plain l : Forall plain l -> wp l.
Proof. induction 1; [constructor|apply wp_one; assumption]. Qed.

Lemma wp_nolf l : wp l -> nolf l.
Proof.
  induction 1 as [|c t Hc _ IH|c d t Hc Hd _ IH]; [constructor| |].
  - constructor; [apply Hc|exact IH].
  - constructor; [apply lead_facts, Hc|]. constructor; [apply trail_facts, Hd|exact IH].
Qed.

Lemma loop_line_wp l : wp l -> forall T f pos ls cur lines,
  tail_ok l T -> (length (escape_tq l ++ T) < f)%nat ->
  exists f', (length T < f')%nat /\
    read_block_loop f pos ls cur lines (escape_tq l ++ T)
    = read_block_loop f' (pos + length (escape_tq l)) ls (rev l ++ cur) lines T.
Proof.
  (* by the length of the line: an escaped triple quote takes three characters, a pair two *)
  induction l as [l IH] using (induction_ltof1 _ (@length N)). unfold ltof in IH.
  intros Hw T f pos ls cur lines Hok Hf.
  destruct l as [|c t].
  { exists f. split; [exact Hf|]. cbn. rewrite Nat.add_0_r. reflexivity. }
  destruct (starts3 34 34 34 (c :: t)) eqn:E3.
  - (* an escaped triple quote *)
    apply starts3_true in E3 as (t3 & E). rewrite E in *. clear E.
    assert (Hw3 : wp t3).
    { inversion Hw as [|? ? _ H1|? ? ? Hc _ _]; subst; [|apply lead_facts in Hc; destruct Hc as (Hc & _); discriminate].
      inversion H1 as [|? ? _ H2|? ? ? Hc _ _]; subst; [|apply lead_facts in Hc; destruct Hc as (Hc & _); discriminate].
      inversion H2 as [|? ? _ H3|? ? ? Hc _ _]; subst; [|apply lead_facts in Hc; destruct Hc as (Hc & _); discriminate].
      exact H3. }
    rewrite esc_triple in *. cbn [app length] in Hf. destruct f as [|f]; [lia|].
    destruct (IH t3 ltac:(cbn [length]; lia) Hw3 T f (pos + 4)%nat ls (34 :: 34 :: 34 :: cur) lines
                 (tail_ok_triple _ _ Hok) ltac:(lia)) as (f' & Hf' & E).
    exists f'. split; [exact Hf'|]. cbn [app]. rewrite loop_step_esc, E.
    cbn [rev length]. rewrite <- !app_assoc. cbn [app].
    replace (pos + 4 + length (escape_tq t3))%nat with (pos + S (S (S (S (length (escape_tq t3))))))%nat by lia.
    reflexivity.
  - inversion Hw as [|? ? Hc Hwt|? d t' Hc Hd Hwt]; subst.
    + (* a plain character *)
      rewrite (esc_notriple c t E3) in *. cbn [app length] in Hf. destruct f as [|f]; [lia|].
      destruct (IH t ltac:(cbn [length]; lia) Hwt T f (S pos) ls (c :: cur) lines
                   (tail_ok_tl _ _ _ E3 Hok) ltac:(lia)) as (f' & Hf' & E).
      exists f'. split; [exact Hf'|]. cbn [app].
      rewrite loop_step_char; [|exact Hc|apply look_i; assumption|apply look_ii; assumption].
      rewrite E. cbn [rev length]. rewrite <- app_assoc. cbn [app].
      replace (S pos + length (escape_tq t))%nat with (pos + S (length (escape_tq t)))%nat by lia.
      reflexivity.
    + (* a surrogate pair *)
      destruct (lead_facts _ Hc) as (Hq & Hb & Hl & Hr & Hs & _).
      destruct (trail_facts _ Hd) as (Hdq & _).
      rewrite (esc_nonquote c _ Hq), (esc_nonquote d _ Hdq) in *. cbn [app length] in Hf.
      destruct f as [|f]; [lia|].
      assert (Hok' : tail_ok t' T).
      { apply (tail_ok_tl d t' T); [apply starts3_head, Hdq|].
        apply (tail_ok_tl c (d :: t') T); [exact E3|exact Hok]. }
      destruct (IH t' ltac:(cbn [length]; lia) Hwt T f (pos + 2)%nat ls (d :: c :: cur) lines
                   Hok' ltac:(lia)) as (f' & Hf' & E).
      exists f'. split; [exact Hf'|]. cbn [app read_block_loop].
      rewrite (starts3_head c _ Hq), Hb, Hl, Hr, Hs, Hc. cbn [andb peek_is hd tl]. rewrite Hd.
      rewrite E. cbn [rev length]. rewrite <- !app_assoc. cbn [app].
      replace (pos + 2 + length (escape_tq t'))%nat with (pos + S (S (length (escape_tq t'))))%nat by lia.
      reflexivity.
Qed.

Definition lines_wp (R : list (list N)) : Prop := Forall wp R.

Lemma loop_lines_wp R : R <> [] -> lines_wp R -> safe_end (last R []) = true ->
  forall (rest : list N) f pos ls cur lines,
  (length (join_lf (map escape_tq R) ++ 34%N :: 34%N :: 34%N :: rest) < f)%nat ->
  exists ls',
    read_block_loop f pos ls cur lines (join_lf (map escape_tq R) ++ 34 :: 34 :: 34 :: rest)
    = Ok ((pos + length (join_lf (map escape_tq R)) + 3)%nat,
          rev lines ++ (rev cur ++ hd [] R) :: tl R, ls', rest).
Proof.
  induction R as [|l R IH]; [congruence|]. intros _ Hok Hse rest f pos ls cur lines Hf.
  inversion Hok as [|? ? Hl HR]; subst.
  destruct R as [|m R'].
  - cbn [map join_lf] in *. cbn [last] in Hse.
    destruct (loop_line_wp l Hl (34 :: 34 :: 34 :: rest) f pos ls cur lines (or_introl Hse) Hf)
      as (f' & Hf' & E).
    destruct f' as [|f']; [cbn in Hf'; lia|].
    rewrite E, loop_close. exists ls. cbn [hd tl rev]. rewrite rev_app_distr, rev_involutive.
    reflexivity.
  - cbn [map] in *. rewrite join_lf_cons in * by discriminate.
    rewrite <- app_assoc in *. cbn [app] in *.
    destruct (loop_line_wp l Hl
                (LF :: join_lf (escape_tq m :: map escape_tq R') ++ 34 :: 34 :: 34 :: rest)
                f pos ls cur lines (or_intror eq_refl) Hf) as (f' & Hf' & E).
    destruct f' as [|f']; [cbn in Hf'; lia|].
    rewrite E, loop_step_lf.
    assert (Hse' : safe_end (last (m :: R') []) = true) by exact Hse.
    destruct (IH ltac:(discriminate) HR Hse' rest f' (S (pos + length (escape_tq l)))
                 (S (pos + length (escape_tq l))) [] (rev (rev l ++ cur) :: lines)
                 ltac:(cbn [length] in Hf'; lia)) as (ls' & E').
    exists ls'. cbn [map] in E'. rewrite E'. f_equal. f_equal. f_equal. f_equal.
    + rewrite app_length. cbn [length]. lia.
    + cbn [hd tl rev app]. rewrite rev_app_distr, rev_involutive. rewrite <- app_assoc. reflexivity.
Qed.

Theorem block_roundtrip_wp v m pads cu rest :
  in_block_range v = true -> lines_wp (split_lf v) -> Forall blanks pads ->
  exists tk cu',
    read_token cu (indent_all pads (print_block_string v m) ++ rest) = Ok (tk, cu', rest) /\
    tkind tk = K_BLOCK_STRING /\ thasval tk = true /\ tvalue tk = v /\
    tstart tk = cpos cu /\
    tend tk = (cpos cu + length (indent_all pads (print_block_string v m)))%nat /\
    cpos cu' = tend tk.
Proof.
  intros Hr HLplain Hpads.
  destruct (range_unpack v Hr) as (Hcr & Hshape).
  destruct (indent_all_single pads Hpads) as (P & HP & EP). rewrite EP.
  rewrite (print_eq v m Hcr).
  (* B, A: whether the printer puts a line feed before / after the escaped value.  L: the lines of v.
     X: the lines between the triple quotes, an empty line added in front / behind for B / A.
     R (below): X as the lexer sees it after re-indentation by P, every line but the first prefixed. *)
  set (B := before_b v m). set (A := after_b v m).
  pose (L := split_lf v). fold L in HLplain.
  pose (X := pre_lines B ++ L ++ post_lines A).
  assert (HLne : L <> []) by apply split_lf_ne.
  assert (HXne : X <> []).
  { unfold X. intros E. apply app_eq_nil in E as [_ E]. apply app_eq_nil in E as [E _]. congruence. }
  assert (Ebody : (if B then [LF] else []) ++ escape_tq v ++ (if A then [LF] else [])
                  = join_lf (map escape_tq X)).
  { assert (E0 : escape_tq v = join_lf (map escape_tq L)).
    { unfold L. rewrite <- esc_join, join_split. reflexivity. }
    assert (Hne : map escape_tq L <> []) by (intros E; apply map_eq_nil in E; congruence).
    unfold X, pre_lines, post_lines. rewrite E0, !map_app.
    destruct B, A; cbn [map escape_tq app].
    - rewrite join_post by exact Hne. rewrite <- join_pre; [reflexivity|].
      intros E. apply app_eq_nil in E as [E _]. congruence.
    - rewrite !app_nil_r. rewrite <- join_pre by exact Hne. reflexivity.
    - rewrite join_post by exact Hne. reflexivity.
    - rewrite !app_nil_r. reflexivity. }
  assert (HLnolf : Forall nolf L) by apply split_lf_lines_nolf.
  assert (HXnolf : Forall nolf X).
  { unfold X, pre_lines, post_lines. apply Forall_app. split; [destruct B; repeat constructor|].
    apply Forall_app. split; [exact HLnolf|destruct A; repeat constructor]. }
  set (R := hd [] X :: map (app P) (tl X)).
  assert (Etext : indent_by P (TQ ++ (if B then [LF] else []) ++ escape_tq v ++ (if A then [LF] else []) ++ TQ)
                  = 34 :: 34 :: 34 :: join_lf (map escape_tq R) ++ [34; 34; 34]).
  { rewrite indent_by_app. rewrite (indent_by_nolf P TQ) by (repeat constructor).
    replace ((if B then [LF] else []) ++ escape_tq v ++ (if A then [LF] else []) ++ TQ)
      with (((if B then [LF] else []) ++ escape_tq v ++ (if A then [LF] else [])) ++ TQ)
      by (rewrite <- !app_assoc; reflexivity).
    rewrite Ebody, indent_by_app, (indent_by_nolf P TQ) by (repeat constructor).
    rewrite indent_esc_lines by assumption. reflexivity. }
  rewrite Etext.
  (* the block loop reads the printed text back as the raw lines R: they are made of plain characters
     and pairs, and the last one does not end in a quote or backslash that would merge with the closing
     triple quote (the printer's trailing line feed, A, is there exactly when it would) *)
  assert (HXplain : lines_wp X).
  { unfold X, lines_wp, pre_lines, post_lines. apply Forall_app. split; [destruct B; repeat constructor|].
    apply Forall_app. split; [exact HLplain|destruct A; repeat constructor]. }
  assert (HRplain : lines_wp R).
  { unfold R. destruct X as [|x T]; [congruence|]. cbn [hd tl]. inversion HXplain; subst.
    constructor; [assumption|]. apply Forall_forall. intros l Hl. apply in_map_iff in Hl as (y & <- & Hy).
    apply wp_app; [apply wp_all_plain; eapply Forall_impl; [|exact HP]; apply plain_blank|].
    match goal with H : Forall wp T |- _ => rewrite Forall_forall in H; apply H, Hy end. }
  assert (HRse : safe_end (last R []) = true).
  { unfold R. rewrite safe_end_last_R by assumption. unfold X, post_lines. fold A.
    destruct A eqn:EA.
    - rewrite app_assoc. rewrite last_last. reflexivity.
    - rewrite app_nil_r. rewrite last_app_r by exact HLne. apply (F_post v m). exact EA. }
  cbn [app]. rewrite read_token_block.
  rewrite <- app_assoc. cbn [app].
  destruct (loop_lines_wp R ltac:(discriminate) HRplain HRse rest
              (S (length (join_lf (map escape_tq R) ++ 34 :: 34 :: 34 :: rest)))
              (cpos cu + 3)%nat (cls cu) [] [] ltac:(lia)) as (ls' & Eloop).
  rewrite Eloop. cbn [rev app].
  (* dedent removes exactly P: by the layout rules some line after the first has indentation 0 (or all
     are empty), so the common indent of R is |P|; trimming blank lines removes what B and A added *)
  assert (Eval : join_lf (dedent R) = v).
  { destruct Hshape as [Ev|(H1 & H2 & H3)].
    - subst v. unfold R, X, L. replace B with false by (unfold B; destruct m; reflexivity).
      replace A with false by (unfold A; destruct m; reflexivity). reflexivity.
    - assert (Hv : v <> []).
      { intros ->. cbn in H1. discriminate. }
      fold L in H1, H2, H3.
      assert (Hcond : existsb zero_indent_line (tl X) = true \/ all_empty (tl X)).
      { unfold X, pre_lines. fold B. destruct B eqn:EB.
        - left. cbn [app tl]. apply existsb_app_l. apply (F_pre v m Hr Hv EB).
        - cbn [app]. destruct (F_nopre v m EB) as [F|F]; fold L in F.
          + right. destruct L as [|l0 [|? ?]]; cbn in F; try lia. cbn [app tl]. apply all_empty_pl.
          + left. destruct L as [|l0 L']; [congruence|]. cbn [app tl] in *. apply existsb_app_l, F. }
      unfold R. rewrite (dedent_indented P X HXne HP Hcond). unfold X.
      rewrite trim_eq; [apply join_split|apply all_blank_pl|apply all_blank_pl|assumption..]. }
  eexists. eexists. split; [reflexivity|]. cbn [mk tkind thasval tvalue tstart tend cpos].
  repeat split; try reflexivity; [exact Eval|].
  cbn [length]. rewrite app_length. cbn [length]. lia.
Qed.

(* every BLOCK_STRING token value is made of such lines *)
Lemma loop_wp_inv f : forall pos ls cur lines s e raw ls' r,
  wp (rev cur) -> lines_wp lines ->
  read_block_loop f pos ls cur lines s = Ok (e, raw, ls', r) -> lines_wp raw.
Proof.
  intros pos ls cur lines s e raw ls' r Hcur Hlines H.
  refine (loop_lines (fun _ => True) wp wp_nil _ _ _ f pos ls cur lines s e raw ls' r _ Hcur Hlines H).
  - intros l _ Hl. apply wp_app; [exact Hl|]. apply wp_all_plain. repeat constructor.
  - intros l c _ [Hlf Hcr] Hs Hl. apply wp_app; [exact Hl|]. apply wp_one; [repeat split; assumption|constructor].
  - intros l c d _ _ Hc Hd Hl. apply wp_app; [exact Hl|]. apply wp_two; [exact Hc|exact Hd|constructor].
  - apply Forall_forall. intros; exact I.
Qed.

Lemma ci_le T k l : common_indent T = Some k -> In l T -> line_blank l = false -> (k <= leading_ws l)%nat.
Proof.
  revert k; induction T as [|x T IH]; intros k H Hin Hl; [destruct Hin|].
  cbn [common_indent] in H. destruct Hin as [->|Hin].
  - rewrite Hl in H. destruct (common_indent T); inversion H; lia.
  - destruct (line_blank x).
    + apply IH; assumption.
    + destruct (common_indent T) as [m|] eqn:Em.
      * inversion H; subst k. specialize (IH m eq_refl Hin Hl). lia.
      * apply ci_none_blank in Em. unfold all_blank in Em. rewrite Forall_forall in Em.
        rewrite (Em l Hin) in Hl. discriminate.
Qed.

Lemma wp_skip_blanks k : forall l, wp l -> (k <= leading_ws l)%nat -> wp (skipn k l).
Proof.
  induction k as [|k IH]; intros l Hw Hk; [exact Hw|].
  destruct l as [|c t]; [constructor|]. cbn [leading_ws] in Hk. cbn [skipn].
  destruct (is_blank_char c) eqn:Eb; [|lia].
  inversion Hw as [|? ? _ Ht|? ? ? Hc _ _]; subst.
  - apply IH; [exact Ht|lia].
  - apply lead_facts in Hc. destruct Hc as (_ & _ & _ & _ & _ & Hc). congruence.
Qed.

Lemma wp_skip_blank_line k l : line_blank l = true -> wp (skipn k l).
Proof.
  intros Hb. apply wp_all_plain.
  assert (H : Forall (fun c => is_blank_char c = true) l).
  { revert Hb. unfold line_blank. induction l as [|c t IH]; [constructor|]. cbn [leading_ws length].
    destruct (is_blank_char c) eqn:Ec; [|discriminate]. cbn [Nat.eqb]. intros H. constructor; auto. }
  apply Forall_skipn'. eapply Forall_impl; [|exact H]. apply plain_blank.
Qed.

Lemma dedent_wp raw : lines_wp raw -> lines_wp (dedent raw).
Proof.
  intros H. unfold dedent, lines_wp. destruct raw as [|first others]; [constructor|].
  inversion H as [|? ? Hf Ho]; subst. apply Forall_rev, dwb_forall, Forall_rev, dwb_forall.
  constructor; [assumption|]. apply Forall_forall. intros x Hx. apply in_map_iff in Hx as (l & <- & Hl).
  destruct (common_indent others) as [k|] eqn:Eci; [|constructor].
  destruct (line_blank l) eqn:Eb; [apply wp_skip_blank_line, Eb|].
  apply wp_skip_blanks; [|eapply ci_le; eauto].
  unfold lines_wp in Ho. rewrite Forall_forall in Ho. apply Ho, Hl.
Qed.

Theorem block_token_wp cu s tk cu' r :
  read_token cu s = Ok (tk, cu', r) -> tkind tk = K_BLOCK_STRING -> lines_wp (split_lf (tvalue tk)).
Proof.
  intros H Hk.
  destruct (read_token_block_inv _ _ _ _ _ H Hk) as (f & pos & ls & s1 & e & raw & ls' & _ & Hb & ->).
  pose proof (loop_wp_inv f pos ls [] [] s1 e raw ls' r wp_nil (Forall_nil _) Hb) as Hraw.
  pose proof (dedent_wp raw Hraw) as HD.
  destruct (dedent raw) as [|d0 D]; [repeat constructor|].
  rewrite split_join; [exact HD|discriminate|].
  eapply Forall_impl; [|exact HD]. apply wp_nolf.
Qed.

(* scalar values are a special case *)
Lemma scalars_lines_wp v : has_cr v = false -> scalars v -> lines_wp (split_lf v).
Proof.
  intros Hcr Hs. pose proof (lines_plain v Hcr Hs) as H.
  eapply Forall_impl; [|exact H]. apply wp_all_plain.
Qed.

Theorem block_roundtrip_main v m pads cu rest :
  in_block_range v = true -> scalars v -> Forall blanks pads ->
  exists tk cu',
    read_token cu (indent_all pads (print_block_string v m) ++ rest) = Ok (tk, cu', rest) /\
    tkind tk = K_BLOCK_STRING /\ thasval tk = true /\ tvalue tk = v /\
    tstart tk = cpos cu /\
    tend tk = (cpos cu + length (indent_all pads (print_block_string v m)))%nat /\
    cpos cu' = tend tk.
Proof.
  intros Hr Hs. apply block_roundtrip_wp; [exact Hr|].
  apply scalars_lines_wp; [apply (range_unpack v Hr)|exact Hs].
Qed.

Theorem range_has_raw v : in_block_range v = true -> scalars v ->
  scalars (chosen_raw v) /\ block_value (chosen_raw v) = Ok v.
Proof.
  intros Hr Hs. split.
  - unfold chosen_raw, scalars. apply Forall_app. split; [destruct (before_b v false); repeat constructor|].
    apply Forall_app. split; [apply esc_forall; [reflexivity|exact Hs]|].
    destruct (after_b v false); repeat constructor.
  - destruct (block_roundtrip_main v false [] init_cursor [] Hr Hs (Forall_nil _))
      as (tk & cu' & E & _ & _ & Hv & _).
    cbn [indent_all] in E. rewrite app_nil_r in E.
    destruct (range_unpack v Hr) as (Hcr & _). rewrite (print_chosen v Hcr) in E.
    unfold block_value. rewrite E, Hv. reflexivity.
Qed.

