(* Properties of the parser model that hold for every production, proved once for the monad
   and then production by production with one tactic:
     - fuel: S (number of tokens) is never exhausted,
     - the remaining list of a successful run is a suffix of the input, errors blame a token of
       the input (or the one consumed last),
     - token limit: the run with floor fl is the unlimited run cut at the first token whose
       suffix has length <= fl. *)
From GV Require Import Base.Prelude Lang.Lexer Lang.LexerProps Lang.Ast Lang.Parser.

Local Open Scope nat_scope.

(* [suffix r ts]: r is reached from ts by advancing token by token, never onto a lexical error
   and never over an EOF token *)
Inductive suffix (r : list sigtok) : list sigtok -> Prop :=
| suffix_refl : suffix r r
| suffix_step t ts : (fst t =? K_EOF)%N = false -> (kind_at ts =? K_LEXERR)%N = false ->
                     suffix r ts -> suffix r (t :: ts).

Lemma suffix_trans a b c : suffix a b -> suffix b c -> suffix a c.
Proof. intros H1 H2. induction H2 as [|t ts He Hk H2 IH]; [exact H1|]. apply suffix_step; assumption. Qed.
Lemma suffix_cons t ts : (fst t =? K_EOF)%N = false -> (kind_at ts =? K_LEXERR)%N = false -> suffix ts (t :: ts).
Proof. intros He H. apply suffix_step; [exact He|exact H|apply suffix_refl]. Qed.
Lemma suffix_app r ts : suffix r ts -> exists pre, ts = pre ++ r.
Proof.
  induction 1 as [|t ts He Hk H [pre ->]]; [exists []; reflexivity|]. exists (t :: pre). reflexivity.
Qed.
Lemma suffix_length r ts : suffix r ts -> length r <= length ts.
Proof. intros H. apply suffix_app in H as [p ->]. rewrite app_length. lia. Qed.
Lemma suffix_same_length r ts : suffix r ts -> length r = length ts -> r = ts.
Proof.
  intros H E. apply suffix_app in H as [p ->]. rewrite app_length in E.
  destruct p; [reflexivity|cbn in E; lia].
Qed.

Definition okst (fl : nat) (ts : list sigtok) : Prop :=
  fl < length ts \/ (fl = length ts /\ kind_at ts = K_EOF).

Lemma okst_0 ts : okst 0 ts.
Proof. destruct ts; [right; split; reflexivity|left; cbn; lia]. Qed.

Lemma not_okst_suffix fl r r' : ~ okst fl r -> suffix r' r -> ~ okst fl r'.
Proof.
  intros Hn Hs Ho. pose proof (suffix_length _ _ Hs) as Hl.
  destruct (Nat.eq_dec (length r') (length r)) as [E|E].
  - apply suffix_same_length in Hs; [subst; auto|exact E].
  - apply Hn. destruct Ho as [Ho|[Ho _]]; left; lia.
Qed.

(* relation between the unlimited result r0 and the result rl under floor fl *)
Definition simc {A} (fl : nat) (r0 rl : res A) : Prop :=
  match r0 with
  | ROk a r => (okst fl r /\ rl = ROk a r) \/ (~ okst fl r /\ rl = RErr fl)
  | RErr e => rl = RErr e \/ (rl = RErr fl /\ e <= S fl)
  | RFuel => True
  end.

Record good {A} (n : nat) (M : nat -> P A) : Prop := mkGood {
  g_fuel : forall fl ts, length ts <= n -> M fl ts <> RFuel;
  g_suf : forall fl ts a r, length ts <= n -> M fl ts = ROk a r -> suffix r ts;
  g_err : forall fl ts e, length ts <= n -> M fl ts = RErr e -> e <= S (length ts);
  g_sim : forall fl ts, length ts <= n -> okst fl ts -> simc fl (M 0 ts) (M fl ts) }.

Definition strict {A} (n : nat) (M : nat -> P A) : Prop :=
  forall fl ts a r, length ts <= n -> M fl ts = ROk a r -> length r < length ts.

(* gd true: good and every successful run consumes a token *)
Definition gd {A} (s : bool) (n : nat) (M : nat -> P A) : Prop :=
  good n M /\ (s = true -> strict n M).

Lemma gd_weaken {A} n (M : nat -> P A) : gd true n M -> gd false n M.
Proof. intros [H _]. split; [exact H|discriminate]. Qed.

Lemma good_le {A} n m (M : nat -> P A) : good n M -> m <= n -> good m M.
Proof.
  intros [H1 H2 H3 H4] Hle. constructor.
  - intros fl ts Hl. apply H1; lia.
  - intros fl ts a r Hl E. apply (H2 fl ts a r); [lia|exact E].
  - intros fl ts e Hl E. apply (H3 fl ts e); [lia|exact E].
  - intros fl ts Hl Ho. apply H4; [lia|exact Ho].
Qed.

Lemma gd_le {A} s n m (M : nat -> P A) : gd s n M -> m <= n -> gd s m M.
Proof.
  intros [G St] Hle. split; [exact (good_le _ _ _ G Hle)|].
  intros E fl ts a r Hl. apply (St E). lia.
Qed.

Lemma gd_pure {A} n (f : list sigtok -> A) : gd false n (fun _ ts => ROk (f ts) ts).
Proof.
  split; [|discriminate]. constructor; intros.
  - discriminate.
  - inversion H0; subst. apply suffix_refl.
  - discriminate.
  - cbn. left. split; [assumption|reflexivity].
Qed.

Lemma gd_err {A} s n (e : list sigtok -> nat) :
  (forall ts, e ts <= S (length ts)) -> gd s n (fun _ ts => @RErr A (e ts)).
Proof.
  intros He. split; [|intros _ fl ts a r _ H; discriminate]. constructor; intros.
  - discriminate.
  - discriminate.
  - inversion H0. apply He.
  - cbn. left. reflexivity.
Qed.

Lemma gd_ret {A} n (a : A) : gd false n (fun _ => ret a).
Proof. exact (gd_pure n (fun _ => a)). Qed.

Lemma gd_cur n : gd false n (fun _ => cur).
Proof. exact (gd_pure n tok_at). Qed.

Lemma gd_fail_here {A} s n : gd s n (fun _ => @fail_here A).
Proof. apply (gd_err s n (@length sigtok)). intros ts. lia. Qed.

Lemma gd_fail_prev {A} s n : gd s n (fun _ => @fail_prev A).
Proof. apply (gd_err s n (fun ts => S (length ts))). intros ts. lia. Qed.

Lemma gd_fail_next {A} s n : gd s n (fun _ => @fail_next A).
Proof. apply (gd_err s n (fun ts => length ts - 1)). intros ts. lia. Qed.

Lemma gd_look n : gd false n (fun _ => look).
Proof.
  split; [|discriminate]. constructor; unfold look; intros.
  - destruct ts as [|t r]; [discriminate|]. destruct (fst t =? K_EOF)%N; [discriminate|].
    destruct (kind_at r =? K_LEXERR)%N; discriminate.
  - destruct ts as [|t r0]; [inversion H0; subst; apply suffix_refl|].
    destruct (fst t =? K_EOF)%N; [inversion H0; subst; apply suffix_refl|].
    destruct (kind_at r0 =? K_LEXERR)%N; [discriminate|]. inversion H0; subst. apply suffix_refl.
  - destruct ts as [|t r]; [discriminate|]. destruct (fst t =? K_EOF)%N; [discriminate|].
    destruct (kind_at r =? K_LEXERR)%N; [|discriminate]. inversion H0. cbn. lia.
  - destruct ts as [|t r]; [cbn; left; auto|].
    destruct (fst t =? K_EOF)%N; [cbn; left; auto|].
    destruct (kind_at r =? K_LEXERR)%N; cbn; [left; reflexivity|left; auto].
Qed.

Lemma chk_0 r : chk 0 r = if (kind_at r =? K_LEXERR)%N then RErr (length r) else ROk tt r.
Proof. reflexivity. Qed.

Lemma over_spec fl r : over fl r = true <-> (kind_at r <> K_EOF /\ length r <= fl /\ fl <> 0).
Proof.
  unfold over. destruct fl as [|fl].
  - split; [discriminate|intros (_ & _ & H); congruence].
  - rewrite andb_true_iff, negb_true_iff, N.eqb_neq, Nat.leb_le. split.
    + intros [H1 H2]. repeat split; auto.
    + intros (H1 & H2 & _). split; auto.
Qed.

Lemma gd_adv n : gd false n adv.
Proof.
  split; [|discriminate]. constructor; unfold adv, chk; intros.
  - destruct ts as [|t r]; [discriminate|]. destruct (fst t =? K_EOF)%N; [discriminate|].
    destruct (kind_at r =? K_LEXERR)%N; [discriminate|]. destruct (over fl r); discriminate.
  - destruct ts as [|t r0]; [inversion H0; subst; apply suffix_refl|].
    destruct (fst t =? K_EOF)%N eqn:Ee; [inversion H0; subst; apply suffix_refl|].
    destruct (kind_at r0 =? K_LEXERR)%N eqn:Ek; [discriminate|]. destruct (over fl r0); [discriminate|].
    inversion H0; subst. apply suffix_cons; [exact Ee|exact Ek].
  - destruct ts as [|t r]; [discriminate|]. destruct (fst t =? K_EOF)%N; [discriminate|].
    destruct (kind_at r =? K_LEXERR)%N; [inversion H0; cbn; lia|].
    destruct (over fl r); [inversion H0; cbn; lia|discriminate].
  - destruct ts as [|t r]; [cbn; left; auto|].
    destruct (fst t =? K_EOF)%N eqn:Et; [cbn; left; auto|].
    destruct (kind_at r =? K_LEXERR)%N; [cbn; left; reflexivity|].
    change (over 0 r) with false. cbv iota.
    destruct (over fl r) eqn:Eo; cbn.
    + apply over_spec in Eo as (Hk & Hl & Hfl).
      assert (length r = fl).
      { destruct H0 as [H0|[H0 H1]]; cbn in H0; [lia|].
        unfold kind_at in H1. cbn in H1. apply N.eqb_neq in Et. congruence. }
      right. split; [|congruence].
      intros [Ho|[Ho Ho']]; [lia|congruence].
    + left. split; [|reflexivity].
      destruct (N.eq_dec (kind_at r) K_EOF) as [Ek|Ek].
      * destruct H0 as [H0|[H0 H1]].
        -- cbn in H0. destruct (Nat.eq_dec fl (length r)); [right; auto|left; lia].
        -- unfold kind_at in H1. cbn in H1. apply N.eqb_neq in Et. congruence.
      * left. destruct (Nat.le_gt_cases (length r) fl) as [Hle|Hgt]; [|exact Hgt].
        destruct fl as [|fl'].
        -- destruct H0 as [H0|[H0 H1]]; cbn in H0; [|lia].
           destruct r; [exfalso; apply Ek; reflexivity|cbn; lia].
        -- exfalso. assert (over (S fl') r = true) by (apply over_spec; repeat split; auto).
           congruence.
Qed.

(* the continuation has to be good only at the length that actually remains *)
Lemma good_bind_gen {A B} n (M : nat -> P A) (K : A -> nat -> P B) :
  good n M ->
  (forall fl ts a r, length ts <= n -> M fl ts = ROk a r -> good (length r) (K a)) ->
  good n (fun fl => bind (M fl) (fun a => K a fl)).
Proof.
  intros GM GK. constructor; unfold bind.
  - intros fl ts Hl. destruct (M fl ts) as [a r| |] eqn:E.
    + apply (g_fuel _ _ (GK _ _ _ _ Hl E)). lia.
    + discriminate.
    + exfalso. eapply (g_fuel _ _ GM); eauto.
  - intros fl ts b r Hl. destruct (M fl ts) as [a' r'| |] eqn:E; try discriminate. intros E2.
    pose proof (g_suf _ _ GM _ _ _ _ Hl E) as S1.
    eapply suffix_trans; [|exact S1]. eapply (g_suf _ _ (GK _ _ _ _ Hl E)); eauto.
  - intros fl ts e Hl. destruct (M fl ts) as [a' r'| |] eqn:E; try discriminate.
    + intros E2. pose proof (g_suf _ _ GM _ _ _ _ Hl E) as S1. apply suffix_length in S1.
      apply (g_err _ _ (GK _ _ _ _ Hl E)) in E2; lia.
    + intros E2. inversion E2; subst. eapply (g_err _ _ GM); eauto.
  - intros fl ts Hl Ho. pose proof (g_sim _ _ GM fl ts Hl Ho) as SM. unfold simc in SM.
    destruct (M 0 ts) as [a r| |] eqn:E0.
    + pose proof (GK _ _ _ _ Hl E0) as GKa.
      destruct SM as [[Ho' ->]|[Hn ->]].
      * apply (g_sim _ _ GKa); [lia|exact Ho'].
      * unfold simc. destruct (K a 0 r) as [b r'| |] eqn:E1.
        -- right. split; [|reflexivity]. eapply not_okst_suffix; [exact Hn|].
           eapply (g_suf _ _ GKa); eauto.
        -- right. split; [reflexivity|].
           apply (g_err _ _ GKa) in E1; [|lia].
           assert (length r <= fl); [|lia].
           destruct (Nat.le_gt_cases (length r) fl); [assumption|]. exfalso. apply Hn. left. assumption.
        -- exact I.
    + cbn. destruct SM as [->|[-> Hle]]; [left; reflexivity|right; split; [reflexivity|exact Hle]].
    + exact I.
Qed.

Lemma good_bind {A B} n (M : nat -> P A) (K : A -> nat -> P B) :
  good n M -> (forall a, good n (K a)) -> good n (fun fl => bind (M fl) (fun a => K a fl)).
Proof.
  intros GM GK. apply good_bind_gen; [exact GM|]. intros fl ts a r Hl E.
  apply (good_le n); [apply GK|]. apply (g_suf _ _ GM) in E; [|exact Hl]. apply suffix_length in E. lia.
Qed.

(* bind when the first component consumes a token: the continuation only needs shorter lists *)
Lemma good_bind_strict {A B} n (M : nat -> P A) (K : A -> nat -> P B) :
  good n M -> strict n M -> (forall a m, m < n -> good m (K a)) ->
  good n (fun fl => bind (M fl) (fun a => K a fl)).
Proof.
  intros GM SM GK. apply good_bind_gen; [exact GM|]. intros fl ts a r Hl E.
  apply GK. apply SM in E; [lia|exact Hl].
Qed.

(* the three ways a bind is used *)
Lemma gd_bind_f {A B} n (M : nat -> P A) (K : A -> nat -> P B) :
  gd false n M -> (forall a, gd false n (K a)) -> gd false n (fun fl => bind (M fl) (fun a => K a fl)).
Proof.
  intros [GM _] GK. split; [|discriminate]. apply good_bind; [exact GM|intros a; apply GK].
Qed.

Lemma gd_bind_l {A B} s n (M : nat -> P A) (K : A -> nat -> P B) :
  gd true n M -> (forall a m, m < n -> gd false m (K a)) ->
  gd s n (fun fl => bind (M fl) (fun a => K a fl)).
Proof.
  intros [GM SM] GK. specialize (SM eq_refl). split.
  - apply good_bind_strict; auto. intros a m Hm. apply GK. exact Hm.
  - intros _ fl ts b r Hl. unfold bind. destruct (M fl ts) as [a r1| |] eqn:E; try discriminate.
    intros E2. pose proof (SM _ _ _ _ Hl E) as L.
    destruct (GK a (length r1) ltac:(lia)) as [GKa _].
    apply (g_suf _ _ GKa) in E2; [|lia]. apply suffix_length in E2. lia.
Qed.

Lemma gd_bind_r {A B} n (M : nat -> P A) (K : A -> nat -> P B) :
  gd false n M -> (forall a, gd true n (K a)) -> gd true n (fun fl => bind (M fl) (fun a => K a fl)).
Proof.
  intros [GM _] GK. split.
  - apply good_bind; [exact GM|intros a; apply GK].
  - intros _ fl ts b r Hl. unfold bind. destruct (M fl ts) as [a r1| |] eqn:E; try discriminate.
    intros E2. apply (g_suf _ _ GM) in E; [|exact Hl]. apply suffix_length in E.
    destruct (GK a) as [_ SK]. apply (SK eq_refl) in E2; lia.
Qed.

Lemma gd_with_fuel {A} s (G : nat -> nat -> P A) n :
  (forall f m, m < f -> m <= n -> gd s m (fun fl => G fl f)) -> gd s n (fun fl => with_fuel (G fl)).
Proof.
  intros H. unfold with_fuel. split.
  - constructor.
    + intros fl ts Hl.
      destruct (H (S (length ts)) (length ts) ltac:(lia) Hl) as [Gd _]. apply (g_fuel _ _ Gd). lia.
    + intros fl ts a r Hl E.
      destruct (H (S (length ts)) (length ts) ltac:(lia) Hl) as [Gd _]. eapply (g_suf _ _ Gd); eauto.
    + intros fl ts e Hl E.
      destruct (H (S (length ts)) (length ts) ltac:(lia) Hl) as [Gd _]. eapply (g_err _ _ Gd); eauto.
    + intros fl ts Hl Ho.
      destruct (H (S (length ts)) (length ts) ltac:(lia) Hl) as [Gd _]. apply (g_sim _ _ Gd); auto.
  - intros Es fl ts a r Hl E.
    destruct (H (S (length ts)) (length ts) ltac:(lia) Hl) as [_ St]. eapply (St Es); eauto.
Qed.

Lemma adv_strict fl t r a r' : (fst t =? K_EOF)%N = false -> adv fl (t :: r) = ROk a r' -> r' = r.
Proof.
  unfold adv, chk. intros ->. destruct (kind_at r =? K_LEXERR)%N; [discriminate|].
  destruct (over fl r); [discriminate|]. intros H; inversion H; reflexivity.
Qed.

Lemma adv_consumes fl ts u r : kind_at ts <> K_EOF -> adv fl ts = ROk u r -> length r < length ts.
Proof.
  destruct ts as [|t ts']; [intros H; exfalso; apply H; reflexivity|].
  unfold kind_at. cbn [tok_at]. intros Hk E.
  apply adv_strict in E; [subst; cbn; lia|apply N.eqb_neq, Hk].
Qed.

Lemma gd_expect_token k n : gd false n (fun fl => expect_token fl k).
Proof.
  unfold expect_token. apply gd_bind_f; [apply gd_cur|]. intros t.
  destruct (fst t =? k)%N; [|apply gd_fail_here].
  apply gd_bind_f; [apply gd_adv|intros _; apply gd_ret].
Qed.

Lemma strict_expect_token k n : k <> K_EOF -> strict n (fun fl => expect_token fl k).
Proof.
  intros Hk fl ts a r _. unfold expect_token, bind, cur.
  destruct (fst (tok_at ts) =? k)%N eqn:E; [|discriminate]. apply N.eqb_eq in E.
  destruct (adv fl ts) as [u r1| |] eqn:Ea; try discriminate.
  intros H; inversion H; subst. apply (adv_consumes _ _ _ _ Hk Ea).
Qed.

Lemma gd_expect_token_s k n : k <> K_EOF -> gd true n (fun fl => expect_token fl k).
Proof.
  intros Hk. split; [apply gd_expect_token|intros _; apply strict_expect_token; exact Hk].
Qed.

Lemma gd_expect_optional_token k n : gd false n (fun fl => expect_optional_token fl k).
Proof.
  unfold expect_optional_token. apply gd_bind_f; [apply gd_cur|]. intros t.
  destruct (fst t =? k)%N; [|apply gd_ret].
  apply gd_bind_f; [apply gd_adv|intros _; apply gd_ret].
Qed.

Lemma gd_expect_keyword w n : gd true n (fun fl => expect_keyword fl w).
Proof.
  split.
  - unfold expect_keyword. apply gd_bind_f; [apply gd_cur|]. intros t.
    destruct (is_keyword t w); [apply gd_adv|apply gd_fail_here].
  - intros _ fl ts a r _. unfold expect_keyword, bind, cur, is_keyword.
    destruct (fst (tok_at ts) =? K_NAME)%N eqn:E; [|discriminate]. apply N.eqb_eq in E.
    destruct (seqb (snd (tok_at ts)) w); [|discriminate]. cbn [andb].
    apply adv_consumes. unfold kind_at. rewrite E. discriminate.
Qed.

Lemma gd_expect_optional_keyword w n : gd false n (fun fl => expect_optional_keyword fl w).
Proof.
  unfold expect_optional_keyword. apply gd_bind_f; [apply gd_cur|]. intros t.
  destruct (is_keyword t w); [|apply gd_ret].
  apply gd_bind_f; [apply gd_adv|intros _; apply gd_ret].
Qed.

Lemma neq_eof_dec (k : N) : (k =? K_EOF)%N = false -> k <> K_EOF.
Proof. intros H. apply N.eqb_neq. exact H. Qed.

Create HintDb gd.
#[export] Hint Resolve gd_ret gd_cur gd_look gd_adv gd_fail_here gd_fail_prev gd_fail_next
  gd_expect_token gd_expect_optional_token gd_expect_keyword gd_expect_optional_keyword : gd.
#[export] Hint Extern 1 (gd true _ (fun fl => expect_token fl _)) =>
  (apply gd_expect_token_s; apply neq_eof_dec; reflexivity) : gd.
#[export] Hint Resolve gd_weaken | 5 : gd.

(* a component that is a hypothesis, at a smaller bound *)
Ltac gd_hyp :=
  match goal with
  | H : forall m, m < _ -> gd ?s m ?S |- gd ?s _ ?S => apply H; lia
  | H : forall m, m <= _ -> gd ?s m ?S |- gd ?s _ ?S => apply H; lia
  | H : forall m, m < _ -> gd true m ?S |- gd false _ ?S => apply gd_weaken; apply H; lia
  | H : forall m, m <= _ -> gd true m ?S |- gd false _ ?S => apply gd_weaken; apply H; lia
  | H : gd ?s ?n ?S |- gd ?s ?m ?S => apply (gd_le s n m S H); lia
  end.
Ltac gd_leaf := solve [eauto 4 with gd | gd_hyp].
(* one step of the structural proof of [gd s n M] *)
Ltac gd_step :=
  lazymatch goal with
  | |- forall _, _ => intro
  | |- gd _ _ (fun fl => if ?b then _ else _) => destruct b
  | |- gd _ _ (fun fl => match ?o with Some _ => _ | None => _ end) => destruct o
  | |- gd true _ (fun fl => bind _ _) =>
    first [ gd_leaf
          | apply gd_bind_l; [gd_leaf|intros ? ? ?]
          | apply gd_bind_r ]
  | |- gd false _ (fun fl => bind _ _) =>
    first [ gd_leaf | apply gd_bind_f ]
  | |- _ => gd_leaf
  end.
Ltac gd_tac := cbv zeta; repeat gd_step.

Lemma gd_until_close close (Pf : nat -> P node) :
  forall f n, n < f -> gd true n Pf -> gd false n (fun fl => until_close fl f close (Pf fl)).
Proof.
  induction f as [|f IH]; intros n Hn GP; [lia|].
  cbn [until_close]. apply gd_bind_f; [apply gd_expect_optional_token|].
  intros b. destruct b; [apply gd_ret|].
  apply gd_bind_l; [exact GP|]. intros x m Hm.
  apply gd_bind_f; [|intros; apply gd_ret].
  apply IH; [lia|]. eapply gd_le; [exact GP|lia].
Qed.

Lemma gd_loop_close close (Pf : nat -> P node) n :
  (forall m, m <= n -> gd true m Pf) -> gd false n (fun fl => loop_close fl close (Pf fl)).
Proof.
  intros GP. unfold loop_close.
  apply (gd_with_fuel false (fun fl f => until_close fl f close (Pf fl))).
  intros f m Hm Hn. apply gd_until_close; [exact Hm|apply GP; exact Hn].
Qed.

Lemma gd_any open close (Pf : nat -> P node) n :
  open <> K_EOF -> (forall m, m < n -> gd true m Pf) ->
  gd true n (fun fl => any_ fl open (Pf fl) close).
Proof.
  intros Ho GP. unfold any_. apply gd_bind_l; [apply gd_expect_token_s; exact Ho|].
  intros _ m Hm. apply gd_loop_close. intros m' Hm'. apply GP. lia.
Qed.

Lemma gd_many open close (Pf : nat -> P node) n :
  open <> K_EOF -> (forall m, m < n -> gd true m Pf) ->
  gd true n (fun fl => many fl open (Pf fl) close).
Proof.
  intros Ho GP. unfold many. apply gd_bind_l; [apply gd_expect_token_s; exact Ho|].
  intros _ m Hm. apply gd_bind_f; [apply gd_weaken; apply GP; exact Hm|]. intros x.
  apply gd_bind_f; [|intros; apply gd_ret].
  apply gd_loop_close. intros m' Hm'. apply GP. lia.
Qed.

Lemma gd_optional_many open close (Pf : nat -> P node) n :
  (forall m, m <= n -> gd true m Pf) ->
  gd false n (fun fl => optional_many fl open (Pf fl) close).
Proof.
  intros GP. unfold optional_many. apply gd_bind_f; [apply gd_expect_optional_token|].
  intros b. destruct b; [|apply gd_ret].
  apply gd_bind_f; [apply gd_weaken; apply GP; lia|]. intros x.
  apply gd_bind_f; [|intros; apply gd_ret].
  apply gd_loop_close. exact GP.
Qed.

Lemma gd_delim_loop delim (Pf : nat -> P node) :
  forall f n, n < f -> (forall m, m <= n -> gd true m Pf) ->
  gd true n (fun fl => delim_loop fl f delim (Pf fl)).
Proof.
  induction f as [|f IH]; intros n Hn GP; [lia|].
  cbn [delim_loop]. apply gd_bind_l; [apply GP; lia|]. intros x m Hm.
  apply gd_bind_f; [apply gd_expect_optional_token|]. intros b. destruct b; [|apply gd_ret].
  apply gd_bind_f; [|intros; apply gd_ret].
  apply gd_weaken. apply IH; [lia|]. intros m' Hm'. apply GP. lia.
Qed.

Lemma gd_delimited_many delim (Pf : nat -> P node) n :
  (forall m, m <= n -> gd true m Pf) ->
  gd true n (fun fl => delimited_many fl delim (Pf fl)).
Proof.
  intros GP. unfold delimited_many. apply gd_bind_r; [apply gd_expect_optional_token|]. intros _.
  apply (gd_with_fuel true (fun fl f => delim_loop fl f delim (Pf fl))).
  intros f m Hm Hn. apply gd_delim_loop; [exact Hm|]. intros m' Hm'. apply GP. lia.
Qed.

Lemma gd_while_peek k (Pf : nat -> P node) :
  forall f n, n < f -> (forall m, m <= n -> gd true m Pf) ->
  gd false n (fun fl => while_peek f k (Pf fl)).
Proof.
  induction f as [|f IH]; intros n Hn GP; [lia|].
  cbn [while_peek]. apply gd_bind_f; [apply gd_cur|]. intros t.
  destruct (fst t =? k)%N; [|apply gd_ret].
  apply gd_bind_l; [apply GP; lia|]. intros x m Hm.
  apply gd_bind_f; [|intros; apply gd_ret].
  apply IH; [lia|]. intros m' Hm'. apply GP. lia.
Qed.

#[export] Hint Extern 2 (gd _ _ (fun fl => optional_many fl _ _ _)) =>
  (apply gd_optional_many; intros ? ?) : gd.
#[export] Hint Extern 2 (gd true _ (fun fl => delimited_many fl _ _)) =>
  (apply gd_delimited_many; intros ? ?) : gd.
#[export] Hint Extern 2 (gd true _ (fun fl => many fl _ _ _)) =>
  (apply gd_many; [apply neq_eof_dec; reflexivity|intros ? ?]) : gd.
#[export] Hint Extern 2 (gd true _ (fun fl => any_ fl _ _ _)) =>
  (apply gd_any; [apply neq_eof_dec; reflexivity|intros ? ?]) : gd.

Lemma gd_name n : gd true n (fun fl => name fl).
Proof. unfold name. gd_tac. Qed.
#[export] Hint Resolve gd_name : gd.

Lemma gd_variable n : gd true n (fun fl => variable fl).
Proof. unfold variable. gd_tac. Qed.
#[export] Hint Resolve gd_variable : gd.

Lemma gd_named_type n : gd true n (fun fl => named_type fl).
Proof. unfold named_type. gd_tac. Qed.
#[export] Hint Resolve gd_named_type : gd.

Lemma gd_object_field (PV : nat -> P node) n :
  (forall m, m < n -> gd false m PV) -> gd true n (fun fl => object_field fl (PV fl)).
Proof. intros H. unfold object_field. gd_tac. Qed.

Lemma gd_value c : forall f n, n < f -> gd true n (fun fl => value fl f c).
Proof.
  induction f as [|f IH]; intros n Hn; [lia|].
  cbn [value]. cbv zeta. apply gd_bind_r; [apply gd_cur|]. intros t.
  repeat match goal with |- gd _ _ (fun fl => if ?b then _ else _) => destruct b end;
    try solve [gd_tac].
  - apply gd_bind_l; [|intros; apply gd_ret].
    apply gd_any; [discriminate|]. intros m Hm. apply IH. lia.
  - apply gd_bind_l; [|intros; apply gd_ret].
    apply gd_any; [discriminate|]. intros m Hm. apply gd_object_field.
    intros m' Hm'. apply gd_weaken. apply IH. lia.
Qed.

Lemma gd_value_literal c n : gd true n (fun fl => value_literal fl c).
Proof.
  unfold value_literal. apply (gd_with_fuel true (fun fl f => value fl f c)).
  intros f m Hm _. apply gd_value. exact Hm.
Qed.
#[export] Hint Resolve gd_value_literal : gd.

Lemma gd_string_literal n : gd false n (fun fl => string_literal fl).
Proof. unfold string_literal. gd_tac. Qed.
#[export] Hint Resolve gd_string_literal : gd.

Lemma gd_description n : gd false n (fun fl => description fl).
Proof. unfold description. gd_tac. Qed.
#[export] Hint Resolve gd_description : gd.

Lemma eot_true fl k ts r : k <> K_EOF -> expect_optional_token fl k ts = ROk true r -> length r < length ts.
Proof.
  intros Hk. unfold expect_optional_token, bind, cur, ret.
  destruct (fst (tok_at ts) =? k)%N eqn:E; [|discriminate]. apply N.eqb_eq in E.
  destruct (adv fl ts) as [u r1| |] eqn:Ea; try discriminate.
  intros H; inversion H; subst. apply (adv_consumes _ _ _ _ Hk Ea).
Qed.

(* expect_optional_token: the `true` continuation runs on a shorter list *)
Lemma gd_bind_opt {B} s k n (K : bool -> nat -> P B) :
  k <> K_EOF -> (forall m, m < n -> gd s m (K true)) -> gd s n (K false) ->
  gd s n (fun fl => bind (expect_optional_token fl k) (fun b => K b fl)).
Proof.
  intros Hk GT GF.
  assert (GK : forall fl ts a r, length ts <= n -> expect_optional_token fl k ts = ROk a r ->
                                 gd s (length r) (K a)).
  { intros fl ts a r Hl E. destruct a.
    - apply GT. apply eot_true in E; [lia|exact Hk].
    - destruct (gd_expect_optional_token k n) as [G _]. apply (g_suf _ _ G) in E; [|exact Hl].
      apply suffix_length in E. eapply gd_le; [exact GF|lia]. }
  split.
  - apply good_bind_gen; [apply gd_expect_optional_token|].
    intros fl ts a r Hl E. apply (GK fl ts a r Hl E).
  - intros Es fl ts b r Hl. unfold bind.
    destruct (expect_optional_token fl k ts) as [a r1| |] eqn:E; try discriminate. intros E2.
    pose proof (GK _ _ _ _ Hl E) as [Ga Sa].
    destruct (gd_expect_optional_token k n) as [G _]. pose proof (g_suf _ _ G _ _ _ _ Hl E) as S1.
    apply suffix_length in S1.
    apply (Sa Es) in E2; lia.
Qed.

Lemma gd_type_ref : forall f n, n < f -> gd true n (fun fl => type_ref fl f).
Proof.
  induction f as [|f IH]; intros n Hn; [lia|].
  cbn [type_ref].
  apply (gd_bind_opt true K_BRACKET_L n
           (fun b fl => t <- (if b then i <- type_ref fl f ;; expect_token fl K_BRACKET_R ;;; ret (Nd KListType [ANode i])
                              else named_type fl) ;;
                        bang <- expect_optional_token fl K_BANG ;;
                        ret (if bang then Nd KNonNullType [ANode t] else t))); [discriminate| |].
  - intros m Hm. apply gd_bind_l; [|intros; gd_tac].
    apply gd_bind_l; [apply IH; lia|]. intros; gd_tac.
  - gd_tac.
Qed.

Lemma gd_type_reference n : gd true n (fun fl => type_reference fl).
Proof.
  unfold type_reference. apply (gd_with_fuel true (fun fl f => type_ref fl f)).
  intros f m Hm _. apply gd_type_ref. exact Hm.
Qed.
#[export] Hint Resolve gd_type_reference : gd.

Lemma gd_argument c n : gd true n (fun fl => argument fl c).
Proof. unfold argument. gd_tac. Qed.
#[export] Hint Resolve gd_argument : gd.
Lemma gd_arguments c n : gd false n (fun fl => arguments fl c).
Proof. unfold arguments. gd_tac. Qed.
#[export] Hint Resolve gd_arguments : gd.
Lemma gd_fragment_argument n : gd true n (fun fl => fragment_argument fl).
Proof. unfold fragment_argument. gd_tac. Qed.
#[export] Hint Resolve gd_fragment_argument : gd.
Lemma gd_fragment_arguments n : gd false n (fun fl => fragment_arguments fl).
Proof. unfold fragment_arguments. gd_tac. Qed.
#[export] Hint Resolve gd_fragment_arguments : gd.
Lemma gd_directive c n : gd true n (fun fl => directive fl c).
Proof. unfold directive. gd_tac. Qed.
#[export] Hint Resolve gd_directive : gd.
Lemma gd_directives c n : gd false n (fun fl => directives fl c).
Proof.
  unfold directives. apply gd_bind_f; [|intros; apply gd_ret].
  apply (gd_with_fuel false (fun fl f => while_peek f K_AT (directive fl c))).
  intros f m Hm _. apply gd_while_peek; [exact Hm|]. intros; apply gd_directive.
Qed.
#[export] Hint Resolve gd_directives : gd.

Lemma gd_fragment_name n : gd true n (fun fl => fragment_name fl).
Proof. unfold fragment_name. gd_tac. Qed.
#[export] Hint Resolve gd_fragment_name : gd.

Lemma gd_field (SS : nat -> P node) n :
  (forall m, m < n -> gd false m SS) -> gd true n (fun fl => field fl (SS fl)).
Proof. intros H. unfold field. gd_tac. Qed.

Lemma gd_fragment xfa (SS : nat -> P node) n :
  (forall m, m < n -> gd false m SS) -> gd true n (fun fl => fragment fl xfa (SS fl)).
Proof. intros H. unfold fragment. gd_tac. Qed.

Lemma gd_selection xfa (SS : nat -> P node) n :
  (forall m, m < n -> gd false m SS) -> gd true n (fun fl => selection fl xfa (SS fl)).
Proof.
  intros H. unfold selection. apply gd_bind_r; [apply gd_cur|]. intros t.
  destruct (fst t =? K_SPREAD)%N; [apply gd_fragment|apply gd_field]; exact H.
Qed.

Lemma gd_sel_set xfa : forall f n, n < f -> gd true n (fun fl => sel_set fl xfa f).
Proof.
  induction f as [|f IH]; intros n Hn; [lia|].
  cbn [sel_set]. apply gd_bind_l; [|intros; apply gd_ret].
  apply gd_many; [discriminate|]. intros m Hm. apply gd_selection.
  intros m' Hm'. apply gd_weaken. apply IH. lia.
Qed.

Lemma gd_selection_set xfa n : gd true n (fun fl => selection_set fl xfa).
Proof.
  unfold selection_set. apply (gd_with_fuel true (fun fl f => sel_set fl xfa f)).
  intros f m Hm _. apply gd_sel_set. exact Hm.
Qed.
#[export] Hint Resolve gd_selection_set : gd.

Lemma gd_variable_definition n : gd true n (fun fl => variable_definition fl).
Proof. unfold variable_definition. gd_tac. Qed.
#[export] Hint Resolve gd_variable_definition : gd.
Lemma gd_variable_definitions n : gd false n (fun fl => variable_definitions fl).
Proof. unfold variable_definitions. gd_tac. Qed.
#[export] Hint Resolve gd_variable_definitions : gd.
Lemma gd_operation_type n : gd true n (fun fl => operation_type fl).
Proof. unfold operation_type. gd_tac. Qed.
#[export] Hint Resolve gd_operation_type : gd.
Lemma gd_operation_definition xfa n : gd true n (fun fl => operation_definition fl xfa).
Proof. unfold operation_definition. gd_tac. Qed.
#[export] Hint Resolve gd_operation_definition : gd.
Lemma gd_type_condition n : gd true n (fun fl => type_condition fl).
Proof. unfold type_condition. gd_tac. Qed.
#[export] Hint Resolve gd_type_condition : gd.
Lemma gd_fragment_definition xfa n : gd true n (fun fl => fragment_definition fl xfa).
Proof. unfold fragment_definition. gd_tac. Qed.
#[export] Hint Resolve gd_fragment_definition : gd.

Lemma gd_operation_type_definition n : gd true n (fun fl => operation_type_definition fl).
Proof. unfold operation_type_definition. gd_tac. Qed.
#[export] Hint Resolve gd_operation_type_definition : gd.
Lemma gd_schema_definition n : gd true n (fun fl => schema_definition fl).
Proof. unfold schema_definition. gd_tac. Qed.
#[export] Hint Resolve gd_schema_definition : gd.
Lemma gd_scalar_type_definition n : gd true n (fun fl => scalar_type_definition fl).
Proof. unfold scalar_type_definition. gd_tac. Qed.
#[export] Hint Resolve gd_scalar_type_definition : gd.
Lemma gd_implements_interfaces n : gd false n (fun fl => implements_interfaces fl).
Proof. unfold implements_interfaces. gd_tac. Qed.
#[export] Hint Resolve gd_implements_interfaces : gd.
Lemma gd_input_value_def n : gd true n (fun fl => input_value_def fl).
Proof. unfold input_value_def. gd_tac. Qed.
#[export] Hint Resolve gd_input_value_def : gd.
Lemma gd_argument_defs n : gd false n (fun fl => argument_defs fl).
Proof. unfold argument_defs. gd_tac. Qed.
#[export] Hint Resolve gd_argument_defs : gd.
Lemma gd_input_fields_definition n : gd false n (fun fl => input_fields_definition fl).
Proof. unfold input_fields_definition. gd_tac. Qed.
#[export] Hint Resolve gd_input_fields_definition : gd.
Lemma gd_field_definition n : gd true n (fun fl => field_definition fl).
Proof. unfold field_definition. gd_tac. Qed.
#[export] Hint Resolve gd_field_definition : gd.
Lemma gd_fields_definition n : gd false n (fun fl => fields_definition fl).
Proof. unfold fields_definition. gd_tac. Qed.
#[export] Hint Resolve gd_fields_definition : gd.
Lemma gd_object_type_definition n : gd true n (fun fl => object_type_definition fl).
Proof. unfold object_type_definition. gd_tac. Qed.
#[export] Hint Resolve gd_object_type_definition : gd.
Lemma gd_interface_type_definition n : gd true n (fun fl => interface_type_definition fl).
Proof. unfold interface_type_definition. gd_tac. Qed.
#[export] Hint Resolve gd_interface_type_definition : gd.
Lemma gd_union_member_types n : gd false n (fun fl => union_member_types fl).
Proof. unfold union_member_types. gd_tac. Qed.
#[export] Hint Resolve gd_union_member_types : gd.
Lemma gd_union_type_definition n : gd true n (fun fl => union_type_definition fl).
Proof. unfold union_type_definition. gd_tac. Qed.
#[export] Hint Resolve gd_union_type_definition : gd.
Lemma gd_enum_value_name n : gd true n (fun fl => enum_value_name fl).
Proof. unfold enum_value_name. gd_tac. Qed.
#[export] Hint Resolve gd_enum_value_name : gd.
Lemma gd_enum_value_definition n : gd true n (fun fl => enum_value_definition fl).
Proof. unfold enum_value_definition. gd_tac. Qed.
#[export] Hint Resolve gd_enum_value_definition : gd.
Lemma gd_enum_values_definition n : gd false n (fun fl => enum_values_definition fl).
Proof. unfold enum_values_definition. gd_tac. Qed.
#[export] Hint Resolve gd_enum_values_definition : gd.
Lemma gd_enum_type_definition n : gd true n (fun fl => enum_type_definition fl).
Proof. unfold enum_type_definition. gd_tac. Qed.
#[export] Hint Resolve gd_enum_type_definition : gd.
Lemma gd_input_object_type_definition n : gd true n (fun fl => input_object_type_definition fl).
Proof. unfold input_object_type_definition. gd_tac. Qed.
#[export] Hint Resolve gd_input_object_type_definition : gd.
Lemma gd_directive_location n : gd true n (fun fl => directive_location fl).
Proof. unfold directive_location. gd_tac. Qed.
#[export] Hint Resolve gd_directive_location : gd.
Lemma gd_directive_definition xdd n : gd true n (fun fl => directive_definition fl xdd).
Proof. unfold directive_definition. gd_tac. Qed.
#[export] Hint Resolve gd_directive_definition : gd.

Lemma gd_schema_extension n : gd true n (fun fl => schema_extension fl).
Proof. unfold schema_extension. gd_tac. Qed.
#[export] Hint Resolve gd_schema_extension : gd.
Lemma gd_scalar_type_extension n : gd true n (fun fl => scalar_type_extension fl).
Proof. unfold scalar_type_extension. gd_tac. Qed.
#[export] Hint Resolve gd_scalar_type_extension : gd.
Lemma gd_object_type_extension n : gd true n (fun fl => object_type_extension fl).
Proof. unfold object_type_extension. gd_tac. Qed.
#[export] Hint Resolve gd_object_type_extension : gd.
Lemma gd_interface_type_extension n : gd true n (fun fl => interface_type_extension fl).
Proof. unfold interface_type_extension. gd_tac. Qed.
#[export] Hint Resolve gd_interface_type_extension : gd.
Lemma gd_union_type_extension n : gd true n (fun fl => union_type_extension fl).
Proof. unfold union_type_extension. gd_tac. Qed.
#[export] Hint Resolve gd_union_type_extension : gd.
Lemma gd_enum_type_extension n : gd true n (fun fl => enum_type_extension fl).
Proof. unfold enum_type_extension. gd_tac. Qed.
#[export] Hint Resolve gd_enum_type_extension : gd.
Lemma gd_input_object_type_extension n : gd true n (fun fl => input_object_type_extension fl).
Proof. unfold input_object_type_extension. gd_tac. Qed.
#[export] Hint Resolve gd_input_object_type_extension : gd.
Lemma gd_directive_definition_extension n : gd true n (fun fl => directive_definition_extension fl).
Proof. unfold directive_definition_extension. gd_tac. Qed.
#[export] Hint Resolve gd_directive_definition_extension : gd.
Lemma gd_type_system_extension xdd n : gd true n (fun fl => type_system_extension fl xdd).
Proof. unfold type_system_extension. gd_tac. Qed.
#[export] Hint Resolve gd_type_system_extension : gd.

Lemma gd_definition xfa xdd n : gd true n (fun fl => definition fl xfa xdd).
Proof. unfold definition. gd_tac. Qed.
#[export] Hint Resolve gd_definition : gd.
Lemma gd_document xfa xdd n : gd true n (fun fl => document fl xfa xdd).
Proof. unfold document. gd_tac. Qed.
Lemma gd_value_entry c n : gd true n (fun fl => value_entry fl c).
Proof. unfold value_entry, enter. gd_tac. Qed.
Lemma gd_type_entry n : gd true n (fun fl => type_entry fl).
Proof. unfold type_entry, enter. gd_tac. Qed.
Lemma gd_schema_coordinate n : gd true n (fun fl => schema_coordinate fl).
Proof. unfold schema_coordinate. gd_tac. Qed.
#[export] Hint Resolve gd_schema_coordinate : gd.
Lemma gd_coordinate_entry n : gd true n (fun fl => coordinate_entry fl).
Proof. unfold coordinate_entry, enter. gd_tac. Qed.

Theorem gd_core e xfa xdd n : gd true n (fun fl => core e fl xfa xdd).
Proof.
  destruct e; cbn [core].
  - apply gd_document.
  - apply gd_value_entry.
  - apply gd_value_entry.
  - apply gd_type_entry.
  - apply gd_coordinate_entry.
Qed.

(* a successful entry point stops on the EOF token *)
Lemma adv_eof_state fl ts u r : kind_at ts = K_EOF -> adv fl ts = ROk u r -> r = ts.
Proof.
  unfold adv. destruct ts as [|t ts']; [intros _ H; inversion H; reflexivity|].
  unfold kind_at. cbn [tok_at]. intros ->. cbn. intros H; inversion H; reflexivity.
Qed.

Lemma expect_eof_state {A} fl (v : A) ts a r :
  (expect_token fl K_EOF ;;; ret v) ts = ROk a r -> kind_at r = K_EOF.
Proof.
  unfold expect_token, bind, cur, ret.
  destruct (fst (tok_at ts) =? K_EOF)%N eqn:E; [|discriminate].
  apply N.eqb_eq in E.
  destruct (adv fl ts) as [u r1| |] eqn:Ea; try discriminate.
  apply adv_eof_state in Ea; [|exact E]. subst r1. intros H; inversion H; subst. exact E.
Qed.

Lemma eot_eof_state fl ts r : expect_optional_token fl K_EOF ts = ROk true r -> kind_at r = K_EOF.
Proof.
  unfold expect_optional_token, bind, cur, ret.
  destruct (fst (tok_at ts) =? K_EOF)%N eqn:E; [|discriminate].
  apply N.eqb_eq in E.
  destruct (adv fl ts) as [u r1| |] eqn:Ea; try discriminate.
  apply adv_eof_state in Ea; [|exact E]. subst r1. intros H; inversion H; subst. exact E.
Qed.

Lemma until_close_eof_state fl (p : P node) : forall f ts l r,
  until_close fl f K_EOF p ts = ROk l r -> kind_at r = K_EOF.
Proof.
  induction f as [|f IH]; intros ts l r; [discriminate|].
  cbn [until_close]. unfold bind at 1.
  destruct (expect_optional_token fl K_EOF ts) as [b r1| |] eqn:E; try discriminate.
  destruct b.
  - apply eot_eof_state in E. unfold ret. intros H; inversion H; subst. exact E.
  - unfold bind at 1. destruct (p r1) as [x r2| |]; try discriminate.
    unfold bind at 1. destruct (until_close fl f K_EOF p r2) as [xs r3| |] eqn:E3; try discriminate.
    unfold ret. intros H; inversion H; subst. eapply IH; eauto.
Qed.

Lemma core_eof_state e fl xfa xdd ts d r : core e fl xfa xdd ts = ROk d r -> kind_at r = K_EOF.
Proof.
  assert (V : forall (M : P node) ts d r,
             (enter fl ;;; v <- M ;; expect_token fl K_EOF ;;; ret v) ts = ROk d r -> kind_at r = K_EOF).
  { intros M ts0 d0 r0. unfold bind at 1. destruct (enter fl ts0) as [u r1| |]; try discriminate.
    unfold bind at 1. destruct (M r1) as [v r2| |]; try discriminate.
    apply expect_eof_state. }
  destruct e; cbn [core].
  - unfold document. unfold bind at 1.
    destruct (many fl K_SOF (definition fl xfa xdd) K_EOF ts) as [l r1| |] eqn:E; try discriminate.
    unfold ret. intros H; inversion H; subst. clear H. revert E.
    unfold many, loop_close, with_fuel.
    unfold bind at 1. destruct (expect_token fl K_SOF ts) as [u r2| |]; try discriminate.
    unfold bind at 1. destruct (definition fl xfa xdd r2) as [x r3| |]; try discriminate.
    unfold bind at 1.
    destruct (until_close fl (S (length r3)) K_EOF (definition fl xfa xdd) r3) as [xs r4| |] eqn:E4; try discriminate.
    unfold ret. intros H; inversion H; subst. eapply until_close_eof_state; eauto.
  - apply V.
  - apply V.
  - apply V.
  - apply V.
Qed.

Definition with_max (o : options) (m : option nat) : options :=
  mkOpts m (exp_fragment_arguments o) (exp_directives_on_directive_definitions o).

(* S (number of tokens) is always enough fuel, for every token list *)
Theorem parse_entry_total e o ts :
  (exists d c, parse_entry e o ts = Ok (d, c)) \/ (exists p, parse_entry e o ts = SyntaxErr p).
Proof.
  unfold parse_entry.
  destruct (gd_core e (exp_fragment_arguments o) (exp_directives_on_directive_definitions o)
                    (length (sof_tok :: map sig ts))) as [G _].
  pose proof (g_fuel _ _ G (floor_of o (length (map sig ts))) (sof_tok :: map sig ts) (le_n _)) as F.
  cbv beta in F. set (res := core e _ _ _ _) in *.
  destruct res as [d r|x|]; [left; eauto|right; eauto|exfalso; apply F; reflexivity].
Qed.

Lemma floor_none o len : floor_of (with_max o None) len = 0.
Proof. reflexivity. Qed.

Lemma parse_entry_sim e o n ts :
  let s := map sig ts in
  simc (length s - n)
       (core e 0 (exp_fragment_arguments o) (exp_directives_on_directive_definitions o) (sof_tok :: s))
       (core e (length s - n) (exp_fragment_arguments o) (exp_directives_on_directive_definitions o) (sof_tok :: s)).
Proof.
  intros s.
  destruct (gd_core e (exp_fragment_arguments o) (exp_directives_on_directive_definitions o)
                    (length (sof_tok :: s))) as [G _].
  apply (g_sim _ _ G); [apply le_n|]. left. cbn. lia.
Qed.

Lemma parse_entry_limit_cases e o n ts :
  match parse_entry e (with_max o None) ts with
  | Ok (d, c) =>
    (c <= n /\ parse_entry e (with_max o (Some n)) ts = Ok (d, c)) \/
    (n < c /\ parse_entry e (with_max o (Some n)) ts = SyntaxErr (pos_of ts (length ts - n)))
  | SyntaxErr p =>
    parse_entry e (with_max o (Some n)) ts = SyntaxErr p \/
    parse_entry e (with_max o (Some n)) ts = SyntaxErr (pos_of ts (length ts - n))
  | _ => False
  end.
Proof.
  unfold parse_entry. cbn [with_max max_tokens floor_of exp_fragment_arguments
                             exp_directives_on_directive_definitions].
  pose proof (parse_entry_sim e o n ts) as S. cbv zeta in S.
  set (s := map sig ts) in *. set (xfa := exp_fragment_arguments o) in *.
  set (xdd := exp_directives_on_directive_definitions o) in *.
  assert (Ls : length s = length ts) by (unfold s; apply map_length).
  destruct (gd_core e xfa xdd (length (sof_tok :: s))) as [G _].
  unfold simc in S.
  destruct (core e 0 xfa xdd (sof_tok :: s)) as [d0 r0|e0|] eqn:E0.
  - pose proof (core_eof_state _ _ _ _ _ _ _ E0) as Ek.
    destruct S as [[Ho ->]|[Hn ->]].
    + left. split; [destruct Ho as [Ho|[Ho _]]; lia|reflexivity].
    + right. split; [|rewrite Ls; reflexivity].
      destruct (Nat.lt_ge_cases n (length s - length r0)) as [Hlt|Hge]; [exact Hlt|].
      exfalso. apply Hn.
      destruct (Nat.eq_dec (length s - n) (length r0)) as [Eq|Ne]; [right; auto|left; lia].
  - destruct S as [->|[-> _]]; [left|right; rewrite Ls]; reflexivity.
  - eapply (g_fuel _ _ G); [apply le_n|exact E0].
Qed.

Theorem parse_entry_limit_iff e o n ts d c :
  parse_entry e (with_max o (Some n)) ts = Ok (d, c) <->
  parse_entry e (with_max o None) ts = Ok (d, c) /\ c <= n.
Proof.
  pose proof (parse_entry_limit_cases e o n ts) as C.
  destruct (parse_entry e (with_max o None) ts) as [[d0 c0]|p| |]; try contradiction.
  - destruct C as [[Hc E]|[Hc E]]; rewrite E; split.
    + intros H. split; [exact H|]. inversion H; subst. exact Hc.
    + intros [H _]. exact H.
    + discriminate.
    + intros [H Hc']. inversion H; subst. lia.
  - split; [|intros [H _]; discriminate]. destruct C as [->| ->]; discriminate.
Qed.

(* only (kind, value) of the tokens matter *)
Theorem parse_entry_layout e o ts1 ts2 :
  map sig ts1 = map sig ts2 ->
  (forall d c, parse_entry e o ts1 = Ok (d, c) <-> parse_entry e o ts2 = Ok (d, c)) /\
  ((exists p, parse_entry e o ts1 = SyntaxErr p) <-> (exists p, parse_entry e o ts2 = SyntaxErr p)).
Proof.
  intros E. unfold parse_entry. rewrite E.
  destruct (core e _ _ _ _) as [d r|x|].
  - split; [intros d0 c0; tauto|]. split; intros [p H]; discriminate.
  - split; [intros d0 c0; split; discriminate|]. split; intros _; eexists; reflexivity.
  - split; [intros d0 c0; split; discriminate|]. split; intros [p H]; discriminate.
Qed.

(* index of the blamed token, counted in tokens *)
Definition error_index (e : entry) (o : options) (ts : list token) : option nat :=
  let s := map sig ts in
  match core e (floor_of o (length s)) (exp_fragment_arguments o)
             (exp_directives_on_directive_definitions o) (sof_tok :: s) with
  | RErr x => Some (length s - x)
  | _ => None
  end.

(* a token reader that never crashes and consumes something for every token but EOF *)
Definition progresses (rd : cursor -> list N -> outcome (token * cursor * list N)) : Prop :=
  forall cu s, match rd cu s with
               | Ok (tk, cu', s') => (tkind tk =? K_EOF)%N = true \/ length s' < length s
               | SyntaxErr _ => True | _ => False
               end.

Lemma lazy_loop_total rd : progresses rd -> forall fuel cu s, length s < fuel ->
  match snd (lazy_loop rd fuel cu s) with LCrash _ => False | LFuel => False | _ => True end.
Proof.
  intros Hrd. induction fuel as [|f IH]; intros cu s Hf; [lia|].
  cbn [lazy_loop]. pose proof (Hrd cu s) as Ht.
  destruct (rd cu s) as [[[tk cu'] s']| | |]; try exact Ht; try exact I.
  destruct (tkind tk =? K_EOF)%N eqn:Ek; [exact I|].
  destruct Ht as [Ht|Ht]; [congruence|].
  specialize (IH cu' s' ltac:(lia)).
  destruct (lazy_loop rd f cu' s') as [ts e]. exact IH.
Qed.

Lemma read_token_progresses : progresses read_token.
Proof.
  intros cu s. pose proof (LexerProps.read_token_spec cu s) as Ht.
  destruct (read_token cu s) as [[[tk cu'] s']| | |]; try exact Ht.
  destruct Ht as (g & n & _ & _ & _ & Ha & _ & _ & _ & Hne).
  destruct (tkind tk =? K_EOF)%N; [left; reflexivity|right].
  specialize (Hne eq_refl). pose proof (LexerProps.adv_length _ _ _ Ha). lia.
Qed.

Theorem token_stream_total coord s : exists ts, token_stream coord s = Ok ts.
Proof.
  unfold token_stream.
  assert (Hrd : progresses (if coord then coord_token else read_token))
    by (destruct coord; [exact LexerProps.coord_token_spec|exact read_token_progresses]).
  pose proof (lazy_loop_total _ Hrd (S (length s)) init_cursor s ltac:(lia)) as H.
  destruct (lazy_loop _ _ _ _) as [ts e]. cbn in H. destruct e; try contradiction; eauto.
Qed.

Lemma lazy_loop_lex fuel : forall cu s,
  match lex_loop fuel cu s with
  | Ok ts => lazy_loop read_token fuel cu s = (significant ts, LEnd)
  | SyntaxErr q => exists pre, lazy_loop read_token fuel cu s = (pre, LErr q)
  | Crash w => exists pre, lazy_loop read_token fuel cu s = (pre, LCrash w)
  | OutOfFuel => exists pre, lazy_loop read_token fuel cu s = (pre, LFuel)
  end.
Proof.
  induction fuel as [|f IH]; intros cu s; [cbn; eauto|].
  cbn [lex_loop lazy_loop].
  destruct (read_token cu s) as [[[tk cu'] s']|q|w|]; [|eauto|eauto|eauto].
  destruct (tkind tk =? K_EOF)%N eqn:Ek.
  - cbn [significant filter]. apply N.eqb_eq in Ek. rewrite Ek. reflexivity.
  - specialize (IH cu' s'). destruct (lex_loop f cu' s') as [ts|q|w|].
    + rewrite IH. cbn [significant filter]. destruct (tkind tk =? K_COMMENT)%N; reflexivity.
    + destruct IH as [pre ->]. eauto.
    + destruct IH as [pre ->]. eauto.
    + destruct IH as [pre ->]. eauto.
Qed.

Theorem token_stream_lex_ok s ts : lex s = Ok ts -> token_stream false s = Ok (significant ts).
Proof.
  unfold lex, token_stream. intros H.
  pose proof (lazy_loop_lex (S (length s)) init_cursor s) as L. rewrite H in L. rewrite L. reflexivity.
Qed.

Theorem token_stream_lex_err s q : lex s = SyntaxErr q ->
  exists pre, token_stream false s = Ok (pre ++ [err_token q]).
Proof.
  unfold lex, token_stream. intros H.
  pose proof (lazy_loop_lex (S (length s)) init_cursor s) as L. rewrite H in L.
  destruct L as [pre ->]. eauto.
Qed.

(* for a source that lexes, parsing the text is parsing its significant tokens *)
Theorem parse_text_lex e o s ts : e <> ECoordinate -> lex s = Ok ts ->
  parse_text e o s = parse_entry e o (significant ts).
Proof.
  intros He H. unfold parse_text.
  replace (match e with ECoordinate => true | _ => false end) with false by (destruct e; congruence).
  rewrite (token_stream_lex_ok s ts H). reflexivity.
Qed.

Lemma lazy_loop_no_eof rd fuel : forall cu s pre q,
  lazy_loop rd fuel cu s = (pre, LErr q) -> Forall (fun t => (tkind t =? K_EOF)%N = false) pre.
Proof.
  induction fuel as [|f IH]; intros cu s pre q; [discriminate|].
  cbn [lazy_loop]. destruct (rd cu s) as [[[tk cu'] s']|q'|w|]; try discriminate.
  - destruct (tkind tk =? K_EOF)%N eqn:Ek; [discriminate|].
    destruct (lazy_loop rd f cu' s') as [ts e] eqn:E. intros H; inversion H; subst.
    specialize (IH _ _ _ _ E). destruct (tkind tk =? K_COMMENT)%N; [exact IH|constructor; assumption].
  - intros H; inversion H; subst. constructor.
Qed.

Lemma suffix_before_lexerr r ts : suffix r ts ->
  forall l e, ts = l ++ [e] -> l <> [] -> fst e = K_LEXERR ->
  Forall (fun t => (fst t =? K_EOF)%N = false) l -> (kind_at r =? K_EOF)%N = false.
Proof.
  induction 1 as [|t ts Hte Hk H IH]; intros l e E Hl He Hall.
  - subst r. destruct l as [|t l']; [congruence|]. inversion Hall; subst. assumption.
  - destruct l as [|t' l']; [congruence|]. inversion E; subst. inversion Hall; subst.
    destruct l' as [|t2 l2].
    + cbn in Hk. unfold kind_at in Hk. cbn in Hk. rewrite He in Hk. discriminate.
    + apply (IH (t2 :: l2) e eq_refl); [discriminate|exact He|assumption].
Qed.

Theorem parse_entry_lexerr e o pre q :
  Forall (fun t => (tkind t =? K_EOF)%N = false) pre ->
  exists p, parse_entry e o (pre ++ [err_token q]) = SyntaxErr p.
Proof.
  intros Hpre.
  destruct (parse_entry_total e o (pre ++ [err_token q])) as [(d & c & E)|[p E]]; [|eauto].
  exfalso. unfold parse_entry in E.
  set (s := map sig (pre ++ [err_token q])) in *.
  destruct (core e (floor_of o (length s)) (exp_fragment_arguments o)
                 (exp_directives_on_directive_definitions o) (sof_tok :: s)) as [d0 r|x|] eqn:Ec; try discriminate.
  pose proof (core_eof_state _ _ _ _ _ _ _ Ec) as Hk.
  destruct (gd_core e (exp_fragment_arguments o) (exp_directives_on_directive_definitions o)
                    (length (sof_tok :: s))) as [G _].
  pose proof (g_suf _ _ G _ _ _ _ (le_n _) Ec) as Sf.
  assert (Hne : (kind_at r =? K_EOF)%N = false).
  { apply (suffix_before_lexerr r (sof_tok :: s) Sf (sof_tok :: map sig pre) (sig (err_token q))).
    - unfold s. rewrite map_app. reflexivity.
    - discriminate.
    - reflexivity.
    - constructor; [reflexivity|]. clear -Hpre. induction Hpre; constructor; assumption. }
  rewrite Hk in Hne. discriminate.
Qed.

(* the tokens an accepted run has advanced over are not EOF, and it stops on an EOF *)
Lemma suffix_prefix r ts : suffix r ts ->
  exists pre, ts = pre ++ r /\ Forall (fun t => (fst t =? K_EOF)%N = false) pre.
Proof.
  induction 1 as [|t ts He Hk H (pre & -> & Hp)]; [exists []; split; [reflexivity|constructor]|].
  exists (t :: pre). split; [reflexivity|constructor; assumption].
Qed.

(* token_count = number of tokens in front of the first EOF *)
Theorem parse_entry_count e o ts d c :
  parse_entry e o ts = Ok (d, c) ->
  exists pre rest, map sig ts = pre ++ rest /\ c = length pre /\
                   Forall (fun t => (fst t =? K_EOF)%N = false) pre /\ kind_at rest = K_EOF.
Proof.
  unfold parse_entry. set (s := map sig ts).
  destruct (core e (floor_of o (length s)) (exp_fragment_arguments o)
                 (exp_directives_on_directive_definitions o) (sof_tok :: s)) as [d0 r|x|] eqn:Ec; try discriminate.
  intros H; inversion H; subst d0 c. clear H.
  pose proof (core_eof_state _ _ _ _ _ _ _ Ec) as Hk.
  destruct (gd_core e (exp_fragment_arguments o) (exp_directives_on_directive_definitions o)
                    (length (sof_tok :: s))) as [G _].
  pose proof (g_suf _ _ G _ _ _ _ (le_n _) Ec) as Sf.
  apply suffix_prefix in Sf as (pre & E & Hp).
  destruct pre as [|t pre'].
  - cbn [app] in E. subst r. discriminate Hk.
  - cbn [app] in E. injection E as Et Es. exists pre', r. inversion Hp; subst.
    repeat split; try assumption. rewrite Es at 1. rewrite app_length. lia.
Qed.

(* for lexer output: the count is the number of significant tokens, EOF excluded *)
Lemma spans_significant pos s ts : spans pos s ts ->
  exists pre e, significant ts = pre ++ [e] /\ tkind e = K_EOF /\
                Forall (fun t => (tkind t =? K_EOF)%N = false) pre.
Proof.
  induction 1 as [pos s tk Hi Hk Hs He | pos g lx s' tk ts Hg Hlx Hpk Hk Hs He Hsp (pre & e & E & Ee & Hp)].
  - exists [], tk. apply N.eqb_eq in Hk. cbn [significant filter]. rewrite Hk. cbn. repeat split; auto.
  - cbn [significant filter]. fold (significant ts). rewrite E.
    destruct (negb (tkind tk =? K_COMMENT)%N).
    + exists (tk :: pre), e. repeat split; auto.
    + exists pre, e. repeat split; auto.
Qed.

Lemma first_eof_unique (pre : list sigtok) : forall l' rest e,
  pre ++ rest = l' ++ [e] ->
  Forall (fun t => (fst t =? K_EOF)%N = false) pre -> kind_at rest = K_EOF ->
  Forall (fun t => (fst t =? K_EOF)%N = false) l' -> fst e = K_EOF -> length pre = length l'.
Proof.
  induction pre as [|t pre IH]; intros l' rest e E Hp Hk Hq He.
  - destruct l' as [|t' l'']; [reflexivity|]. cbn [app] in E. subst rest. inversion Hq; subst.
    unfold kind_at in Hk. cbn in Hk. rewrite Hk in H1. discriminate.
  - destruct l' as [|t' l''].
    + cbn [app] in E. injection E as Et Er. subst t. inversion Hp; subst. rewrite He in H1. discriminate.
    + cbn [app] in E. injection E as Et Er. inversion Hq; subst. inversion Hp; subst.
      cbn [length]. f_equal. apply (IH l'' rest e); assumption.
Qed.

Theorem parse_text_count e o s ts d c : e <> ECoordinate -> lex s = Ok ts ->
  parse_text e o s = Ok (d, c) -> S c = length (significant ts).
Proof.
  intros He Hl H. rewrite (parse_text_lex e o s ts He Hl) in H.
  apply parse_entry_count in H as (pre & rest & E & -> & Hp & Hk).
  pose proof (lex_total s) as Ht. rewrite Hl in Ht.
  apply spans_significant in Ht as (pre' & e' & Es & Ee & Hp').
  rewrite Es in E. rewrite Es. rewrite map_app in E. cbn [map] in E.
  rewrite app_length. cbn [length].
  assert (length pre = length pre'); [|lia].
  rewrite <- (map_length sig pre').
  apply (first_eof_unique pre (map sig pre') rest (sig e')); try assumption.
  - symmetry. exact E.
  - clear -Hp'. induction Hp'; constructor; assumption.
Qed.

Theorem parse_text_limit_iff e o n s d c :
  parse_text e (with_max o (Some n)) s = Ok (d, c) <->
  parse_text e (with_max o None) s = Ok (d, c) /\ c <= n.
Proof.
  unfold parse_text.
  destruct (token_stream_total (match e with ECoordinate => true | _ => false end) s) as [ts ->].
  cbn [obind]. apply parse_entry_limit_iff.
Qed.

