(* The text that print_schema.print_description / printer.leave_string_value produce for a string
   value re-lexes to the same value, for every string of Unicode scalar values, whichever of the
   two forms is chosen, under any re-indentation by blanks. *)
From GV Require Import Base.Prelude Gen.Tables Lang.Lexer Lang.PrintString Lang.PrintStringProps
  Lang.BlockString Lang.BlockStringProps Lang.StripBlock Lang.Description.

Lemma indent_by_no_lf pad s : ~ In 10 s -> indent_by pad s = s.
Proof.
  intros H. apply indent_by_nolf, Forall_forall. intros c Hc. apply N.eqb_neq. intros ->. exact (H Hc).
Qed.

Theorem description_roundtrip (v indent rest : list N) (cu : cursor) :
  Forall (fun c => is_scalar c = true) v ->
  Forall (fun c => is_blank_char c = true) indent ->
  (v = [] -> hd_error rest <> Some 34) ->
  exists tk cu',
    read_token cu (print_description_text v indent ++ rest) = Ok (tk, cu', rest) /\
    thasval tk = true /\ tvalue tk = v /\ tstart tk = cpos cu /\
    tend tk = (cpos cu + length (print_description_text v indent))%nat.
Proof.
  intros Hv Hi Hq. unfold print_description_text.
  destruct (is_printable_as_block_string v) eqn:Hp.
  - pose proof (printable_in_range_main v Hp) as Hr.
    destruct (block_roundtrip_main v false [indent] cu rest Hr Hv (Forall_cons _ Hi (Forall_nil _)))
      as (tk & cu' & H1 & _ & H3 & H4 & H5 & H6 & _).
    cbn [indent_all] in H1, H6. exists tk, cu'. repeat split; assumption.
  - rewrite indent_by_no_lf by (apply print_string_no_lf; exact Hv).
    rewrite (print_string_token v rest cu Hv Hq).
    eexists _, _. split; [reflexivity|]. cbn. repeat split; reflexivity.
Qed.
