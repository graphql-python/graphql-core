(* The lexer model is total (its fuel suffices, it never crashes) and its tokens tile the source
   ([spans]); what [read_token] returns, lexeme by lexeme, with the fact that numbers, strings and
   escapes are read again with the same result in front of any text that cannot extend them. *)
From GV Require Import Base.Prelude Lang.Lexer.
From GV Require Import Base.ListFacts.

(* [adv s n r]: r is s with exactly n characters consumed *)
Definition adv (s : list N) (n : nat) (r : list N) : Prop := r = skipn n s /\ (n <= length s)%nat.

Lemma adv_0 s : adv s 0 s.
Proof. split; [reflexivity|lia]. Qed.

Lemma adv_trans s n r m r' : adv s n r -> adv r m r' -> adv s (n + m) r'.
Proof.
  intros [-> Hn] [-> Hm]. split.
  - rewrite skipn_skipn'. reflexivity.
  - rewrite skipn_length in Hm. lia.
Qed.

Lemma adv_cons c t n r : adv t n r -> adv (c :: t) (S n) r.
Proof. intros [-> H]. split; [reflexivity|cbn; lia]. Qed.

Lemma adv_tl s : s <> [] -> adv s 1 (tl s).
Proof. destruct s; [congruence|]. intros _. split; [reflexivity|cbn; lia]. Qed.

Lemma adv_length s n r : adv s n r -> length s = (n + length r)%nat.
Proof. intros [-> H]. rewrite skipn_length. lia. Qed.

Lemma adv_split s n r : adv s n r -> s = firstn n s ++ r.
Proof. intros [-> _]. symmetry. apply firstn_skipn. Qed.

Lemma adv_app a r : adv (a ++ r) (length a) r.
Proof.
  split; [symmetry; apply skipn_app_length|rewrite app_length; lia].
Qed.

Lemma peek_is_nonempty p s : peek_is p s = true -> s <> [].
Proof. destruct s; cbn; congruence. Qed.

Lemma span_spec p s : forall a r, span p s = (a, r) ->
  s = a ++ r /\ Forall (fun c => p c = true) a /\ peek_is p r = false.
Proof.
  induction s as [|c t IH]; intros a r H; cbn in H.
  - inversion H; subst. repeat split; constructor.
  - destruct (p c) eqn:E.
    + destruct (span p t) as [a' r'] eqn:E2. inversion H; subst.
      destruct (IH _ _ eq_refl) as (-> & Hf & Hp). repeat split; auto.
    + inversion H; subst. repeat split; cbn; auto.
Qed.

(* no line terminator: the test the string and comment readers make *)
Definition lt_free (l : list N) : Prop := Forall (fun c => (c =? LF) || (c =? CR) = false) l.

(* a class of characters that contains neither LF nor CR *)
Lemma not_lt_of (P : N -> bool) : P LF = false -> P CR = false ->
  forall c, P c = true -> (c =? LF) || (c =? CR) = false.
Proof.
  intros H1 H2 c Hc. apply orb_false_iff. split; apply N.eqb_neq; intros ->; congruence.
Qed.

Lemma not_lt_of_some {A} (f : N -> option A) : f LF = None -> f CR = None ->
  forall c v, f c = Some v -> (c =? LF) || (c =? CR) = false.
Proof.
  intros H1 H2 c v Hc. apply orb_false_iff. split; apply N.eqb_neq; intros ->; congruence.
Qed.

Lemma trail_lt_free d : is_trail d = true -> (d =? LF) || (d =? CR) = false.
Proof. apply (not_lt_of is_trail); reflexivity. Qed.

Lemma comment_body_spec s : forall a r, comment_body s = (a, r) -> s = a ++ r /\ lt_free a.
Proof.
  induction s as [|c t IHt IHt'] using list_ind_peek; intros a r H; cbn [comment_body] in H.
  { injection H as <- <-. split; [reflexivity|constructor]. }
  destruct ((c =? LF) || (c =? CR)) eqn:Ec; [injection H as <- <-; split; [reflexivity|constructor]|].
  destruct (is_scalar c).
  - destruct (comment_body t) as [a' r'] eqn:E. injection H as <- <-.
    destruct (IHt _ _ eq_refl) as [-> Hc]. split; [reflexivity|constructor; assumption].
  - destruct t as [|d t']; [injection H as <- <-; split; [reflexivity|constructor]|]. cbn [tl] in IHt'.
    destruct (is_lead c && is_trail d) eqn:Ep; [|injection H as <- <-; split; [reflexivity|constructor]].
    destruct (comment_body t') as [a' r'] eqn:E. injection H as <- <-.
    destruct (IHt' _ _ eq_refl) as [-> Hc]. apply andb_true_iff in Ep as [_ Ed]. split; [reflexivity|].
    constructor; [exact Ec|]. constructor; [apply trail_lt_free, Ed|exact Hc].
Qed.

Definition skip_post (cu : cursor) (s : list N) (cu' : cursor) (s' : list N) : Prop :=
  exists k, adv s k s' /\ Forall (fun c => is_ignored_char c = true) (firstn k s)
            /\ cpos cu' = (cpos cu + k)%nat /\ peek_is is_ignored_char s' = false.

Lemma skip_post_cons cu p l ls c t cu' s' :
  is_ignored_char c = true -> p = S (cpos cu) ->
  skip_post (mkCur p l ls) t cu' s' -> skip_post cu (c :: t) cu' s'.
Proof.
  intros Hc -> (k & Ha & Hf & Hp & Hk). exists (S k).
  split; [apply adv_cons; exact Ha|]. split; [cbn; constructor; assumption|].
  split; [rewrite Hp; cbn; lia|exact Hk].
Qed.

Lemma skip_post_stop cu s : peek_is is_ignored_char s = false -> skip_post cu s cu s.
Proof.
  intros H. exists 0%nat. split; [apply adv_0|]. split; [constructor|]. split; [lia|exact H].
Qed.

Lemma skip_ignored_spec s : forall cu cu' s',
  skip_ignored cu s = (cu', s') -> skip_post cu s cu' s'.
Proof.
  induction s as [|c t IHt IHt'] using list_ind_peek; intros cu cu' s' H.
  { cbn in H. inversion H; subst. apply skip_post_stop. reflexivity. }
  cbn [skip_ignored] in H.
  destruct (is_ws_ignored c) eqn:Ew.
  { apply IHt in H.
    eapply skip_post_cons; [|reflexivity|exact H]. unfold is_ignored_char. rewrite Ew. reflexivity. }
  destruct (c =? LF) eqn:El.
  { apply IHt in H.
    eapply skip_post_cons; [|reflexivity|exact H].
    unfold is_ignored_char. rewrite El, orb_true_r. reflexivity. }
  destruct (c =? CR) eqn:Ec.
  { assert (Hc : is_ignored_char c = true) by (unfold is_ignored_char; rewrite Ec, orb_true_r; reflexivity).
    destruct t as [|d t']; cbn [tl] in IHt'.
    - inversion H; subst. eapply skip_post_cons; [exact Hc|reflexivity|].
      apply skip_post_stop. reflexivity.
    - destruct (d =? LF) eqn:Ed.
      + apply IHt' in H.
        eapply skip_post_cons; [exact Hc|reflexivity|].
        eapply (skip_post_cons (mkCur (S (cpos cu)) 0 0) (cpos cu + 2)%nat); [|cbn; lia|exact H].
        unfold is_ignored_char. rewrite Ed, orb_true_r. reflexivity.
      + apply IHt in H.
        eapply skip_post_cons; [exact Hc|reflexivity|exact H]. }
  inversion H; subst. apply skip_post_stop. cbn.
  unfold is_ignored_char. rewrite Ew, El, Ec. reflexivity.
Qed.

Lemma peek_app_ne (P : N -> bool) a r : a <> [] -> peek_is P (a ++ r) = peek_is P a.
Proof. destruct a; [congruence|reflexivity]. Qed.

Lemma peek_app_false (P : N -> bool) a r :
  (a = [] \/ peek_is P a = false) -> peek_is P r = false -> peek_is P (a ++ r) = false.
Proof. intros [->|H] Hr; [exact Hr|]. destruct a; [exact Hr|exact H]. Qed.

Lemma peek_is_mono (P Q : N -> bool) r :
  (forall c, Q c = true -> P c = true) -> peek_is P r = false -> peek_is Q r = false.
Proof.
  intros H. destruct r as [|c t]; [reflexivity|]. cbn. intros HP.
  destruct (Q c) eqn:E; [|reflexivity]. apply H in E. congruence.
Qed.

Lemma peek_is_excl (P Q : N -> bool) a :
  (forall c, P c = true -> Q c = false) -> peek_is P a = true -> peek_is Q a = false.
Proof. intros H. destruct a as [|c t]; [discriminate|]. cbn. apply H. Qed.

Lemma span_stop p r : peek_is p r = false -> span p r = ([], r).
Proof. destruct r as [|c t]; [reflexivity|]. cbn. intros ->. reflexivity. Qed.

Lemma span_app p a r : Forall (fun c => p c = true) a -> peek_is p r = false -> span p (a ++ r) = (a, r).
Proof.
  intros Ha Hr. induction Ha as [|c a Hc Ha IH]; [apply span_stop, Hr|].
  cbn. rewrite Hc, IH. reflexivity.
Qed.

(* numbers: what was read is made of - 0-9 . e E +, and is read again, with the same
   result, before any text that does not start with a digit, a dot or a name start *)
Definition num_char (c : N) : bool :=
  is_digit c || (c =? 45) || (c =? 46) || (c =? 69) || (c =? 101) || (c =? 43).
Definition num_chars (l : list N) : Prop := Forall (fun c => num_char c = true) l.

Definition is_dot_or_ns (c : N) : bool := (c =? 46) || is_name_start c.
Definition numstop (r : list N) : Prop :=
  peek_is is_digit r = false /\ peek_is is_dot_or_ns r = false.
Definition digits (d : list N) : Prop := Forall (fun c => is_digit c = true) d /\ d <> [].
Definition is_e (c : N) : bool := (c =? 69) || (c =? 101).
Definition is_sgn (c : N) : bool := (c =? 43) || (c =? 45).

Lemma is_e_cases c : is_e c = true -> c = 69 \/ c = 101.
Proof. unfold is_e. intros H. apply orb_true_iff in H as [H|H]; apply N.eqb_eq in H; auto. Qed.

Lemma is_e_not_digit c : is_e c = true -> is_digit c = false.
Proof. intros H. apply is_e_cases in H as [->| ->]; reflexivity. Qed.
Lemma is_e_not_dot c : is_e c = true -> (46 =? c) = false.
Proof. intros H. apply is_e_cases in H as [->| ->]; reflexivity. Qed.
Lemma is_e_ns c : is_e c = true -> is_dot_or_ns c = true.
Proof. intros H. apply is_e_cases in H as [->| ->]; reflexivity. Qed.
Lemma is_e_num_char c : is_e c = true -> num_char c = true.
Proof. intros H. apply is_e_cases in H as [->| ->]; reflexivity. Qed.
Lemma is_sgn_num_char c : is_sgn c = true -> num_char c = true.
Proof. unfold is_sgn. intros H. apply orb_true_iff in H as [H|H]; apply N.eqb_eq in H; subst c; reflexivity. Qed.
Lemma dot_not_digit c : (46 =? c) = true -> is_digit c = false.
Proof. intros H. apply N.eqb_eq in H. subst. reflexivity. Qed.
Lemma dot_is_dot_or_ns c : (46 =? c) = true -> is_dot_or_ns c = true.
Proof. intros H. apply N.eqb_eq in H. subst. reflexivity. Qed.
Lemma digit_not_minus c : is_digit c = true -> (45 =? c) = false.
Proof.
  unfold is_digit. intros H. apply andb_true_iff in H as [H _]. apply N.leb_le in H.
  apply N.eqb_neq. lia.
Qed.

Lemma digits_peek d : digits d -> peek_is is_digit d = true.
Proof. intros [Hd Hne]. destruct d; [congruence|]. inversion Hd; subst. assumption. Qed.

Lemma digits_num_chars d : digits d -> num_chars d.
Proof. intros [Hd _]. eapply Forall_impl; [|exact Hd]. intros c Hc. unfold num_char. rewrite Hc. reflexivity. Qed.

Lemma read_digits_ana pos s e r : read_digits pos s = Ok (e, r) ->
  exists d, s = d ++ r /\ e = (pos + length d)%nat /\ digits d /\ peek_is is_digit r = false.
Proof.
  unfold read_digits. destruct (peek_is is_digit s) eqn:E; [|discriminate].
  destruct (span is_digit s) as [d r'] eqn:Es. intros H; inversion H; subst.
  pose proof (span_spec _ _ _ _ Es) as (-> & Hd & Hr). exists d. repeat split; auto.
  intros ->. cbn in E. rewrite E in Hr. discriminate.
Qed.

Lemma read_digits_syn d r pos : digits d -> peek_is is_digit r = false ->
  read_digits pos (d ++ r) = Ok ((pos + length d)%nat, r).
Proof.
  intros [Hd Hne] Hr. unfold read_digits. rewrite (peek_app_ne _ _ _ Hne).
  destruct d as [|c d']; [congruence|]. inversion Hd; subst. cbn [peek_is].
  replace (is_digit c) with true by auto. rewrite span_app; [reflexivity|constructor; auto|exact Hr].
Qed.

(* a stage consumed [a], leaving r; it consumes [a] again before any r2 that cannot extend it *)
Lemma num_sign_loc pos s e r : num_sign pos s = (e, r) ->
  exists a, s = a ++ r /\ e = (pos + length a)%nat /\ num_chars a /\
    (a = [45] \/ a = [] /\ peek_is (N.eqb 45) r = false) /\
    forall pos2 r2, peek_is (N.eqb 45) r2 = false -> num_sign pos2 (a ++ r2) = ((pos2 + length a)%nat, r2).
Proof.
  unfold num_sign. destruct (peek_is (N.eqb 45) s) eqn:E; intros H; injection H as <- <-.
  - destruct s as [|c t]; [discriminate|]. cbn [peek_is] in E. apply N.eqb_eq in E. subst c.
    exists [45]. repeat split; auto; [cbn; lia|repeat constructor|].
    intros pos2 r2 _. cbn. f_equal. lia.
  - exists []. repeat split; auto; [constructor|].
    intros pos2 r2 H2. cbn [app]. rewrite H2. cbn. rewrite Nat.add_0_r. reflexivity.
Qed.

Lemma num_int_loc pos s e r : num_int pos s = Ok (e, r) ->
  exists a, s = a ++ r /\ e = (pos + length a)%nat /\ num_chars a /\ peek_is is_digit a = true /\
    peek_is is_digit r = false /\
    forall pos2 r2, peek_is is_digit r2 = false -> num_int pos2 (a ++ r2) = Ok ((pos2 + length a)%nat, r2).
Proof.
  unfold num_int. destruct (peek_is (N.eqb 48) s) eqn:E0.
  - destruct s as [|c t]; [discriminate|]. cbn [peek_is] in E0. apply N.eqb_eq in E0. subst c. cbn [tl].
    destruct (peek_is is_digit t) eqn:Ed; [discriminate|]. intros H; inversion H; subst.
    exists [48]. repeat split; auto; [cbn; lia|repeat constructor|].
    intros pos2 r2 H2. cbn. rewrite H2. f_equal. f_equal. lia.
  - intros H. apply read_digits_ana in H as (d & -> & -> & Hd & Hr).
    exists d. repeat split; auto; [apply digits_num_chars, Hd|apply digits_peek, Hd|]. intros pos2 r2 H2.
    rewrite (peek_app_ne _ d r (proj2 Hd)) in E0. rewrite (peek_app_ne _ d r2 (proj2 Hd)), E0.
    apply read_digits_syn; assumption.
Qed.

Lemma num_frac_loc pos s e fl r : num_frac pos s = Ok (e, fl, r) ->
  exists a, s = a ++ r /\ e = (pos + length a)%nat /\ num_chars a /\
    ((a = [] /\ fl = false /\ peek_is (N.eqb 46) r = false) \/
     (peek_is (N.eqb 46) a = true /\ fl = true /\ peek_is is_digit r = false)) /\
    forall pos2 r2, peek_is is_digit r2 = false -> peek_is (N.eqb 46) r2 = false ->
      num_frac pos2 (a ++ r2) = Ok ((pos2 + length a)%nat, fl, r2).
Proof.
  unfold num_frac. destruct (peek_is (N.eqb 46) s) eqn:E.
  - destruct s as [|c t]; [discriminate|]. cbn [peek_is] in E. apply N.eqb_eq in E. subst c. cbn [tl].
    destruct (read_digits (S pos) t) as [[p r']| | |] eqn:Ed; try discriminate.
    intros H; inversion H; subst. apply read_digits_ana in Ed as (d & -> & -> & Hd & Hr).
    exists (46 :: d). split; [reflexivity|]. split; [cbn; lia|].
    split; [constructor; [reflexivity|apply digits_num_chars, Hd]|]. split; [right; repeat split; auto|].
    intros pos2 r2 H2 _.
    cbn. rewrite (read_digits_syn d r2 (S pos2) Hd H2). f_equal. f_equal. f_equal. lia.
  - intros H; inversion H; subst. exists []. split; [reflexivity|]. split; [cbn; lia|].
    split; [constructor|]. split; [left; repeat split; auto|].
    intros pos2 r2 _ H2. cbn [app]. rewrite H2. cbn. rewrite Nat.add_0_r. reflexivity.
Qed.

Lemma num_exp_loc pos fl0 s e fl r : num_exp pos fl0 s = Ok (e, fl, r) ->
  exists a, s = a ++ r /\ e = (pos + length a)%nat /\ num_chars a /\
    ((a = [] /\ fl = fl0 /\ peek_is is_e r = false) \/
     (peek_is is_e a = true /\ fl = true /\ peek_is is_digit r = false)) /\
    forall pos2 r2, peek_is is_digit r2 = false -> peek_is is_e r2 = false ->
      num_exp pos2 fl0 (a ++ r2) = Ok ((pos2 + length a)%nat, fl, r2).
Proof.
  unfold num_exp. fold is_e. fold is_sgn. destruct (peek_is is_e s) eqn:Ee.
  - destruct s as [|c t]; [discriminate|]. cbn [peek_is] in Ee. cbn [tl]. cbv zeta.
    destruct (peek_is is_sgn t) eqn:Es; cbn [fst snd].
    + destruct t as [|g t']; [discriminate|]. cbn [peek_is] in Es. cbn [tl].
      destruct (read_digits (S (S pos)) t') as [[p r']| | |] eqn:Ed; try discriminate.
      intros H; inversion H; subst. apply read_digits_ana in Ed as (d & -> & -> & Hd & Hr).
      exists (c :: g :: d). split; [reflexivity|]. split; [cbn; lia|].
      split; [constructor; [apply is_e_num_char, Ee|constructor; [apply is_sgn_num_char, Es|apply digits_num_chars, Hd]]|].
      split; [right; repeat split; auto|].
      intros pos2 r2 H2 _.
      cbn [app peek_is tl]. rewrite Ee, Es. cbn [fst snd].
      rewrite (read_digits_syn d r2 (S (S pos2)) Hd H2). f_equal. f_equal. f_equal. cbn; lia.
    + destruct (read_digits (S pos) t) as [[p r']| | |] eqn:Ed; try discriminate.
      intros H; inversion H; subst. apply read_digits_ana in Ed as (d & -> & -> & Hd & Hr).
      exists (c :: d). split; [reflexivity|]. split; [cbn; lia|].
      split; [constructor; [apply is_e_num_char, Ee|apply digits_num_chars, Hd]|].
      split; [right; repeat split; auto|].
      intros pos2 r2 H2 _.
      cbn [app peek_is tl]. rewrite Ee.
      rewrite (peek_app_ne _ d r (proj2 Hd)) in Es. rewrite (peek_app_ne _ d r2 (proj2 Hd)), Es. cbn [fst snd].
      rewrite (read_digits_syn d r2 (S pos2) Hd H2). f_equal. f_equal. f_equal. cbn; lia.
  - intros H; inversion H; subst. exists []. split; [reflexivity|]. split; [cbn; lia|].
    split; [constructor|]. split; [left; repeat split; auto|].
    intros pos2 r2 _ H2. cbn [app]. rewrite H2. cbn. rewrite Nat.add_0_r. reflexivity.
Qed.

Lemma read_number_loc start s e fl r : read_number start s = Ok (e, fl, r) ->
  exists a, s = a ++ r /\ e = (start + length a)%nat /\ num_chars a /\
    peek_is (fun c => is_digit c || (c =? 45)) a = true /\ numstop r /\
    forall pos2 r2, numstop r2 -> read_number pos2 (a ++ r2) = Ok ((pos2 + length a)%nat, fl, r2).
Proof.
  unfold read_number. cbv zeta. intros H.
  destruct (num_sign start s) as [p0 s0] eqn:E0. cbn [fst snd] in H.
  apply num_sign_loc in E0 as (a0 & -> & -> & N0 & C0 & L0).
  destruct (num_int (start + length a0) s0) as [[p1 s1]| | |] eqn:E1; try discriminate.
  cbn [obind fst snd] in H. apply num_int_loc in E1 as (a1 & -> & -> & N1 & Hd1 & Hr1 & L1).
  destruct (num_frac (start + length a0 + length a1) s1) as [[[p2 f2] s2]| | |] eqn:E2; try discriminate.
  cbn [obind fst snd] in H. apply num_frac_loc in E2 as (a2 & -> & -> & N2 & C2 & L2).
  destruct (num_exp (start + length a0 + length a1 + length a2) f2 s2) as [[[p3 f3] s3]| | |] eqn:E3;
    try discriminate.
  cbn [obind fst snd] in H. apply num_exp_loc in E3 as (a3 & -> & -> & N3 & C3 & L3).
  unfold num_end in H. fold is_dot_or_ns in H.
  destruct (peek_is is_dot_or_ns s3) eqn:Eend; [discriminate|]. inversion H; subst e fl r. clear H.
  assert (Hne1 : a1 <> []) by (apply peek_is_nonempty in Hd1; exact Hd1).
  (* where a later stage read anything, it begins with a character at which the earlier ones stop *)
  assert (D3 : peek_is is_digit s3 = false).
  { destruct C3 as [(-> & _ & _)|(_ & _ & H)]; [|exact H]. cbn [app] in *.
    destruct C2 as [(-> & _ & _)|(_ & _ & H)]; [|exact H]. exact Hr1. }
  assert (A3d : a3 = [] \/ peek_is is_digit a3 = false).
  { destruct C3 as [(-> & _)|(H & _)]; [left; reflexivity|right]. eapply peek_is_excl; [|exact H]. apply is_e_not_digit. }
  assert (A3p : a3 = [] \/ peek_is (N.eqb 46) a3 = false).
  { destruct C3 as [(-> & _)|(H & _)]; [left; reflexivity|right]. eapply peek_is_excl; [|exact H]. apply is_e_not_dot. }
  assert (A2d : a2 = [] \/ peek_is is_digit a2 = false).
  { destruct C2 as [(-> & _)|(H & _)]; [left; reflexivity|right]. eapply peek_is_excl; [|exact H]. apply dot_not_digit. }
  exists (a0 ++ a1 ++ a2 ++ a3). split; [rewrite <- !app_assoc; reflexivity|].
  split; [rewrite !app_length; lia|].
  split; [repeat (apply Forall_app; split); assumption|].
  split.
  { destruct C0 as [->|(-> & _)]; [reflexivity|]. cbn [app]. rewrite peek_app_ne by exact Hne1.
    destruct a1 as [|c t]; [congruence|]. cbn [peek_is] in *. rewrite Hd1. reflexivity. }
  split; [split; assumption|].
  intros pos2 r2 [R2d R2n].
  assert (R2e : peek_is is_e r2 = false) by (eapply peek_is_mono; [apply is_e_ns|exact R2n]).
  assert (R2p : peek_is (N.eqb 46) r2 = false) by (eapply peek_is_mono; [apply dot_is_dot_or_ns|exact R2n]).
  rewrite <- !app_assoc, L0.
  2: { rewrite peek_app_ne by exact Hne1. eapply peek_is_excl; [|exact Hd1]. apply digit_not_minus. }
  cbn [fst snd].
  rewrite L1 by (apply peek_app_false; [exact A2d|apply peek_app_false; [exact A3d|exact R2d]]).
  cbn [obind fst snd].
  rewrite L2; [|apply peek_app_false; [exact A3d|exact R2d]|apply peek_app_false; [exact A3p|exact R2p]].
  cbn [obind fst snd].
  rewrite L3 by assumption. cbn [obind fst snd].
  unfold num_end. fold is_dot_or_ns. rewrite R2n. rewrite !app_length. f_equal. f_equal. f_equal. lia.
Qed.

Definition safe {A} (o : outcome A) : Prop :=
  match o with Crash _ => False | OutOfFuel => False | _ => True end.

Lemma starts2_inv a b s : starts2 a b s = true -> exists t, s = a :: b :: t.
Proof.
  destruct s as [|x [|y t]]; cbn [starts2]; try discriminate. intros H.
  apply andb_true_iff in H as [Hx Hy]. apply N.eqb_eq in Hx, Hy. subst. eauto.
Qed.

Lemma hex_digit_lt_free c h : hex_digit c = Some h -> (c =? LF) || (c =? CR) = false.
Proof. apply (not_lt_of_some hex_digit); reflexivity. Qed.

Lemma escaped_char_lt_free c v : escaped_char c = Some v -> (c =? LF) || (c =? CR) = false.
Proof. apply (not_lt_of_some escaped_char); reflexivity. Qed.

(* hex4 succeeds on four hex digits and looks at nothing else *)
Lemma hex4_inv ds code : hex4 ds = Some code ->
  exists h1 h2 h3 h4 t, ds = h1 :: h2 :: h3 :: h4 :: t /\ lt_free [h1; h2; h3; h4] /\
    forall r2, hex4 (h1 :: h2 :: h3 :: h4 :: r2) = Some code.
Proof.
  destruct ds as [|h1 [|h2 [|h3 [|h4 t]]]]; try discriminate. intros H.
  exists h1, h2, h3, h4, t. split; [reflexivity|]. split; [|intros r2; exact H].
  cbn [hex4] in H.
  destruct (hex_digit h1) eqn:E1; [|discriminate]. destruct (hex_digit h2) eqn:E2; [|discriminate].
  destruct (hex_digit h3) eqn:E3; [|discriminate]. destruct (hex_digit h4) eqn:E4; [|discriminate].
  repeat constructor; eapply hex_digit_lt_free; eassumption.
Qed.

(* \u{...}: the accepted size is within the text, the digits and the closing brace are no
   line terminators, and nothing beyond them is inspected *)
Lemma var_width_ana n : forall point size ds p sz,
  var_width n point size ds = Some (p, sz) ->
  (size < sz <= size + length ds)%nat /\ lt_free (firstn (sz - size) ds) /\
  forall r2, var_width n point size (firstn (sz - size) ds ++ r2) = Some (p, sz).
Proof.
  induction n as [|n IH]; intros point size ds p sz H; cbn [var_width] in H; [discriminate|].
  destruct ds as [|c t]; [discriminate|].
  destruct (c =? 125) eqn:Ec.
  - destruct (Nat.ltb (S size) 5 || negb (is_scalar point)) eqn:Eg; [discriminate|].
    injection H as <- <-. replace (S size - size)%nat with 1%nat by lia. cbn [firstn app length].
    split; [lia|]. split.
    + apply N.eqb_eq in Ec. subst c. repeat constructor.
    + intros r2. cbn [var_width]. rewrite Ec, Eg. reflexivity.
  - destruct (hex_digit c) as [h|] eqn:Eh; [|discriminate].
    destruct (IH _ _ _ _ _ H) as (Hsz & Hcl & Hre).
    replace (sz - size)%nat with (S (sz - S size)) by lia. cbn [firstn app length].
    split; [lia|]. split.
    + constructor; [eapply hex_digit_lt_free; eassumption|exact Hcl].
    + intros r2. cbn [var_width]. rewrite Ec, Eh. apply Hre.
Qed.

(* An accepted escape lies within the text (the bounds-safety of read_escaped_* and the hex
   readers), contains no line terminator after its first character, and is accepted again,
   with the same value, in front of any other text.
   The result equation is used by [congruence] and [exact] only: [injection] on it is slow to
   check (the surrogate-pair arithmetic in the value). *)
Lemma read_escape_ana pos s v size : s <> [] -> read_escape pos s = Ok (v, size) ->
  (2 <= size <= length s)%nat /\ lt_free (firstn (size - 1) (tl s)) /\
  forall pos2 r2, read_escape pos2 (firstn size s ++ r2) = Ok (v, size).
Proof.
  destruct s as [|b r]; [congruence|]. intros _. unfold read_escape. cbn [tl].
  destruct (peek_is (N.eqb 117) r) eqn:Eu.
  - destruct r as [|u r1]; [discriminate|]. cbn [peek_is tl] in *.
    destruct (peek_is (N.eqb 123) r1) eqn:Eb.
    + destruct r1 as [|br r3]; [discriminate|]. cbn [peek_is skipn] in *.
      destruct (var_width 9 0 3 r3) as [[p sz]|] eqn:Ev; [|discriminate]. intros H.
      assert (size = sz) by congruence. subst size.
      destruct (var_width_ana _ _ _ _ _ _ Ev) as (Hsz & Hcl & Hre).
      apply N.eqb_eq in Eu, Eb. subst u br.
      remember (sz - 3)%nat as k eqn:Ek. assert (sz = S (S (S k))) by lia. subst sz. clear Ek.
      cbn [Nat.sub firstn app length].
      split; [lia|]. split.
      * constructor; [reflexivity|]. constructor; [reflexivity|exact Hcl].
      * intros pos2 r2. cbn [tl peek_is skipn]. rewrite !N.eqb_refl, Hre. exact H.
    + cbn [skipn].
      destruct (hex4 r1) as [code|] eqn:Eh; [|discriminate].
      destruct (hex4_inv _ _ Eh) as (h1 & h2 & h3 & h4 & t4 & -> & Hc4 & Hre4).
      cbn [peek_is] in Eb.
      assert (Hu : (u =? LF) || (u =? CR) = false) by (apply N.eqb_eq in Eu; subst u; reflexivity).
      destruct (is_scalar code) eqn:Esc.
      * intros H. assert (size = 6%nat) by congruence. subst size.
        cbn [firstn app length Nat.sub]. split; [lia|]. split; [constructor; [exact Hu|exact Hc4]|].
        intros pos2 r2. cbn [tl peek_is skipn]. rewrite Eu, Eb, Hre4, Esc. exact H.
      * destruct (is_lead code && starts2 92 117 t4) eqn:El; [|discriminate].
        pose proof El as Hs2. apply andb_true_iff in Hs2 as [_ Hs2].
        apply starts2_inv in Hs2 as (t6 & ->). cbn [skipn].
        destruct (hex4 t6) as [tr|] eqn:Eh2; [|discriminate].
        destruct (hex4_inv _ _ Eh2) as (k1 & k2 & k3 & k4 & t10 & -> & Hc42 & Hre42).
        destruct (is_trail tr) eqn:Et; [|discriminate]. intros H.
        assert (size = 12%nat) by congruence. subst size.
        cbn [firstn app length Nat.sub]. split; [lia|]. split.
        -- constructor; [exact Hu|]. apply (Forall_app _ [h1; h2; h3; h4]). split; [exact Hc4|].
           constructor; [reflexivity|]. constructor; [reflexivity|exact Hc42].
        -- intros pos2 r2. cbn [tl peek_is skipn].
           rewrite Eu, Eb, (Hre4 (92 :: 117 :: k1 :: k2 :: k3 :: k4 :: r2)), Esc.
           change (starts2 92 117 (92 :: 117 :: k1 :: k2 :: k3 :: k4 :: r2))
             with (starts2 92 117 (92 :: 117 :: k1 :: k2 :: k3 :: k4 :: t10)).
           rewrite El, Hre42, Et. exact H.
  - destruct r as [|c r']; [discriminate|]. cbn [peek_is] in Eu.
    destruct (escaped_char c) as [w|] eqn:Ee; [|discriminate]. intros H.
    assert (size = 2%nat) by congruence. subst size.
    cbn [firstn app length Nat.sub tl]. split; [lia|]. split.
    + constructor; [eapply escaped_char_lt_free; eassumption|constructor].
    + intros pos2 r2. cbn [tl peek_is]. rewrite Eu, Ee. exact H.
Qed.

Lemma read_escape_size pos s v size : s <> [] ->
  read_escape pos s = Ok (v, size) -> (1 <= size <= length s)%nat.
Proof. intros Hs H. destruct (read_escape_ana _ _ _ _ Hs H) as (Hsz & _). lia. Qed.

Lemma read_escape_safe pos s : safe (read_escape pos s).
Proof.
  unfold read_escape. cbv zeta.
  repeat match goal with
         | |- safe (if ?b then _ else _) => destruct b
         | |- safe (match ?x with _ => _ end) => destruct x
         end; exact I.
Qed.

Lemma skipn_length_le {A} n (l : list A) k : (k <= length (skipn n l))%nat -> (n + k <= length l)%nat \/ k = 0%nat.
Proof. rewrite skipn_length. lia. Qed.

Lemma read_string_loop_safe fuel : forall pos acc s,
  (length s < fuel)%nat -> safe (read_string_loop fuel pos acc s).
Proof.
  induction fuel as [|f IH]; intros pos acc s Hf; [lia|].
  cbn [read_string_loop]. destruct s as [|c t]; [exact I|]. cbn [length] in Hf.
  destruct (c =? 34); [exact I|].
  destruct (c =? 92).
  { pose proof (read_escape_safe pos (c :: t)) as Hs.
    destruct (read_escape pos (c :: t)) as [[v size]| | |] eqn:Ee; try exact Hs.
    apply read_escape_size in Ee; [|discriminate].
    apply IH. rewrite skipn_length. cbn [length] in *. lia. }
  destruct ((c =? LF) || (c =? CR)); [exact I|].
  destruct (is_scalar c); [apply IH; lia|].
  destruct (is_lead c && peek_is is_trail t) eqn:Ep; [|exact I].
  apply andb_true_iff in Ep as [_ Ep]. destruct t as [|d t']; [discriminate|].
  apply IH. cbn [tl length] in *. lia.
Qed.

(* what the string reader consumed, up to and including the closing quote, holds no line
   terminator and is read the same way, with the same value, whatever follows *)
Lemma read_string_loop_ana fuel : forall pos acc s e v r,
  read_string_loop fuel pos acc s = Ok (e, v, r) ->
  exists a, s = a ++ r /\ e = (pos + length a)%nat /\ a <> [] /\ lt_free a /\
    forall fuel2 pos2 r2, (length (a ++ r2) < fuel2)%nat ->
      read_string_loop fuel2 pos2 acc (a ++ r2) = Ok ((pos2 + length a)%nat, v, r2).
Proof.
  induction fuel as [|f IH]; intros pos acc s e v r H; [discriminate|].
  cbn [read_string_loop] in H. destruct s as [|c t]; [discriminate|].
  destruct (c =? 34) eqn:Eq.
  { inversion H; subst. exists [c]. split; [reflexivity|]. split; [cbn; lia|]. split; [discriminate|].
    split; [apply N.eqb_eq in Eq; subst c; repeat constructor|].
    intros fuel2 pos2 r2 Hf. destruct fuel2 as [|f2]; [lia|]. cbn [app read_string_loop]. rewrite Eq.
    cbn [length]. f_equal. f_equal. f_equal. lia. }
  destruct (c =? 92) eqn:Eb.
  { destruct (read_escape pos (c :: t)) as [[w size]| | |] eqn:Ee; try discriminate.
    destruct (read_escape_ana pos (c :: t) w size ltac:(discriminate) Ee) as (Hsz & Hcl & Hre).
    apply IH in H as (a' & Es & -> & _ & Hcl' & L).
    destruct size as [|k]; [lia|]. cbn [Nat.sub tl] in Hcl. rewrite Nat.sub_0_r in Hcl.
    cbn [firstn] in Hre. cbn [skipn] in Es. cbn [length] in Hsz.
    assert (Hlen : length (firstn k t) = k) by (rewrite firstn_length, Nat.min_l; lia).
    exists (c :: firstn k t ++ a'). split.
    { cbn [app]. rewrite <- app_assoc, <- Es, firstn_skipn. reflexivity. }
    split; [cbn [length]; rewrite app_length, Hlen; lia|]. split; [discriminate|]. split.
    { apply N.eqb_eq in Eb. subst c. constructor; [reflexivity|]. apply Forall_app. split; assumption. }
    intros fuel2 pos2 r2 Hf. destruct fuel2 as [|f2]; [lia|].
    cbn [app length] in Hf. rewrite !app_length, Hlen in Hf.
    cbn [app read_string_loop]. rewrite Eq, Eb. rewrite <- app_assoc.
    change (c :: firstn k t ++ a' ++ r2) with ((c :: firstn k t) ++ a' ++ r2).
    rewrite Hre. change (S k) with (length [c] + k)%nat. rewrite <- Hlen at 2.
    rewrite <- app_length, skipn_app_length, L by (rewrite app_length; lia).
    cbn [app length]. rewrite !app_length, Hlen. f_equal. f_equal. f_equal. lia. }
  destruct ((c =? LF) || (c =? CR)) eqn:Elt; [discriminate|].
  destruct (is_scalar c) eqn:Esc.
  { apply IH in H as (a' & -> & -> & _ & Hcl' & L). exists (c :: a'). split; [reflexivity|]. split; [cbn; lia|].
    split; [discriminate|]. split; [constructor; assumption|].
    intros fuel2 pos2 r2 Hf. destruct fuel2 as [|f2]; [lia|]. cbn [app read_string_loop].
    rewrite Eq, Eb, Elt, Esc. rewrite L by (cbn [app length] in Hf; lia). cbn [length]. f_equal. f_equal. f_equal. lia. }
  destruct (is_lead c && peek_is is_trail t) eqn:Ep; [|discriminate].
  destruct t as [|d t']; [rewrite andb_false_r in Ep; discriminate|]. cbn [hd tl] in H.
  apply IH in H as (a' & -> & -> & _ & Hcl' & L). exists (c :: d :: a'). split; [reflexivity|]. split; [cbn; lia|].
  split; [discriminate|]. split.
  { constructor; [exact Elt|]. constructor; [|exact Hcl'].
    apply andb_true_iff in Ep as [_ Ep]. apply trail_lt_free, Ep. }
  intros fuel2 pos2 r2 Hf. destruct fuel2 as [|f2]; [lia|]. cbn [app read_string_loop].
  rewrite Eq, Eb, Elt, Esc. cbn [peek_is] in Ep |- *. rewrite Ep. cbn [hd tl].
  rewrite L by (cbn [app length] in Hf; lia). cbn [length]. f_equal. f_equal. f_equal. lia.
Qed.

Lemma starts3_length a b c s : starts3 a b c s = true -> (3 <= length s)%nat.
Proof. destruct s as [|x [|y [|z t]]]; cbn; try discriminate. intros _; lia. Qed.

Lemma adv_skipn s n : (n <= length s)%nat -> adv s n (skipn n s).
Proof. intros H. split; [reflexivity|exact H]. Qed.

Lemma starts3_inv a b c s : starts3 a b c s = true -> exists t, s = a :: b :: c :: t.
Proof.
  destruct s as [|x [|y [|z t]]]; cbn [starts3]; try discriminate. intros H.
  apply andb_true_iff in H as [H Hz]. apply andb_true_iff in H as [Hx Hy].
  apply N.eqb_eq in Hx, Hy, Hz. subst. eauto.
Qed.

(* the block loop never runs out of fuel, and what it returns is what follows the characters it read *)
Lemma read_block_loop_spec fuel : forall pos ls cur lines s,
  (length s < fuel)%nat ->
  match read_block_loop fuel pos ls cur lines s with
  | Ok (e, raw, ls', r) => exists x, s = x ++ r /\ e = (pos + length x)%nat
  | SyntaxErr _ => True
  | Crash _ => False
  | OutOfFuel => False
  end.
Proof.
  induction fuel as [|f IH]; intros pos ls cur lines s Hf; [lia|].
  cbn [read_block_loop]. destruct s as [|c t]; [exact I|].
  destruct (starts3 34 34 34 (c :: t)) eqn:E3.
  { apply starts3_inv in E3 as (t3 & ->). exists [34; 34; 34]. split; reflexivity. }
  (* one step: consume [chunk], continue on [r] *)
  assert (Hstep : forall chunk r pos' ls' cur' lines', chunk <> [] -> c :: t = chunk ++ r ->
            pos' = (pos + length chunk)%nat ->
            match read_block_loop f pos' ls' cur' lines' r with
            | Ok (e, _, _, r') => exists x, c :: t = x ++ r' /\ e = (pos + length x)%nat
            | SyntaxErr _ => True | Crash _ => False | OutOfFuel => False end).
  { intros chunk r pos' ls' cur' lines' Hne E ->.
    assert (HL : (length r < f)%nat).
    { apply (f_equal (@length N)) in E. rewrite app_length in E.
      destruct chunk; [congruence|cbn [length] in *; lia]. }
    specialize (IH (pos + length chunk)%nat ls' cur' lines' r HL).
    destruct (read_block_loop f (pos + length chunk) ls' cur' lines' r) as [[[[e raw] l'] r']| | |]; try exact IH.
    destruct IH as (x & -> & ->). exists (chunk ++ x).
    split; [rewrite E, app_assoc; reflexivity|rewrite app_length; lia]. }
  destruct ((c =? 92) && starts3 34 34 34 t) eqn:Eb.
  { apply andb_true_iff in Eb as [_ Eb]. apply starts3_inv in Eb as (t3 & ->).
    apply (Hstep [c; 34; 34; 34] t3); [discriminate|reflexivity|reflexivity]. }
  destruct (c =? LF).
  { apply (Hstep [c] t); [discriminate|reflexivity|cbn; lia]. }
  destruct (c =? CR).
  { destruct (peek_is (N.eqb LF) t) eqn:El.
    - destruct t as [|d t']; [discriminate|]. apply (Hstep [c; d] t'); [discriminate|reflexivity|reflexivity].
    - apply (Hstep [c] t); [discriminate|reflexivity|cbn; lia]. }
  destruct (is_scalar c).
  { apply (Hstep [c] t); [discriminate|reflexivity|cbn; lia]. }
  destruct (is_lead c && peek_is is_trail t) eqn:Ep; [|exact I].
  apply andb_true_iff in Ep as [_ Ep]. destruct t as [|d t']; [discriminate|].
  apply (Hstep [c; d] t'); [discriminate|reflexivity|reflexivity].
Qed.

Lemma safe_obind {A B} (o : outcome A) (f : A -> outcome B) :
  safe o -> (forall x, safe (f x)) -> safe (obind o f).
Proof. destruct o; cbn; auto. Qed.

Lemma read_digits_safe pos s : safe (read_digits pos s).
Proof. unfold read_digits. destruct (peek_is is_digit s); [destruct (span is_digit s)|]; exact I. Qed.

Lemma read_number_safe start s : safe (read_number start s).
Proof.
  assert (D : forall pos t, safe (match read_digits pos t with
                                  | Ok (p, r) => Ok (p, true, r)
                                  | SyntaxErr q => SyntaxErr q | Crash w => Crash w | OutOfFuel => OutOfFuel
                                  end)).
  { intros pos t. pose proof (read_digits_safe pos t) as H. destruct (read_digits pos t) as [[p r]| | |]; exact H. }
  unfold read_number. cbv zeta. apply safe_obind.
  { unfold num_int. destruct (peek_is _ _); [destruct (peek_is _ _); exact I|apply read_digits_safe]. }
  intros r1. apply safe_obind.
  { unfold num_frac. destruct (peek_is _ _); [apply D|exact I]. }
  intros r2. apply safe_obind.
  { unfold num_exp. destruct (peek_is _ _); [apply D|exact I]. }
  intros r3. unfold num_end. destruct (peek_is _ _); exact I.
Qed.

Definition tok_post (cu : cursor) (s : list N) (tk : token) (cu' : cursor) (s' : list N) : Prop :=
  exists g n,
    Forall (fun c => is_ignored_char c = true) (firstn g s) /\
    tstart tk = (cpos cu + g)%nat /\ tend tk = (tstart tk + n)%nat /\
    adv s (g + n) s' /\ cpos cu' = tend tk /\
    peek_is is_ignored_char (skipn g s) = false /\
    ((tkind tk =? K_EOF) = true -> n = 0%nat /\ s' = []) /\
    ((tkind tk =? K_EOF) = false -> (1 <= n)%nat).

Lemma punct_kind_not_eof c k : punct_kind c = Some k -> (k =? K_EOF) = false.
Proof.
  unfold punct_kind.
  repeat match goal with |- context [if ?b then _ else _] => destruct b end;
    intros H; inversion H; reflexivity.
Qed.

Lemma punct_lt_free c k : punct_kind c = Some k -> (c =? LF) || (c =? CR) = false.
Proof. apply (not_lt_of_some punct_kind); reflexivity. Qed.

Lemma read_token_safe cu s : safe (read_token cu s).
Proof.
  unfold read_token. destruct (skip_ignored cu s) as [cu1 [|c t]]; [exact I|].
  destruct (c =? 35); [destruct (comment_body t); exact I|].
  destruct (c =? 34).
  { destruct (starts2 34 34 t).
    - cbv zeta.
      pose proof (read_block_loop_spec (S (length (skipn 2 t))) (cpos cu1 + 3) (cls cu1) [] [] (skipn 2 t)
                    ltac:(lia)) as Hb.
      destruct (read_block_loop _ _ _ _ _ _) as [[[[e raw] ls'] rest]| | |]; try exact Hb. exact I.
    - pose proof (read_string_loop_safe (S (length t)) (S (cpos cu1)) [] t ltac:(lia)) as Hs.
      destruct (read_string_loop _ _ _ _) as [[[e v] rest]| | |]; exact Hs. }
  destruct (punct_kind c); [exact I|].
  destruct (is_digit c || (c =? 45)).
  { pose proof (read_number_safe (cpos cu1) (c :: t)) as Hs.
    destruct (read_number _ _) as [[[e fl] rest]| | |]; exact Hs. }
  destruct (is_name_start c); [destruct (span is_name_continue t); exact I|].
  destruct (c =? 46); [destruct (starts2 46 46 t)|]; exact I.
Qed.

(* The lexeme of a token other than EOF and block strings, by kind, with what its reader
   guarantees: in particular numbers and quoted strings are read again, with the same result,
   in front of any text that cannot extend them. *)
Inductive plain_lexeme (tk : token) (lx s' : list N) : Prop :=
| P_punct c : lx = [c] -> punct_kind c = Some (tkind tk) -> thasval tk = false -> tvalue tk = [] ->
    plain_lexeme tk lx s'
| P_spread : lx = [46; 46; 46] -> tkind tk = K_SPREAD -> thasval tk = false -> tvalue tk = [] ->
    plain_lexeme tk lx s'
| P_name c b : lx = c :: b -> is_name_start c = true -> Forall (fun x => is_name_continue x = true) b ->
    peek_is is_name_continue s' = false ->
    tkind tk = K_NAME -> thasval tk = true -> tvalue tk = lx -> plain_lexeme tk lx s'
| P_num fl : peek_is (fun c => is_digit c || (c =? 45)) lx = true -> numstop s' -> num_chars lx ->
    (forall pos2 r2, numstop r2 -> read_number pos2 (lx ++ r2) = Ok ((pos2 + length lx)%nat, fl, r2)) ->
    tkind tk = (if fl then K_FLOAT else K_INT) -> thasval tk = true -> tvalue tk = lx -> plain_lexeme tk lx s'
| P_string body : lx = 34 :: body -> body <> [] -> starts2 34 34 (body ++ s') = false ->
    (forall fuel2 pos2 r2, (length (body ++ r2) < fuel2)%nat ->
       read_string_loop fuel2 pos2 [] (body ++ r2) = Ok ((pos2 + length body)%nat, tvalue tk, r2)) ->
    tkind tk = K_STRING -> thasval tk = true -> plain_lexeme tk lx s'
| P_comment : tkind tk = K_COMMENT -> plain_lexeme tk lx s'.

Lemma punct_kind_not_block c k : punct_kind c = Some k -> (k =? K_BLOCK_STRING) = false.
Proof.
  unfold punct_kind.
  repeat match goal with |- context [if ?b then _ else _] => destruct b end;
    intros H; inversion H; reflexivity.
Qed.

Lemma plain_lexeme_not_block tk lx s' : plain_lexeme tk lx s' -> tkind tk <> K_BLOCK_STRING.
Proof.
  intros [c _ Hpk _ _| _ Hk _ _|c b _ _ _ _ Hk _ _|fl _ _ _ _ Hk _ _|body _ _ _ _ Hk _|Hk] E;
    rewrite E in *; try discriminate.
  - apply punct_kind_not_block in Hpk. discriminate.
  - destruct fl; discriminate.
Qed.

(* [cu1]: the cursor at the lexeme.  Only a block string moves the line. *)
Inductive lexeme_at (cu1 : cursor) (tk : token) (cu' : cursor) (lx s' : list N) : Prop :=
| X_plain : plain_lexeme tk lx s' -> lx <> [] -> lt_free lx ->
    cu' = mkCur (tend tk) (cline cu1) (cls cu1) -> lexeme_at cu1 tk cu' lx s'
| X_block x e raw ls' : lx = 34 :: 34 :: 34 :: x ->
    read_block_loop (S (length (x ++ s'))) (cpos cu1 + 3) (cls cu1) [] [] (x ++ s') = Ok (e, raw, ls', s') ->
    tkind tk = K_BLOCK_STRING -> thasval tk = true -> tvalue tk = join_lf (dedent raw) ->
    cu' = mkCur e (cline cu1 + (length raw - 1)) ls' -> lexeme_at cu1 tk cu' lx s'.

Lemma lexeme_at_ne cu1 tk cu' lx s' : lexeme_at cu1 tk cu' lx s' -> lx <> [].
Proof. intros [_ Hne _ _|x e raw ls' -> _ _ _ _ _]; [exact Hne|discriminate]. Qed.

(* what read_token returns: the gap of ignored characters, the cursor after it, the lexeme *)
Lemma read_token_inv cu s tk cu' s' : read_token cu s = Ok (tk, cu', s') ->
  exists g lx cu1, s = g ++ lx ++ s' /\ skip_ignored cu s = (cu1, lx ++ s') /\
    Forall (fun c => is_ignored_char c = true) g /\ peek_is is_ignored_char (lx ++ s') = false /\
    cpos cu1 = (cpos cu + length g)%nat /\
    tstart tk = cpos cu1 /\ tend tk = (tstart tk + length lx)%nat /\ cpos cu' = tend tk /\
    tline tk = cline cu1 /\ tcol tk = (1 + tstart tk - cls cu1)%nat /\
    (if tkind tk =? K_EOF then lx = [] /\ s' = [] /\ tvalue tk = [] /\ cu' = cu1
     else lexeme_at cu1 tk cu' lx s').
Proof.
  intros H. unfold read_token in H.
  destruct (skip_ignored cu s) as [cu1 s1] eqn:Esk. rewrite <- Esk.
  destruct (skip_ignored_spec _ _ _ _ Esk) as (g & Ag & Hg & Hp & Hpk).
  pose proof (adv_split _ _ _ Ag) as Es.
  assert (Hgl : length (firstn g s) = g) by (apply firstn_length_le; destruct Ag; lia).
  (* every token is made by [mk] at cu1 *)
  assert (W : forall lx k e v, s1 = lx ++ s' -> tk = mk k cu1 (cpos cu1) e v ->
              e = (cpos cu1 + length lx)%nat -> cpos cu' = e ->
              (if k =? K_EOF then lx = [] /\ s' = [] /\ tvalue tk = [] /\ cu' = cu1
               else lexeme_at cu1 tk cu' lx s') ->
              exists g lx cu1, s = g ++ lx ++ s' /\ skip_ignored cu s = (cu1, lx ++ s') /\
                Forall (fun c => is_ignored_char c = true) g /\ peek_is is_ignored_char (lx ++ s') = false /\
                cpos cu1 = (cpos cu + length g)%nat /\
                tstart tk = cpos cu1 /\ tend tk = (tstart tk + length lx)%nat /\ cpos cu' = tend tk /\
                tline tk = cline cu1 /\ tcol tk = (1 + tstart tk - cls cu1)%nat /\
                (if tkind tk =? K_EOF then lx = [] /\ s' = [] /\ tvalue tk = [] /\ cu' = cu1
                 else lexeme_at cu1 tk cu' lx s')).
  { intros lx k e v E1 Etk -> Hc Hk. exists (firstn g s), lx, cu1. rewrite Hgl, <- E1.
    split; [exact Es|]. split; [exact Esk|]. split; [exact Hg|]. split; [exact Hpk|]. split; [exact Hp|].
    rewrite Etk in *. cbn [mk tstart tend tline tcol tkind] in *. repeat split; try assumption. }
  destruct s1 as [|c t].
  { inversion H; subst tk cu' s'. apply (W [] K_EOF (cpos cu1) None); try reflexivity; [cbn; lia|].
    cbn. repeat split. }
  destruct (c =? 35) eqn:E35.
  { destruct (comment_body t) as [b r] eqn:Ec. destruct (comment_body_spec _ _ _ Ec) as [Et Hb].
    inversion H; subst tk cu' s'. apply N.eqb_eq in E35. subst c.
    apply (W (35 :: b) K_COMMENT (cpos cu1 + 1 + length b)%nat (Some b)); try reflexivity;
      [rewrite Et; reflexivity|cbn [length]; lia|].
    cbn. apply X_plain; [apply P_comment; reflexivity|discriminate|constructor; [reflexivity|exact Hb]|reflexivity]. }
  destruct (c =? 34) eqn:E34.
  { apply N.eqb_eq in E34. subst c. destruct (starts2 34 34 t) eqn:Eqq.
    - cbv zeta in H. apply starts2_inv in Eqq as (t2 & ->). cbn [skipn] in H.
      pose proof (read_block_loop_spec (S (length t2)) (cpos cu1 + 3) (cls cu1) [] [] t2 ltac:(lia)) as Hb.
      destruct (read_block_loop (S (length t2)) (cpos cu1 + 3) (cls cu1) [] [] t2)
        as [[[[e raw] ls'] rest]| | |] eqn:Eb; try discriminate.
      destruct Hb as (x & -> & ->). inversion H. subst tk cu' s'.
      apply (W (34 :: 34 :: 34 :: x) K_BLOCK_STRING (cpos cu1 + 3 + length x)%nat
               (Some (join_lf (dedent raw)))); try reflexivity; [cbn [length]; lia|].
      cbn. eapply X_block; try reflexivity. exact Eb.
    - destruct (read_string_loop (S (length t)) (S (cpos cu1)) [] t) as [[[e v] rest]| | |] eqn:Er; try discriminate.
      apply read_string_loop_ana in Er as (a & -> & -> & Hne & Ha & L). inversion H; subst tk cu' s'.
      apply (W (34 :: a) K_STRING (S (cpos cu1) + length a)%nat (Some v)); try reflexivity; [cbn [length]; lia|].
      cbn. apply X_plain; [eapply P_string; eauto|discriminate|constructor; [reflexivity|exact Ha]|reflexivity]. }
  destruct (punct_kind c) as [k|] eqn:Epk.
  { inversion H; subst tk cu' s'.
    apply (W [c] k (S (cpos cu1)) None); try reflexivity; [cbn [length]; lia|cbn [cpos]; lia|].
    rewrite (punct_kind_not_eof _ _ Epk).
    apply X_plain; [eapply P_punct; eauto|discriminate|constructor; [eapply punct_lt_free; eauto|constructor]|].
    cbn [mk tend]. f_equal. lia. }
  destruct (is_digit c || (c =? 45)) eqn:Ed.
  { destruct (read_number (cpos cu1) (c :: t)) as [[[e fl] rest]| | |] eqn:En; try discriminate.
    apply read_number_loc in En as (a & Ea & -> & Hnc & Hhd & Hstop & L).
    assert (Hv : firstn (cpos cu1 + length a - cpos cu1) (c :: t) = a).
    { rewrite Ea. replace (cpos cu1 + length a - cpos cu1)%nat with (length a) by lia. apply firstn_app_length. }
    rewrite Hv in H. inversion H; subst tk cu' s'.
    apply (W a (if fl then K_FLOAT else K_INT) (cpos cu1 + length a)%nat (Some a)); try reflexivity; [exact Ea|].
    replace (_ =? K_EOF) with false by (destruct fl; reflexivity).
    apply X_plain; [eapply P_num; eauto| |eapply Forall_impl; [|exact Hnc]; apply not_lt_of; reflexivity|reflexivity].
    intros ->. discriminate. }
  destruct (is_name_start c) eqn:Ens.
  { destruct (span is_name_continue t) as [b r] eqn:Esp. apply span_spec in Esp as (-> & Hb & Hr).
    inversion H; subst tk cu' s'.
    apply (W (c :: b) K_NAME (cpos cu1 + 1 + length b)%nat (Some (c :: b))); try reflexivity; [cbn [length]; lia|].
    cbn. apply X_plain; [eapply P_name; eauto|discriminate| |reflexivity].
    constructor; [revert Ens; apply not_lt_of; reflexivity|].
    eapply Forall_impl; [|exact Hb]. apply not_lt_of; reflexivity. }
  destruct (c =? 46) eqn:E46; [|discriminate]. apply N.eqb_eq in E46. subst c.
  destruct (starts2 46 46 t) eqn:Edd; [|discriminate]. apply starts2_inv in Edd as (t2 & ->).
  inversion H; subst tk cu' s'.
  apply (W [46; 46; 46] K_SPREAD (cpos cu1 + 3)%nat None); try reflexivity.
  cbn. apply X_plain; [apply P_spread; reflexivity|discriminate|repeat constructor|reflexivity].
Qed.

Lemma read_token_spec cu s :
  match read_token cu s with
  | Ok (tk, cu', s') => tok_post cu s tk cu' s'
  | SyntaxErr _ => True
  | Crash _ => False
  | OutOfFuel => False
  end.
Proof.
  pose proof (read_token_safe cu s) as Hs.
  destruct (read_token cu s) as [[[tk cu'] s']| | |] eqn:E; try exact Hs.
  destruct (read_token_inv _ _ _ _ _ E) as (g & lx & cu1 & Es & _ & Hg & Hpk & Hp & Hst & Hen & Hc & _ & _ & Hk).
  exists (length g), (length lx). subst s. rewrite firstn_app_length, skipn_app_length.
  split; [exact Hg|]. split; [lia|]. split; [exact Hen|].
  split; [rewrite app_assoc, <- app_length; apply adv_app|]. split; [exact Hc|]. split; [exact Hpk|].
  destruct (tkind tk =? K_EOF); split; try discriminate; intros _.
  - destruct Hk as (-> & -> & _). split; reflexivity.
  - apply lexeme_at_ne in Hk. destruct lx; [congruence|cbn; lia].
Qed.

(* [spans pos s ts]: the text s (starting at offset pos) is exactly
   gap lexeme gap lexeme ... gap, the gaps made of ignored characters only, each token's
   [tstart, tend) being the offsets of its lexeme, the last token being EOF at the end. *)
Inductive spans : nat -> list N -> list token -> Prop :=
| spans_eof pos s tk :
    Forall (fun c => is_ignored_char c = true) s ->
    (tkind tk =? K_EOF) = true -> tstart tk = (pos + length s)%nat -> tend tk = tstart tk ->
    spans pos s [tk]
| spans_tok pos g lx s' tk ts :
    Forall (fun c => is_ignored_char c = true) g -> lx <> [] ->
    peek_is is_ignored_char (lx ++ s') = false ->
    (tkind tk =? K_EOF) = false ->
    tstart tk = (pos + length g)%nat -> tend tk = (tstart tk + length lx)%nat ->
    spans (tend tk) s' ts ->
    spans pos (g ++ lx ++ s') (tk :: ts).

Lemma lex_loop_spec fuel : forall cu s,
  (length s < fuel)%nat ->
  match lex_loop fuel cu s with
  | Ok ts => spans (cpos cu) s ts
  | SyntaxErr _ => True
  | Crash _ => False
  | OutOfFuel => False
  end.
Proof.
  induction fuel as [|f IH]; intros cu s Hf; [lia|].
  cbn [lex_loop]. pose proof (read_token_safe cu s) as Hs.
  destruct (read_token cu s) as [[[tk cu'] s']| | |] eqn:E; try exact Hs.
  destruct (read_token_inv _ _ _ _ _ E) as (g & lx & cu1 & -> & _ & Hg & Hpk & Hp & Hst & Hen & Hc & _ & _ & Hk).
  destruct (tkind tk =? K_EOF) eqn:Ek.
  - destruct Hk as (-> & -> & _). rewrite !app_nil_r. cbn [length] in Hen.
    apply spans_eof; [exact Hg|exact Ek|lia|lia].
  - apply lexeme_at_ne in Hk. rewrite !app_length in Hf.
    specialize (IH cu' s' ltac:(destruct lx; [congruence|cbn [length] in Hf; lia])).
    destruct (lex_loop f cu' s') as [ts| | |]; try exact IH.
    apply spans_tok; [exact Hg|exact Hk|exact Hpk|exact Ek|lia|exact Hen|].
    rewrite <- Hc. exact IH.
Qed.

Theorem lex_total s : match lex s with Ok ts => spans 0 s ts | SyntaxErr _ => True | _ => False end.
Proof. unfold lex. apply (lex_loop_spec (S (length s)) init_cursor s). lia. Qed.

Lemma spans_bounds pos s ts : spans pos s ts ->
  Forall (fun t => (tstart t <= tend t)%nat /\ (tend t <= pos + length s)%nat) ts.
Proof.
  induction 1 as [pos s tk Hi Hk Hs He | pos g lx s' tk ts Hg Hlx Hpk Hk Hs He Hsp IH].
  - constructor; [|constructor]. lia.
  - constructor.
    + rewrite !app_length. lia.
    + eapply Forall_impl; [|exact IH]. cbn. intros t [H1 H2]. rewrite !app_length. lia.
Qed.

Fixpoint ordered (prev_end : nat) (ts : list token) : Prop :=
  match ts with
  | [] => True
  | t :: r => (prev_end <= tstart t)%nat /\ (tstart t <= tend t)%nat /\ ordered (tend t) r
  end.

Lemma spans_ordered pos s ts : spans pos s ts -> ordered pos ts.
Proof.
  induction 1 as [pos s tk Hi Hk Hs He | pos g lx s' tk ts Hg Hlx Hpk Hk Hs He Hsp IH]; cbn.
  - repeat split; lia.
  - repeat split; try lia. exact IH.
Qed.

Lemma coord_token_spec cu s :
  match coord_token cu s with
  | Ok (tk, cu', s') => (tkind tk =? K_EOF) = true \/ (length s' < length s)%nat
  | SyntaxErr _ => True | _ => False
  end.
Proof.
  unfold coord_token. destruct s as [|c t]; [left; reflexivity|].
  destruct (coord_punct c); [right; cbn; lia|].
  destruct (is_name_start c); [|exact I].
  destruct (span is_name_continue t) as [b r] eqn:E. apply span_spec in E as (-> & _ & _).
  right. cbn. rewrite app_length. lia.
Qed.

Lemma coord_loop_total fuel : forall cu s, (length s < fuel)%nat ->
  match coord_loop fuel cu s with Ok _ => True | SyntaxErr _ => True | _ => False end.
Proof.
  induction fuel as [|f IH]; intros cu s Hf; [lia|].
  cbn [coord_loop]. pose proof (coord_token_spec cu s) as Ht.
  destruct (coord_token cu s) as [[[tk cu'] s']| | |]; try exact Ht.
  destruct (tkind tk =? K_EOF); [exact I|].
  destruct Ht as [Ht|Ht]; [discriminate|].
  specialize (IH cu' s' ltac:(lia)).
  destruct (coord_loop f cu' s'); auto.
Qed.

Theorem coord_lex_total s :
  match coord_lex s with Ok _ => True | SyntaxErr _ => True | _ => False end.
Proof. unfold coord_lex. apply coord_loop_total. lia. Qed.
