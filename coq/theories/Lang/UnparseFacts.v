(* Facts about the token-level unparse (Lang/Unparse.v) and the well-formedness predicates
   (Lang/Wf.v) that the round-trip proofs (UnparseProps), the parser-output proofs (WfProps) and
   the printer proofs (PrinterProps) share. *)
From GV Require Import Base.Prelude Lang.Lexer Lang.Ast Lang.Parser Lang.Unparse Lang.Wf.

Lemma nonempty_length {X} (l : list X) : l <> [] -> (1 <= length l)%nat.
Proof. destruct l; [congruence|cbn; lia]. Qed.

Lemma list1_nelist (Pn : node -> Prop) a : wf_list1 Pn a -> wf_nelist Pn a.
Proof. intros [x l Hx Hl]. constructor; assumption. Qed.

Lemma present1 a : some_present [a] <-> attr_empty a = false.
Proof. unfold some_present. cbn [existsb]. destruct (attr_empty a); cbn; split; congruence. Qed.
Lemma present2 a b : some_present [a; b] <-> attr_empty a && attr_empty b = false.
Proof.
  unfold some_present. cbn [existsb]. destruct (attr_empty a), (attr_empty b); cbn; split; congruence.
Qed.
Lemma present3 a b c : some_present [a; b; c] <-> attr_empty a && attr_empty b && attr_empty c = false.
Proof.
  unfold some_present. cbn [existsb].
  destruct (attr_empty a), (attr_empty b), (attr_empty c); cbn; split; congruence.
Qed.

(* the attributes are taken one after the other: the match of is_shorthand is nested in this order *)
Lemma is_shorthand_true d n vs ds o : is_shorthand d n vs ds o = true ->
  d = ANone /\ n = ANone /\ vs = ANone /\ ds = ANone /\ o = 0.
Proof.
  unfold is_shorthand. destruct d; try discriminate. destruct n; try discriminate.
  destruct vs; try discriminate. destruct ds; try discriminate.
  intros H. apply N.eqb_eq in H. auto.
Qed.

Lemma toks_name_ne n : wf_name n -> toks_name n <> [].
Proof. intros [v]. discriminate. Qed.

Lemma toks_value_ne c v : wf_value c v -> toks_value v <> [].
Proof. destruct 1; discriminate. Qed.

Lemma toks_type_ne t : wf_type t -> toks_type t <> [].
Proof.
  destruct 1 as [n Hn|t _|n Hn|t _]; cbn [toks_type]; try discriminate.
  - apply toks_name_ne, Hn.
  - destruct Hn. discriminate.
Qed.

Lemma toks_selection_set_eq x l :
  toks_selection_set (Nd KSelectionSet [AList (x :: l)]) =
  pt K_BRACE_L :: flat_map toks_selection (x :: l) ++ [pt K_BRACE_R].
Proof. reflexivity. Qed.

Lemma toks_selection_set_cons xfa s :
  wf_selection_set xfa s -> exists tl, toks_selection_set s = pt K_BRACE_L :: tl.
Proof. intros [x l Hx Hl]. rewrite toks_selection_set_eq. eexists. reflexivity. Qed.

Lemma toks_selection_set_ne xfa s : wf_selection_set xfa s -> toks_selection_set s <> [].
Proof. destruct 1. discriminate. Qed.

Lemma toks_selection_ne xfa x : wf_selection xfa x -> toks_selection x <> [].
Proof.
  intros H. destruct H as [d n al a Hd Hn Hal Ha|d n al a s Hd Hn Hal Ha Hs|d n a Hd Hn Ha|d s tc Hd Hs Htc];
    cbn [toks_selection]; try discriminate.
  - destruct Hn. destruct Hal as [|an Han]; cbn [app toks_name]; [discriminate|].
    intros E. apply app_eq_nil in E as [E _]. apply app_eq_nil in E as [_ E]. discriminate.
  - destruct Hn. destruct Hal as [|an Han]; cbn [app toks_name]; [discriminate|].
    intros E. apply app_eq_nil in E as [E _]. apply app_eq_nil in E as [_ E]. discriminate.
Qed.
