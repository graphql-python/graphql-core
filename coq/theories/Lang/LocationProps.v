(* get_location is its specification (terminator count, tail length); the line a location names
   exists in the split text; scan_lines counts the same terminators. *)
From GV Require Import Base.Prelude Lang.Location.
From GV Require Import Base.ListFacts.

Lemma count_lt_true_nonlf d t :
  (d =? LF) = false -> count_lt true (d :: t) = count_lt false (d :: t).
Proof. intros H. cbn. rewrite H. reflexivity. Qed.

Lemma split_aux_length s : forall cur, length (split_lines_aux cur s) = S (count_lt false s).
Proof.
  induction s as [|c t IHt IHt'] using list_ind_peek; intros cur; [reflexivity|].
  cbn [split_lines_aux count_lt].
  destruct (c =? CR) eqn:Ec.
  - destruct t as [|d t']; [reflexivity|]. cbn [tl] in IHt'.
    destruct (d =? LF) eqn:Ed.
    + cbn [length]. rewrite IHt'. cbn [count_lt]. rewrite Ed.
      assert (d =? CR = false) as -> by (apply N.eqb_eq in Ed; subst d; reflexivity).
      reflexivity.
    + cbn [length]. rewrite IHt, count_lt_true_nonlf by exact Ed. reflexivity.
  - destruct (c =? LF) eqn:El.
    + cbn [length]. rewrite IHt. reflexivity.
    + rewrite IHt. reflexivity.
Qed.

Lemma split_lines_length s : length (split_lines s) = S (count_lt false s).
Proof. apply split_aux_length. Qed.

Lemma split_aux_nonempty cur s : split_lines_aux cur s <> [].
Proof.
  revert cur; induction s as [|c t IH]; intros cur; cbn; [congruence|].
  destruct (c =? CR); [destruct t as [|d t']; [congruence|destruct (d =? LF); congruence]|].
  destruct (c =? LF); [congruence|apply IH].
Qed.

Lemma split_aux_last s : forall cur,
  length (last (split_lines_aux cur s) []) = tail_len (length cur) s.
Proof.
  induction s as [|c t IHt IHt'] using list_ind_peek; intros cur; [cbn; apply rev_length|].
  cbn [split_lines_aux tail_len].
  destruct (c =? CR) eqn:Ec; cbn [orb].
  - destruct t as [|d t']; [reflexivity|]. cbn [tl] in IHt'.
    destruct (d =? LF) eqn:Ed; rewrite last_cons_nonempty by apply split_aux_nonempty.
    + rewrite IHt'. cbn [tail_len]. rewrite Ed, orb_true_r. reflexivity.
    + apply IHt.
  - destruct (c =? LF) eqn:El.
    + rewrite last_cons_nonempty by apply split_aux_nonempty. apply IHt.
    + apply IHt.
Qed.

Theorem get_location_is_spec body pos : get_location body pos = location_spec body pos.
Proof.
  unfold get_location, location_spec. cbv zeta.
  rewrite split_lines_length.
  unfold split_lines.
  rewrite split_aux_last.
  cbn [length]. f_equal; lia.
Qed.

Lemma count_lt_true_le s : (count_lt true s <= count_lt false s)%nat.
Proof.
  destruct s as [|c t]; cbn; [lia|].
  destruct (c =? CR); [lia|]. destruct (c =? LF); lia.
Qed.

Lemma count_lt_false_le_S s : (count_lt false s <= S (count_lt true s))%nat.
Proof.
  destruct s as [|c t]; cbn; [lia|].
  destruct (c =? CR); [lia|]. destruct (c =? LF); lia.
Qed.

(* terminators in a prefix never exceed those of the whole text *)
Lemma count_lt_firstn b pos s : (count_lt b (firstn pos s) <= count_lt b s)%nat.
Proof.
  revert b s; induction pos as [|p IH]; intros b s; [cbn; lia|].
  destruct s as [|c t]; [cbn; lia|].
  cbn [firstn count_lt].
  destruct (c =? CR); [specialize (IH true t); lia|].
  destruct (c =? LF); specialize (IH false t); lia.
Qed.

Lemma count_lt_app_pad b pad s :
  count_lt b (repeat 32 pad ++ s) = if (pad =? 0)%nat then count_lt b s else count_lt false s.
Proof.
  destruct pad as [|p]; [reflexivity|].
  cbn [Nat.eqb repeat app count_lt].
  change (32 =? CR) with false. change (32 =? LF) with false. cbv iota.
  induction p as [|p IH]; [reflexivity|]. cbn [repeat app count_lt].
  change (32 =? CR) with false. change (32 =? LF) with false. cbv iota. exact IH.
Qed.

(* scan_lines: the incremental (line, line_start) bookkeeping over a stretch of text *)
Lemma tail_len_le t : forall a, (tail_len a t <= a + length t)%nat.
Proof.
  induction t as [|c t IHt]; intros a; cbn; [lia|].
  destruct ((c =? CR) || (c =? LF)); [specialize (IHt 0%nat)|specialize (IHt (S a))]; lia.
Qed.

Lemma tail_len_nolt t : forall a, count_lt false t = 0%nat -> tail_len a t = (a + length t)%nat.
Proof.
  induction t as [|c t IHt]; intros a H; cbn in *; [lia|].
  destruct (c =? CR); [discriminate|]. destruct (c =? LF); [discriminate|].
  cbn. rewrite IHt by exact H. lia.
Qed.

Lemma tail_len_indep t : forall a b, count_lt false t <> 0%nat -> tail_len a t = tail_len b t.
Proof.
  induction t as [|c t IHt]; intros a b H; cbn in *; [lia|].
  destruct (c =? CR); cbn; [reflexivity|]. destruct (c =? LF); cbn; [reflexivity|].
  apply IHt. exact H.
Qed.

Lemma scan_lines_spec s : forall line ls pos,
  scan_lines line ls pos s =
  ((line + count_lt false s)%nat,
   if (count_lt false s =? 0)%nat then ls
   else (pos + length s - tail_len 0 s)%nat).
Proof.
  (* without a terminator the whole stretch is the tail *)
  assert (T : forall t, tail_len 0 t = if (count_lt false t =? 0)%nat then length t else tail_len 0 t).
  { intros t. destruct (count_lt false t =? 0)%nat eqn:E0; [|reflexivity].
    apply Nat.eqb_eq in E0. apply (tail_len_nolt t 0%nat E0). }
  induction s as [|c t IHt IHt'] using list_ind_peek; intros line ls pos; [cbn; f_equal; lia|].
  cbn [scan_lines count_lt tail_len length].
  destruct (c =? CR) eqn:Ec; cbn [orb].
  - destruct t as [|d t']; [cbn; f_equal; lia|]. cbn [tl] in IHt'.
    destruct (d =? LF) eqn:Ed.
    + rewrite IHt'. cbn [count_lt tail_len length]. rewrite Ed, orb_true_r.
      assert (d =? CR = false) as -> by (apply N.eqb_eq in Ed; subst d; reflexivity).
      cbn [plus Nat.eqb]. f_equal; [lia|]. rewrite (T t'). pose proof (tail_len_le t' 0%nat).
      destruct (count_lt false t' =? 0)%nat; lia.
    + rewrite IHt, count_lt_true_nonlf by exact Ed. cbn [Nat.eqb]. f_equal; [lia|].
      rewrite (T (d :: t')). pose proof (tail_len_le (d :: t') 0%nat).
      destruct (count_lt false (d :: t') =? 0)%nat; cbn [length] in *; lia.
  - destruct (c =? LF) eqn:El.
    + rewrite IHt. cbn [plus Nat.eqb]. f_equal; [lia|].
      rewrite (T t). pose proof (tail_len_le t 0%nat). destruct (count_lt false t =? 0)%nat; lia.
    + rewrite IHt. f_equal.
      destruct (count_lt false t =? 0)%nat eqn:E0; [reflexivity|].
      apply Nat.eqb_neq in E0. rewrite (tail_len_indep t 1%nat 0%nat E0). lia.
Qed.
