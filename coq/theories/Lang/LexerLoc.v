(* Token line/column fields equal get_location of the token start (C10_token_locations). *)
From GV Require Import Base.Prelude Base.ListFacts Lang.Location Lang.LocationProps Lang.Lexer Lang.LexerProps.

Definition is_lt (c : N) : bool := (c =? LF) || (c =? CR).
Definition clean (l : list N) : Prop := Forall (fun c => is_lt c = false) l.

(* the same predicate as LexerProps.lt_free: facts stated with either apply to the other *)
Lemma clean_lt_free l : clean l = lt_free l.
Proof. reflexivity. Qed.

Lemma digit_not_lt c : is_digit c = true -> is_lt c = false.
Proof. apply not_lt_of; reflexivity. Qed.

Lemma firstn_clean_le n m (s : list N) : (m <= n)%nat -> clean (firstn n s) -> clean (firstn m s).
Proof.
  intros Hle H. replace n with (m + (n - m))%nat in H by lia. rewrite firstn_add in H.
  unfold clean in *. apply Forall_app in H as [H _]. exact H.
Qed.

Lemma read_string_loop_clean fuel : forall pos acc s e v r,
  read_string_loop fuel pos acc s = Ok (e, v, r) -> clean (firstn (e - pos) s) /\ (pos <= e)%nat.
Proof.
  intros pos acc s e v r H. apply read_string_loop_ana in H as (a & -> & -> & _ & Ha & _).
  replace (pos + length a - pos)%nat with (length a) by lia. rewrite firstn_app_length.
  split; [exact Ha|lia].
Qed.

Definition lastcr (b : bool) (x : list N) : bool :=
  match rev x with [] => b | c :: _ => c =? CR end.

Lemma count_lt_head_not_lf b y : peek_is (N.eqb LF) y = false -> count_lt b y = count_lt false y.
Proof.
  destruct y as [|c t]; [reflexivity|]. cbn [peek_is]. intros H. cbn [count_lt].
  rewrite N.eqb_sym in H. rewrite H. reflexivity.
Qed.

Lemma count_lt_clean b x : clean x -> count_lt b x = 0%nat.
Proof.
  revert b; induction x as [|c t IH]; intros b H; [reflexivity|].
  inversion H as [|? ? Hc Ht]; subst. unfold is_lt in Hc. apply orb_false_iff in Hc as [H1 H2].
  cbn [count_lt]. rewrite H2, H1. apply IH. exact Ht.
Qed.

Lemma count_lt_app_clean b x y : clean x -> x <> [] -> count_lt b (x ++ y) = count_lt false y.
Proof.
  revert b; induction x as [|c t IH]; intros b H Hne; [congruence|].
  inversion H as [|? ? Hc Ht]; subst. unfold is_lt in Hc. apply orb_false_iff in Hc as [H1 H2].
  cbn [app count_lt]. rewrite H2, H1. destruct t as [|d t']; [reflexivity|].
  apply IH; [exact Ht|discriminate].
Qed.

Lemma tail_len_clean a x : clean x -> tail_len a x = (a + length x)%nat.
Proof. intros H. apply tail_len_nolt, count_lt_clean, H. Qed.

Lemma tail_len_app a x y : tail_len a (x ++ y) = tail_len (tail_len a x) y.
Proof.
  revert a; induction x as [|c t IH]; intros a; [reflexivity|].
  cbn. destruct ((c =? CR) || (c =? LF)); apply IH.
Qed.

Lemma lastcr_cons b c t : lastcr b (c :: t) = lastcr (c =? CR) t.
Proof.
  unfold lastcr. cbn [rev]. destruct (rev t) as [|z zs]; reflexivity.
Qed.

(* count over pre ++ y when the junction is not inside a CR LF pair *)
Lemma count_lt_app b x y :
  (lastcr b x = false \/ peek_is (N.eqb LF) y = false) ->
  count_lt b (x ++ y) = (count_lt b x + count_lt false y)%nat.
Proof.
  revert b; induction x as [|c t IH]; intros b H.
  - cbn [app count_lt plus]. unfold lastcr in H. cbn in H.
    destruct H as [->|H]; [reflexivity|apply count_lt_head_not_lf; exact H].
  - rewrite lastcr_cons in H. cbn [app count_lt].
    destruct (c =? CR) eqn:Ec; [rewrite IH by exact H; lia|].
    destruct (c =? LF); rewrite IH by exact H; lia.
Qed.

Lemma lastcr_app_nonempty b x y : y <> [] -> lastcr b (x ++ y) = lastcr false y.
Proof.
  intros Hy. unfold lastcr. rewrite rev_app_distr.
  destruct (rev y) as [|c r] eqn:E.
  - apply (f_equal (@rev N)) in E. rewrite rev_involutive in E. cbn in E. congruence.
  - reflexivity.
Qed.

Lemma lastcr_clean x : clean x -> x <> [] -> lastcr false x = false.
Proof.
  intros Hc Hne. unfold lastcr. destruct (rev x) as [|c r] eqn:E.
  - apply (f_equal (@rev N)) in E. rewrite rev_involutive in E. cbn in E. congruence.
  - assert (In c x) by (apply in_rev; rewrite E; left; reflexivity).
    unfold clean in Hc. rewrite Forall_forall in Hc. specialize (Hc c H).
    unfold is_lt in Hc. apply orb_false_iff in Hc as [_ Hc]. exact Hc.
Qed.

Definition cur_ok (pre : list N) (cu : cursor) : Prop :=
  cpos cu = length pre /\ cline cu = S (count_lt false pre) /\
  (cls cu + tail_len 0 pre = length pre)%nat.

(* the cursor is never between the CR and the LF of a CR LF *)
Definition no_split (pre s : list N) : Prop :=
  lastcr false pre = false \/ peek_is (N.eqb LF) s = false.

Lemma lastcr_snoc b pre c : lastcr b (pre ++ [c]) = (c =? CR).
Proof. unfold lastcr. rewrite rev_app_distr. reflexivity. Qed.

Lemma lastcr_snoc2 b pre c d : lastcr b (pre ++ [c; d]) = (d =? CR).
Proof. unfold lastcr. rewrite rev_app_distr. reflexivity. Qed.

Lemma count_snoc_plain pre c : (c =? CR) = false -> (c =? LF) = false ->
  count_lt false (pre ++ [c]) = count_lt false pre.
Proof.
  intros H1 H2. rewrite count_lt_app.
  - cbn. rewrite H1, H2. lia.
  - right. cbn [peek_is]. rewrite N.eqb_sym. exact H2.
Qed.

Lemma tail_snoc_plain pre c : (c =? CR) = false -> (c =? LF) = false ->
  tail_len 0 (pre ++ [c]) = S (tail_len 0 pre).
Proof. intros H1 H2. rewrite tail_len_app. cbn. rewrite H1, H2. reflexivity. Qed.

Lemma tail_snoc_lt pre c : ((c =? CR) || (c =? LF)) = true -> tail_len 0 (pre ++ [c]) = 0%nat.
Proof. intros H. rewrite tail_len_app. cbn. rewrite H. reflexivity. Qed.

Lemma cur_ok_plain pre cu c : cur_ok pre cu -> (c =? CR) = false -> (c =? LF) = false ->
  cur_ok (pre ++ [c]) (mkCur (S (cpos cu)) (cline cu) (cls cu)).
Proof.
  intros (Hp & Hl & Hs) H1 H2. unfold cur_ok. cbn [cpos cline cls].
  rewrite app_length, count_snoc_plain, tail_snoc_plain by assumption. cbn [length]. repeat split; lia.
Qed.

Lemma cur_ok_lf pre cu : cur_ok pre cu -> lastcr false pre = false ->
  cur_ok (pre ++ [LF]) (mkCur (S (cpos cu)) (S (cline cu)) (S (cpos cu))).
Proof.
  intros (Hp & Hl & Hs) Hn. unfold cur_ok. cbn [cpos cline cls].
  rewrite app_length, tail_snoc_lt by reflexivity. cbn [length].
  rewrite count_lt_app by (left; exact Hn). cbn. repeat split; lia.
Qed.

Lemma cur_ok_cr pre cu : cur_ok pre cu ->
  cur_ok (pre ++ [CR]) (mkCur (S (cpos cu)) (S (cline cu)) (S (cpos cu))).
Proof.
  intros (Hp & Hl & Hs). unfold cur_ok. cbn [cpos cline cls].
  rewrite app_length, tail_snoc_lt by reflexivity. cbn [length].
  rewrite count_lt_app by (right; reflexivity). cbn. repeat split; lia.
Qed.

Lemma cur_ok_crlf pre cu : cur_ok pre cu ->
  cur_ok (pre ++ [CR; LF]) (mkCur (cpos cu + 2) (S (cline cu)) (cpos cu + 2)).
Proof.
  intros (Hp & Hl & Hs). unfold cur_ok. cbn [cpos cline cls].
  rewrite app_length. cbn [length].
  rewrite count_lt_app by (right; reflexivity).
  rewrite tail_len_app. cbn. repeat split; lia.
Qed.

(* a result for the text after [chunk], with [chunk] counted into the prefix, is a result for the whole *)
Lemma skip_cur_ok_chunk pre chunk rest cu' s' :
  (exists ign, rest = ign ++ s' /\ cur_ok ((pre ++ chunk) ++ ign) cu' /\ no_split ((pre ++ chunk) ++ ign) s') ->
  exists ign, chunk ++ rest = ign ++ s' /\ cur_ok (pre ++ ign) cu' /\ no_split (pre ++ ign) s'.
Proof.
  intros (ign & -> & Ho & Hn). exists (chunk ++ ign). split; [apply app_assoc|].
  rewrite app_assoc. split; assumption.
Qed.

Lemma skip_cur_ok s : forall pre cu cu' s',
  cur_ok pre cu -> no_split pre s -> skip_ignored cu s = (cu', s') ->
  exists ign, s = ign ++ s' /\ cur_ok (pre ++ ign) cu' /\ no_split (pre ++ ign) s'.
Proof.
  induction s as [|c t IHt IHt'] using list_ind_peek; intros pre cu cu' s' Hok Hns H.
  { cbn in H. inversion H; subst. exists []. rewrite !app_nil_r. split; [reflexivity|]. split; [exact Hok|]. right. reflexivity. }
  cbn [skip_ignored] in H.
  destruct (is_ws_ignored c) eqn:Ew.
  { assert (Hc1 : (c =? CR) = false /\ (c =? LF) = false).
    { unfold is_ws_ignored in Ew. unfold CR, LF.
      split; apply N.eqb_neq; intros ->; vm_compute in Ew; discriminate. }
    destruct Hc1 as [Hc1 Hc2].
    apply (skip_cur_ok_chunk pre [c]), (IHt _ _ _ _ (cur_ok_plain pre cu c Hok Hc1 Hc2)); [|exact H].
    left. rewrite lastcr_snoc. exact Hc1. }
  destruct (c =? LF) eqn:El.
  { apply N.eqb_eq in El. subst c.
    assert (Hlc : lastcr false pre = false).
    { destruct Hns as [Hx|Hx]; [exact Hx|]. cbn [peek_is] in Hx. rewrite N.eqb_refl in Hx. discriminate. }
    apply (skip_cur_ok_chunk pre [LF]), (IHt _ _ _ _ (cur_ok_lf pre cu Hok Hlc)); [|exact H].
    left. rewrite lastcr_snoc. reflexivity. }
  destruct (c =? CR) eqn:Ec.
  { apply N.eqb_eq in Ec. subst c.
    destruct t as [|d t']; cbn [tl] in IHt'.
    - inversion H; subst. exists [CR]. split; [reflexivity|]. split; [apply cur_ok_cr; exact Hok|].
      right. reflexivity.
    - destruct (d =? LF) eqn:Ed.
      + apply N.eqb_eq in Ed. subst d.
        apply (skip_cur_ok_chunk pre [CR; LF]), (IHt' _ _ _ _ (cur_ok_crlf pre cu Hok)); [|exact H].
        left. apply lastcr_snoc2.
      + apply (skip_cur_ok_chunk pre [CR]), (IHt _ _ _ _ (cur_ok_cr pre cu Hok)); [|exact H].
        right. cbn [peek_is]. rewrite N.eqb_sym. exact Ed. }
  inversion H; subst. exists []. rewrite !app_nil_r. split; [reflexivity|]. split; [exact Hok|].
  right. cbn [peek_is]. rewrite N.eqb_sym. exact El.
Qed.

(* a clean, non-empty lexeme: the line and the line start do not change *)
Lemma cur_ok_clean pre cu lx e : cur_ok pre cu -> clean lx -> lx <> [] -> e = (cpos cu + length lx)%nat ->
  cur_ok (pre ++ lx) (mkCur e (cline cu) (cls cu)) /\ lastcr false (pre ++ lx) = false.
Proof.
  intros (Hp & Hl & Hs) Hc Hne ->. split.
  - unfold cur_ok. cbn [cpos cline cls]. rewrite app_length.
    rewrite count_lt_app.
    + rewrite (count_lt_clean false lx Hc). rewrite tail_len_app, tail_len_clean by exact Hc. repeat split; lia.
    + right. destruct lx as [|c r]; [congruence|]. inversion Hc as [|? ? Hc1 _]; subst.
      cbn [app peek_is]. unfold is_lt in Hc1. apply orb_false_iff in Hc1 as [Hc1 _]. rewrite N.eqb_sym. exact Hc1.
  - rewrite lastcr_app_nonempty by exact Hne. apply lastcr_clean; assumption.
Qed.

(* block strings: line count and line start after the token *)
Lemma starts3_firstn a b c s : starts3 a b c s = true -> firstn 3 s = [a; b; c].
Proof. intros H. apply starts3_inv in H as (t & ->). reflexivity. Qed.

Definition block_post (pre : list N) (pos ls : nat) (lines : list (list N)) (s : list N)
           (e : nat) (raw : list (list N)) (ls' : nat) : Prop :=
  let x := firstn (e - pos) s in
  (pos <= e)%nat /\ (e - pos <= length s)%nat /\
  (count_lt false (pre ++ x) + S (length lines) = count_lt false pre + length raw)%nat /\
  (ls' + tail_len 0 (pre ++ x) = length (pre ++ x))%nat /\
  lastcr false (pre ++ x) = false /\ (1 <= length raw)%nat.

Lemma read_block_loop_loc fuel : forall pos ls cur lines s e raw ls' r pre,
  read_block_loop fuel pos ls cur lines s = Ok (e, raw, ls', r) ->
  pos = length pre -> (ls + tail_len 0 pre = length pre)%nat -> no_split pre s ->
  block_post pre pos ls lines s e raw ls'.
Proof.
  induction fuel as [|f IH]; intros pos ls cur lines s e raw ls' r pre H Hpos Hls Hns; [discriminate|].
  cbn [read_block_loop] in H. destruct s as [|c t]; [discriminate|].
  (* one step: consume [chunk], continue on [rest] *)
  assert (Hstep : forall (chunk rest : list N) ls1 cur1 (lines1 : list (list N)),
            c :: t = chunk ++ rest -> chunk <> [] ->
            read_block_loop f (pos + length chunk) ls1 cur1 lines1 rest = Ok (e, raw, ls', r) ->
            (count_lt false (pre ++ chunk) + length lines = count_lt false pre + length lines1)%nat ->
            (ls1 + tail_len 0 (pre ++ chunk) = length (pre ++ chunk))%nat ->
            no_split (pre ++ chunk) rest ->
            block_post pre pos ls lines (c :: t) e raw ls').
  { intros chunk rest ls1 cur1 lines1 Hsplit Hne Hrec Hcnt Hls1 Hns1.
    assert (Hp1 : (pos + length chunk)%nat = length (pre ++ chunk)) by (rewrite app_length; lia).
    destruct (IH _ _ _ _ _ _ _ _ _ (pre ++ chunk) Hrec Hp1 Hls1 Hns1) as (Hle & Hlen & Hc & Ht & Hl & Hr1).
    assert (Hx : firstn (e - pos) (c :: t) = chunk ++ firstn (e - (pos + length chunk)) rest).
    { rewrite Hsplit. replace (e - pos)%nat with (length chunk + (e - (pos + length chunk)))%nat by lia.
      rewrite firstn_add. rewrite firstn_app_length.
      rewrite skipn_app_length. reflexivity. }
    unfold block_post. cbv zeta. rewrite Hx. rewrite app_assoc.
    split; [lia|]. split; [rewrite Hsplit, app_length; lia|].
    split; [lia|]. split; [exact Ht|]. split; [exact Hl|exact Hr1]. }
  destruct (starts3 34 34 34 (c :: t)) eqn:E3.
  { inversion H; subst. pose proof (starts3_length _ _ _ _ E3) as Hl3.
    unfold block_post. cbv zeta. replace (length pre + 3 - length pre)%nat with 3%nat by lia.
    rewrite (starts3_firstn _ _ _ _ E3).
    assert (Hcl : clean [34; 34; 34]) by (repeat constructor).
    split; [lia|]. split; [exact Hl3|]. cbn [length rev]. rewrite app_length.
    split.
    - rewrite count_lt_app by (right; reflexivity). rewrite (count_lt_clean false _ Hcl).
      cbn [length]. rewrite rev_length. cbn [length]. lia.
    - split.
      + rewrite tail_len_app, tail_len_clean by exact Hcl. rewrite app_length. cbn [length]. lia.
      + split; [rewrite lastcr_app_nonempty by discriminate; reflexivity|].
        rewrite rev_length. cbn [length]. lia. }
  destruct ((c =? 92) && starts3 34 34 34 t) eqn:Eb.
  { apply andb_true_iff in Eb as [Ec Eq]. apply N.eqb_eq in Ec. subst c.
    pose proof (starts3_firstn _ _ _ _ Eq) as Hf3. pose proof (starts3_length _ _ _ _ Eq) as Hl3.
    assert (Hsp : 92 :: t = [92; 34; 34; 34] ++ skipn 4 (92 :: t)).
    { cbn [skipn]. rewrite <- (firstn_skipn 3 t) at 1. rewrite Hf3. reflexivity. }
    assert (Hcl : clean [92; 34; 34; 34]) by (repeat constructor).
    apply (Hstep [92; 34; 34; 34] (skipn 4 (92 :: t)) ls (34 :: 34 :: 34 :: cur) lines Hsp ltac:(discriminate)).
    - exact H.
    - rewrite count_lt_app by (right; reflexivity). rewrite (count_lt_clean false _ Hcl). lia.
    - rewrite tail_len_app, tail_len_clean, app_length by exact Hcl. cbn [length]. lia.
    - left. rewrite lastcr_app_nonempty by discriminate. reflexivity. }
  destruct (c =? LF) eqn:El.
  { apply N.eqb_eq in El. subst c.
    assert (Hlc : lastcr false pre = false).
    { destruct Hns as [Hx|Hx]; [exact Hx|]. cbn [peek_is] in Hx. rewrite N.eqb_refl in Hx. discriminate. }
    apply (Hstep [LF] t (S pos) [] (rev cur :: lines) eq_refl ltac:(discriminate)).
    - replace (pos + length [LF])%nat with (S pos) by (cbn; lia). exact H.
    - rewrite count_lt_app by (left; exact Hlc). cbn. lia.
    - rewrite tail_snoc_lt by reflexivity. rewrite app_length. cbn [length]. lia.
    - left. rewrite lastcr_snoc. reflexivity. }
  destruct (c =? CR) eqn:Ec.
  { apply N.eqb_eq in Ec. subst c.
    destruct (peek_is (N.eqb LF) t) eqn:Epl.
    - destruct t as [|d t']; [discriminate|]. cbn [peek_is] in Epl. apply N.eqb_eq in Epl. subst d. cbn [tl] in H.
      apply (Hstep [CR; LF] t' (pos + 2)%nat [] (rev cur :: lines) eq_refl ltac:(discriminate)).
      + exact H.
      + rewrite count_lt_app by (right; reflexivity). cbn. lia.
      + rewrite tail_len_app. cbn. rewrite app_length. cbn [length]. lia.
      + left. apply lastcr_snoc2.
    - apply (Hstep [CR] t (S pos) [] (rev cur :: lines) eq_refl ltac:(discriminate)).
      + replace (pos + length [CR])%nat with (S pos) by (cbn; lia). exact H.
      + rewrite count_lt_app by (right; reflexivity). cbn. lia.
      + rewrite tail_snoc_lt by reflexivity. rewrite app_length. cbn [length]. lia.
      + right. exact Epl. }
  destruct (is_scalar c).
  { apply (Hstep [c] t ls (c :: cur) lines eq_refl ltac:(discriminate)).
    - replace (pos + length [c])%nat with (S pos) by (cbn; lia). exact H.
    - rewrite count_snoc_plain by assumption. lia.
    - rewrite tail_snoc_plain, app_length by assumption. cbn [length]. lia.
    - left. rewrite lastcr_snoc. exact Ec. }
  destruct (is_lead c && peek_is is_trail t) eqn:Ep; [|discriminate].
  apply andb_true_iff in Ep as [_ Ep]. destruct t as [|d t']; [discriminate|]. cbn [peek_is] in Ep. cbn [hd tl] in H.
  destruct (proj1 (orb_false_iff _ _) (trail_lt_free d Ep)) as [Hd2 Hd1].
  assert (Hcl : clean [c; d]).
  { constructor; [unfold is_lt; rewrite El, Ec; reflexivity|].
    constructor; [unfold is_lt; rewrite Hd2, Hd1; reflexivity|constructor]. }
  apply (Hstep [c; d] t' ls (d :: c :: cur) lines eq_refl ltac:(discriminate)).
  - exact H.
  - rewrite count_lt_app by (right; cbn [peek_is]; rewrite N.eqb_sym; exact El).
    rewrite (count_lt_clean false _ Hcl). lia.
  - rewrite tail_len_app, tail_len_clean, app_length by exact Hcl. cbn [length]. lia.
  - left. rewrite lastcr_snoc2. exact Hd1.
Qed.

Definition tok_loc (pre s : list N) (cu : cursor) (tk : token) (cu' : cursor) (s' : list N) : Prop :=
  exists ign lx,
    s = ign ++ lx ++ s' /\ tstart tk = length (pre ++ ign) /\
    tline tk = S (count_lt false (pre ++ ign)) /\ tcol tk = S (tail_len 0 (pre ++ ign)) /\
    cur_ok (pre ++ ign ++ lx) cu' /\ no_split (pre ++ ign ++ lx) s'.

Lemma adv_firstn_split s n r : adv s n r -> s = firstn n s ++ r.
Proof. apply adv_split. Qed.

Lemma read_token_loc pre cu s tk cu' s' :
  cur_ok pre cu -> no_split pre s -> read_token cu s = Ok (tk, cu', s') ->
  tok_loc pre s cu tk cu' s'.
Proof.
  intros Hok Hns H.
  destruct (read_token_inv _ _ _ _ _ H)
    as (g & lx & cu1 & Es & Esk & _ & _ & _ & Hst & Hen & Hcu' & Hln & Hcol & Hk).
  destruct (skip_cur_ok _ _ _ _ _ Hok Hns Esk) as (ign & Es' & Hok1 & Hns1).
  assert (ign = g) by (rewrite Es in Es'; apply app_inv_tail in Es'; auto). subst ign.
  pose proof Hok1 as (Hp1 & Hl1 & Hs1).
  exists g, lx. split; [exact Es|]. split; [lia|]. split; [lia|]. split; [lia|].
  rewrite !app_assoc.
  destruct (tkind tk =? K_EOF).
  { destruct Hk as (-> & -> & _ & ->). rewrite app_nil_r. split; [exact Hok1|right; reflexivity]. }
  destruct Hk as [_ Hne Hcl ->|x e raw ls' -> Eb _ _ _ ->].
  { destruct (cur_ok_clean (pre ++ g) cu1 lx (tend tk) Hok1 Hcl Hne ltac:(lia)) as [C1 C2].
    split; [exact C1|left; exact C2]. }
  (* block string: the loop runs after the opening quotes *)
  cbn [cpos length] in Hcu', Hen.
  set (pre3 := (pre ++ g) ++ [34; 34; 34]).
  assert (Hc3 : clean [34; 34; 34]) by (repeat constructor).
  assert (Hp3 : (cpos cu1 + 3)%nat = length pre3) by (unfold pre3; rewrite app_length; cbn [length]; lia).
  assert (Hls3 : (cls cu1 + tail_len 0 pre3 = length pre3)%nat).
  { unfold pre3. rewrite tail_len_app, tail_len_clean, app_length by exact Hc3. cbn [length]. lia. }
  assert (Hns3 : no_split pre3 (x ++ s')).
  { left. unfold pre3. rewrite lastcr_app_nonempty by discriminate. reflexivity. }
  destruct (read_block_loop_loc _ _ _ _ _ _ _ _ _ _ pre3 Eb Hp3 Hls3 Hns3) as (_ & _ & Hc & Htl & Hlc & Hraw1).
  replace (e - (cpos cu1 + 3))%nat with (length x) in * by lia. rewrite firstn_app_length in *.
  replace ((pre ++ g) ++ 34 :: 34 :: 34 :: x) with (pre3 ++ x) by (unfold pre3; rewrite <- !app_assoc; reflexivity).
  assert (Hc3' : count_lt false pre3 = count_lt false (pre ++ g)).
  { unfold pre3. rewrite count_lt_app by (right; reflexivity). rewrite (count_lt_clean false _ Hc3). lia. }
  split; [|left; exact Hlc].
  unfold cur_ok. cbn [cpos cline cls length] in *. rewrite app_length in *. repeat split; lia.
Qed.

Lemma lex_loop_loc fuel : forall pre cu s ts,
  cur_ok pre cu -> no_split pre s -> lex_loop fuel cu s = Ok ts ->
  Forall (fun t => (tline t, tcol t) = get_location (pre ++ s) (tstart t)) ts.
Proof.
  induction fuel as [|f IH]; intros pre cu s ts Hok Hns H; [discriminate|].
  cbn [lex_loop] in H.
  destruct (read_token cu s) as [[[tk cu'] s']| | |] eqn:Et; try discriminate.
  destruct (read_token_loc _ _ _ _ _ _ Hok Hns Et) as (ign & lx & Es & Hst & Hln & Hcol & Hok' & Hns').
  assert (Htk : (tline tk, tcol tk) = get_location (pre ++ s) (tstart tk)).
  { rewrite get_location_is_spec. unfold location_spec. cbv zeta.
    rewrite Hst, Es. rewrite app_assoc. rewrite firstn_app_length. rewrite Hln, Hcol. reflexivity. }
  destruct (tkind tk =? K_EOF).
  - inversion H; subst. constructor; [exact Htk|constructor].
  - destruct (lex_loop f cu' s') as [ts'| | |] eqn:Er; try discriminate. inversion H; subst.
    constructor; [exact Htk|].
    specialize (IH (pre ++ ign ++ lx) cu' s' ts' Hok' Hns' Er).
    rewrite <- !app_assoc in IH. exact IH.
Qed.

