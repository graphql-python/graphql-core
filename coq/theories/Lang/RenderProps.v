(* print_source_location: the rows of the excerpt (short and long lines), that no index access fails,
   and that the caret column is the location's column. *)
From GV Require Import Base.Prelude Base.ListFacts Lang.Location Lang.LocationProps Lang.Render.


(* pending characters only affect the first line *)
Lemma split_aux_shift s : forall cur,
  split_lines_aux cur s =
  match split_lines_aux [] s with h :: r => (rev cur ++ h) :: r | [] => [] end.
Proof.
  induction s as [|c t IH]; intros cur; cbn [split_lines_aux].
  - cbn. rewrite app_nil_r. reflexivity.
  - destruct (c =? CR).
    + destruct t as [|d t'].
      * cbn. rewrite app_nil_r. reflexivity.
      * destruct (d =? LF); cbn [rev app]; rewrite app_nil_r; reflexivity.
    + destruct (c =? LF).
      * cbn [rev app]. rewrite app_nil_r. reflexivity.
      * rewrite (IH (c :: cur)), (IH [c]).
        destruct (split_lines_aux [] t) as [|h r]; [reflexivity|].
        cbn [rev app]. rewrite <- app_assoc. reflexivity.
Qed.

(* the first line of a split starts with the pending characters *)
Lemma split_aux_head cur s : exists x rest, split_lines_aux cur s = (rev cur ++ x) :: rest.
Proof.
  rewrite split_aux_shift. pose proof (split_aux_nonempty [] s).
  destruct (split_lines_aux [] s) as [|h r]; [congruence|eauto].
Qed.

Lemma split_pad pad s : forall cur,
  split_lines_aux cur (repeat SP pad ++ s) = split_lines_aux (repeat SP pad ++ cur) s.
Proof.
  induction pad as [|p IH]; intros cur; [reflexivity|].
  cbn [repeat app split_lines_aux].
  change (SP =? CR) with false. change (SP =? LF) with false. cbv iota.
  rewrite IH. f_equal.
  clear. induction p as [|p IH]; [reflexivity|]. cbn [repeat app]. rewrite IH. reflexivity.
Qed.

(* the line in which a prefix ends is, in the whole text, a line that starts with the
   prefix's last (partial) line *)
Lemma split_prefix P : forall cur R,
  exists ll suffix,
    nth_error (split_lines_aux cur (P ++ R)) (length (split_lines_aux cur P) - 1) = Some ll /\
    ll = last (split_lines_aux cur P) [] ++ suffix.
Proof.
  induction P as [|c P' IHP IHP'] using list_ind_peek; intros cur R.
  { cbn [app split_lines_aux length Nat.sub last].
    destruct (split_aux_head cur R) as (x & rest & E). rewrite E. exists (rev cur ++ x), x.
    split; reflexivity. }
  (* a line is added in front: the index moves by one, the last line stays *)
  assert (Hstep : forall (h : list N) cur' Q T,
            (exists ll sfx, nth_error T (length (split_lines_aux cur' Q) - 1) = Some ll /\
                            ll = last (split_lines_aux cur' Q) [] ++ sfx) ->
            exists ll sfx, nth_error (h :: T) (length (h :: split_lines_aux cur' Q) - 1) = Some ll /\
                           ll = last (h :: split_lines_aux cur' Q) [] ++ sfx).
  { intros h cur' Q T (ll & sfx & H1 & H2). exists ll, sfx.
    rewrite last_cons_nonempty by apply split_aux_nonempty. split; [|exact H2].
    pose proof (split_aux_nonempty cur' Q) as Hne.
    destruct (split_lines_aux cur' Q) as [|x l]; [congruence|].
    replace (length (h :: x :: l) - 1)%nat with (S (length (x :: l) - 1)) by (cbn [length]; lia).
    exact H1. }
  cbn [app]. cbn [split_lines_aux].
  destruct (c =? CR) eqn:Ec.
  - destruct P' as [|d P'']; cbn [tl] in IHP'.
    + cbn [app length Nat.sub last].
      destruct R as [|d R']; [exists [], []; split; reflexivity|].
      destruct (d =? LF).
      * destruct (split_aux_head [] R') as (x & rest & E). rewrite E. exists x, x. split; reflexivity.
      * destruct (split_aux_head [] (d :: R')) as (x & rest & E). rewrite E. exists x, x. split; reflexivity.
    + cbn [app]. destruct (d =? LF); apply Hstep; [apply IHP'|apply (IHP [] R)].
  - destruct (c =? LF); [apply Hstep, IHP|apply IHP].
Qed.


Lemma chunks_concat_firstn : forall f s k, (length s <= f)%nat ->
  concat (firstn k (chunks f s)) = firstn (80 * k) s.
Proof.
  induction f as [|f IH]; intros s k Hf.
  - destruct s; [|cbn in Hf; lia]. cbn. destruct k; rewrite ?firstn_nil; reflexivity.
  - destruct s as [|c t].
    { cbn [chunks]. rewrite !firstn_nil. reflexivity. }
    remember (c :: t) as s eqn:Es.
    assert (Hch : chunks (S f) s = firstn 80 s :: chunks f (skipn 80 s)) by (rewrite Es; reflexivity).
    rewrite Hch. destruct k as [|k]; [reflexivity|].
    rewrite firstn_cons, concat_cons.
    rewrite IH by (rewrite skipn_length; subst s; cbn [length] in *; lia).
    replace (80 * S k)%nat with (80 + 80 * k)%nat by lia.
    symmetry. apply firstn_add.
Qed.

Lemma chunks_cons f c t :
  chunks (S f) (c :: t) = firstn 80 (c :: t) :: chunks f (skipn 80 (c :: t)).
Proof. reflexivity. Qed.

Lemma chunks_length : forall f s, (length s <= f)%nat ->
  (80 * length (chunks f s) < length s + 80 /\ length s <= 80 * length (chunks f s))%nat.
Proof.
  induction f as [|f IH]; intros s Hf.
  - destruct s; [cbn; lia|cbn in Hf; lia].
  - destruct s as [|c t]; [cbn; lia|].
    rewrite chunks_cons. remember (c :: t) as s eqn:Es.
    assert (Hs : (length (skipn 80 s) <= f)%nat) by (rewrite skipn_length; subst s; cbn [length] in *; lia).
    specialize (IH _ Hs). rewrite skipn_length in IH.
    assert (0 < length s)%nat by (subst s; cbn; lia).
    cbn [length]. lia.
Qed.

Lemma chunks_nth : forall f s k, (length s <= f)%nat -> (k < length (chunks f s))%nat ->
  nth_error (chunks f s) k = Some (firstn 80 (skipn (80 * k) s)).
Proof.
  induction f as [|f IH]; intros s k Hf Hk.
  - cbn in Hk. lia.
  - destruct s as [|c t]; [cbn in Hk; lia|].
    rewrite chunks_cons in *. remember (c :: t) as s eqn:Es.
    destruct k as [|k].
    + reflexivity.
    + cbn [nth_error length] in *.
      assert (Hs : (length (skipn 80 s) <= f)%nat) by (rewrite skipn_length; subst s; cbn [length] in *; lia).
      rewrite IH; [|exact Hs|lia].
      rewrite skipn_skipn'. replace (80 * S k)%nat with (80 + 80 * k)%nat by lia. reflexivity.
Qed.

Lemma slice_tail_firstn {A} (x : A) l k :
  x :: slice 1 (S k) (x :: l) = firstn (S k) (x :: l).
Proof. unfold slice. cbn [skipn firstn]. replace (S k - 1)%nat with k by lia. reflexivity. Qed.


Lemma guarded_spec g l i : (g = true -> (i < length l)%nat) ->
  guarded g l i = Some (if g then nth_error l i else None).
Proof.
  intros H. unfold guarded. destruct g; [|reflexivity].
  destruct (nth_error l i) eqn:E; [reflexivity|].
  apply nth_error_None in E. specialize (H eq_refl). lia.
Qed.

Theorem rows_short lines li ln cn ll :
  nth_error lines li = Some ll -> (length ll <= 120)%nat ->
  rows lines li ln cn =
  Some [(num_prefix (ln - 1), if (0 <? li)%nat then nth_error lines (li - 1) else None);
        (num_prefix ln, Some ll);
        (bar_prefix, Some (rjust cn [CARET]));
        (num_prefix (ln + 1), nth_error lines (li + 1))].
Proof.
  intros Hl Hs. unfold rows. rewrite Hl.
  assert (Hli : (li < length lines)%nat) by (apply nth_error_Some; congruence).
  destruct (Nat.ltb_spec 120 (length ll)); [lia|].
  rewrite !guarded_spec.
  - destruct (Nat.ltb_spec li (length lines - 1)); [reflexivity|].
    assert (nth_error lines (li + 1) = None) as -> by (apply nth_error_None; lia). reflexivity.
  - intros Hg. apply Nat.ltb_lt in Hg. lia.
  - intros Hg. apply Nat.ltb_lt in Hg. lia.
Qed.

Lemma sub_lines_cons ll : (0 < length ll)%nat ->
  sub_lines ll = firstn 80 ll :: chunks (length ll - 1) (skipn 80 ll).
Proof.
  destruct ll as [|c t]; [cbn; lia|]. intros _. unfold sub_lines.
  cbn [length]. rewrite chunks_cons. replace (S (length t) - 1)%nat with (length t) by lia. reflexivity.
Qed.

Theorem rows_long lines li ln cn ll :
  nth_error lines li = Some ll -> (120 < length ll)%nat ->
  let idx := (cn / 80)%nat in
  let mid := slice 1 (idx + 1) (sub_lines ll) in
  let nxt := if (idx + 1 <? length (sub_lines ll))%nat
             then Some (firstn 80 (skipn (80 * (idx + 1)) ll)) else None in
  rows lines li ln cn =
    Some ((num_prefix ln, Some (firstn 80 ll))
          :: map (fun s => (bar_prefix, Some s)) mid
          ++ [(bar_prefix, Some (rjust (cn mod 80) [CARET])); (bar_prefix, nxt)])
  /\ firstn 80 ll ++ concat mid = firstn (80 * (idx + 1)) ll.
Proof.
  intros Hl Hlong idx mid nxt. unfold rows. rewrite Hl.
  destruct (Nat.ltb_spec 120 (length ll)); [|lia].
  fold idx.
  pose proof (sub_lines_cons ll ltac:(lia)) as Hsub.
  pose proof (chunks_length (length ll) ll (le_n _)) as [Hc1 Hc2]. fold (sub_lines ll) in Hc1, Hc2.
  split.
  - assert (H0 : nth_error (sub_lines ll) 0 = Some (firstn 80 ll)) by (rewrite Hsub; reflexivity).
    rewrite H0.
    rewrite guarded_spec by (intros Hg; apply Nat.ltb_lt in Hg; lia).
    assert (Hn : (if (idx <? length (sub_lines ll) - 1)%nat then nth_error (sub_lines ll) (idx + 1) else None) = nxt).
    { subst nxt.
      destruct (Nat.ltb_spec idx (length (sub_lines ll) - 1)) as [Hi|Hi];
        destruct (Nat.ltb_spec (idx + 1) (length (sub_lines ll))) as [Hj|Hj]; try lia; [|reflexivity].
      unfold sub_lines. apply chunks_nth; [lia|exact Hj]. }
    rewrite Hn. reflexivity.
  - subst mid. rewrite Hsub. replace (idx + 1)%nat with (S idx) by lia.
    change (firstn 80 ll ++ concat (slice 1 (S idx) (firstn 80 ll :: chunks (length ll - 1) (skipn 80 ll))))
      with (concat (firstn 80 ll :: slice 1 (S idx) (firstn 80 ll :: chunks (length ll - 1) (skipn 80 ll)))).
    rewrite slice_tail_firstn. rewrite <- Hsub. unfold sub_lines.
    apply chunks_concat_firstn. lia.
Qed.


Theorem print_source_location_total name pad lineoff line column body :
  (1 <= line <= length (split_lines (repeat SP pad ++ body)))%nat ->
  exists t, print_source_location name pad lineoff line column body = Some t.
Proof.
  intros [H1 H2]. unfold print_source_location.
  destruct line as [|li]; [lia|].
  destruct (nth_error (split_lines (repeat SP pad ++ body)) li) as [ll|] eqn:E.
  2:{ apply nth_error_None in E. lia. }
  destruct (Nat.le_gt_cases (length ll) 120) as [Hs|Hlong].
  - rewrite (rows_short _ _ _ _ _ E Hs). eauto.
  - destruct (rows_long _ _ (S li + lineoff)%nat
                (column + (if (S li =? 1)%nat then pad else 0))%nat _ E Hlong) as [Hr _].
    cbv zeta in Hr. rewrite Hr. eauto.
Qed.


Theorem caret_column_is_location pad body pos :
  let line := fst (get_location body pos) in
  let col := snd (get_location body pos) in
  let cn := (col + (if (line =? 1)%nat then pad else 0))%nat in
  exists ll suffix,
    nth_error (split_lines (repeat SP pad ++ body)) (line - 1) = Some ll /\
    ll = ((if (line =? 1)%nat then repeat SP pad else []) ++ last (split_lines (firstn pos body)) []) ++ suffix /\
    (cn - 1 = length ((if (line =? 1)%nat then repeat SP pad else []) ++ last (split_lines (firstn pos body)) []))%nat.
Proof.
  cbv zeta. unfold get_location. cbn [fst snd].
  set (P := firstn pos body).
  assert (Hpad : split_lines (repeat SP pad ++ body) = split_lines_aux (repeat SP pad) body).
  { unfold split_lines. rewrite split_pad, app_nil_r. reflexivity. }
  rewrite Hpad.
  destruct (split_prefix P (repeat SP pad) (skipn pos body))
    as (ll & sfx & Hn & Hll).
  unfold P in Hn at 1. rewrite firstn_skipn in Hn. fold P in Hn.
  assert (Hlen : length (split_lines_aux (repeat SP pad) P) = length (split_lines P)).
  { unfold split_lines. rewrite !split_aux_length. reflexivity. }
  rewrite Hlen in Hn. exists ll, sfx. split; [exact Hn|].
  assert (Hlast : last (split_lines_aux (repeat SP pad) P) [] =
                  (if (length (split_lines P) =? 1)%nat then repeat SP pad else []) ++ last (split_lines P) []).
  { rewrite split_aux_shift. unfold split_lines.
    pose proof (split_aux_nonempty [] P) as Hne.
    destruct (split_lines_aux [] P) as [|h r]; [congruence|].
    rewrite rev_repeat. destruct r as [|h2 r].
    - reflexivity.
    - cbn [length Nat.eqb app]. reflexivity. }
  rewrite Hlast in Hll. split; [exact Hll|].
  rewrite app_length. destruct (length (split_lines P) =? 1)%nat; rewrite ?repeat_length; cbn [length]; lia.
Qed.
