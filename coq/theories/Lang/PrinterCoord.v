(* Schema coordinates: the printed coordinate is read back by the schema-coordinate lexer
   (Lexer.coord_token: names and the punctuators . ( ) : @, nothing ignored) as Unparse.tokens_of. *)
From GV Require Import Base.Prelude Lang.Lexer Lang.LexerProps Lang.StripProps Lang.Ast Lang.Parser Lang.Unparse
  Lang.Wf Lang.Printer Lang.PrinterProps.

Fixpoint cok (d : doc) : Prop :=
  match d with
  | [] => True
  | Gap _ :: _ => False
  | Lx k v lx :: r =>
    ((k = K_NAME /\ v = lx /\ is_name v = true /\ peek_is is_name_continue (flat r) = false) \/
     (v = [] /\ exists c, lx = [c] /\ coord_punct c = Some k)) /\ cok r
  end.

Lemma coord_punct_kind c k : coord_punct c = Some k -> (k =? K_EOF) = false /\ (k =? K_COMMENT) = false.
Proof.
  unfold coord_punct. repeat match goal with |- context [if ?b then _ else _] => destruct b end;
    intros H; inversion H; split; reflexivity.
Qed.

Lemma name_start_not_coord_punct c : is_name_start c = true -> coord_punct c = None.
Proof.
  intros H. apply name_start_range in H. unfold coord_punct.
  repeat match goal with |- context [?a =? ?b] => destruct (N.eqb_spec a b); [lia|] end. reflexivity.
Qed.

Lemma coord_items d : cok d -> forall fuel cu, (length (flat d) < fuel)%nat ->
  exists ts, lazy_loop coord_token fuel cu (flat d) = (ts, LEnd) /\ map sig ts = itoks d ++ [(K_EOF, [])].
Proof.
  induction d as [|i r IH]; intros H fuel cu Hf.
  - destruct fuel; [lia|]. cbn. eexists. split; reflexivity.
  - destruct i as [g|k v lx]; [destruct H|]. cbn [cok] in H. destruct H as [Hi Hr].
    change (flat (Lx k v lx :: r)) with (lx ++ flat r) in *.
    destruct fuel as [|f]; [lia|]. cbn [lazy_loop].
    destruct Hi as [(-> & <- & Hn & Hp)|(-> & c & -> & Hc)].
    + destruct v as [|c b]; [discriminate|]. cbn [is_name] in Hn. apply andb_true_iff in Hn as [Hc Hb].
      rewrite forallb_forall in Hb.
      assert (Hb' : Forall (fun x => is_name_continue x = true) b) by (apply Forall_forall; exact Hb).
      cbn [app coord_token]. rewrite (name_start_not_coord_punct c Hc), Hc, (span_app _ _ _ Hb' Hp).
      cbn [mk tkind]. change (K_NAME =? K_EOF) with false. change (K_NAME =? K_COMMENT) with false. cbv iota.
      match goal with |- context [lazy_loop coord_token f ?cu' (flat r)] =>
        destruct (IH Hr f cu') as (ts & E & Hs) end.
      { rewrite app_length in Hf. cbn [length] in Hf. lia. }
      rewrite E. eexists. split; [reflexivity|]. cbn [map]. rewrite Hs. reflexivity.
    + destruct (coord_punct_kind c k Hc) as [K1 K2]. cbn [app coord_token]. rewrite Hc.
      cbn [mk tkind]. rewrite K1, K2.
      match goal with |- context [lazy_loop coord_token f ?cu' (flat r)] =>
        destruct (IH Hr f cu') as (ts & E & Hs) end.
      { rewrite app_length in Hf. cbn [length] in Hf. lia. }
      rewrite E. eexists. split; [reflexivity|]. cbn [map]. rewrite Hs. reflexivity.
Qed.

Lemma coordinate_doc x : wf_coordinate x -> lex_ok x -> cok (pp_doc x) /\ itoks (pp_doc x) = toks_coordinate x.
Proof.
  intros W Hok.
  destruct W as [n [v]|n m [v] [w]|n m a [v] [w] [u]|n [v]|n a [v] [u]]; cbn in Hok.
  (* the names are not empty, so the printed pieces and their first characters compute *)
  all: repeat match goal with H : _ /\ _ |- _ => destruct H end.
  all: repeat match goal with H : is_name ?z = true |- _ =>
                let c := fresh "c" in let b := fresh "b" in
                destruct z as [|c b]; [discriminate|]; revert H end; intros.
  all: split; [|reflexivity]; cbn.
  (* every piece is a punctuator, or a name in front of a punctuator or of the end *)
  all: repeat split; auto 10.
  all: try (left; repeat split; auto; fail); try (right; split; [reflexivity|eexists; split; reflexivity]).
Qed.

Theorem print_coordinate_tokens x : wf_coordinate x -> lex_ok x ->
  exists ts, token_stream true (pp x) = Ok ts /\ map sig ts = tokens_of x ++ [(K_EOF, [])].
Proof.
  intros W Hok. destruct (coordinate_doc x W Hok) as [Hc Ht].
  destruct (coord_items (pp_doc x) Hc (S (length (flat (pp_doc x)))) init_cursor ltac:(lia)) as (ts & E & Hs).
  exists ts. unfold token_stream, pp. rewrite E. split; [reflexivity|].
  rewrite Hs, Ht. destruct W; reflexivity.
Qed.
