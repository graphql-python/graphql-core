(* print_string followed by the lexer's read_string gives the original text back. *)
From GV Require Import Base.Prelude Base.ListFacts Gen.Tables Gen.TableChecks Lang.Lexer Lang.LexerProps Lang.PrintString.

(* an escape table entry decodes to its character, whatever follows *)
Definition check_entry (e : N * list N) : bool :=
  let '(c, esc) := e in
  match esc with
  | [b0; x] =>
    (b0 =? 92) && negb (x =? 117) && match escaped_char x with Some v => v =? c | None => false end
  | [b0; u; a; b; d; f] =>
    (b0 =? 92) && (u =? 117) && negb (a =? 123) &&
    match hex4 [a; b; d; f] with Some code => (code =? c) && is_scalar code | None => false end
  | _ => false
  end.

Lemma check_entry_sound c esc : check_entry (c, esc) = true ->
  forall pos tail, read_escape pos (esc ++ tail) = Ok ([c], length esc).
Proof.
  unfold check_entry. intros H pos tail.
  destruct esc as [|b0 [|x [|a [|b [|d [|f [|g r]]]]]]]; try discriminate.
  - apply andb_true_iff in H as [H Hv]. apply andb_true_iff in H as [Hb Hx].
    apply negb_true_iff in Hx.
    unfold read_escape. cbn [tl app peek_is]. rewrite (N.eqb_sym 117 x), Hx.
    destruct (escaped_char x) as [v|]; [|discriminate]. apply N.eqb_eq in Hv. subst v. reflexivity.
  - apply andb_true_iff in H as [H Hc]. apply andb_true_iff in H as [H Ha].
    apply andb_true_iff in H as [Hb Hu]. apply negb_true_iff in Ha. apply N.eqb_eq in Hu. subst x.
    unfold read_escape. cbn [tl app peek_is skipn]. change (117 =? 117) with true. cbv iota.
    rewrite (N.eqb_sym 123 a), Ha.
    change (hex4 (a :: b :: d :: f :: tail)) with (hex4 [a; b; d; f]).
    destruct (hex4 [a; b; d; f]) as [code|]; [|discriminate].
    apply andb_true_iff in Hc as [Hc Hs]. apply N.eqb_eq in Hc. subst code. rewrite Hs. reflexivity.
Qed.

(* obligations on the regenerated table, re-checked by computation on every run *)
Lemma table_entries_ok :
  forallb (fun e => in_ranges print_string_passthrough (fst e) || check_entry e) print_string_tbl = true.
Proof. vm_compute. reflexivity. Qed.

(* passthrough characters are >= 32 and are neither the quote nor the backslash *)
Lemma passthrough_ok :
  forallb (fun r => (32 <=? fst r) && (fst r <=? snd r) &&
                    negb ((fst r <=? 34) && (34 <=? snd r)) && negb ((fst r <=? 92) && (92 <=? snd r)))
          print_string_passthrough = true.
Proof. vm_compute. reflexivity. Qed.

(* every code point below 256 that is not passed through has a table entry, and every code
   point from 256 on is passed through *)
Lemma table_covers_low :
  forallb (fun c => in_ranges print_string_passthrough c
                    || match lookup_tbl print_string_tbl c with Some _ => true | None => false end)
          (map N.of_nat (seq 0 256)) = true.
Proof. vm_compute. reflexivity. Qed.

Lemma passthrough_covers_high :
  existsb (fun r => (fst r <=? 256) && (1114111 <=? snd r)) print_string_passthrough = true.
Proof. vm_compute. reflexivity. Qed.

Lemma lookup_tbl_in t c e : lookup_tbl t c = Some e -> In (c, e) t.
Proof.
  induction t as [|[k v] r IH]; cbn; [discriminate|].
  destruct (N.eqb_spec k c) as [->|]; [intros H; inversion H; auto|auto].
Qed.

Lemma in_ranges_passthrough_props c : in_ranges print_string_passthrough c = true ->
  (32 <= c) /\ c <> 34 /\ c <> 92.
Proof.
  unfold in_ranges. intros H. apply existsb_exists in H as (r & Hin & Hr).
  pose proof passthrough_ok as P. rewrite forallb_forall in P. specialize (P r Hin).
  apply andb_true_iff in Hr as [H1 H2]. apply N.leb_le in H1, H2.
  apply andb_true_iff in P as [P P4]. apply andb_true_iff in P as [P P3].
  apply andb_true_iff in P as [P1 P2]. apply N.leb_le in P1, P2.
  apply negb_true_iff in P3, P4. apply andb_false_iff in P3, P4.
  split; [lia|]. split.
  - intros ->. destruct P3 as [P3|P3]; apply N.leb_gt in P3; lia.
  - intros ->. destruct P4 as [P4|P4]; apply N.leb_gt in P4; lia.
Qed.

(* a character that is printed escaped: its entry decodes back *)
Lemma print_char_escape c e :
  in_ranges print_string_passthrough c = false -> lookup_tbl print_string_tbl c = Some e ->
  check_entry (c, e) = true.
Proof.
  intros Hp Hl. apply lookup_tbl_in in Hl.
  pose proof table_entries_ok as T. rewrite forallb_forall in T. specialize (T _ Hl).
  cbn [fst] in T. rewrite Hp in T. exact T.
Qed.

Lemma not_passthrough_has_entry c : c <= 1114111 ->
  in_ranges print_string_passthrough c = false ->
  exists e, lookup_tbl print_string_tbl c = Some e.
Proof.
  intros Hc H.
  assert (Hlow : c < 256).
  { pose proof passthrough_covers_high as P. apply existsb_exists in P as (r & Hin & Hr).
    apply andb_true_iff in Hr as [H1 H2]. apply N.leb_le in H1, H2.
    destruct (N.ltb_spec c 256) as [|Hge]; [assumption|exfalso].
    assert (in_ranges print_string_passthrough c = true); [|congruence].
    unfold in_ranges. apply existsb_exists. exists r. split; [exact Hin|].
    apply andb_true_iff. split; apply N.leb_le; lia. }
  pose proof table_covers_low as T. rewrite forallb_forall in T.
  specialize (T c). rewrite H in T. cbn [orb] in T.
  assert (Hin : In c (map N.of_nat (seq 0 256))).
  { apply in_map_iff. exists (N.to_nat c). split; [apply N2Nat.id|]. apply in_seq. lia. }
  specialize (T Hin). destruct (lookup_tbl print_string_tbl c); [eauto|discriminate].
Qed.

Lemma scalar_le_max c : is_scalar c = true -> c <= 1114111.
Proof.
  unfold is_scalar. intros Hc. apply orb_true_iff in Hc as [Hc|Hc].
  - apply N.leb_le in Hc. lia.
  - apply andb_true_iff in Hc as [_ Hc]. apply N.leb_le in Hc. exact Hc.
Qed.

(* every accepted table entry starts with the backslash *)
Lemma check_entry_head c e : check_entry (c, e) = true -> exists x r, e = 92 :: x :: r.
Proof.
  unfold check_entry. destruct e as [|b0 [|x r]]; try discriminate. intros H.
  exists x, r. f_equal.
  destruct r as [|a [|b [|d [|g [|h r']]]]]; try discriminate;
    repeat (apply andb_true_iff in H as [H ?]); apply N.eqb_eq in H; exact H.
Qed.

(* the lexer's string loop reads back one printed character *)
Theorem read_printed (fuel : nat) : forall (s : list N) (pos : nat) (acc tail : list N),
  Forall (fun c => is_scalar c = true) s ->
  (length (print_string_body s ++ (34%N :: tail)) < fuel)%nat ->
  read_string_loop fuel pos acc (print_string_body s ++ 34 :: tail)
  = Ok ((pos + length (print_string_body s) + 1)%nat, rev acc ++ s, tail).
Proof.
  induction fuel as [|f IH]; intros s pos acc tail Hs Hf; [lia|].
  destruct s as [|c s'].
  - cbn. rewrite app_nil_r. f_equal. apply f_equal2; [apply f_equal2|reflexivity]; [lia|reflexivity].
  - inversion Hs as [|? ? Hc Hs']; subst.
    pose proof (scalar_le_max c Hc) as Hcp.
    unfold print_string_body in *. cbn [flat_map] in *.
    destruct (in_ranges print_string_passthrough c) eqn:Ep.
    + assert (Hpc : print_char c = [c]) by (unfold print_char; rewrite Ep; reflexivity).
      rewrite Hpc in *.
      apply in_ranges_passthrough_props in Ep as (H32 & H34 & H92).
      cbn [app] in *. cbn [read_string_loop].
      destruct (N.eqb_spec c 34); [congruence|]. destruct (N.eqb_spec c 92); [congruence|].
      assert ((c =? LF) || (c =? CR) = false) as ->.
      { apply orb_false_iff. split; apply N.eqb_neq; unfold LF, CR; lia. }
      rewrite Hc. rewrite IH; [|exact Hs'|cbn [length] in Hf; lia].
      f_equal. apply f_equal2; [apply f_equal2|reflexivity];
        [cbn [length app]; lia | cbn [rev]; rewrite <- app_assoc; reflexivity].
    + destruct (not_passthrough_has_entry c Hcp Ep) as [e He].
      assert (Hpc : print_char c = e) by (unfold print_char; rewrite Ep, He; reflexivity).
      rewrite Hpc in *.
      pose proof (print_char_escape c e Ep He) as Hce.
      destruct (check_entry_head c e Hce) as (x & r & ->).
      rewrite <- app_assoc. cbn [app read_string_loop].
      change (92 =? 34) with false. change (92 =? 92) with true. cbv iota.
      pose proof (check_entry_sound c (92 :: x :: r) Hce pos (flat_map print_char s' ++ 34 :: tail)) as Hre.
      cbn [app] in Hre. rewrite Hre.
      change (92 :: x :: r ++ flat_map print_char s' ++ 34 :: tail)
        with ((92 :: x :: r) ++ flat_map print_char s' ++ 34 :: tail).
      rewrite skipn_app_length.
      rewrite IH; [|exact Hs'|].
      * f_equal. apply f_equal2; [apply f_equal2|reflexivity];
          [cbn [app length]; rewrite !app_length; cbn [length]; lia
          | cbn [rev app]; rewrite <- app_assoc; reflexivity].
      * cbn [app length] in Hf. rewrite !app_length in Hf.
        rewrite app_length. cbn [length] in *. lia.
Qed.


Lemma print_char_head c : is_scalar c = true ->
  exists x r, print_char c = x :: r /\ x <> 34.
Proof.
  intros Hc. unfold print_char.
  destruct (in_ranges print_string_passthrough c) eqn:Hp.
  - exists c, []. split; [reflexivity|]. apply in_ranges_passthrough_props in Hp. tauto.
  - destruct (not_passthrough_has_entry c (scalar_le_max c Hc) Hp) as (e & He). rewrite He.
    destruct (check_entry_head c e (print_char_escape c e Hp He)) as (x & r & ->).
    exists 92, (x :: r). split; [reflexivity|discriminate].
Qed.

(* Lexing print_string's output, followed by anything (which must not begin with a quote when the
   string is empty: two quotes followed by a quote are the start of a block string), gives exactly one STRING
   token whose value is the text, spanning exactly the printed characters. *)
Theorem print_string_token (s rest : list N) (cu : cursor) :
  Forall (fun c => is_scalar c = true) s ->
  (s = [] -> hd_error rest <> Some 34) ->
  read_token cu (print_string s ++ rest) =
  Ok (mk K_STRING cu (cpos cu) (cpos cu + length (print_string s))%nat (Some s),
      mkCur (cpos cu + length (print_string s))%nat (cline cu) (cls cu), rest).
Proof.
  intros Hs Hq. unfold print_string. rewrite <- app_comm_cons, <- app_assoc. cbn [app].
  unfold read_token. cbn [skip_ignored].
  change (is_ws_ignored 34) with false. change (34 =? LF) with false. change (34 =? CR) with false.
  cbv iota. change (34 =? 35) with false. change (34 =? 34) with true. cbv iota.
  assert (Hst : starts2 34 34 (print_string_body s ++ 34 :: rest) = false).
  { destruct s as [|c s'].
    - cbn [print_string_body flat_map app starts2]. destruct rest as [|y rest']; [reflexivity|].
      change (34 =? 34) with true. cbn [andb].
      apply N.eqb_neq. intros ->. apply (Hq eq_refl). reflexivity.
    - inversion Hs as [|? ? Hc _]; subst.
      destruct (print_char_head c Hc) as (x & r & Ex & Hx).
      unfold print_string_body. cbn [flat_map]. rewrite Ex. cbn [app starts2].
      apply N.eqb_neq in Hx. rewrite Hx.
      destruct ((r ++ flat_map print_char s') ++ 34 :: rest); reflexivity. }
  rewrite Hst.
  rewrite (read_printed _ s (S (cpos cu)) [] rest Hs (Nat.lt_succ_diag_r _)).
  cbn [rev app length]. rewrite app_length. cbn [length].
  replace (S (cpos cu) + length (print_string_body s) + 1)%nat
    with (cpos cu + S (length (print_string_body s) + 1))%nat by lia.
  reflexivity.
Qed.

(* obligation on the regenerated escape table: no escape sequence contains a line feed *)
Lemma table_no_newline :
  forallb (fun e => negb (existsb (N.eqb 10) (snd e))) print_string_tbl = true.
Proof. vm_compute. reflexivity. Qed.

Lemma print_char_no_lf c : c <= 1114111 -> ~ In 10 (print_char c).
Proof.
  intros Hc. unfold print_char.
  destruct (in_ranges print_string_passthrough c) eqn:Hp.
  - apply in_ranges_passthrough_props in Hp. intros [H|[]]. lia.
  - destruct (not_passthrough_has_entry c Hc Hp) as (e & He). rewrite He.
    apply lookup_tbl_in in He.
    pose proof table_no_newline as T. rewrite forallb_forall in T. specialize (T _ He).
    cbn [snd] in T. apply negb_true_iff in T. intros Hin.
    assert (existsb (N.eqb 10) e = true); [|congruence].
    apply existsb_exists. exists 10. split; [exact Hin|reflexivity].
Qed.

Lemma print_string_no_lf s : Forall (fun c => is_scalar c = true) s -> ~ In 10 (print_string s).
Proof.
  intros Hs. unfold print_string. intros [H|H]; [discriminate|].
  apply in_app_iff in H as [H|[H|[]]]; [|discriminate].
  unfold print_string_body in H. apply in_flat_map in H as (c & Hc & Hin).
  rewrite Forall_forall in Hs. exact (print_char_no_lf c (scalar_le_max c (Hs c Hc)) Hin).
Qed.
