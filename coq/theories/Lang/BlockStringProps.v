(* Proofs about the block-string printer model and the lexer's block-string denotation. *)
From GV Require Import Base.Prelude Base.ListFacts Lang.Location Lang.Lexer Lang.LexerProps Lang.BlockString.

(* split at LF only *)
Fixpoint split_lf (s : list N) : list (list N) :=
  match s with
  | [] => [[]]
  | c :: t =>
    if c =? LF then [] :: split_lf t
    else match split_lf t with l :: r => (c :: l) :: r | [] => [[c]] end
  end.

Lemma split_lf_ne s : split_lf s <> [].
Proof.
  destruct s as [|c t]; cbn; [discriminate|].
  destruct (c =? LF); [discriminate|]. destruct (split_lf t); discriminate.
Qed.

Lemma join_lf_cons l ls : ls <> [] -> join_lf (l :: ls) = l ++ LF :: join_lf ls.
Proof. destruct ls; [congruence|reflexivity]. Qed.

Lemma join_lf_flat l ls : join_lf (l :: ls) = l ++ flat_map (fun y => LF :: y) ls.
Proof.
  revert l; induction ls as [|m ls IH]; intros l.
  - cbn. rewrite app_nil_r. reflexivity.
  - rewrite join_lf_cons by discriminate. rewrite IH. reflexivity.
Qed.

Lemma join_split s : join_lf (split_lf s) = s.
Proof.
  induction s as [|c t IH]; [reflexivity|]. cbn [split_lf].
  destruct (N.eqb_spec c LF) as [->|Hc].
  - rewrite join_lf_cons by apply split_lf_ne. rewrite IH. reflexivity.
  - destruct (split_lf t) as [|l r] eqn:E; [exfalso; eapply split_lf_ne; eauto|].
    rewrite !join_lf_flat in *. cbn. rewrite IH. reflexivity.
Qed.

Definition nolf (l : list N) : Prop := Forall (fun c => (c =? LF) = false) l.

Lemma split_lf_nolf_line l : nolf l -> split_lf l = [l].
Proof.
  induction 1 as [|c t Hc Ht IH]; [reflexivity|]. cbn [split_lf]. rewrite Hc, IH. reflexivity.
Qed.

Lemma split_lf_app_lf a b : nolf a -> split_lf (a ++ LF :: b) = a :: split_lf b.
Proof.
  induction 1 as [|c t Hc Ht IH]; [reflexivity|]. cbn [app split_lf]. rewrite Hc, IH. reflexivity.
Qed.

Lemma split_join ls : ls <> [] -> Forall nolf ls -> split_lf (join_lf ls) = ls.
Proof.
  induction ls as [|l ls IH]; [congruence|]. intros _ H. inversion H as [|? ? Hl Hls]; subst.
  destruct ls as [|m ls'].
  - cbn. apply split_lf_nolf_line. exact Hl.
  - rewrite join_lf_cons by discriminate. rewrite split_lf_app_lf by exact Hl.
    rewrite IH; [reflexivity|discriminate|exact Hls].
Qed.

(* the lines keep every property of the characters, and contain no LF *)
Lemma split_lf_forall (Q : N -> Prop) s : Forall Q s ->
  Forall (Forall (fun c => Q c /\ (c =? LF) = false)) (split_lf s).
Proof.
  induction 1 as [|c t Hc Ht IH]; [repeat constructor|]. cbn [split_lf].
  destruct (c =? LF) eqn:E; [constructor; [constructor|exact IH]|].
  destruct (split_lf t) as [|l r]; [repeat constructor; assumption|].
  inversion IH; subst. constructor; [constructor; [split|]; assumption|assumption].
Qed.

Lemma split_lf_lines_nolf s : Forall nolf (split_lf s).
Proof.
  assert (H : Forall (fun _ => True) s) by (apply Forall_forall; intros; exact I).
  eapply Forall_impl; [|exact (split_lf_forall _ s H)]. intros l. apply Forall_impl. intros c [_ Hc]. exact Hc.
Qed.

(* the regex split of Location.v is the LF split on CR-free text *)
Lemma has_cr_false v : has_cr v = false <-> Forall (fun c => (c =? CR) = false) v.
Proof.
  unfold has_cr. induction v as [|c t IH]; cbn [existsb]; [split; [constructor|reflexivity]|].
  rewrite orb_false_iff, IH, (N.eqb_sym CR c). split.
  - intros [H1 H2]. constructor; assumption.
  - intros H. inversion H; subst. split; assumption.
Qed.

Lemma split_lines_aux_lf s : has_cr s = false -> forall cur,
  split_lines_aux cur s =
  match split_lf s with l :: r => (rev cur ++ l) :: r | [] => [rev cur] end.
Proof.
  intros H. apply has_cr_false in H.
  induction H as [|c t Hc Ht IH]; intros cur; [cbn; rewrite app_nil_r; reflexivity|].
  cbn [split_lines_aux split_lf]. rewrite Hc.
  destruct (c =? LF).
  - rewrite IH. cbn [rev app]. rewrite app_nil_r.
    destruct (split_lf t) as [|l r] eqn:E; [exfalso; eapply split_lf_ne; eauto|reflexivity].
  - rewrite IH. destruct (split_lf t) as [|l r]; cbn [rev]; rewrite <- ?app_assoc; reflexivity.
Qed.

Lemma split_lines_lf s : has_cr s = false -> split_lines s = split_lf s.
Proof.
  intros H. unfold split_lines. rewrite split_lines_aux_lf by exact H.
  destruct (split_lf s) eqn:E; [exfalso; eapply split_lf_ne; eauto|reflexivity].
Qed.

Lemma esc_triple t : escape_tq (34 :: 34 :: 34 :: t) = 92 :: 34 :: 34 :: 34 :: escape_tq t.
Proof. reflexivity. Qed.

Lemma esc_notriple c t : starts3 34 34 34 (c :: t) = false -> escape_tq (c :: t) = c :: escape_tq t.
Proof.
  destruct t as [|d [|e t3]]; try reflexivity. cbn [starts3]. intros H.
  cbn [escape_tq]. rewrite H. reflexivity.
Qed.

Lemma starts3_head c r : (c =? 34) = false -> starts3 34 34 34 (c :: r) = false.
Proof. intros H. destruct r as [|d [|e r']]; cbn; rewrite ?H; reflexivity. Qed.

Lemma esc_nonquote c t : (c =? 34) = false -> escape_tq (c :: t) = c :: escape_tq t.
Proof. intros H. apply esc_notriple, starts3_head, H. Qed.

Lemma starts3_true s : starts3 34 34 34 s = true -> exists t, s = 34 :: 34 :: 34 :: t.
Proof. apply starts3_inv. Qed.

Lemma esc_ind (P : list N -> Prop) :
  P [] -> (forall t, P t -> P (34 :: 34 :: 34 :: t)) ->
  (forall c t, starts3 34 34 34 (c :: t) = false -> P t -> P (c :: t)) ->
  forall s, P s.
Proof.
  intros H0 H3 H1 s.
  assert (G : forall n s, (length s <= n)%nat -> P s).
  { induction n as [|n IH]; intros s' Hs.
    - destruct s'; [exact H0|cbn in Hs; lia].
    - destruct s' as [|c t]; [exact H0|].
      destruct (starts3 34 34 34 (c :: t)) eqn:E.
      + apply starts3_true in E as (t' & E). rewrite E. apply H3. apply IH.
        inversion E; subst. cbn in Hs. lia.
      + apply H1; [exact E|]. apply IH. cbn in Hs. lia. }
  apply (G (length s)). lia.
Qed.

Lemma esc_head_cases t :
  t = [] \/
  (exists t3, t = 34 :: 34 :: 34 :: t3) \/
  (exists d t', t = d :: t' /\ starts3 34 34 34 t = false /\ escape_tq t = d :: escape_tq t').
Proof.
  destruct t as [|d t']; [left; reflexivity|right].
  destruct (starts3 34 34 34 (d :: t')) eqn:E.
  - left. apply starts3_true in E. exact E.
  - right. exists d, t'. split; [reflexivity|]. split; [reflexivity|apply esc_notriple, E].
Qed.

(* a line feed after fewer than three characters does not complete a triple quote *)
Lemma starts3_app_lf c t b :
  starts3 34 34 34 (c :: t) = false -> starts3 34 34 34 (c :: t ++ LF :: b) = false.
Proof.
  intros H3. destruct t as [|d [|e t3]]; cbn [app].
  - destruct b; cbn; [reflexivity|destruct (c =? 34); reflexivity].
  - cbn. destruct (c =? 34), (d =? 34); reflexivity.
  - exact H3.
Qed.

Lemma esc_app_lf a b : escape_tq (a ++ LF :: b) = escape_tq a ++ LF :: escape_tq b.
Proof.
  induction a as [|t IH|c t H3 IH] using esc_ind.
  - cbn [app]. apply esc_nonquote. reflexivity.
  - cbn [app]. rewrite !esc_triple, IH. reflexivity.
  - cbn [app]. rewrite (esc_notriple c t H3), esc_notriple, IH; [reflexivity|].
    apply starts3_app_lf, H3.
Qed.

Lemma esc_forall (Q : N -> Prop) s : Q 92 -> Forall Q s -> Forall Q (escape_tq s).
Proof.
  intros Hq. induction s as [|t IH|c t H3 IH] using esc_ind; intros H.
  - constructor.
  - rewrite esc_triple. inversion H as [|? ? Ha H']; subst. inversion H' as [|? ? Hb H'']; subst.
    inversion H'' as [|? ? Hc Ht]; subst. repeat (constructor; [assumption|]). apply IH, Ht.
  - rewrite esc_notriple by exact H3. inversion H; subst. constructor; [assumption|apply IH; assumption].
Qed.

Lemma esc_nil_inv s : escape_tq s = [] -> s = [].
Proof.
  destruct (esc_head_cases s) as [->|[(t3 & ->)|(d & t' & -> & _ & E)]]; [reflexivity| |];
    [rewrite esc_triple|rewrite E]; discriminate.
Qed.

Lemma esc_length s : (length s <= length (escape_tq s))%nat.
Proof.
  induction s as [|t IH|c t H3 IH] using esc_ind; [cbn; lia| |].
  - rewrite esc_triple. cbn [length]. lia.
  - rewrite esc_notriple by exact H3. cbn [length]. lia.
Qed.

Definition blanks (p : list N) : Prop := Forall (fun c => is_blank_char c = true) p.

Lemma blank_props c : is_blank_char c = true ->
  (c =? 34) = false /\ (c =? 92) = false /\ (c =? LF) = false /\ (c =? CR) = false /\ is_scalar c = true.
Proof.
  unfold is_blank_char. intros H. apply orb_true_iff in H as [H|H]; apply N.eqb_eq in H; subst;
    repeat split; reflexivity.
Qed.

Lemma esc_blank_prefix p l : blanks p -> escape_tq (p ++ l) = p ++ escape_tq l.
Proof.
  induction 1 as [|c t Hc Ht IH]; [reflexivity|]. cbn [app].
  rewrite esc_nonquote by (apply blank_props, Hc). rewrite IH. reflexivity.
Qed.

Lemma esc_join ls : escape_tq (join_lf ls) = join_lf (map escape_tq ls).
Proof.
  induction ls as [|l ls IH]; [reflexivity|]. destruct ls as [|m ls']; [reflexivity|].
  cbn [map]. rewrite (join_lf_cons l), (join_lf_cons (escape_tq l)) by discriminate.
  rewrite esc_app_lf, IH. reflexivity.
Qed.

(* after the greedy scan for triple quotes, the text does not end in a bare quote or a backslash *)
Fixpoint safe_end (s : list N) : bool :=
  match s with
  | [] => true
  | c :: t =>
    match t with
    | d :: e :: t3 => if (c =? 34) && (d =? 34) && (e =? 34) then safe_end t3 else safe_end t
    | [] => negb (c =? 34) && negb (c =? 92)
    | _ => safe_end t
    end
  end.

Lemma safe_end_triple t : safe_end (34 :: 34 :: 34 :: t) = safe_end t.
Proof. reflexivity. Qed.

Lemma safe_end_step c t : starts3 34 34 34 (c :: t) = false -> t <> [] -> safe_end (c :: t) = safe_end t.
Proof.
  destruct t as [|d [|e t3]]; [congruence|reflexivity|]. cbn [starts3]. intros H _.
  cbn [safe_end]. rewrite H. reflexivity.
Qed.

Definition plain (c : N) : Prop := (c =? LF) = false /\ (c =? CR) = false /\ is_scalar c = true.

Definition tail_ok (l T : list N) : Prop := safe_end l = true \/ peek_is (N.eqb 34) T = false.

Lemma tail_ok_triple t T : tail_ok (34 :: 34 :: 34 :: t) T -> tail_ok t T.
Proof. intros [H|H]; [left; exact H|right; exact H]. Qed.

Lemma tail_ok_tl c t T : starts3 34 34 34 (c :: t) = false -> tail_ok (c :: t) T -> tail_ok t T.
Proof.
  intros H3 [H|H]; [|right; exact H]. left.
  destruct t as [|d t']; [reflexivity|]. rewrite safe_end_step in H; [exact H|exact H3|discriminate].
Qed.

Lemma peek_no_starts3 T : peek_is (N.eqb 34) T = false -> starts3 34 34 34 T = false.
Proof.
  destruct T as [|x T']; [reflexivity|]. cbn [peek_is]. intros H. apply starts3_head.
  rewrite N.eqb_sym. exact H.
Qed.

Lemma starts3_34 r : starts3 34 34 34 (34 :: r) = starts2 34 34 r.
Proof. destruct r as [|a [|b r']]; reflexivity. Qed.

Lemma starts2_head c r : (c =? 34) = false -> starts2 34 34 (c :: r) = false.
Proof. intros H. destruct r as [|d r']; cbn; rewrite ?H; reflexivity. Qed.

Lemma starts2_34 r : starts2 34 34 (34 :: r) = peek_is (N.eqb 34) r.
Proof.
  destruct r as [|a r']; [reflexivity|]. cbn [starts2 peek_is].
  change (34 =? 34) with true. rewrite andb_true_l. apply N.eqb_sym.
Qed.

(* no closing delimiter is seen at a character that does not start a triple *)
Lemma look_i c t T : starts3 34 34 34 (c :: t) = false -> tail_ok (c :: t) T ->
  starts3 34 34 34 (c :: escape_tq t ++ T) = false.
Proof.
  intros H3 Hok. destruct (c =? 34) eqn:Ec; [|apply starts3_head, Ec].
  apply N.eqb_eq in Ec. subst c. rewrite starts3_34 in *.
  destruct (esc_head_cases t) as [->|[(t3 & ->)|(d & t' & -> & H3t & E)]].
  - cbn [escape_tq app]. destruct Hok as [H|H]; [discriminate|].
    destruct T as [|x T']; [reflexivity|]. apply starts2_head. cbn in H. rewrite N.eqb_sym. exact H.
  - reflexivity.
  - rewrite E. cbn [app]. destruct (d =? 34) eqn:Ed; [|apply starts2_head, Ed].
    apply N.eqb_eq in Ed. subst d. rewrite starts2_34 in *.
    destruct (esc_head_cases t') as [->|[(t3 & ->)|(e & t'' & -> & H3t' & E')]].
    + cbn [escape_tq app]. destruct Hok as [H|H]; [discriminate|exact H].
    + reflexivity.
    + rewrite E'. cbn [app peek_is]. cbn [peek_is] in H3. exact H3.
Qed.

(* hence the escaped text, followed by T, never shows a triple quote at a position of the value *)
Lemma esc_no_triple t T : t <> [] -> tail_ok t T -> starts3 34 34 34 (escape_tq t ++ T) = false.
Proof.
  intros Ht Hok. destruct (esc_head_cases t) as [->|[(t3 & ->)|(d & t' & -> & H3 & E)]]; [congruence|reflexivity|].
  rewrite E. apply look_i; assumption.
Qed.

(* no escape (backslash + triple quote) is seen at a backslash of the value *)
Lemma look_ii c t T : tail_ok (c :: t) T ->
  (c =? 92) && starts3 34 34 34 (escape_tq t ++ T) = false.
Proof.
  intros Hok. destruct (c =? 92) eqn:Ec; [|reflexivity]. cbn [andb].
  assert (H3 : starts3 34 34 34 (c :: t) = false).
  { apply starts3_head. apply N.eqb_eq in Ec. subst c. reflexivity. }
  destruct t as [|d t'].
  - apply N.eqb_eq in Ec. subst c. destruct Hok as [H|H]; [discriminate|]. apply peek_no_starts3, H.
  - apply esc_no_triple; [discriminate|]. exact (tail_ok_tl c _ T H3 Hok).
Qed.

Lemma loop_step_esc f pos ls cur lines r :
  read_block_loop (S f) pos ls cur lines (92 :: 34 :: 34 :: 34 :: r)
  = read_block_loop f (pos + 4) ls (34 :: 34 :: 34 :: cur) lines r.
Proof. reflexivity. Qed.

Lemma loop_step_char f pos ls cur lines c r : plain c ->
  starts3 34 34 34 (c :: r) = false -> (c =? 92) && starts3 34 34 34 r = false ->
  read_block_loop (S f) pos ls cur lines (c :: r) = read_block_loop f (S pos) ls (c :: cur) lines r.
Proof.
  intros (Hl & Hc & Hs) H1 H2. cbn [read_block_loop]. rewrite H1, H2, Hl, Hc, Hs. reflexivity.
Qed.

Lemma loop_step_lf f pos ls cur lines r :
  read_block_loop (S f) pos ls cur lines (LF :: r)
  = read_block_loop f (S pos) (S pos) [] (rev cur :: lines) r.
Proof. destruct r as [|a [|b r']]; reflexivity. Qed.

Lemma loop_close f pos ls cur lines rest :
  read_block_loop (S f) pos ls cur lines (34 :: 34 :: 34 :: rest)
  = Ok ((pos + 3)%nat, rev (rev cur :: lines), ls, rest).
Proof. reflexivity. Qed.

Lemma leading_ws_prefix p l : blanks p -> leading_ws (p ++ l) = (length p + leading_ws l)%nat.
Proof.
  induction 1 as [|c t Hc Ht IH]; [reflexivity|]. cbn [app leading_ws length]. rewrite Hc, IH. reflexivity.
Qed.

Lemma line_blank_prefix p l : blanks p -> line_blank (p ++ l) = line_blank l.
Proof.
  intros H. unfold line_blank. rewrite leading_ws_prefix by exact H. rewrite app_length.
  destruct (Nat.eqb_spec (leading_ws l) (length l)) as [E|E].
  - apply Nat.eqb_eq. lia.
  - apply Nat.eqb_neq. lia.
Qed.

Lemma ci_pad p T : blanks p ->
  common_indent (map (app p) T) = option_map (Nat.add (length p)) (common_indent T).
Proof.
  intros Hp. induction T as [|l T IH]; [reflexivity|]. cbn [map common_indent].
  rewrite line_blank_prefix by exact Hp. rewrite IH.
  destruct (line_blank l); [reflexivity|].
  rewrite leading_ws_prefix by exact Hp.
  destruct (common_indent T) as [k|]; cbn [option_map]; [|reflexivity].
  f_equal. lia.
Qed.

Lemma ci_zero T : existsb zero_indent_line T = true -> common_indent T = Some 0%nat.
Proof.
  induction T as [|l T IH]; [discriminate|]. cbn [existsb common_indent]. intros H.
  apply orb_true_iff in H as [H|H].
  - unfold zero_indent_line in H. apply andb_true_iff in H as [Hb Hz].
    apply negb_true_iff in Hb. apply Nat.eqb_eq in Hz. rewrite Hb, Hz.
    destruct (common_indent T); reflexivity.
  - rewrite (IH H). destruct (line_blank l); [reflexivity|]. rewrite Nat.min_0_r. reflexivity.
Qed.

Definition all_empty (T : list (list N)) : Prop := Forall (fun l => l = []) T.

Lemma ci_all_empty T : all_empty T -> common_indent T = None.
Proof.
  induction 1 as [|l T Hl HT IH]; [reflexivity|]. subst l. cbn [common_indent]. rewrite IH. reflexivity.
Qed.

Lemma ded_tail p T : blanks p ->
  existsb zero_indent_line T = true \/ all_empty T ->
  map (fun l => match common_indent (map (app p) T) with Some k => skipn k l | None => [] end)
      (map (app p) T) = T.
Proof.
  intros Hp H. rewrite ci_pad by exact Hp. destruct H as [H|H].
  - rewrite (ci_zero T H). cbn [option_map]. rewrite Nat.add_0_r.
    rewrite map_map. rewrite <- (map_id T) at 2. apply map_ext. intros l. apply skipn_app_length.
  - rewrite (ci_all_empty T H). cbn [option_map]. rewrite map_map.
    induction H as [|l T Hl HT IH]; [reflexivity|]. cbn [map]. rewrite IH. subst l. reflexivity.
Qed.

Definition trim (X : list (list N)) : list (list N) :=
  rev (drop_while_blank (rev (drop_while_blank X))).

Lemma dedent_indented p X : X <> [] -> blanks p ->
  existsb zero_indent_line (tl X) = true \/ all_empty (tl X) ->
  dedent (hd [] X :: map (app p) (tl X)) = trim X.
Proof.
  intros HX Hp H. destruct X as [|x T]; [congruence|]. cbn [hd tl] in *.
  unfold dedent. rewrite ded_tail by assumption. reflexivity.
Qed.

Definition all_blank (A : list (list N)) : Prop := Forall (fun l => line_blank l = true) A.

Lemma dwb_blank_prefix A B : all_blank A -> drop_while_blank (A ++ B) = drop_while_blank B.
Proof. induction 1 as [|l A Hl HA IH]; [reflexivity|]. cbn [app drop_while_blank]. rewrite Hl. exact IH. Qed.

Lemma dwb_nonblank b B : line_blank b = false -> drop_while_blank (b :: B) = b :: B.
Proof. intros H. cbn [drop_while_blank]. rewrite H. reflexivity. Qed.

Lemma all_blank_rev A : all_blank A -> all_blank (rev A).
Proof. unfold all_blank. intros H. apply Forall_rev. exact H. Qed.

Lemma trim_eq pre L post : all_blank pre -> all_blank post -> L <> [] ->
  line_blank (hd [] L) = false -> line_blank (last L []) = false ->
  trim (pre ++ L ++ post) = L.
Proof.
  intros Hpre Hpost HL Hh Hl. unfold trim.
  rewrite dwb_blank_prefix by exact Hpre.
  destruct L as [|l0 L']; [congruence|]. cbn [hd] in Hh.
  cbn [app]. rewrite dwb_nonblank by exact Hh.
  change (l0 :: L' ++ post) with ((l0 :: L') ++ post). rewrite rev_app_distr.
  rewrite dwb_blank_prefix by (apply all_blank_rev, Hpost).
  destruct (exists_last HL) as (L0 & z & E). rewrite E in *. rewrite last_last in Hl.
  rewrite rev_app_distr. cbn [rev app]. rewrite dwb_nonblank by exact Hl.
  change (z :: rev L0) with (rev [z] ++ rev L0). rewrite <- rev_app_distr. apply rev_involutive.
Qed.

Lemma nolf_esc l : nolf l -> nolf (escape_tq l).
Proof. apply esc_forall. reflexivity. Qed.

Lemma split_lf_esc s : split_lf (escape_tq s) = map escape_tq (split_lf s).
Proof.
  rewrite <- (join_split s) at 1. rewrite esc_join. apply split_join.
  - intros E. apply map_eq_nil in E. eapply split_lf_ne; eauto.
  - apply Forall_forall. intros x Hx. apply in_map_iff in Hx as (l & <- & Hl).
    apply nolf_esc. pose proof (split_lf_lines_nolf s) as H. rewrite Forall_forall in H. apply H, Hl.
Qed.

Lemma has_cr_esc v : has_cr v = false -> has_cr (escape_tq v) = false.
Proof. rewrite !has_cr_false. apply esc_forall. reflexivity. Qed.

Lemma eobs_esc l : empty_or_blank_start (escape_tq l) = empty_or_blank_start l.
Proof.
  destruct (esc_head_cases l) as [->|[(t3 & ->)|(d & t' & -> & _ & E)]];
    [reflexivity|reflexivity|rewrite E; reflexivity].
Qed.

Definition fl (v : list N) : bool :=
  Nat.ltb 1 (length (split_lf v)) && forallb empty_or_blank_start (tl (split_lf v)).
Definition httq (v : list N) : bool := ends_with [92; 34; 34; 34] (escape_tq v).
Definition ft (v : list N) : bool := (ends_with [34] v && negb (httq v)) || ends_with [92] v.
Definition single (v : list N) : bool := Nat.eqb (length (split_lf v)) 1.
Definition pm (v : list N) (m : bool) : bool :=
  negb m && (negb (single v) || Nat.ltb 70 (length v) || ft v || fl v || httq v).
Definition before_b (v : list N) (m : bool) : bool :=
  (pm v m && negb (single v && starts_blank v)) || fl v.
Definition after_b (v : list N) (m : bool) : bool := pm v m || ft v.

Lemma print_eq v m : has_cr v = false ->
  print_block_string v m
  = TQ ++ (if before_b v m then [LF] else []) ++ escape_tq v ++ (if after_b v m then [LF] else []) ++ TQ.
Proof.
  intros H. unfold print_block_string. cbv zeta.
  rewrite (split_lines_lf _ (has_cr_esc v H)), split_lf_esc, map_length, tl_map.
  rewrite (forallb_map_ext escape_tq empty_or_blank_start empty_or_blank_start _ eobs_esc).
  reflexivity.
Qed.

(* the trailing-quote / trailing-backslash rule is exactly safe_end *)
Lemma ends_with_cons suf c t :
  ends_with suf (c :: t) = nat_list_eqb suf (c :: t) || ends_with suf t.
Proof. reflexivity. Qed.

Lemma nle_cons a s c t : nat_list_eqb (a :: s) (c :: t) = (a =? c) && nat_list_eqb s t.
Proof. reflexivity. Qed.

Lemma ew1_cons x c t : t <> [] -> ends_with [x] (c :: t) = ends_with [x] t.
Proof.
  intros H. cbn [ends_with nat_list_eqb]. destruct t as [|d t']; [congruence|].
  rewrite andb_false_r. reflexivity.
Qed.

Lemma esc_not_3q t : nat_list_eqb [34; 34; 34] (escape_tq t) = false.
Proof.
  destruct (nat_list_eqb [34; 34; 34] (escape_tq t)) eqn:E; [exfalso|reflexivity].
  apply nat_list_eqb_eq in E. destruct t as [|c t']; [discriminate|].
  pose proof (esc_no_triple (c :: t') [] ltac:(discriminate) (or_intror eq_refl)) as H.
  rewrite app_nil_r, <- E in H. discriminate.
Qed.

Lemma ew_tq4_triple E : E <> [] ->
  ends_with [92; 34; 34; 34] (92 :: 34 :: 34 :: 34 :: E) = ends_with [92; 34; 34; 34] E.
Proof. destruct E; [congruence|]. intros _. reflexivity. Qed.

Lemma safe_end_ft v : safe_end v = negb (ft v).
Proof.
  induction v as [|t IH|c t H3 IH] using esc_ind.
  - reflexivity.
  - destruct t as [|x t']; [reflexivity|]. rewrite safe_end_triple, IH. f_equal.
    unfold ft, httq. rewrite esc_triple.
    rewrite !(ew1_cons _ 34) by discriminate.
    rewrite ew_tq4_triple; [reflexivity|]. intros E. apply esc_nil_inv in E. discriminate.
  - destruct t as [|x t'].
    + unfold ft, httq. cbn [escape_tq safe_end ends_with nat_list_eqb].
      rewrite !andb_true_r, !orb_false_r, !andb_false_r, andb_true_r.
      rewrite (N.eqb_sym 34 c), (N.eqb_sym 92 c). rewrite negb_orb. reflexivity.
    + rewrite safe_end_step by (exact H3 || discriminate). rewrite IH. f_equal.
      unfold ft, httq. rewrite (esc_notriple c _ H3).
      rewrite !(ew1_cons _ c) by discriminate.
      rewrite (ends_with_cons _ c), nle_cons, esc_not_3q, andb_false_r. reflexivity.
Qed.

Lemma safe_end_app_lf a b : safe_end (a ++ LF :: b) = safe_end b.
Proof.
  induction a as [|t IH|c t H3 IH] using esc_ind.
  - cbn [app]. destruct b as [|d b']; [reflexivity|]. apply safe_end_step; [|discriminate].
    apply starts3_head. reflexivity.
  - cbn [app]. rewrite safe_end_triple. exact IH.
  - cbn [app]. rewrite safe_end_step; [exact IH|apply starts3_app_lf, H3|destruct t; discriminate].
Qed.

Lemma safe_end_join L : L <> [] -> safe_end (join_lf L) = safe_end (last L []).
Proof.
  induction L as [|l L IH]; [congruence|]. intros _. destruct L as [|m L']; [reflexivity|].
  rewrite join_lf_cons by discriminate. rewrite safe_end_app_lf. rewrite IH by discriminate. reflexivity.
Qed.

Lemma safe_end_last_line v : safe_end (last (split_lf v) []) = safe_end v.
Proof. rewrite <- safe_end_join by apply split_lf_ne. rewrite join_split. reflexivity. Qed.

Lemma safe_end_blank_prefix p l : blanks p -> safe_end (p ++ l) = safe_end l.
Proof.
  induction 1 as [|c t Hc Ht IH]; [reflexivity|]. cbn [app].
  destruct (blank_props c Hc) as (H34 & H92 & _).
  destruct (t ++ l) as [|d r] eqn:E.
  - apply app_eq_nil in E as [-> ->]. cbn. rewrite H34, H92. reflexivity.
  - rewrite safe_end_step; [exact IH|apply starts3_head, H34|discriminate].
Qed.

Lemma zil_not_eobs l : zero_indent_line l = true -> empty_or_blank_start l = false.
Proof.
  unfold zero_indent_line, line_blank. destruct l as [|c t]; [discriminate|].
  cbn [leading_ws empty_or_blank_start]. destruct (is_blank_char c); [|reflexivity].
  rewrite andb_false_r. discriminate.
Qed.

Lemma not_eobs_zil l : empty_or_blank_start l = false -> zero_indent_line l = true.
Proof.
  unfold zero_indent_line, line_blank. destruct l as [|c t]; [discriminate|].
  cbn [leading_ws empty_or_blank_start length]. intros ->. reflexivity.
Qed.

Lemma existsb_forallb_contra {A} (f g : A -> bool) l :
  (forall x, g x = true -> f x = false) -> existsb g l = true -> forallb f l = true -> False.
Proof.
  intros H. induction l as [|x l IH]; [discriminate|]. cbn. intros E F.
  apply andb_true_iff in F as [F1 F2]. apply orb_true_iff in E as [E|E]; [|auto].
  rewrite (H x E) in F1. discriminate.
Qed.

Lemma range_unpack v : in_block_range v = true ->
  has_cr v = false /\
  (v = [] \/
   (line_blank (hd [] (split_lf v)) = false /\ line_blank (last (split_lf v) []) = false /\
    (length (split_lf v) = 1%nat \/ existsb zero_indent_line (tl (split_lf v)) = true \/
     leading_ws (hd [] (split_lf v)) = 0%nat))).
Proof.
  unfold in_block_range. intros H. apply andb_true_iff in H as [Hcr H].
  apply negb_true_iff in Hcr. split; [exact Hcr|].
  destruct v as [|c t]; [left; reflexivity|right].
  rewrite (split_lines_lf _ Hcr) in H.
  apply andb_true_iff in H as [H H3]. apply andb_true_iff in H as [H1 H2].
  apply negb_true_iff in H1, H2. split; [exact H1|]. split; [exact H2|].
  apply orb_true_iff in H3 as [H3|H3]; [apply orb_true_iff in H3 as [H3|H3]|].
  - left. apply Nat.eqb_eq, H3.
  - right. left. exact H3.
  - right. right. apply Nat.eqb_eq, H3.
Qed.

Lemma single_line_eq v l : split_lf v = [l] -> v = l.
Proof. intros E. rewrite <- (join_split v), E. reflexivity. Qed.

Lemma F_pre v m : in_block_range v = true -> v <> [] -> before_b v m = true ->
  existsb zero_indent_line (split_lf v) = true.
Proof.
  intros Hr Hv Hb. destruct (range_unpack v Hr) as (_ & [->|(H1 & H2 & H3)]); [congruence|].
  destruct (split_lf v) as [|l0 L'] eqn:EL; [exfalso; eapply split_lf_ne; eauto|].
  cbn [hd tl length existsb] in *.
  assert (Z : leading_ws l0 = 0%nat -> zero_indent_line l0 = true).
  { intros Z. unfold zero_indent_line. rewrite H1, Z. reflexivity. }
  destruct H3 as [H3|[H3|H3]].
  - destruct L' as [|? ?]; [|cbn in H3; lia].
    unfold before_b, fl, single in Hb. rewrite EL in Hb. cbn [length Nat.ltb Nat.leb Nat.eqb andb orb] in Hb.
    rewrite orb_false_r in Hb. apply andb_true_iff in Hb as [_ Hb]. apply negb_true_iff in Hb.
    apply single_line_eq in EL. subst l0. rewrite Z; [reflexivity|].
    destruct v as [|c t]; [congruence|]. cbn [starts_blank] in Hb. cbn [leading_ws]. rewrite Hb. reflexivity.
  - rewrite H3. apply orb_true_r.
  - rewrite (Z H3). reflexivity.
Qed.

Lemma F_nopre v m : before_b v m = false ->
  length (split_lf v) = 1%nat \/ existsb zero_indent_line (tl (split_lf v)) = true.
Proof.
  unfold before_b. intros H. apply orb_false_iff in H as [_ H]. unfold fl in H.
  apply andb_false_iff in H as [H|H].
  - left. apply Nat.ltb_ge in H. pose proof (split_lf_ne v). destruct (split_lf v); [congruence|cbn in *; lia].
  - right. eapply forallb_false_existsb; [|exact H]. apply not_eobs_zil.
Qed.

Lemma F_post v m : after_b v m = false -> safe_end (last (split_lf v) []) = true.
Proof.
  unfold after_b. intros H. apply orb_false_iff in H as [_ H].
  rewrite safe_end_last_line, safe_end_ft, H. reflexivity.
Qed.

Lemma indent_by_app p a b : indent_by p (a ++ b) = indent_by p a ++ indent_by p b.
Proof.
  induction a as [|c t IH]; [reflexivity|]. cbn [app indent_by]. rewrite IH.
  destruct (c =? LF); [|reflexivity]. cbn [app]. rewrite <- app_assoc. reflexivity.
Qed.

Lemma indent_by_nolf p s : nolf s -> indent_by p s = s.
Proof. induction 1 as [|c t Hc Ht IH]; [reflexivity|]. cbn [indent_by]. rewrite Hc, IH. reflexivity. Qed.

Lemma indent_by_nil s : indent_by [] s = s.
Proof. induction s as [|c t IH]; [reflexivity|]. cbn [indent_by app]. rewrite IH. destruct (N.eqb_spec c LF); congruence. Qed.

Lemma indent_by_compose p1 p2 s : nolf p1 -> indent_by p2 (indent_by p1 s) = indent_by (p2 ++ p1) s.
Proof.
  intros H. induction s as [|c t IH]; [reflexivity|]. cbn [indent_by].
  destruct (c =? LF) eqn:E.
  - cbn [indent_by]. change (LF =? LF) with true. cbv iota.
    rewrite indent_by_app, (indent_by_nolf p2 p1 H), IH, <- app_assoc. reflexivity.
  - cbn [indent_by]. rewrite E, IH. reflexivity.
Qed.

Lemma blanks_nolf p : blanks p -> nolf p.
Proof. apply Forall_impl. intros c Hc. apply blank_props in Hc. tauto. Qed.

Lemma blanks_app p q : blanks p -> blanks q -> blanks (p ++ q).
Proof. intros. apply Forall_app. split; assumption. Qed.

Lemma indent_all_one pads : Forall blanks pads -> forall acc, blanks acc ->
  exists P, blanks P /\ forall s, indent_all pads (indent_by acc s) = indent_by P s.
Proof.
  induction 1 as [|p pads Hp Hps IH]; intros acc Hacc.
  - exists acc. split; [exact Hacc|reflexivity].
  - destruct (IH (p ++ acc) (blanks_app _ _ Hp Hacc)) as (P & HP & E).
    exists P. split; [exact HP|]. intros s. cbn [indent_all].
    rewrite indent_by_compose by (apply blanks_nolf, Hacc). apply E.
Qed.

Lemma indent_all_single pads : Forall blanks pads ->
  exists P, blanks P /\ forall s, indent_all pads s = indent_by P s.
Proof.
  intros H. destruct (indent_all_one pads H [] (Forall_nil _)) as (P & HP & E).
  exists P. split; [exact HP|]. intros s. rewrite <- E, indent_by_nil. reflexivity.
Qed.

Lemma indent_flat p Y : Forall nolf Y ->
  indent_by p (flat_map (fun y => LF :: y) Y) = flat_map (fun y => LF :: y) (map (app p) Y).
Proof.
  induction 1 as [|y Y Hy HY IH]; [reflexivity|]. cbn [flat_map map].
  change ((LF :: y) ++ flat_map (fun y0 => LF :: y0) Y) with (LF :: (y ++ flat_map (fun y0 => LF :: y0) Y)).
  cbn [indent_by]. change (LF =? LF) with true. cbv iota.
  rewrite indent_by_app, (indent_by_nolf p y Hy), IH. cbn [app]. rewrite <- app_assoc. reflexivity.
Qed.

Lemma indent_join p X : X <> [] -> Forall nolf X ->
  indent_by p (join_lf X) = join_lf (hd [] X :: map (app p) (tl X)).
Proof.
  intros HX H. destruct X as [|l Y]; [congruence|]. inversion H; subst. cbn [hd tl].
  rewrite !join_lf_flat, indent_by_app, indent_by_nolf, indent_flat by assumption. reflexivity.
Qed.

Lemma indent_esc_lines p X : X <> [] -> blanks p -> Forall nolf X ->
  indent_by p (join_lf (map escape_tq X))
  = join_lf (map escape_tq (hd [] X :: map (app p) (tl X))).
Proof.
  intros HX Hp H. rewrite indent_join.
  - destruct X as [|l Y]; [congruence|]. cbn [map hd tl]. do 2 f_equal.
    rewrite !map_map. apply map_ext. intros y. symmetry. apply esc_blank_prefix, Hp.
  - intros E. apply map_eq_nil in E. congruence.
  - apply Forall_forall. intros x Hx. apply in_map_iff in Hx as (l & <- & Hl).
    apply nolf_esc. rewrite Forall_forall in H. apply H, Hl.
Qed.

Lemma read_token_block cu r :
  read_token cu (34 :: 34 :: 34 :: r) =
  match read_block_loop (S (length r)) (cpos cu + 3) (cls cu) [] [] r with
  | Ok (e, raw, ls', rest) =>
    Ok (mk K_BLOCK_STRING cu (cpos cu) e (Some (join_lf (dedent raw))),
        mkCur e (cline cu + (length raw - 1)) ls', rest)
  | SyntaxErr q => SyntaxErr q
  | Crash w => Crash w
  | OutOfFuel => OutOfFuel
  end.
Proof. reflexivity. Qed.

Lemma join_pre Y : Y <> [] -> [LF] ++ join_lf Y = join_lf ([] :: Y).
Proof. intros H. rewrite join_lf_cons by exact H. reflexivity. Qed.

Lemma join_post Y : Y <> [] -> join_lf Y ++ [LF] = join_lf (Y ++ [[]]).
Proof.
  induction Y as [|l Y IH]; [congruence|]. intros _. destruct Y as [|m Y'].
  - cbn. reflexivity.
  - rewrite (join_lf_cons l (m :: Y')) by discriminate. cbn [app].
    rewrite (join_lf_cons l (m :: Y' ++ [[]])) by discriminate. rewrite <- app_assoc. cbn [app].
    do 2 f_equal. apply (IH ltac:(discriminate)).
Qed.

Definition scalars (v : list N) : Prop := Forall (fun c => is_scalar c = true) v.

Lemma safe_end_last_R p X : X <> [] -> blanks p ->
  safe_end (last (hd [] X :: map (app p) (tl X)) []) = safe_end (last X []).
Proof.
  intros HX Hp. destruct X as [|x T]; [congruence|]. cbn [hd tl].
  destruct T as [|y T']; [reflexivity|].
  change (last (x :: map (app p) (y :: T')) []) with (last (map (app p) (y :: T')) []).
  change (last (x :: y :: T') []) with (last (y :: T') []).
  rewrite last_map_app by discriminate. apply safe_end_blank_prefix, Hp.
Qed.

Lemma plain_blank c : is_blank_char c = true -> plain c.
Proof. intros H. apply blank_props in H. unfold plain. tauto. Qed.

Definition post_lines (a : bool) : list (list N) := if a then [[]] else [].
Definition pre_lines (b : bool) : list (list N) := if b then [[]] else [].

Lemma all_blank_pl b : all_blank (pre_lines b).
Proof. destruct b; repeat constructor. Qed.

Lemma all_empty_pl b : all_empty (pre_lines b).
Proof. destruct b; repeat constructor. Qed.

Lemma lines_plain v : has_cr v = false -> scalars v -> Forall (Forall plain) (split_lf v).
Proof.
  intros Hcr Hs. apply has_cr_false in Hcr.
  eapply Forall_impl; [|exact (split_lf_forall _ v (Forall_and Hcr Hs))].
  intros l. apply Forall_impl. intros c [[H1 H2] H3]. repeat split; assumption.
Qed.

Definition nolt (c : N) : Prop := (c =? LF) = false /\ (c =? CR) = false.

(* [nolt c] is the test of LexerProps.lt_free / LexerLoc.clean on one character *)
Lemma nolt_iff c : nolt c <-> (c =? LF) || (c =? CR) = false.
Proof. unfold nolt. symmetry. apply orb_false_iff. Qed.

Lemma trail_nolt d : is_trail d = true -> nolt d.
Proof. intros H. apply nolt_iff, trail_lt_free, H. Qed.

Lemma lead_nolt c : is_lead c = true -> nolt c.
Proof. intros H. apply nolt_iff. revert H. apply not_lt_of; reflexivity. Qed.

(* The raw lines of read_block_loop.  A line under construction grows by an escaped triple quote, by a
   scalar value that is no line terminator, or by a surrogate pair; a property [Pl] of lines that these
   steps keep holds of every raw line.  [Qs] is any property of the characters of the input. *)
Section LoopLines.
Variables (Qs : N -> Prop) (Pl : list N -> Prop).
Hypothesis Pl_nil : Pl [].
Hypothesis Pl_quotes : forall l, Qs 34 -> Pl l -> Pl (l ++ [34; 34; 34]).
Hypothesis Pl_scalar : forall l c, Qs c -> nolt c -> is_scalar c = true -> Pl l -> Pl (l ++ [c]).
Hypothesis Pl_pair : forall l c d, Qs c -> Qs d -> is_lead c = true -> is_trail d = true -> Pl l -> Pl (l ++ [c; d]).

Lemma loop_lines f : forall pos ls cur lines s e raw ls' r,
  Forall Qs s -> Pl (rev cur) -> Forall Pl lines ->
  read_block_loop f pos ls cur lines s = Ok (e, raw, ls', r) -> Forall Pl raw.
Proof.
  induction f as [|f IH]; intros pos ls cur lines s e raw ls' r Hs Hcur Hlines H; [discriminate|].
  cbn [read_block_loop] in H. destruct s as [|c t]; [discriminate|].
  inversion Hs as [|? ? Hc Ht]; subst.
  assert (Hline : Forall Pl (rev cur :: lines)) by (constructor; assumption).
  destruct (starts3 34 34 34 (c :: t)).
  { injection H as _ Hraw _ _. rewrite <- Hraw. apply (Forall_rev Hline). }
  destruct ((c =? 92) && starts3 34 34 34 t) eqn:Eb.
  { apply andb_true_iff in Eb as [_ Eb]. apply starts3_true in Eb as (t' & ->).
    inversion Ht as [|? ? Hq Ht1]; subst.
    eapply IH; [| | |exact H]; [apply (Forall_skipn' Qs 3 _ Ht)| |exact Hlines].
    cbn [rev]. rewrite <- !app_assoc. apply Pl_quotes; assumption. }
  destruct (c =? LF) eqn:El.
  { eapply IH; [| | |exact H]; [exact Ht|exact Pl_nil|exact Hline]. }
  destruct (c =? CR) eqn:Ecr.
  { destruct (peek_is (N.eqb LF) t); (eapply IH; [| | |exact H]; [|exact Pl_nil|exact Hline]);
      [apply (Forall_skipn' Qs 1 _ Ht)|exact Ht]. }
  destruct (is_scalar c) eqn:Es.
  { eapply IH; [| | |exact H]; [exact Ht| |exact Hlines]. apply Pl_scalar; [exact Hc|split| |]; assumption. }
  destruct (is_lead c && peek_is is_trail t) eqn:Ep; [|discriminate].
  apply andb_true_iff in Ep as [Elead Ep]. destruct t as [|d t']; [discriminate|]. cbn [peek_is hd tl] in *.
  inversion Ht; subst.
  eapply IH; [| | |exact H]; [assumption| |exact Hlines].
  cbn [rev]. rewrite <- app_assoc. apply Pl_pair; assumption.
Qed.
End LoopLines.

(* every character of the raw lines is a character of the input and is no line terminator *)
Lemma loop_inv (Qs : N -> Prop) f pos ls s e raw ls' r :
  Forall Qs s -> read_block_loop f pos ls [] [] s = Ok (e, raw, ls', r) ->
  Forall (Forall (fun c => Qs c /\ nolt c)) raw.
Proof.
  intros Hs H.
  assert (Step : forall l a, Forall (fun c => Qs c /\ nolt c) l -> Forall (fun c => Qs c /\ nolt c) a ->
                             Forall (fun c => Qs c /\ nolt c) (l ++ a))
    by (intros l a Hl Ha; apply Forall_app; split; assumption).
  refine (loop_lines Qs (Forall (fun c => Qs c /\ nolt c)) (Forall_nil _) _ _ _
            f pos ls [] [] s e raw ls' r Hs (Forall_nil _) (Forall_nil _) H).
  - intros l Hq Hl. apply Step; [exact Hl|].
    assert (Q : Qs 34 /\ nolt 34) by (split; [exact Hq|split; reflexivity]).
    constructor; [exact Q|]. constructor; [exact Q|]. constructor; [exact Q|constructor].
  - intros l c Hc Hn _ Hl. apply Step; [exact Hl|]. constructor; [split; assumption|constructor].
  - intros l c d Hc Hd Hlead Htrail Hl. apply Step; [exact Hl|].
    constructor; [split; [exact Hc|apply lead_nolt, Hlead]|].
    constructor; [split; [exact Hd|apply trail_nolt, Htrail]|constructor].
Qed.

Lemma dwb_split M : exists A, M = A ++ drop_while_blank M /\ all_blank A /\
  (drop_while_blank M = [] \/ line_blank (hd [] (drop_while_blank M)) = false).
Proof.
  induction M as [|x M IH].
  - exists []. repeat split; [constructor|left; reflexivity].
  - cbn [drop_while_blank]. destruct (line_blank x) eqn:E.
    + destruct IH as (A & E1 & HA & Hd). exists (x :: A). split; [cbn; congruence|].
      split; [constructor; assumption|exact Hd].
    + exists []. repeat split; [constructor|right; exact E].
Qed.

Lemma dwb_snoc Y x : line_blank x = false -> drop_while_blank (Y ++ [x]) = drop_while_blank Y ++ [x].
Proof.
  intros H. induction Y as [|y Y IH]; cbn [app drop_while_blank]; [rewrite H; reflexivity|].
  destruct (line_blank y); [exact IH|reflexivity].
Qed.

Lemma trim_split M : exists A B, M = A ++ trim M ++ B /\ all_blank A /\ all_blank B /\
  (trim M = [] \/ (line_blank (hd [] (trim M)) = false /\ line_blank (last (trim M) []) = false)).
Proof.
  unfold trim. destruct (dwb_split M) as (A & E1 & HA & Hd).
  destruct (dwb_split (rev (drop_while_blank M))) as (B' & E2 & HB & Hd2).
  exists A, (rev B'). split; [|split; [exact HA|split; [apply all_blank_rev, HB|]]].
  - rewrite E1 at 1. f_equal. rewrite <- rev_app_distr, <- E2, rev_involutive. reflexivity.
  - destruct Hd as [Hd|Hd]; [left; rewrite Hd; reflexivity|].
    destruct (drop_while_blank M) as [|x M1]; [left; reflexivity|]. cbn [hd] in Hd. right.
    cbn [rev] in *. rewrite dwb_snoc in * by exact Hd.
    rewrite rev_app_distr. cbn [rev app hd]. split; [exact Hd|].
    change (x :: rev (drop_while_blank (rev M1))) with ([x] ++ rev (drop_while_blank (rev M1))).
    destruct (drop_while_blank (rev M1)) as [|z Z] eqn:EZ; [exact Hd|].
    cbn [rev]. rewrite app_assoc, last_last.
    destruct Hd2 as [Hd2|Hd2]; [discriminate|]. exact Hd2.
Qed.

Lemma all_blank_dwb Bk : all_blank Bk -> drop_while_blank Bk = [].
Proof. intros H. rewrite <- (app_nil_r Bk). rewrite dwb_blank_prefix by exact H. reflexivity. Qed.

Lemma trim_single x Bk : all_blank Bk -> trim (x :: Bk) = if line_blank x then [] else [x].
Proof.
  intros H. destruct (line_blank x) eqn:E.
  - unfold trim. cbn [drop_while_blank]. rewrite E, (all_blank_dwb Bk H). reflexivity.
  - apply (trim_eq [] [x] Bk); [constructor|exact H|discriminate|exact E|exact E].
Qed.

(* the common indent is attained *)
Lemma skipn_lws_zil l : line_blank l = false -> zero_indent_line (skipn (leading_ws l) l) = true.
Proof.
  induction l as [|c t IH]; [discriminate|]. unfold line_blank. cbn [leading_ws length].
  destruct (is_blank_char c) eqn:Ec.
  - cbn [Nat.eqb skipn]. exact IH.
  - intros _. cbn [skipn]. unfold zero_indent_line, line_blank. cbn [leading_ws length]. rewrite Ec. reflexivity.
Qed.

Lemma ci_some_zil T k : common_indent T = Some k ->
  existsb zero_indent_line (map (skipn k) T) = true.
Proof.
  revert k; induction T as [|l T IH]; intros k H; [discriminate|]. cbn [common_indent] in H.
  cbn [map existsb]. destruct (line_blank l) eqn:El.
  - rewrite (IH k H). apply orb_true_r.
  - destruct (common_indent T) as [m|] eqn:Em.
    + inversion H; subst k. destruct (Nat.min_spec (leading_ws l) m) as [[_ ->]|[_ ->]].
      * rewrite skipn_lws_zil by exact El. reflexivity.
      * rewrite (IH m eq_refl). apply orb_true_r.
    + inversion H; subst k. rewrite skipn_lws_zil by exact El. reflexivity.
Qed.

Lemma ci_none_blank T : common_indent T = None -> all_blank T.
Proof.
  induction T as [|l T IH]; [constructor|]. cbn [common_indent]. destruct (line_blank l) eqn:El.
  - intros H. constructor; [exact El|apply IH, H].
  - destruct (common_indent T); discriminate.
Qed.

Lemma existsb_zil_in_trim M : existsb zero_indent_line M = true -> existsb zero_indent_line (trim M) = true.
Proof.
  destruct (trim_split M) as (A & B & E & HA & HB & _). intros H. rewrite E in H.
  rewrite !existsb_app in H.
  assert (Z : forall Bk, all_blank Bk -> existsb zero_indent_line Bk = false).
  { induction 1 as [|x Bk Hx HBk IH]; [reflexivity|]. cbn [existsb]. rewrite IH.
    unfold zero_indent_line. rewrite Hx. reflexivity. }
  rewrite (Z A HA), (Z B HB), orb_false_r in H. exact H.
Qed.

Lemma range_intro v : has_cr v = false ->
  (v = [] \/
   (line_blank (hd [] (split_lf v)) = false /\ line_blank (last (split_lf v) []) = false /\
    (length (split_lf v) = 1%nat \/ existsb zero_indent_line (tl (split_lf v)) = true \/
     leading_ws (hd [] (split_lf v)) = 0%nat))) ->
  in_block_range v = true.
Proof.
  intros Hcr H. unfold in_block_range. rewrite Hcr. cbn [negb andb].
  destruct v as [|c t]; [reflexivity|]. destruct H as [H|(H1 & H2 & H3)]; [discriminate|].
  rewrite (split_lines_lf _ Hcr). rewrite H1, H2. cbn [negb andb].
  destruct H3 as [H3|[H3|H3]].
  - rewrite H3. reflexivity.
  - rewrite H3. apply orb_true_iff. left. apply orb_true_r.
  - rewrite H3. apply orb_true_r.
Qed.

Lemma join_lf_forall (Q : N -> Prop) D : Q LF -> Forall (Forall Q) D -> Forall Q (join_lf D).
Proof.
  intros HQ. induction 1 as [|l D Hl HD IH]; [constructor|]. destruct D as [|m D']; [exact Hl|].
  rewrite join_lf_cons by discriminate. apply Forall_app. split; [exact Hl|constructor; [exact HQ|exact IH]].
Qed.

Lemma dwb_forall (Q : list N -> Prop) M : Forall Q M -> Forall Q (drop_while_blank M).
Proof.
  induction 1 as [|x M Hx HM IH]; [constructor|]. cbn [drop_while_blank].
  destruct (line_blank x); [exact IH|constructor; assumption].
Qed.

Lemma dedent_forall (Q : N -> Prop) raw : Forall (Forall Q) raw -> Forall (Forall Q) (dedent raw).
Proof.
  intros H. unfold dedent. destruct raw as [|first others]; [constructor|].
  inversion H; subst. apply Forall_rev, dwb_forall, Forall_rev, dwb_forall.
  constructor; [assumption|]. apply Forall_forall. intros x Hx. apply in_map_iff in Hx as (l & <- & Hl).
  destruct (common_indent others); [|constructor]. apply Forall_skipn'.
  match goal with H : Forall (Forall Q) others |- _ => rewrite Forall_forall in H; apply H, Hl end.
Qed.

Lemma dedent_in_range raw : Forall (Forall nolt) raw -> in_block_range (join_lf (dedent raw)) = true.
Proof.
  intros Hraw.
  pose proof (dedent_forall nolt raw Hraw) as HD.
  assert (Hcr : has_cr (join_lf (dedent raw)) = false).
  { apply has_cr_false. apply join_lf_forall; [reflexivity|].
    eapply Forall_impl; [|exact HD]. intros l. apply Forall_impl. intros c [_ Hc]. exact Hc. }
  apply range_intro; [exact Hcr|].
  destruct (dedent raw) as [|d0 D'] eqn:ED; [left; reflexivity|]. right.
  assert (Hsplit : split_lf (join_lf (d0 :: D')) = d0 :: D').
  { apply split_join; [discriminate|]. eapply Forall_impl; [|exact HD]. intros l. apply Forall_impl.
    intros c [Hc _]. exact Hc. }
  rewrite Hsplit. cbn [hd tl].
  destruct raw as [|first others]; [discriminate|].
  change (dedent (first :: others)) with (trim (first :: map (fun l => match common_indent others with Some k => skipn k l | None => [] end) others)) in ED.
  set (M := first :: map _ others) in *.
  destruct (trim_split M) as (A & B & EM & HA & HB & [Ht|[Hh Hl]]); [congruence|].
  rewrite ED in Hh, Hl. cbn [hd] in Hh. split; [exact Hh|]. split; [exact Hl|].
  destruct (common_indent others) as [k|] eqn:Eci.
  - assert (EMk : M = first :: map (skipn k) others) by (unfold M; rewrite ?Eci; reflexivity).
    assert (Hz : existsb zero_indent_line (trim M) = true).
    { apply existsb_zil_in_trim. rewrite EMk. cbn [existsb]. rewrite (ci_some_zil others k Eci). apply orb_true_r. }
    rewrite ED in Hz. cbn [existsb] in Hz. apply orb_true_iff in Hz as [Hz|Hz].
    + right. right. unfold zero_indent_line in Hz. apply andb_true_iff in Hz as [_ Hz]. apply Nat.eqb_eq, Hz.
    + right. left. exact Hz.
  - left. assert (Hb : all_blank (map (fun _ : list N => @nil N) others)).
    { apply Forall_forall. intros x Hx. apply in_map_iff in Hx as (l & <- & _). reflexivity. }
    assert (EMn : M = first :: map (fun _ : list N => @nil N) others) by (unfold M; rewrite ?Eci; reflexivity).
    rewrite EMn, (trim_single first _ Hb) in ED.
    destruct (line_blank first); [discriminate|]. inversion ED; subst. reflexivity.
Qed.

(* the shape of a block string token, whatever the source *)
Lemma read_token_block_inv cu s tk cu' r :
  read_token cu s = Ok (tk, cu', r) -> tkind tk = K_BLOCK_STRING ->
  exists f pos ls s1 e raw ls', adv s (length s - length s1) s1 /\
    read_block_loop f pos ls [] [] s1 = Ok (e, raw, ls', r) /\ tvalue tk = join_lf (dedent raw).
Proof.
  intros H Hk.
  destruct (read_token_inv _ _ _ _ _ H) as (g & lx & cu1 & Es & _ & _ & _ & _ & _ & _ & _ & _ & _ & HL).
  rewrite Hk in HL. cbn in HL.
  destruct HL as [P _ _ _|x e raw ls' -> Eb _ _ Ev _]; [destruct (plain_lexeme_not_block _ _ _ P Hk)|].
  exists (S (length (x ++ r))), (cpos cu1 + 3)%nat, (cls cu1), (x ++ r), e, raw, ls'.
  split; [|split; [exact Eb|exact Ev]].
  set (p := g ++ [34; 34; 34]).
  replace s with (p ++ x ++ r) by (unfold p; rewrite Es, <- !app_assoc; reflexivity).
  replace (length (p ++ x ++ r) - length (x ++ r))%nat with (length p) by (rewrite (app_length p); lia).
  apply adv_app.
Qed.

Lemma adv_forall (Q : N -> Prop) s n r : adv s n r -> Forall Q s -> Forall Q r.
Proof. intros [-> _]. apply Forall_skipn'. Qed.

Theorem block_token_in_range cu s tk cu' r :
  read_token cu s = Ok (tk, cu', r) -> tkind tk = K_BLOCK_STRING ->
  in_block_range (tvalue tk) = true.
Proof.
  intros H Hk. destruct (read_token_block_inv _ _ _ _ _ H Hk) as (f & pos & ls & s1 & e & raw & ls' & _ & Hb & ->).
  apply dedent_in_range.
  assert (Hr : Forall (Forall (fun c => True /\ nolt c)) raw).
  { apply (loop_inv (fun _ => True) f pos ls s1 e raw ls' r); [|exact Hb]. apply Forall_forall. intros; exact I. }
  eapply Forall_impl; [|exact Hr]. intros l. apply Forall_impl. intros c [_ Hc]. exact Hc.
Qed.

Theorem block_token_scalars cu s tk cu' r :
  scalars s -> read_token cu s = Ok (tk, cu', r) -> tkind tk = K_BLOCK_STRING ->
  scalars (tvalue tk).
Proof.
  intros Hs H Hk. destruct (read_token_block_inv _ _ _ _ _ H Hk) as (f & pos & ls & s1 & e & raw & ls' & A & Hb & ->).
  pose proof (loop_inv (fun c => is_scalar c = true) f pos ls s1 e raw ls' r (adv_forall _ _ _ _ A Hs) Hb) as Hr.
  unfold scalars. apply join_lf_forall; [reflexivity|]. apply dedent_forall.
  eapply Forall_impl; [|exact Hr]. intros l. apply Forall_impl. intros c [Hc _]. exact Hc.
Qed.

Lemma block_value_token raw v : block_value raw = Ok v ->
  exists tk cu' r, read_token init_cursor (TQ ++ raw ++ TQ) = Ok (tk, cu', r) /\
                   tkind tk = K_BLOCK_STRING /\ tvalue tk = v.
Proof.
  unfold block_value. destruct (read_token init_cursor (TQ ++ raw ++ TQ)) as [[[tk cu'] r]| | |] eqn:E;
    try discriminate.
  intros H. inversion H; subst. exists tk, cu', r. split; [reflexivity|]. split; [|reflexivity].
  unfold TQ in E. cbn [app] in E. rewrite read_token_block in E.
  destruct (read_block_loop _ _ _ _ _ _) as [[[[e raw'] ls'] rest]| | |]; try discriminate.
  inversion E; subst. reflexivity.
Qed.

Theorem block_value_in_range raw v : block_value raw = Ok v -> in_block_range v = true.
Proof.
  intros H. destruct (block_value_token raw v H) as (tk & cu' & r & E & Hk & <-).
  eapply block_token_in_range; eauto.
Qed.

Definition chosen_raw (v : list N) : list N :=
  (if before_b v false then [LF] else []) ++ escape_tq v ++ (if after_b v false then [LF] else []).

Lemma print_chosen v : has_cr v = false -> print_block_string v false = TQ ++ chosen_raw v ++ TQ.
Proof. intros H. rewrite (print_eq v false H). unfold chosen_raw. rewrite <- !app_assoc. reflexivity. Qed.

(* What printable_loop's acceptance of the remaining text s says, given its state: l0 is the rest of
   the current line and L' the lines after it.  No CR; the last line is not blank; if no non-empty line
   was seen yet the current line is not blank; and the common-indent flag is refuted - already (hci =
   false), by the current line (not blank, no indent pending), or by a later line of indentation 0 -
   unless the text is a single line. *)
Definition pinv (ie hi hci seen : bool) (s : list N) : Prop :=
  has_cr s = false /\
  exists l0 L', split_lf s = l0 :: L' /\
    (match L' with [] => ie && line_blank l0 = false | _ => line_blank (last L' []) = false end) /\
    (seen = false -> L' <> [] -> ie && line_blank l0 = false) /\
    ((seen = false /\ L' = []) \/ hci = false \/
     (line_blank l0 = false /\ hi || (ie && Nat.ltb 0 (leading_ws l0)) = false) \/
     existsb zero_indent_line L' = true).

Lemma line_blank_cons_blank c l : is_blank_char c = true -> line_blank (c :: l) = line_blank l.
Proof. intros H. unfold line_blank. cbn [leading_ws length]. rewrite H. reflexivity. Qed.

Lemma line_blank_cons_nonblank c l : is_blank_char c = false -> line_blank (c :: l) = false.
Proof. intros H. unfold line_blank. cbn [leading_ws length]. rewrite H. reflexivity. Qed.

Lemma has_cr_cons c t : has_cr (c :: t) = (c =? CR) || has_cr t.
Proof. unfold has_cr. cbn [existsb]. rewrite (N.eqb_sym CR c). reflexivity. Qed.

Lemma printable_loop_inv s : forall ie hi hci seen,
  printable_loop ie hi hci seen s = true -> pinv ie hi hci seen s.
Proof.
  induction s as [|c t IH]; intros ie hi hci seen H.
  - cbn [printable_loop] in H. apply andb_true_iff in H as [H1 H2].
    apply negb_true_iff in H1, H2. subst ie. split; [reflexivity|].
    exists [], []. split; [reflexivity|]. split; [reflexivity|]. split; [congruence|].
    apply andb_false_iff in H2 as [H2|H2]; [right; left; exact H2|left; split; [exact H2|reflexivity]].
  - cbn [printable_loop] in H. destruct (c =? LF) eqn:El.
    + apply N.eqb_eq in El. subst c.
      destruct (ie && negb seen) eqn:E1; [discriminate|].
      destruct (IH _ _ _ _ H) as (Hcr & l0' & L'' & Es & G2 & G3 & G4).
      split; [rewrite has_cr_cons, Hcr; reflexivity|].
      exists [], (l0' :: L''). split; [cbn [split_lf]; change (LF =? LF) with true; rewrite Es; reflexivity|].
      split; [|split].
      * destruct L'' as [|m L3]; [cbn [last]; cbn [andb] in G2; exact G2|exact G2].
      * intros Hseen _. subst seen. cbn [negb] in E1. rewrite andb_true_r in E1. subst ie. reflexivity.
      * destruct G4 as [[G4 _]|[G4|[[G4a G4b]|G4]]]; [discriminate|right; left; exact G4| |].
        -- right. right. right. cbn [existsb]. cbn [orb andb] in G4b.
           unfold zero_indent_line. rewrite G4a. apply Nat.ltb_ge in G4b.
           replace (leading_ws l0') with 0%nat by lia. reflexivity.
        -- right. right. right. cbn [existsb]. rewrite G4. apply orb_true_r.
    + destruct (is_blank_char c) eqn:Eb.
      * destruct (IH _ _ _ _ H) as (Hcr & l0' & L'' & Es & G2 & G3 & G4).
        destruct (blank_props c Eb) as (_ & _ & _ & Ecr & _).
        split; [rewrite has_cr_cons, Hcr, Ecr; reflexivity|].
        exists (c :: l0'), L''. split; [cbn [split_lf]; rewrite El, Es; reflexivity|].
        rewrite (line_blank_cons_blank c l0' Eb). split; [exact G2|]. split; [exact G3|].
        destruct G4 as [G4|[G4|[[G4a G4b]|G4]]]; [left; exact G4|right; left; exact G4| |right; right; right; exact G4].
        right. right. left. split; [exact G4a|]. cbn [leading_ws]. rewrite Eb.
        apply orb_false_iff in G4b as [G4b _]. apply orb_false_iff in G4b as [-> ->]. reflexivity.
      * destruct (c <=? 15) eqn:E15; [discriminate|].
        destruct (IH _ _ _ _ H) as (Hcr & l0' & L'' & Es & G2 & G3 & G4).
        assert (Ecr : (c =? CR) = false).
        { apply N.leb_gt in E15. apply N.eqb_neq. unfold CR. lia. }
        split; [rewrite has_cr_cons, Hcr, Ecr; reflexivity|].
        exists (c :: l0'), L''. split; [cbn [split_lf]; rewrite El, Es; reflexivity|].
        rewrite (line_blank_cons_nonblank c l0' Eb). split; [|split].
        -- destruct L''; [apply andb_false_r|exact G2].
        -- intros _ _. apply andb_false_r.
        -- cbn [leading_ws]. rewrite Eb. cbn [Nat.ltb Nat.leb]. rewrite andb_false_r, orb_false_r.
           destruct G4 as [G4|[G4|[[G4a G4b]|G4]]]; [left; exact G4| | |right; right; right; exact G4].
           ++ apply andb_false_iff in G4 as [G4|G4]; [right; left; exact G4|].
              right. right. left. split; [reflexivity|exact G4].
           ++ right. right. left. split; [reflexivity|]. cbn [andb] in G4b. rewrite orb_false_r in G4b. exact G4b.
Qed.

Theorem printable_in_range_main v : is_printable_as_block_string v = true -> in_block_range v = true.
Proof.
  destruct v as [|c t]; [reflexivity|]. unfold is_printable_as_block_string. intros H.
  apply printable_loop_inv in H as (Hcr & l0 & L' & Es & G2 & G3 & G4).
  apply range_intro; [exact Hcr|]. right. rewrite Es. cbn [hd tl length].
  assert (H0 : line_blank l0 = false).
  { destruct L' as [|m L3]; [exact G2|]. apply (G3 eq_refl). discriminate. }
  split; [exact H0|]. split.
  - destruct L' as [|m L3]; [exact H0|exact G2].
  - destruct G4 as [[_ ->]|[G4|[[_ G4]|G4]]]; [left; reflexivity|discriminate| |right; left; exact G4].
    right. right. cbn [orb andb] in G4. apply Nat.ltb_ge in G4. lia.
Qed.
