(* The traversal model Lang/Visit.v: unfolding equations of the two loops, visitors that never edit
   (the result is the tree itself; the traversal is a recursion on the tree without fuel), and the
   call log of the all-idle visitor. *)
From GV Require Import Base.Prelude Lang.Visit.

Scheme tree_mut := Induction for tree Sort Prop
  with slots_mut := Induction for slots Sort Prop
  with slot_mut := Induction for slot Sort Prop
  with trees_mut := Induction for trees Sort Prop.

Definition slot_of (v : option tree) : slot := match v with None => SNone | Some t => SOne t end.

Definition lift {X S : Type} (g : X * bool -> X * bool) (os : option (option (X * bool)) * S) :=
  (option_map (option_map g) (fst os), snd os).

Lemma lift_some {X S} g (os : option (option (X * bool)) * S) r s' :
  lift g os = (Some r, s') -> exists r2, os = (Some r2, s') /\ r = option_map g r2.
Proof. destruct os as [[o|] s2]; cbn; intro H; inversion H; eauto. Qed.

Section Equations.
  Variable St : Type.
  Variable rec : visit_fn St.

  Lemma vtrees_cons c rest j p n s :
    vtrees St rec (TCons c rest) j p n s =
    let '(rc, s1) := rec c (KIdx j) (p ++ [KIdx j]) n true s in
    match rc with
    | ROutOfFuel => (None, s1)
    | RBreak => (Some None, s1)
    | RKeep => lift (fun xe => (TCons c (fst xe), snd xe)) (vtrees St rec rest (S j) p n s1)
    | REdit v => lift (fun xe => (match v with None => fst xe | Some t => TCons t (fst xe) end, true))
                      (vtrees St rec rest (S j) p n s1)
    end.
  Proof.
    cbn [vtrees]. destruct (rec c (KIdx j) (p ++ [KIdx j]) n true s) as [[| |[v|]|] s1]; try reflexivity;
      destruct (vtrees St rec rest (S j) p n s1) as [[[[? ?]|]|] ?]; reflexivity.
  Qed.

  Lemma vslots_cons sl rest i p n s :
    vslots St rec (SCons sl rest) i p n s =
    match sl with
    | SNone => lift (fun xe => (SCons SNone (fst xe), snd xe)) (vslots St rec rest (S i) p n s)
    | SOne c =>
      let '(rc, s1) := rec c (KName i) (p ++ [KName i]) n true s in
      match rc with
      | ROutOfFuel => (None, s1)
      | RBreak => (Some None, s1)
      | RKeep => lift (fun xe => (SCons (SOne c) (fst xe), snd xe)) (vslots St rec rest (S i) p n s1)
      | REdit v => lift (fun xe => (SCons (slot_of v) (fst xe), true)) (vslots St rec rest (S i) p n s1)
      end
    | SArr l =>
      let '(rt, s1) := vtrees St rec l 0%nat (p ++ [KName i]) (S n) s in
      match rt with
      | None => (None, s1)
      | Some None => (Some None, s1)
      | Some (Some (l', e)) =>
        lift (fun xe => (SCons (SArr (if e then l' else l)) (fst xe), e || snd xe)) (vslots St rec rest (S i) p n s1)
      end
    end.
  Proof.
    cbn [vslots]. destruct sl as [|c|l].
    - destruct (vslots St rec rest (S i) p n s) as [[[[? ?]|]|] ?]; reflexivity.
    - destruct (rec c (KName i) (p ++ [KName i]) n true s) as [[| |[v|]|] s1]; try reflexivity;
        destruct (vslots St rec rest (S i) p n s1) as [[[[? ?]|]|] ?]; reflexivity.
    - destruct (vtrees St rec l 0%nat (p ++ [KName i]) (S n) s) as [[[[l' e]|]|] s1]; try reflexivity.
      destruct (vslots St rec rest (S i) p n s1) as [[[[? ?]|]|] ?]; reflexivity.
  Qed.
End Equations.

Section Pure.
  Variable St : Type.
  Variable decide : phase -> tree -> St -> action * St.

  Definition not_edit (r : res) : Prop := match r with REdit _ => False | _ => True end.

  (* a visitor that never returns Remove or a replacement *)
  Definition non_editing : Prop :=
    forall ph t s, match fst (decide ph t s) with Remove | Replace _ => False | _ => True end.

  Definition rec_pure (rec : visit_fn St) : Prop :=
    forall t k p n h s, not_edit (fst (rec t k p n h s)).

  Lemma lift_pure {X} (g : X * bool -> X * bool) (x0 x : X) (os : _ * st St) x' e s' :
    (forall r e s, os = (Some (Some (r, e)), s) -> r = x0 /\ e = false) -> g (x0, false) = (x, false) ->
    lift g os = (Some (Some (x', e)), s') -> x' = x /\ e = false.
  Proof.
    intros IH Hg H. apply lift_some in H as ([[r e0]|] & E & Hr); [|discriminate].
    apply IH in E as [-> ->]. cbn [option_map] in Hr. rewrite Hg in Hr. inversion Hr. auto.
  Qed.

  Lemma vtrees_pure rec : rec_pure rec -> forall l j path nanc s l' e s',
    vtrees St rec l j path nanc s = (Some (Some (l', e)), s') -> l' = l /\ e = false.
  Proof.
    intros Hr. induction l as [|c rest IH]; intros j path nanc s l' e s' H.
    - inversion H; auto.
    - rewrite vtrees_cons in H. pose proof (Hr c (KIdx j) (path ++ [KIdx j]) nanc true s) as Hc.
      destruct (rec c (KIdx j) (path ++ [KIdx j]) nanc true s) as [[| |v|] s1]; try discriminate; [|contradiction].
      apply (lift_pure _ rest (TCons c rest)) in H; [exact H | intros r e0 s0; apply IH | reflexivity].
  Qed.

  Lemma vslots_pure rec : rec_pure rec -> forall ss i path inner s ss' e s',
    vslots St rec ss i path inner s = (Some (Some (ss', e)), s') -> ss' = ss /\ e = false.
  Proof.
    intros Hr. induction ss as [|sl rest IH]; intros i path inner s ss' e s' H.
    - inversion H; auto.
    - rewrite vslots_cons in H. destruct sl as [|c|l].
      + apply (lift_pure _ rest (SCons SNone rest)) in H; [exact H | intros r e0 s0; apply IH | reflexivity].
      + pose proof (Hr c (KName i) (path ++ [KName i]) inner true s) as Hc.
        destruct (rec c (KName i) (path ++ [KName i]) inner true s) as [[| |v|] s1]; try discriminate; [|contradiction].
        apply (lift_pure _ rest (SCons (SOne c) rest)) in H; [exact H | intros r e0 s0; apply IH | reflexivity].
      + destruct (vtrees St rec l 0%nat (path ++ [KName i]) (S inner) s) as [[[[l' e0]|]|] s1] eqn:El;
          try discriminate.
        apply (vtrees_pure rec Hr) in El as [-> ->].
        apply (lift_pure _ rest (SCons (SArr l) rest)) in H; [exact H | intros r e0 s0; apply IH | reflexivity].
  Qed.

  Lemma node_step_pure rec : non_editing -> rec_pure rec -> rec_pure (node_step St decide rec).
  Proof.
    intros Hd Hr t k p n h s. unfold node_step, do_call.
    pose proof (Hd Enter t (fst s)) as He.
    destruct (decide Enter t (fst s)) as [a s1]. cbn in He.
    destruct a; try contradiction; cbn; auto.
    unfold go.
    destruct (vslots St rec (tslots t) 0%nat p (inner_nanc h n) _) as [[[[ss' e]|]|] s2] eqn:E; cbn; auto.
    apply (vslots_pure rec Hr) in E as [-> ->].
    unfold do_call. pose proof (Hd Leave t (fst s2)) as Hl.
    destruct (decide Leave t (fst s2)) as [a2 s3]. cbn in Hl.
    destruct a2; try contradiction; cbn; auto.
  Qed.

  Theorem visit_tree_pure fuel : non_editing -> rec_pure (visit_tree St decide fuel).
  Proof.
    intros Hd. induction fuel as [|f IH]; cbn [visit_tree].
    - intros t k p n h s. exact I.
    - apply node_step_pure; assumption.
  Qed.
End Pure.

(* the all-idle visitor: the call log is the DFS bracket sequence *)
Definition idle_dec : phase -> tree -> unit -> action * unit := fun _ _ _ => (Idle, tt).

Fixpoint depth_tree (t : tree) : nat :=
  match t with Node _ _ ss => S (depth_slots ss) end
with depth_slots (ss : slots) : nat :=
  match ss with SNil => O | SCons sl r => Nat.max (depth_slot sl) (depth_slots r) end
with depth_slot (sl : slot) : nat :=
  match sl with SNone => O | SOne t => depth_tree t | SArr l => depth_trees l end
with depth_trees (l : trees) : nat :=
  match l with TNil => O | TCons t r => Nat.max (depth_tree t) (depth_trees r) end.

Definition mk_idle (ph : phase) (t : tree) (k : key) (path : list key) (nanc : nat) : call :=
  mkCall ph (tid t) (tkindof t) k path nanc 0.

(* DFS enter/leave bracket sequence with the context of every call *)
Fixpoint dfs_tree (t : tree) (k : key) (path : list key) (nanc : nat) (hp : bool) : list call :=
  match t with
  | Node _ _ ss =>
    mk_idle Enter t k path nanc :: dfs_slots ss 0%nat path (inner_nanc hp nanc)
      ++ [mk_idle Leave t k path nanc]
  end
with dfs_slots (ss : slots) (i : nat) (path : list key) (inner : nat) : list call :=
  match ss with
  | SNil => []
  | SCons sl r =>
    (match sl with
     | SNone => []
     | SOne c => dfs_tree c (KName i) (path ++ [KName i]) inner true
     | SArr l => dfs_trees l 0%nat (path ++ [KName i]) (S inner)
     end) ++ dfs_slots r (S i) path inner
  end
with dfs_trees (l : trees) (j : nat) (path : list key) (nanc : nat) : list call :=
  match l with
  | TNil => []
  | TCons c r => dfs_tree c (KIdx j) (path ++ [KIdx j]) nanc true ++ dfs_trees r (S j) path nanc
  end.

(* visitors that never edit: the traversal by recursion on the tree, without fuel *)
(* first [f]; then [g], unless [f] broke off *)
Definition wseq {S} (f g : S -> bool * S) (s : S) : bool * S :=
  let '(b, s1) := f s in if b then (true, s1) else g s1.

Section Walk.
  Variable St : Type.
  Variable decide : phase -> tree -> St -> action * St.

  Lemma do_call_action ph t k p n s a s1 :
    do_call St decide ph t k p n s = (a, s1) -> fst (decide ph t (fst s)) = a.
  Proof. unfold do_call. destruct (decide ph t (fst s)) as [a' x]. intros H; inversion H; reflexivity. Qed.

  Fixpoint walk_tree (t : tree) (k : key) (path : list key) (nanc : nat) (hp : bool) (s : st St)
    : bool * st St :=
    match t with
    | Node _ _ ss =>
      let '(a, s1) := do_call St decide Enter t k path nanc s in
      match a with
      | Break => (true, s1)
      | Skip => (false, s1)
      | _ =>
        let '(b, s2) := walk_slots ss 0%nat path (inner_nanc hp nanc) s1 in
        if b then (true, s2)
        else let '(a2, s3) := do_call St decide Leave t k path nanc s2 in
             (match a2 with Break => true | _ => false end, s3)
      end
    end
  with walk_slots (ss : slots) (i : nat) (path : list key) (inner : nat) (s : st St) : bool * st St :=
    match ss with
    | SNil => (false, s)
    | SCons sl r =>
      let '(b, s1) := match sl with
                      | SNone => (false, s)
                      | SOne c => walk_tree c (KName i) (path ++ [KName i]) inner true s
                      | SArr l => walk_trees l 0%nat (path ++ [KName i]) (S inner) s
                      end in
      if b then (true, s1) else walk_slots r (S i) path inner s1
    end
  with walk_trees (l : trees) (j : nat) (path : list key) (nanc : nat) (s : st St) : bool * st St :=
    match l with
    | TNil => (false, s)
    | TCons c r =>
      let '(b, s1) := walk_tree c (KIdx j) (path ++ [KIdx j]) nanc true s in
      if b then (true, s1) else walk_trees r (S j) path nanc s1
    end.

  Lemma walk_tree_node kd id ss k path nanc hp s :
    walk_tree (Node kd id ss) k path nanc hp s
    = let t := Node kd id ss in
      let '(a, s1) := do_call St decide Enter t k path nanc s in
      match a with
      | Break => (true, s1)
      | Skip => (false, s1)
      | _ =>
        let '(b, s2) := walk_slots ss 0%nat path (inner_nanc hp nanc) s1 in
        if b then (true, s2)
        else let '(a2, s3) := do_call St decide Leave t k path nanc s2 in
             (match a2 with Break => true | _ => false end, s3)
      end.
  Proof. reflexivity. Qed.

  (* one slot of a node *)
  Definition walk_slot (sl : slot) (i : nat) (path : list key) (inner : nat) : st St -> bool * st St :=
    match sl with
    | SNone => fun s => (false, s)
    | SOne c => walk_tree c (KName i) (path ++ [KName i]) inner true
    | SArr l => walk_trees l 0%nat (path ++ [KName i]) (S inner)
    end.

  Lemma walk_slots_cons sl r i path inner s :
    walk_slots (SCons sl r) i path inner s = wseq (walk_slot sl i path inner) (walk_slots r (S i) path inner) s.
  Proof. destruct sl; reflexivity. Qed.

  Lemma walk_trees_cons c r j path nanc s :
    walk_trees (TCons c r) j path nanc s
    = wseq (walk_tree c (KIdx j) (path ++ [KIdx j]) nanc true) (walk_trees r (S j) path nanc) s.
  Proof. reflexivity. Qed.

  Definition res_of (br : bool) : res := if br then RBreak else RKeep.
  Definition level_of {X} (x : X) (br : bool) : option (option (X * bool)) :=
    Some (if br then None else Some (x, false)).

  Theorem walk_spec : non_editing St decide ->
    forall fuel t, (depth_tree t <= fuel)%nat -> forall k p n h s,
    visit_tree St decide fuel t k p n h s
    = (res_of (fst (walk_tree t k p n h s)), snd (walk_tree t k p n h s)).
  Proof.
    intros Hne. induction fuel as [|f IH].
    - intros [k i ss] H. cbn in H. lia.
    - set (rec := visit_tree St decide f) in *.
      assert (HT : forall l, (depth_trees l <= f)%nat -> forall j p n s,
                vtrees St rec l j p n s
                = (level_of l (fst (walk_trees l j p n s)), snd (walk_trees l j p n s))).
      { induction l as [|c r IHl]; intros Hd j p n s; [reflexivity|]. cbn [depth_trees] in Hd.
        rewrite vtrees_cons, (IH c ltac:(lia)). cbn [walk_trees].
        destruct (walk_tree c (KIdx j) (p ++ [KIdx j]) n true s) as [[|] s1]; cbn [res_of fst snd]; [reflexivity|].
        rewrite IHl by lia. destruct (walk_trees r (S j) p n s1) as [[|] s2]; reflexivity. }
      assert (HS : forall ss, (depth_slots ss <= f)%nat -> forall i p n s,
                vslots St rec ss i p n s
                = (level_of ss (fst (walk_slots ss i p n s)), snd (walk_slots ss i p n s))).
      { induction ss as [|sl r IHs]; intros Hd i p n s; [reflexivity|]. cbn [depth_slots] in Hd.
        rewrite vslots_cons. cbn [walk_slots]. destruct sl as [|c|l]; cbn [depth_slot] in Hd.
        - rewrite IHs by lia. destruct (walk_slots r (S i) p n s) as [[|] s2]; reflexivity.
        - rewrite (IH c ltac:(lia)).
          destruct (walk_tree c (KName i) (p ++ [KName i]) n true s) as [[|] s1]; cbn [res_of fst snd]; [reflexivity|].
          rewrite IHs by lia. destruct (walk_slots r (S i) p n s1) as [[|] s2]; reflexivity.
        - rewrite HT by lia.
          destruct (walk_trees l 0%nat (p ++ [KName i]) (S n) s) as [[|] s1]; cbn [level_of fst snd]; [reflexivity|].
          rewrite IHs by lia. destruct (walk_slots r (S i) p n s1) as [[|] s2]; reflexivity. }
      intros [kd id ss] Hd k p n h s. cbn [depth_tree] in Hd.
      cbn [visit_tree]. fold rec. unfold node_step. cbn [walk_tree].
      pose proof (Hne Enter (Node kd id ss) (fst s)) as He.
      destruct (do_call St decide Enter (Node kd id ss) k p n s) as [a s1] eqn:Ed.
      rewrite (do_call_action _ _ _ _ _ _ _ _ Ed) in He. destruct a; try contradiction; try reflexivity.
      unfold go. cbn [tslots]. rewrite HS by lia.
      destruct (walk_slots ss 0%nat p (inner_nanc h n) s1) as [[|] s2]; cbn [level_of fst snd]; [reflexivity|].
      pose proof (Hne Leave (Node kd id ss) (fst s2)) as Hl.
      destruct (do_call St decide Leave (Node kd id ss) k p n s2) as [a2 s3] eqn:El.
      rewrite (do_call_action _ _ _ _ _ _ _ _ El) in Hl. destruct a2; try contradiction; reflexivity.
  Qed.
End Walk.

Lemma idle_non_editing : non_editing unit idle_dec.
Proof. intros ph t s. exact I. Qed.

(* [f] only appends the calls [cs] to the log *)
Definition logs (f : st unit -> bool * st unit) (cs : list call) : Prop :=
  forall s, f s = (false, (tt, rev cs ++ snd s)).

Lemma logs_seq f g a b : logs f a -> logs g b -> logs (wseq f g) (a ++ b).
Proof. intros Hf Hg s. unfold wseq. rewrite Hf, Hg. cbn [snd]. rewrite rev_app_distr, app_assoc. reflexivity. Qed.

Lemma walk_idle : forall t k p n h, logs (walk_tree unit idle_dec t k p n h) (dfs_tree t k p n h).
Proof.
  apply (tree_mut
           (fun t => forall k p n h, logs (walk_tree unit idle_dec t k p n h) (dfs_tree t k p n h))
           (fun ss => forall i p n, logs (walk_slots unit idle_dec ss i p n) (dfs_slots ss i p n))
           (fun sl => forall i p n, logs (walk_slot unit idle_dec sl i p n)
                        (match sl with
                         | SNone => []
                         | SOne c => dfs_tree c (KName i) (p ++ [KName i]) n true
                         | SArr l => dfs_trees l 0%nat (p ++ [KName i]) (S n)
                         end))
           (fun l => forall j p n, logs (walk_trees unit idle_dec l j p n) (dfs_trees l j p n))).
  - intros kd id ss IH k p n h s. cbn [walk_tree dfs_tree]. unfold do_call, idle_dec. cbn [fst snd].
    rewrite IH. cbn [fst snd tid tkindof action_code]. unfold mk_idle. cbn [tid tkindof].
    do 2 f_equal. cbn [rev]. rewrite rev_app_distr. cbn [rev app]. rewrite <- !app_assoc. reflexivity.
  - intros i p n [[] lg]. reflexivity.
  - intros sl IHsl r IHr i p n s. rewrite walk_slots_cons. exact (logs_seq _ _ _ _ (IHsl i p n) (IHr (S i) p n) s).
  - intros i p n [[] lg]. reflexivity.
  - intros c IH i p n. apply IH.
  - intros l IH i p n. apply IH.
  - intros j p n [[] lg]. reflexivity.
  - intros c IHc r IHr j p n s. rewrite walk_trees_cons. exact (logs_seq _ _ _ _ (IHc _ _ _ _) (IHr _ _ _) s).
Qed.

Theorem idle_visit_log root : 
  visit unit idle_dec (depth_tree root) root tt = (RKeep, tt, dfs_tree root KNone [] 0%nat false).
Proof.
  unfold visit. rewrite (walk_spec unit idle_dec idle_non_editing _ root (le_n _)), (walk_idle root KNone [] 0%nat false (tt, [])). cbn [snd res_of fst].
  rewrite app_nil_r, rev_involutive. reflexivity.
Qed.
