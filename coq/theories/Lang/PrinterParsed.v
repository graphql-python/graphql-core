(* Every tree the parser returns for a source text of Unicode scalar values satisfies the lexical side
   conditions lex_ok of the printer theorems (Lang/PrinterProps.v): the parser only copies token values
   into the leaves, and the lexer's token values are lexemes / scalar strings / block values in range.
   So "parse, print, parse" is the identity on every parsed text. *)
From GV Require Import Base.Prelude Base.ListFacts Lang.Lexer Lang.LexerProps Lang.BlockString Lang.BlockStringProps
  Lang.StripBlock Lang.Strip Lang.StripProps Lang.Ast Lang.Parser Lang.Unparse Lang.Printer
  Lang.PrinterProps.

Definition tok_ok (t : sigtok) : Prop :=
  (fst t = K_NAME -> is_name (snd t) = true) /\
  (fst t = K_INT -> alone K_INT (snd t) (snd t) = true) /\
  (fst t = K_FLOAT -> alone K_FLOAT (snd t) (snd t) = true) /\
  (fst t = K_STRING -> scalars (snd t)) /\
  (fst t = K_BLOCK_STRING -> block_ok (snd t)).

(* escapes decode to scalar values *)
Lemma var_width_scalar n : forall point size ds p sz,
  var_width n point size ds = Some (p, sz) -> is_scalar p = true.
Proof.
  induction n as [|n IH]; intros point size ds p sz H; [discriminate|]. cbn [var_width] in H.
  destruct ds as [|c t]; [discriminate|]. destruct (c =? 125).
  - destruct (Nat.ltb (S size) 5) eqn:E1; [discriminate|]. cbn [orb] in H.
    destruct (is_scalar point) eqn:E2; [|discriminate]. inversion H; subst. exact E2.
  - destruct (hex_digit c); [|discriminate]. eapply IH; eauto.
Qed.

Lemma escaped_char_scalar c v : escaped_char c = Some v -> is_scalar v = true.
Proof.
  unfold escaped_char.
  repeat match goal with |- context [if ?b then _ else _] => destruct b end;
    intros H; inversion H; reflexivity.
Qed.

Lemma read_escape_scalars pos s v size : read_escape pos s = Ok (v, size) -> scalars v.
Proof.
  unfold read_escape. cbv zeta.
  destruct (peek_is (N.eqb 117) (tl s)).
  - destruct (peek_is (N.eqb 123) (tl (tl s))).
    + destruct (var_width 9 0 3 (skipn 3 s)) as [[p sz]|] eqn:E; [|discriminate].
      intros H; inversion H; subst. constructor; [eapply var_width_scalar; eauto|constructor].
    + destruct (hex4 (skipn 2 s)) as [code|]; [|discriminate].
      destruct (is_scalar code) eqn:Es.
      * intros H; inversion H; subst. constructor; [exact Es|constructor].
      * destruct (is_lead code && starts2 92 117 (skipn 6 s)) eqn:El; [|discriminate].
        destruct (hex4 (skipn 8 s)) as [tr|]; [|discriminate].
        destruct (is_trail tr) eqn:Et; [|discriminate]. intros H.
        assert (Ev : v = [65536 + (code - 55296) * 1024 + (tr - 56320)]) by congruence. subst v. clear H.
        apply andb_true_iff in El as [El _]. constructor; [|constructor].
        unfold is_lead in El. unfold is_trail in Et. unfold is_scalar.
        apply andb_true_iff in El as [L1 L2]. apply andb_true_iff in Et as [T1 T2].
        apply N.leb_le in L1, L2, T1, T2. apply orb_true_iff. right.
        apply andb_true_iff. split; apply N.leb_le; lia.
  - destruct (tl s) as [|c r]; [discriminate|]. destruct (escaped_char c) as [w|] eqn:E; [|discriminate].
    intros H; inversion H; subst. constructor; [eapply escaped_char_scalar; eauto|constructor].
Qed.

Lemma scalars_skipn n s : scalars s -> scalars (skipn n s).
Proof. apply Forall_skipn'. Qed.

Lemma read_string_loop_scalars fuel : forall pos acc s e v r,
  scalars s -> scalars acc -> read_string_loop fuel pos acc s = Ok (e, v, r) -> scalars v.
Proof.
  induction fuel as [|f IH]; intros pos acc s e v r Hs Ha H; [discriminate|].
  cbn [read_string_loop] in H. destruct s as [|c t]; [discriminate|].
  inversion Hs as [|? ? Hc Ht]; subst.
  destruct (c =? 34).
  { inversion H; subst. apply Forall_rev. exact Ha. }
  destruct (c =? 92).
  { destruct (read_escape pos (c :: t)) as [[w size]| | |] eqn:Ee; try discriminate.
    eapply IH; [| |exact H].
    - apply scalars_skipn. exact Hs.
    - apply Forall_app. split; [apply Forall_rev; eapply read_escape_scalars; eauto|exact Ha]. }
  destruct ((c =? LF) || (c =? CR)); [discriminate|].
  destruct (is_scalar c) eqn:Esc.
  { eapply IH; [exact Ht| |exact H]. constructor; assumption. }
  congruence.
Qed.

(* kinds that carry no condition *)
Lemma tok_ok_other k v : k <> K_NAME -> k <> K_INT -> k <> K_FLOAT -> k <> K_STRING -> k <> K_BLOCK_STRING ->
  tok_ok (k, v).
Proof. intros. split; [|split; [|split; [|split]]]; intros E; cbn [fst] in E; congruence. Qed.

(* tok_ok of a token whose kind is known: only the implication for that kind is left *)
Ltac one_kind := split; [|split; [|split; [|split]]]; intros ?; try discriminate.

Lemma read_token_tok_ok cu s tk cu' s' : scalars s -> read_token cu s = Ok (tk, cu', s') ->
  tok_ok (tok_sig tk) /\ scalars s'.
Proof.
  intros Hs E. destruct (read_token_ana _ _ _ _ _ E) as (g & lx & Es & _ & _ & _ & _ & Hcls).
  rewrite Es in Hs. apply Forall_app in Hs as [_ Hs]. apply Forall_app in Hs as [Hlx Hs'].
  split; [|exact Hs']. unfold tok_sig.
  destruct (tkind tk =? K_EOF) eqn:Ek.
  { apply N.eqb_eq in Ek. rewrite Ek. apply tok_ok_other; discriminate. }
  pose proof Hcls as HL.
  destruct Hcls as [c _ Hpk _ _| _ Hk _ _|c b -> Hns Hb _ Hk _ Hv|fl _ _ _ _ Hk _ Hv|body -> _ _ Hrd Hk _|Hk _ _ _|Hk].
  - destruct (punct_kind_some _ _ Hpk) as (_ & Hp & _).
    apply tok_ok_other; intros E'; rewrite E' in Hp; discriminate.
  - rewrite Hk. apply tok_ok_other; discriminate.
  - rewrite Hk. one_kind. cbn [snd]. rewrite Hv. cbn [is_name]. rewrite Hns.
    apply forallb_forall. rewrite Forall_forall in Hb. exact Hb.
  - (* numbers: the lexeme alone is that token *)
    assert (A : alone (tkind tk) (tvalue tk) (tvalue tk) = true).
    { assert (Hnc : (tkind tk =? K_COMMENT) = false) by (rewrite Hk; destruct fl; reflexivity).
      pose proof (relex0 tk lx s' HL Hnc init_cursor [] (or_intror I)) as R.
      unfold retext in R. replace (tkind tk =? K_BLOCK_STRING) with false in R by (rewrite Hk; destruct fl; reflexivity).
      destruct R as (tk2 & cu2 & E2 & K2 & V2 & _ & S2 & _). rewrite app_nil_r in E2.
      unfold alone. rewrite Hv, E2, K2, V2, Hv, S2, N.eqb_refl. cbn [andb].
      replace (nat_list_eqb lx lx) with true by (symmetry; apply nat_list_eqb_eq; reflexivity). reflexivity. }
    rewrite Hk in *. destruct fl; one_kind; exact A.
  - (* quoted strings: read_string_loop decodes to scalar values *)
    rewrite Hk. one_kind. cbn [snd].
    specialize (Hrd (S (length (body ++ []))) 0%nat [] (Nat.lt_succ_diag_r _)). rewrite app_nil_r in Hrd.
    inversion Hlx; subst. eapply read_string_loop_scalars; [eassumption|constructor|exact Hrd].
  - rewrite Hk. one_kind. cbn [snd].
    split; [eapply block_token_in_range; eauto|eapply block_token_wp; eauto].
  - rewrite Hk. apply tok_ok_other; discriminate.
Qed.

Lemma lex_loop_tok_ok fuel : forall cu s ts, scalars s -> lex_loop fuel cu s = Ok ts ->
  Forall tok_ok (map tok_sig ts).
Proof.
  induction fuel as [|f IH]; intros cu s ts Hs H; [discriminate|]. cbn [lex_loop] in H.
  destruct (read_token cu s) as [[[tk cu'] s']| | |] eqn:E; try discriminate.
  destruct (read_token_tok_ok _ _ _ _ _ Hs E) as [Ht Hs'].
  destruct (tkind tk =? K_EOF).
  - inversion H; subst. constructor; [exact Ht|constructor].
  - destruct (lex_loop f cu' s') as [ts'| | |] eqn:El; try discriminate. inversion H; subst.
    cbn [map]. constructor; [exact Ht|eapply IH; eauto].
Qed.

Lemma significant_tok_ok ts : Forall tok_ok (map tok_sig ts) -> Forall tok_ok (map tok_sig (significant ts)).
Proof.
  unfold significant. induction ts as [|t r IH]; intros F; [constructor|]. cbn [map] in F. inversion F; subst.
  cbn [filter]. destruct (negb (tkind t =? K_COMMENT)); [constructor; [assumption|]|]; apply IH; assumption.
Qed.

Lemma lex_tok_ok s ts : scalars s -> lex s = Ok ts -> Forall tok_ok (map tok_sig (significant ts)).
Proof. intros Hs H. apply significant_tok_ok. exact (lex_loop_tok_ok _ _ _ _ Hs H). Qed.

Definition Iok (ts : list sigtok) : Prop := Forall tok_ok ts.

(* on token lists whose tokens are ok, a successful run returns a result satisfying Q and leaves
   ok tokens *)
Definition posts {A} (Q : A -> Prop) (m : P A) : Prop :=
  forall ts a r, Iok ts -> m ts = ROk a r -> Q a /\ Iok r.

Lemma posts_ret {A} (Q : A -> Prop) a : Q a -> posts Q (ret a).
Proof. intros H ts b r Hi E. inversion E; subst. auto. Qed.

Lemma posts_bind {A B} (Q1 : A -> Prop) (Q2 : B -> Prop) (m : P A) (f : A -> P B) :
  posts Q1 m -> (forall a, Q1 a -> posts Q2 (f a)) -> posts Q2 (bind m f).
Proof.
  intros H1 H2 ts b r Hi. unfold bind. destruct (m ts) as [a r1| |] eqn:E; try discriminate.
  intros E2. destruct (H1 _ _ _ Hi E) as [Ha Hr]. eapply H2; eauto.
Qed.

Lemma posts_weaken {A} (Q1 Q2 : A -> Prop) m : posts Q1 m -> (forall a, Q1 a -> Q2 a) -> posts Q2 m.
Proof. intros H1 H2 ts a r Hi E. destruct (H1 _ _ _ Hi E). auto. Qed.

Lemma posts_fail_here {A} (Q : A -> Prop) : posts Q fail_here.
Proof. intros ts a r _ E. discriminate. Qed.
Lemma posts_fail_prev {A} (Q : A -> Prop) : posts Q fail_prev.
Proof. intros ts a r _ E. discriminate. Qed.
Lemma posts_fail_next {A} (Q : A -> Prop) : posts Q fail_next.
Proof. intros ts a r _ E. discriminate. Qed.
Lemma posts_out_of_fuel {A} (Q : A -> Prop) : posts Q out_of_fuel.
Proof. intros ts a r _ E. discriminate. Qed.
Lemma posts_with_fuel {A} (Q : A -> Prop) (g : nat -> P A) : (forall f, posts Q (g f)) -> posts Q (with_fuel g).
Proof. intros H ts a r Hi E. eapply H; eauto. Qed.

Lemma tok_ok_eof : tok_ok eof_tok.
Proof. repeat split; discriminate. Qed.
Lemma tok_at_ok ts : Iok ts -> tok_ok (tok_at ts).
Proof. intros H. destruct ts; [apply tok_ok_eof|]. inversion H; assumption. Qed.

Lemma posts_cur : posts tok_ok cur.
Proof. intros ts a r Hi E. inversion E; subst. split; [apply tok_at_ok, Hi|exact Hi]. Qed.

Section Prims.
Variable fl : nat.

Lemma posts_adv : posts (fun _ => True) (adv fl).
Proof.
  intros ts a r Hi E. split; [exact I|]. unfold adv in E. destruct ts as [|t r0]; [inversion E; subst; exact Hi|].
  destruct (fst t =? K_EOF); [inversion E; subst; exact Hi|]. unfold chk in E.
  destruct (kind_at r0 =? K_LEXERR); [discriminate|]. destruct (over fl r0); [discriminate|].
  inversion E; subst. inversion Hi; assumption.
Qed.

Lemma posts_look : posts tok_ok (look).
Proof.
  intros ts a r Hi E. unfold look in E. destruct ts as [|t r0]; [inversion E; subst; split; [apply tok_ok_eof|exact Hi]|].
  inversion Hi as [|? ? Ht Hr]; subst.
  destruct (fst t =? K_EOF); [inversion E; subst; split; [exact Ht|exact Hi]|].
  destruct (kind_at r0 =? K_LEXERR); [discriminate|]. inversion E; subst. split; [apply tok_at_ok, Hr|exact Hi].
Qed.
End Prims.

Create HintDb ps.
#[export] Hint Resolve posts_fail_here posts_fail_prev posts_fail_next posts_out_of_fuel posts_cur
  posts_adv posts_look : ps.

(* the result of the first computation is named a, a0, ..., its property H, H0, ... *)
Ltac sb :=
  eapply posts_bind; [solve [eauto 3 with ps]|cbv beta; let a := fresh "a" in let H := fresh "H" in intros a H].

Section Prims2.
Variable fl : nat.

Lemma posts_expect_token k : posts (fun v => tok_ok (k, v)) (expect_token fl k).
Proof.
  unfold expect_token. sb. destruct (fst a =? k) eqn:E; [|apply posts_fail_here].
  sb. apply posts_ret. apply N.eqb_eq in E. subst k. destruct a. exact H.
Qed.
Lemma posts_expect_optional_token k : posts (fun _ => True) (expect_optional_token fl k).
Proof. unfold expect_optional_token. sb. destruct (fst a =? k); [sb|]; apply posts_ret; exact I. Qed.
Lemma posts_expect_keyword w : posts (fun _ => True) (expect_keyword fl w).
Proof. unfold expect_keyword. sb. destruct (is_keyword a w); [apply posts_adv|apply posts_fail_here]. Qed.
Lemma posts_expect_optional_keyword w : posts (fun _ => True) (expect_optional_keyword fl w).
Proof. unfold expect_optional_keyword. sb. destruct (is_keyword a w); [sb|]; apply posts_ret; exact I. Qed.
End Prims2.
#[export] Hint Resolve posts_expect_token posts_expect_optional_token posts_expect_keyword
  posts_expect_optional_keyword : ps.

Section Loops.
Variable fl : nat.
Variable p : P node.
Hypothesis Hp : posts lex_ok p.

Lemma posts_until_close close : forall f, posts (Forall lex_ok) (until_close fl f close p).
Proof.
  induction f as [|f IH]; [apply posts_out_of_fuel|]. cbn [until_close].
  sb. destruct a; [apply posts_ret; constructor|].
  eapply posts_bind; [exact Hp|]. intros x Hx.
  eapply posts_bind; [exact IH|]. intros xs Hxs. apply posts_ret. constructor; assumption.
Qed.
Lemma posts_loop_close close : posts (Forall lex_ok) (loop_close fl close p).
Proof. unfold loop_close. apply posts_with_fuel. apply posts_until_close. Qed.
Lemma posts_any open close : posts (Forall lex_ok) (any_ fl open p close).
Proof. unfold any_. sb. apply posts_loop_close. Qed.
Lemma posts_many open close : posts (Forall lex_ok) (many fl open p close).
Proof.
  unfold many. sb. eapply posts_bind; [exact Hp|]. intros x Hx.
  eapply posts_bind; [apply posts_loop_close|]. intros xs Hxs. apply posts_ret. constructor; assumption.
Qed.
Lemma posts_optional_many open close :
  posts (fun o => attr_ok (oattr o)) (optional_many fl open p close).
Proof.
  unfold optional_many. sb. destruct a; [|apply posts_ret; exact I].
  eapply posts_bind; [exact Hp|]. intros x Hx.
  eapply posts_bind; [apply posts_loop_close|]. intros xs Hxs. apply posts_ret. cbn [oattr attr_ok].
  apply all_ok. constructor; assumption.
Qed.
Lemma posts_delim_loop delim : forall f, posts (Forall lex_ok) (delim_loop fl f delim p).
Proof.
  induction f as [|f IH]; [apply posts_out_of_fuel|]. cbn [delim_loop].
  eapply posts_bind; [exact Hp|]. intros x Hx. sb. destruct a.
  - eapply posts_bind; [exact IH|]. intros xs Hxs. apply posts_ret. constructor; assumption.
  - apply posts_ret. constructor; [assumption|constructor].
Qed.
Lemma posts_delimited_many delim : posts (Forall lex_ok) (delimited_many fl delim p).
Proof. unfold delimited_many. sb. apply posts_with_fuel. apply posts_delim_loop. Qed.
Lemma posts_while_peek k : forall f, posts (Forall lex_ok) (while_peek f k p).
Proof.
  induction f as [|f IH]; [apply posts_out_of_fuel|]. cbn [while_peek].
  sb. destruct (fst a =? k); [|apply posts_ret; constructor].
  eapply posts_bind; [exact Hp|]. intros x Hx.
  eapply posts_bind; [exact IH|]. intros xs Hxs. apply posts_ret. constructor; assumption.
Qed.
End Loops.

Lemma lattr_ok l : Forall lex_ok l -> attr_ok (lattr l).
Proof. intros H. destruct l; [exact I|]. cbn [lattr attr_ok]. apply all_ok. exact H. Qed.
Lemma alist_ok l : Forall lex_ok l -> attr_ok (AList l).
Proof. intros H. cbn [attr_ok]. apply all_ok. exact H. Qed.

(* a node all of whose attributes are ok and whose kind has no leaf condition *)
Ltac nd := apply posts_ret; cbn [lex_ok leaf_ok map fold_right attr_ok oattr lattr] in *; repeat split; auto.

Section Productions.
Variable fl : nat.

Lemma posts_name : posts lex_ok (name fl).
Proof. unfold name. sb. apply posts_ret. destruct H as (H & _). cbn. repeat split. apply H. reflexivity. Qed.
Hint Resolve posts_name : ps.

Lemma posts_variable : posts lex_ok (variable fl).
Proof. unfold variable. sb. sb. nd. Qed.
Hint Resolve posts_variable : ps.
Lemma posts_named_type : posts lex_ok (named_type fl).
Proof. unfold named_type. sb. nd. Qed.
Hint Resolve posts_named_type : ps.

Lemma named_value_ok v : is_name v = true -> lex_ok (named_value v).
Proof.
  intros H. unfold named_value. destruct (seqb v s_true); [cbn; auto|].
  destruct (seqb v s_false); [cbn; auto|]. destruct (seqb v s_null); cbn; auto.
Qed.

Lemma posts_object_field pv : posts lex_ok pv -> posts lex_ok (object_field fl pv).
Proof.
  intros Hpv. unfold object_field. sb. sb. eapply posts_bind; [exact Hpv|]. intros v Hv. nd.
Qed.

Lemma posts_value c : forall f, posts lex_ok (value fl f c).
Proof.
  induction f as [|f IH]; [apply posts_out_of_fuel|]. cbn [value]. cbv zeta.
  sb.
  repeat match goal with |- posts _ (if ?b then _ else _) => destruct b end.
  - eapply posts_bind; [apply posts_any; exact IH|]. intros l Hl. apply posts_ret.
    cbn. repeat split. apply all_ok, Hl.
  - eapply posts_bind; [apply posts_any; apply posts_object_field; exact IH|]. intros l Hl. apply posts_ret.
    cbn. repeat split. apply all_ok, Hl.
  - eapply posts_bind; [apply posts_expect_token|intros v Hv]. apply posts_ret.
    destruct Hv as (_ & Hv & _). cbn. repeat split; apply Hv; reflexivity.
  - eapply posts_bind; [apply posts_expect_token|intros v Hv]. apply posts_ret.
    destruct Hv as (_ & _ & Hv & _). cbn. repeat split; apply Hv; reflexivity.
  - eapply posts_bind; [apply posts_expect_token|intros v Hv]. apply posts_ret.
    destruct Hv as (_ & _ & _ & Hv & _). cbn. repeat split; apply Hv; reflexivity.
  - eapply posts_bind; [apply posts_expect_token|intros v Hv]. apply posts_ret.
    destruct Hv as (_ & _ & _ & _ & Hv). cbn. repeat split; apply Hv; reflexivity.
  - eapply posts_bind; [apply posts_expect_token|intros v Hv]. apply posts_ret.
    destruct Hv as (Hv & _). apply named_value_ok. apply Hv. reflexivity.
  - sb. apply posts_fail_prev.
  - apply posts_variable.
  - apply posts_fail_here.
Qed.
Lemma posts_value_literal c : posts lex_ok (value_literal fl c).
Proof. unfold value_literal. apply posts_with_fuel. apply posts_value. Qed.
Hint Resolve posts_value_literal : ps.

Lemma posts_description : posts attr_ok (description fl).
Proof.
  intros ts a r Hi E. unfold description, bind, cur in E.
  destruct (peek_description (tok_at ts)) eqn:Ep; [|inversion E; subst; split; [exact I|exact Hi]].
  unfold string_literal, bind, cur in E.
  destruct (adv fl ts) as [u r1| |] eqn:Ea; try discriminate. cbn [ret] in E. inversion E; subst.
  destruct (posts_adv fl ts u r Hi Ea) as [_ Hr]. split; [|exact Hr].
  pose proof (tok_at_ok ts Hi) as (_ & _ & _ & Hs & Hb). cbn. repeat split.
  unfold peek_description in Ep. destruct (fst (tok_at ts) =? K_BLOCK_STRING) eqn:Eb.
  - apply Hb, N.eqb_eq, Eb.
  - rewrite orb_false_r in Ep. apply Hs, N.eqb_eq, Ep.
Qed.
End Productions.
#[export] Hint Resolve posts_name posts_variable posts_named_type posts_value_literal posts_description : ps.

(* productions that only sequence registered pieces and build a node without a leaf condition:
   every step is one of the cases below, chosen by the shape of the parser term *)
Ltac go := repeat first
  [ apply posts_fail_here | apply posts_fail_prev | apply posts_fail_next
  | match goal with |- posts _ (ret _) => nd end
  | match goal with |- posts _ (bind _ _) => sb end
  | match goal with |- posts _ (if ?b then _ else _) => destruct b eqn:? end
  | solve [eauto 3 with ps] ].

(* bind whose first computation is a conditional returning an attribute *)
Ltac sba := eapply (posts_bind attr_ok); [|cbv beta; let a := fresh "a" in let H := fresh "H" in intros a H].

Section Productions2.
Variable fl : nat.

Lemma posts_type_ref : forall f, posts lex_ok (type_ref fl f).
Proof.
  induction f as [|f IH]; [apply posts_out_of_fuel|]. cbn [type_ref].
  sb. eapply (posts_bind lex_ok).
  - destruct a; [|apply posts_named_type]. eapply posts_bind; [exact IH|]. intros i Hi. sb. nd.
  - intros t Ht. sb. destruct a0; nd.
Qed.
Lemma posts_type_reference : posts lex_ok (type_reference fl).
Proof. unfold type_reference. apply posts_with_fuel. apply posts_type_ref. Qed.
Hint Resolve posts_type_reference : ps.

Lemma posts_argument c : posts lex_ok (argument fl c).
Proof. unfold argument. go. Qed.
Lemma posts_arguments c : posts (fun o => attr_ok (oattr o)) (arguments fl c).
Proof. unfold arguments. apply posts_optional_many. apply posts_argument. Qed.
Lemma posts_fragment_argument : posts lex_ok (fragment_argument fl).
Proof. unfold fragment_argument. go. Qed.
Lemma posts_fragment_arguments : posts (fun o => attr_ok (oattr o)) (fragment_arguments fl).
Proof. unfold fragment_arguments. apply posts_optional_many. apply posts_fragment_argument. Qed.
Hint Resolve posts_arguments posts_fragment_arguments : ps.

Lemma posts_directive c : posts lex_ok (directive fl c).
Proof. unfold directive. go. Qed.
Lemma posts_directives c : posts attr_ok (directives fl c).
Proof.
  unfold directives. eapply posts_bind.
  - apply posts_with_fuel. intros f. apply posts_while_peek. apply posts_directive.
  - intros l Hl. apply posts_ret. apply lattr_ok, Hl.
Qed.
Hint Resolve posts_directives : ps.

Lemma posts_fragment_name : posts lex_ok (fragment_name fl).
Proof. unfold fragment_name. go. Qed.
Hint Resolve posts_fragment_name : ps.

Lemma posts_field ss : posts lex_ok ss -> posts lex_ok (field fl ss).
Proof.
  intros Hss. unfold field. sb. sb.
  eapply (posts_bind (fun an => attr_ok (fst an) /\ lex_ok (snd an))).
  { destruct a0; [sb|]; apply posts_ret; cbn [fst snd attr_ok]; auto. }
  intros an [Ha1 Ha2]. sb. sb. sb. sba.
  { match goal with |- posts _ (if ?b then _ else _) => destruct b end; [|nd].
    eapply posts_bind; [exact Hss|]. intros x Hx. nd. }
  nd.
Qed.

Lemma posts_fragment xfa ss : posts lex_ok ss -> posts lex_ok (fragment fl xfa ss).
Proof.
  intros Hss. unfold fragment. sb. sb. sb.
  destruct (negb a0 && (fst a1 =? K_NAME)).
  - sb. sb. eapply (posts_bind (fun o => attr_ok (oattr o))).
    { match goal with |- posts _ (if ?b then _ else _) => destruct b end;
        [apply posts_fragment_arguments|apply posts_ret; exact I]. }
    intros o Ho. sb. nd.
  - sba. { destruct a0; [sb|]; nd. }
    sb. eapply posts_bind; [exact Hss|]. intros s Hs. nd.
Qed.

Lemma posts_selection xfa ss : posts lex_ok ss -> posts lex_ok (selection fl xfa ss).
Proof.
  intros Hss. unfold selection. sb. destruct (fst a =? K_SPREAD); [apply posts_fragment|apply posts_field]; exact Hss.
Qed.

Lemma posts_sel_set xfa : forall f, posts lex_ok (sel_set fl xfa f).
Proof.
  induction f as [|f IH]; [apply posts_out_of_fuel|]. cbn [sel_set].
  eapply posts_bind; [apply posts_many; apply posts_selection; exact IH|]. intros l Hl.
  apply posts_ret. cbn. repeat split. apply all_ok, Hl.
Qed.
Lemma posts_selection_set xfa : posts lex_ok (selection_set fl xfa).
Proof. unfold selection_set. apply posts_with_fuel. apply posts_sel_set. Qed.
Hint Resolve posts_selection_set : ps.

Lemma posts_default :
  forall e : bool, posts attr_ok (if e then x <- value_literal fl true ;; ret (ANode x) else ret ANone).
Proof. intros e. destruct e; [sb|]; nd. Qed.

Lemma posts_variable_definition : posts lex_ok (variable_definition fl).
Proof.
  unfold variable_definition. sb. sb. sb. sb. sb.
  eapply posts_bind; [apply posts_default|]. intros dv Hdv. sb. nd.
Qed.
Lemma posts_variable_definitions : posts (fun o => attr_ok (oattr o)) (variable_definitions fl).
Proof. unfold variable_definitions. apply posts_optional_many. apply posts_variable_definition. Qed.
Hint Resolve posts_variable_definitions : ps.

Lemma posts_operation_type : posts (fun _ => True) (operation_type fl).
Proof. unfold operation_type. sb. destruct (operation_type_of a); [apply posts_ret; exact I|apply posts_fail_prev]. Qed.
Hint Resolve posts_operation_type : ps.

Lemma posts_operation_definition xfa : posts lex_ok (operation_definition fl xfa).
Proof.
  unfold operation_definition. sb. destruct (fst a =? K_BRACE_L).
  - sb. nd.
  - sb. sb. sb. sba. { match goal with |- posts _ (if ?b then _ else _) => destruct b end; [sb|]; nd. }
    sb. sb. sb. nd.
Qed.

Lemma posts_type_condition : posts lex_ok (type_condition fl).
Proof. unfold type_condition. go. Qed.
Hint Resolve posts_type_condition : ps.

Lemma posts_fragment_definition xfa : posts lex_ok (fragment_definition fl xfa).
Proof.
  unfold fragment_definition. sb. sb. sb. sba.
  { destruct xfa; [sb; nd|apply posts_ret; exact I]. }
  sb. sb. sb. nd.
Qed.

Lemma posts_operation_type_definition : posts lex_ok (operation_type_definition fl).
Proof. unfold operation_type_definition. go. Qed.

Lemma posts_named_types_opt (m : P bool) delim : posts (fun _ => True) m ->
  posts attr_ok (b <- m ;; if b then l <- delimited_many fl delim (named_type fl) ;; ret (AList l) else ret ANone).
Proof.
  intros Hm. eapply posts_bind; [exact Hm|]. intros b _. destruct b; [|nd].
  eapply posts_bind; [apply posts_delimited_many; apply posts_named_type|]. intros l Hl.
  apply posts_ret. apply alist_ok, Hl.
Qed.
Lemma posts_implements_interfaces : posts attr_ok (implements_interfaces fl).
Proof. apply posts_named_types_opt, posts_expect_optional_keyword. Qed.
Lemma posts_union_member_types : posts attr_ok (union_member_types fl).
Proof. apply posts_named_types_opt, posts_expect_optional_token. Qed.
Hint Resolve posts_implements_interfaces posts_union_member_types : ps.

Lemma posts_input_value_def : posts lex_ok (input_value_def fl).
Proof.
  unfold input_value_def. sb. sb. sb. sb. sb.
  eapply posts_bind; [apply posts_default|]. intros dv Hdv. sb. nd.
Qed.
Lemma posts_argument_defs : posts (fun o => attr_ok (oattr o)) (argument_defs fl).
Proof. unfold argument_defs. apply posts_optional_many. apply posts_input_value_def. Qed.
Lemma posts_input_fields_definition : posts (fun o => attr_ok (oattr o)) (input_fields_definition fl).
Proof. unfold input_fields_definition. apply posts_optional_many. apply posts_input_value_def. Qed.
Hint Resolve posts_argument_defs posts_input_fields_definition : ps.

Lemma posts_field_definition : posts lex_ok (field_definition fl).
Proof. unfold field_definition. go. Qed.
Lemma posts_fields_definition : posts (fun o => attr_ok (oattr o)) (fields_definition fl).
Proof. unfold fields_definition. apply posts_optional_many. apply posts_field_definition. Qed.
Hint Resolve posts_fields_definition : ps.

Lemma posts_enum_value_name : posts lex_ok (enum_value_name fl).
Proof. unfold enum_value_name. go. Qed.
Hint Resolve posts_enum_value_name : ps.
Lemma posts_enum_value_definition : posts lex_ok (enum_value_definition fl).
Proof. unfold enum_value_definition. go. Qed.
Lemma posts_enum_values_definition : posts (fun o => attr_ok (oattr o)) (enum_values_definition fl).
Proof. unfold enum_values_definition. apply posts_optional_many. apply posts_enum_value_definition. Qed.
Hint Resolve posts_enum_values_definition : ps.

Lemma posts_directive_location : posts lex_ok (directive_location fl).
Proof.
  unfold directive_location. sb. destruct (is_directive_location a); [|apply posts_fail_prev].
  apply posts_ret. destruct H as (H & _). cbn. repeat split. apply H. reflexivity.
Qed.

Lemma posts_many_otd o c : posts (Forall lex_ok) (many fl o (operation_type_definition fl) c).
Proof. apply posts_many. apply posts_operation_type_definition. Qed.
Lemma posts_optional_many_otd o c :
  posts (fun x => attr_ok (oattr x)) (optional_many fl o (operation_type_definition fl) c).
Proof. apply posts_optional_many. apply posts_operation_type_definition. Qed.
Hint Resolve posts_many_otd posts_optional_many_otd : ps.

Lemma posts_schema_definition : posts lex_ok (schema_definition fl).
Proof. unfold schema_definition. sb. sb. sb. sb. apply posts_ret. cbn. repeat split; auto. apply all_ok. assumption. Qed.
Lemma posts_scalar_type_definition : posts lex_ok (scalar_type_definition fl).
Proof. unfold scalar_type_definition. go. Qed.
Lemma posts_object_type_definition : posts lex_ok (object_type_definition fl).
Proof. unfold object_type_definition. go. Qed.
Lemma posts_interface_type_definition : posts lex_ok (interface_type_definition fl).
Proof. unfold interface_type_definition. go. Qed.
Lemma posts_union_type_definition : posts lex_ok (union_type_definition fl).
Proof. unfold union_type_definition. go. Qed.
Lemma posts_enum_type_definition : posts lex_ok (enum_type_definition fl).
Proof. unfold enum_type_definition. go. Qed.
Lemma posts_input_object_type_definition : posts lex_ok (input_object_type_definition fl).
Proof. unfold input_object_type_definition. go. Qed.

Lemma posts_directive_definition xdd : posts lex_ok (directive_definition fl xdd).
Proof.
  unfold directive_definition. sb. sb. sb. sb. sb. sba. { destruct xdd; [apply posts_directives|nd]. }
  sb. sb. eapply posts_bind; [apply posts_delimited_many; apply posts_directive_location|]. intros ls Hls.
  apply posts_ret. cbn [lex_ok leaf_ok map fold_right attr_ok oattr] in *. repeat split; auto. apply all_ok, Hls.
Qed.

Lemma posts_schema_extension : posts lex_ok (schema_extension fl).
Proof. unfold schema_extension. go. Qed.
Lemma posts_scalar_type_extension : posts lex_ok (scalar_type_extension fl).
Proof. unfold scalar_type_extension. go. Qed.
Lemma posts_object_type_extension : posts lex_ok (object_type_extension fl).
Proof. unfold object_type_extension. go. Qed.
Lemma posts_interface_type_extension : posts lex_ok (interface_type_extension fl).
Proof. unfold interface_type_extension. go. Qed.
Lemma posts_union_type_extension : posts lex_ok (union_type_extension fl).
Proof. unfold union_type_extension. go. Qed.
Lemma posts_enum_type_extension : posts lex_ok (enum_type_extension fl).
Proof. unfold enum_type_extension. go. Qed.
Lemma posts_input_object_type_extension : posts lex_ok (input_object_type_extension fl).
Proof. unfold input_object_type_extension. go. Qed.
Lemma posts_directive_definition_extension : posts lex_ok (directive_definition_extension fl).
Proof. unfold directive_definition_extension. go. Qed.

Lemma posts_type_system_extension xdd : posts lex_ok (type_system_extension fl xdd).
Proof.
  unfold type_system_extension. sb. destruct (fst a =? K_NAME); [|apply posts_fail_next]. cbv zeta.
  repeat match goal with |- posts _ (if ?b then _ else _) => destruct b end;
    first [apply posts_schema_extension|apply posts_scalar_type_extension|apply posts_object_type_extension
          |apply posts_interface_type_extension|apply posts_union_type_extension|apply posts_enum_type_extension
          |apply posts_input_object_type_extension|apply posts_directive_definition_extension|apply posts_fail_next].
Qed.

Lemma posts_definition xfa xdd : posts lex_ok (definition fl xfa xdd).
Proof.
  unfold definition. sb. destruct (fst a =? K_BRACE_L); [apply posts_operation_definition|]. cbv zeta.
  eapply (posts_bind tok_ok). { destruct (peek_description a); [apply posts_look|apply posts_ret; exact H]. }
  intros kt Hkt.
  repeat match goal with |- posts _ (if ?b then _ else _) => destruct b end;
    first [apply posts_fail_here|apply posts_fail_next|apply posts_schema_definition|apply posts_scalar_type_definition
          |apply posts_object_type_definition|apply posts_interface_type_definition|apply posts_union_type_definition
          |apply posts_enum_type_definition|apply posts_input_object_type_definition|apply posts_directive_definition
          |apply posts_operation_definition|apply posts_fragment_definition|apply posts_type_system_extension].
Qed.

Lemma posts_document xfa xdd : posts lex_ok (document fl xfa xdd).
Proof.
  unfold document. eapply posts_bind; [apply posts_many; apply posts_definition|]. intros l Hl.
  apply posts_ret. cbn. repeat split. apply all_ok, Hl.
Qed.

Lemma posts_value_entry c : posts lex_ok (value_entry fl c).
Proof. unfold value_entry, enter. sb. sb. sb. apply posts_ret. assumption. Qed.
Lemma posts_type_entry : posts lex_ok (type_entry fl).
Proof. unfold type_entry, enter. sb. sb. sb. apply posts_ret. assumption. Qed.
End Productions2.

Theorem parse_entry_lex_ok e o ts x c : e <> ECoordinate ->
  Forall tok_ok (map sig ts) -> parse_entry e o ts = Ok (x, c) -> lex_ok x.
Proof.
  intros He Hts. unfold parse_entry.
  destruct (core e _ _ _ _) as [d r|y|] eqn:E; try discriminate. intros H; inversion H; subst.
  assert (Hi : Iok (sof_tok :: map sig ts)).
  { constructor; [repeat split; discriminate|exact Hts]. }
  destruct e; cbn [core] in E; [| | | |congruence].
  - exact (proj1 (posts_document _ _ _ _ _ _ Hi E)).
  - exact (proj1 (posts_value_entry _ _ _ _ _ Hi E)).
  - exact (proj1 (posts_value_entry _ _ _ _ _ Hi E)).
  - exact (proj1 (posts_type_entry _ _ _ _ Hi E)).
Qed.
