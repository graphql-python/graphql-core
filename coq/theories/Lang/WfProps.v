(* Every tree returned by the parser is well formed (Lang/Wf.v), production by production.
   Together with UnparseProps this gives: whatever parses, re-parses from its own unparse to the
   same tree. *)
From GV Require Import Base.Prelude Lang.Lexer Lang.Ast Lang.Parser Lang.Unparse Lang.Wf Lang.UnparseFacts.

Local Open Scope nat_scope.

Definition post {A} (Q : A -> Prop) (m : P A) : Prop := forall ts a r, m ts = ROk a r -> Q a.

Lemma post_ret {A} (Q : A -> Prop) a : Q a -> post Q (ret a).
Proof. intros H ts b r E. inversion E; subst. exact H. Qed.

Lemma post_bind {A B} (Q1 : A -> Prop) (Q2 : B -> Prop) (m : P A) (f : A -> P B) :
  post Q1 m -> (forall a, Q1 a -> post Q2 (f a)) -> post Q2 (bind m f).
Proof.
  intros H1 H2 ts b r. unfold bind. destruct (m ts) as [a r1| |] eqn:E; try discriminate.
  intros E2. eapply H2; [eapply H1; exact E|exact E2].
Qed.

Lemma post_true {A} (m : P A) : post (fun _ => True) m.
Proof. intros ts a r _. exact I. Qed.

Lemma post_weaken {A} (Q1 Q2 : A -> Prop) m : post Q1 m -> (forall a, Q1 a -> Q2 a) -> post Q2 m.
Proof. intros H1 H2 ts a r E. apply H2. eapply H1. exact E. Qed.

Lemma post_fail_here {A} (Q : A -> Prop) : post Q fail_here.
Proof. intros ts a r E. discriminate. Qed.
Lemma post_fail_prev {A} (Q : A -> Prop) : post Q fail_prev.
Proof. intros ts a r E. discriminate. Qed.
Lemma post_fail_next {A} (Q : A -> Prop) : post Q fail_next.
Proof. intros ts a r E. discriminate. Qed.
Lemma post_out_of_fuel {A} (Q : A -> Prop) : post Q out_of_fuel.
Proof. intros ts a r E. discriminate. Qed.

Lemma post_with_fuel {A} (Q : A -> Prop) (g : nat -> P A) : (forall f, post Q (g f)) -> post Q (with_fuel g).
Proof. intros H ts a r E. eapply H. exact E. Qed.

Create HintDb post.
#[export] Hint Resolve post_fail_here post_fail_prev post_fail_next post_out_of_fuel : post.
#[export] Hint Resolve post_true | 10 : post.

(* the bind tactics name what they introduce: the results a, a0, a1, ... and their properties H, H0, ... *)
(* bind whose first result carries no information *)
Ltac pb_true := eapply (post_bind (fun _ => True)); [apply post_true|let a := fresh "a" in intros a _].
(* bind whose first result is described by a registered lemma *)
Ltac pbb :=
  eapply post_bind;
  [solve [eauto 2 with post]|cbv beta; let a := fresh "a" in let H := fresh "H" in intros a H; cbv beta in *].

Section Loops.
Variable fl : nat.
Variable p : P node.
Variable Pn : node -> Prop.
Hypothesis Hp : post Pn p.

Lemma post_until_close close : forall f, post (Forall Pn) (until_close fl f close p).
Proof.
  induction f as [|f IH]; [apply post_out_of_fuel|]. cbn [until_close].
  pb_true. destruct a; [apply post_ret; constructor|].
  eapply post_bind; [exact Hp|]. intros x Hx.
  eapply post_bind; [exact IH|]. intros xs Hxs. apply post_ret. constructor; assumption.
Qed.

Lemma post_loop_close close : post (Forall Pn) (loop_close fl close p).
Proof. unfold loop_close. apply post_with_fuel. apply post_until_close. Qed.

Lemma post_any open close : post (Forall Pn) (any_ fl open p close).
Proof. unfold any_. pb_true. apply post_loop_close. Qed.

Lemma post_many open close : post (fun l => wf_list1 Pn (AList l)) (many fl open p close).
Proof.
  unfold many. pb_true. eapply post_bind; [exact Hp|]. intros x Hx.
  eapply post_bind; [apply post_loop_close|]. intros xs Hxs. apply post_ret. constructor; assumption.
Qed.

Lemma post_optional_many open close : post (fun o => wf_nelist Pn (oattr o)) (optional_many fl open p close).
Proof.
  unfold optional_many. pb_true. destruct a; [|apply post_ret; constructor].
  eapply post_bind; [exact Hp|]. intros x Hx.
  eapply post_bind; [apply post_loop_close|]. intros xs Hxs. apply post_ret. constructor; assumption.
Qed.

Lemma post_delim_loop delim : forall f, post (fun l => wf_list1 Pn (AList l)) (delim_loop fl f delim p).
Proof.
  induction f as [|f IH]; [apply post_out_of_fuel|]. cbn [delim_loop].
  eapply post_bind; [exact Hp|]. intros x Hx. pb_true. destruct a.
  - eapply post_bind; [exact IH|]. intros xs Hxs. apply post_ret.
    inversion Hxs; subst. constructor; [exact Hx|]. constructor; assumption.
  - apply post_ret. constructor; [exact Hx|constructor].
Qed.

Lemma post_delimited_many delim : post (fun l => wf_list1 Pn (AList l)) (delimited_many fl delim p).
Proof. unfold delimited_many. pb_true. apply post_with_fuel. apply post_delim_loop. Qed.

Lemma post_while_peek k : forall f, post (Forall Pn) (while_peek f k p).
Proof.
  induction f as [|f IH]; [apply post_out_of_fuel|]. cbn [while_peek].
  pb_true. destruct (fst a =? k)%N; [|apply post_ret; constructor].
  eapply post_bind; [exact Hp|]. intros x Hx.
  eapply post_bind; [exact IH|]. intros xs Hxs. apply post_ret. constructor; assumption.
Qed.
End Loops.

Lemma lattr_wf Pn l : Forall Pn l -> wf_nelist Pn (lattr l).
Proof. intros [|x l' Hx Hl]; constructor; assumption. Qed.

Lemma post_name fl : post wf_name (name fl).
Proof. unfold name. pb_true. apply post_ret. constructor. Qed.
#[export] Hint Resolve post_name : post.

Lemma post_variable fl : post wf_variable (variable fl).
Proof. unfold variable. pb_true. pbb. apply post_ret. constructor. assumption. Qed.
#[export] Hint Resolve post_variable : post.

Lemma post_named_type fl : post wf_named_type (named_type fl).
Proof. unfold named_type. pbb. apply post_ret. constructor. assumption. Qed.
#[export] Hint Resolve post_named_type : post.

Lemma named_value_wf c v : wf_value c (named_value v).
Proof.
  unfold named_value. destruct (seqb v s_true) eqn:E1; [constructor|].
  destruct (seqb v s_false) eqn:E2; [constructor|].
  destruct (seqb v s_null) eqn:E3; [constructor|]. constructor. repeat split; assumption.
Qed.

Lemma Forall_wf_values c l : Forall (wf_value c) l -> wf_values c l.
Proof. induction 1; constructor; assumption. Qed.

Definition is_object_field (c : bool) (x : node) : Prop :=
  exists n v, x = Nd KObjectField [ANode n; ANode v] /\ wf_name n /\ wf_value c v.

Lemma Forall_wf_object_fields c l : Forall (is_object_field c) l -> wf_object_fields c l.
Proof.
  induction 1 as [|x l (n & v & -> & Hn & Hv) Hl IH]; constructor; assumption.
Qed.

Lemma post_object_field fl c pv : post (wf_value c) pv -> post (is_object_field c) (object_field fl pv).
Proof.
  intros Hpv. unfold object_field. pbb. pb_true. eapply post_bind; [exact Hpv|]. intros v Hv.
  apply post_ret. exists a, v. auto.
Qed.

Lemma post_value fl c : forall f, post (wf_value c) (value fl f c).
Proof.
  induction f as [|f IH]; [apply post_out_of_fuel|]. cbn [value]. cbv zeta.
  pb_true.
  repeat match goal with |- post _ (if ?b then _ else _) => destruct b end.
  - eapply post_bind; [apply (post_any fl _ (wf_value c)); exact IH|]. intros l Hl.
    apply post_ret. constructor. apply Forall_wf_values. exact Hl.
  - eapply post_bind; [apply (post_any fl _ (is_object_field c)); apply post_object_field; exact IH|].
    intros l Hl. apply post_ret. constructor. apply Forall_wf_object_fields. exact Hl.
  - pb_true. apply post_ret. constructor.
  - pb_true. apply post_ret. constructor.
  - pb_true. apply post_ret. constructor.
  - pb_true. apply post_ret. constructor.
  - pb_true. apply post_ret. apply named_value_wf.
  - pb_true. apply post_fail_prev.
  - eapply post_weaken; [apply post_variable|]. intros x [n Hn]. constructor; [reflexivity|exact Hn].
  - apply post_fail_here.
Qed.

Lemma post_value_literal fl c : post (wf_value c) (value_literal fl c).
Proof. unfold value_literal. apply post_with_fuel. apply post_value. Qed.
#[export] Hint Resolve post_value_literal : post.

Lemma post_string_literal fl : post wf_string (string_literal fl).
Proof. unfold string_literal. pb_true. pb_true. apply post_ret. constructor. Qed.
#[export] Hint Resolve post_string_literal : post.

Lemma post_description fl : post wf_description (description fl).
Proof.
  unfold description. pb_true. destruct (peek_description a); [|apply post_ret; constructor].
  pbb. apply post_ret. constructor. assumption.
Qed.
#[export] Hint Resolve post_description : post.

Definition base_type (t : node) : Prop :=
  (exists n, t = Nd KNamedType [ANode n] /\ wf_name n) \/ (exists i, t = Nd KListType [ANode i] /\ wf_type i).

Lemma post_type_ref fl : forall f, post wf_type (type_ref fl f).
Proof.
  induction f as [|f IH]; [apply post_out_of_fuel|]. cbn [type_ref].
  pb_true. eapply (post_bind base_type).
  - destruct a.
    + eapply post_bind; [exact IH|]. intros i Hi. pb_true. apply post_ret. right. eauto.
    + eapply post_weaken; [apply post_named_type|]. intros t [n Hn]. left. eauto.
  - intros t Ht. pb_true. apply post_ret.
    destruct a0, Ht as [(n & -> & Hn)|(i & -> & Hi)]; constructor; assumption.
Qed.

Lemma post_type_reference fl : post wf_type (type_reference fl).
Proof. unfold type_reference. apply post_with_fuel. apply post_type_ref. Qed.
#[export] Hint Resolve post_type_reference : post.

Lemma post_argument fl c : post (wf_argument c) (argument fl c).
Proof. unfold argument. pbb. pb_true. pbb. apply post_ret. constructor; assumption. Qed.

Lemma post_arguments fl c : post (fun o => wf_arguments c (oattr o)) (arguments fl c).
Proof. unfold arguments. apply post_optional_many. apply post_argument. Qed.
#[export] Hint Resolve post_arguments : post.

Lemma post_fragment_argument fl : post wf_fragment_argument (fragment_argument fl).
Proof. unfold fragment_argument. pbb. pb_true. pbb. apply post_ret. constructor; assumption. Qed.

Lemma post_fragment_arguments fl :
  post (fun o => wf_nelist wf_fragment_argument (oattr o)) (fragment_arguments fl).
Proof. unfold fragment_arguments. apply post_optional_many. apply post_fragment_argument. Qed.
#[export] Hint Resolve post_fragment_arguments : post.

Lemma post_directive fl c : post (wf_directive c) (directive fl c).
Proof. unfold directive. pb_true. pbb. pbb. apply post_ret. constructor; assumption. Qed.

Lemma post_directives fl c : post (wf_directives c) (directives fl c).
Proof.
  unfold directives. eapply (post_bind (Forall (wf_directive c))).
  - apply post_with_fuel. intros f. apply post_while_peek. apply post_directive.
  - intros l Hl. apply post_ret. apply lattr_wf. exact Hl.
Qed.
#[export] Hint Resolve post_directives : post.

Lemma post_fragment_name fl : post wf_fragment_name (fragment_name fl).
Proof.
  intros ts a r. unfold fragment_name, bind, cur.
  destruct (seqb (snd (tok_at ts)) s_on) eqn:E; [discriminate|].
  unfold name, bind, expect_token, bind, cur.
  destruct (fst (tok_at ts) =? K_NAME)%N; [|discriminate].
  destruct (adv fl ts) as [u r1| |]; try discriminate.
  unfold ret. intros H; inversion H; subst. constructor. exact E.
Qed.
#[export] Hint Resolve post_fragment_name : post.

Lemma Forall_wf_selections xfa l : Forall (wf_selection xfa) l -> wf_selections xfa l.
Proof. induction 1; constructor; assumption. Qed.

Lemma post_field fl xfa ss : post (wf_selection_set xfa) ss -> post (wf_selection xfa) (field fl ss).
Proof.
  intros Hss. unfold field. pbb. pb_true.
  eapply (post_bind (fun an : attr * node => wf_opt wf_name (fst an) /\ wf_name (snd an))).
  { destruct a0.
    - pbb. apply post_ret. split; [constructor; assumption|assumption].
    - apply post_ret. split; [constructor|assumption]. }
  intros an [Hal Hn]. pbb. pbb. pb_true.
  eapply (post_bind (fun s => s = ANone \/ exists y, s = ANode y /\ wf_selection_set xfa y)).
  { destruct (fst a3 =? K_BRACE_L)%N.
    - eapply post_bind; [exact Hss|]. intros y Hy. apply post_ret. right. eauto.
    - apply post_ret. left. reflexivity. }
  intros s [->|(y & -> & Hy)]; apply post_ret; constructor; assumption.
Qed.

Lemma post_fragment fl xfa ss : post (wf_selection_set xfa) ss -> post (wf_selection xfa) (fragment fl xfa ss).
Proof.
  intros Hss. unfold fragment. pb_true. pb_true. pb_true.
  destruct (negb a0 && (fst a1 =? K_NAME)%N).
  - pbb. pb_true.
    eapply (post_bind (fun o => wf_spread_arguments xfa (oattr o))).
    { destruct ((fst a3 =? K_PAREN_L)%N && xfa) eqn:E.
      - apply andb_true_iff in E as [_ ->]. unfold wf_spread_arguments. apply post_fragment_arguments.
      - apply post_ret. unfold wf_spread_arguments. destruct xfa; [constructor|reflexivity]. }
    intros o Ho. pbb. apply post_ret. constructor; assumption.
  - eapply (post_bind (wf_opt wf_named_type)).
    { destruct a0; [pbb; apply post_ret; constructor; assumption|apply post_ret; constructor]. }
    intros tc Htc. pbb. eapply post_bind; [exact Hss|]. intros s Hs.
    apply post_ret. constructor; assumption.
Qed.

Lemma post_selection fl xfa ss : post (wf_selection_set xfa) ss -> post (wf_selection xfa) (selection fl xfa ss).
Proof.
  intros Hss. unfold selection. pb_true.
  destruct (fst a =? K_SPREAD)%N; [apply post_fragment|apply post_field]; exact Hss.
Qed.

Lemma post_sel_set fl xfa : forall f, post (wf_selection_set xfa) (sel_set fl xfa f).
Proof.
  induction f as [|f IH]; [apply post_out_of_fuel|]. cbn [sel_set].
  eapply post_bind; [apply (post_many fl _ (wf_selection xfa)); apply post_selection; exact IH|].
  intros l [x l' Hx Hl]. apply post_ret. constructor; [exact Hx|apply Forall_wf_selections; exact Hl].
Qed.

Lemma post_selection_set fl xfa : post (wf_selection_set xfa) (selection_set fl xfa).
Proof. unfold selection_set. apply post_with_fuel. apply post_sel_set. Qed.
#[export] Hint Resolve post_selection_set : post.

Lemma post_default fl :
  forall e : bool, post (wf_opt (wf_value true))
    (if e then x <- value_literal fl true ;; ret (ANode x) else ret ANone).
Proof. intros [|]; [pbb; apply post_ret; constructor; assumption|apply post_ret; constructor]. Qed.

Lemma post_variable_definition fl : post wf_variable_definition (variable_definition fl).
Proof.
  unfold variable_definition. pbb. pbb. pb_true. pbb. pb_true.
  eapply post_bind; [apply post_default|]. intros dv Hdv. pbb.
  apply post_ret. constructor; assumption.
Qed.

Lemma post_variable_definitions fl :
  post (fun o => wf_variable_definitions (oattr o)) (variable_definitions fl).
Proof. unfold variable_definitions. apply post_optional_many. apply post_variable_definition. Qed.
#[export] Hint Resolve post_variable_definitions : post.

Lemma post_operation_type fl : post wf_operation_code (operation_type fl).
Proof.
  unfold operation_type. pb_true. unfold operation_type_of.
  destruct (seqb a s_query); [apply post_ret; left; reflexivity|].
  destruct (seqb a s_mutation); [apply post_ret; right; left; reflexivity|].
  destruct (seqb a s_subscription); [apply post_ret; right; right; reflexivity|apply post_fail_prev].
Qed.
#[export] Hint Resolve post_operation_type : post.

Lemma post_operation_definition fl xfa : post (wf_operation xfa) (operation_definition fl xfa).
Proof.
  unfold operation_definition. pb_true. destruct (fst a =? K_BRACE_L)%N.
  - pbb. apply post_ret. apply wf_operation_intro; [assumption|constructor|constructor|constructor|constructor|left; reflexivity].
  - pbb. pbb. pb_true.
    eapply (post_bind (wf_opt wf_name)).
    { destruct (fst a2 =? K_NAME)%N; [pbb; apply post_ret; constructor; assumption|apply post_ret; constructor]. }
    intros n Hn. pbb. pbb. pbb. apply post_ret. constructor; assumption.
Qed.

Lemma post_type_condition fl : post wf_named_type (type_condition fl).
Proof. unfold type_condition. pb_true. apply post_named_type. Qed.
#[export] Hint Resolve post_type_condition : post.

Lemma post_fragment_definition fl xfa : post (wf_fragment_definition xfa) (fragment_definition fl xfa).
Proof.
  unfold fragment_definition. pbb. pb_true. pbb.
  eapply (post_bind (fun vs => if xfa then wf_variable_definitions vs else vs = AList [])).
  { destruct xfa; [pbb; apply post_ret; assumption|apply post_ret; reflexivity]. }
  intros vs Hvs. pbb. pbb. pbb. apply post_ret. constructor; assumption.
Qed.

Lemma post_operation_type_definition fl : post wf_operation_type_definition (operation_type_definition fl).
Proof. unfold operation_type_definition. pbb. pb_true. pbb. apply post_ret. constructor; assumption. Qed.

(* `& A & B` after implements, `= A | B` in a union: an optional delimited list of named types *)
Lemma post_named_types_opt fl (m : P bool) delim :
  post (wf_nelist wf_named_type)
    (b <- m ;; if b then l <- delimited_many fl delim (named_type fl) ;; ret (AList l) else ret ANone).
Proof.
  pb_true. destruct a; [|apply post_ret; constructor].
  eapply post_bind; [apply (post_delimited_many fl _ wf_named_type); apply post_named_type|].
  intros l Hl. apply post_ret. apply list1_nelist. exact Hl.
Qed.

Lemma post_implements_interfaces fl : post (wf_nelist wf_named_type) (implements_interfaces fl).
Proof. apply post_named_types_opt. Qed.
#[export] Hint Resolve post_implements_interfaces : post.

Lemma post_union_member_types fl : post (wf_nelist wf_named_type) (union_member_types fl).
Proof. apply post_named_types_opt. Qed.
#[export] Hint Resolve post_union_member_types : post.

Lemma post_input_value_def fl : post wf_input_value_definition (input_value_def fl).
Proof.
  unfold input_value_def. pbb. pbb. pb_true. pbb. pb_true.
  eapply post_bind; [apply post_default|]. intros dv Hdv. pbb.
  apply post_ret. constructor; assumption.
Qed.

Lemma post_argument_defs fl :
  post (fun o => wf_nelist wf_input_value_definition (oattr o)) (argument_defs fl).
Proof. unfold argument_defs. apply post_optional_many. apply post_input_value_def. Qed.
#[export] Hint Resolve post_argument_defs : post.

Lemma post_input_fields_definition fl :
  post (fun o => wf_nelist wf_input_value_definition (oattr o)) (input_fields_definition fl).
Proof. unfold input_fields_definition. apply post_optional_many. apply post_input_value_def. Qed.
#[export] Hint Resolve post_input_fields_definition : post.

Lemma post_field_definition fl : post wf_field_definition (field_definition fl).
Proof.
  unfold field_definition. pbb. pbb. pbb. pb_true. pbb. pbb.
  apply post_ret. constructor; assumption.
Qed.

Lemma post_fields_definition fl :
  post (fun o => wf_nelist wf_field_definition (oattr o)) (fields_definition fl).
Proof. unfold fields_definition. apply post_optional_many. apply post_field_definition. Qed.
#[export] Hint Resolve post_fields_definition : post.

Lemma post_enum_value_name fl : post wf_enum_value_name (enum_value_name fl).
Proof.
  intros ts a r. unfold enum_value_name, bind, cur.
  destruct (seqb (snd (tok_at ts)) s_true) eqn:E1; [discriminate|].
  destruct (seqb (snd (tok_at ts)) s_false) eqn:E2; [discriminate|].
  destruct (seqb (snd (tok_at ts)) s_null) eqn:E3; [discriminate|]. cbn [orb].
  unfold name, bind, expect_token, bind, cur.
  destruct (fst (tok_at ts) =? K_NAME)%N; [|discriminate].
  destruct (adv fl ts) as [u r1| |]; try discriminate.
  unfold ret. intros H; inversion H; subst. constructor. repeat split; assumption.
Qed.
#[export] Hint Resolve post_enum_value_name : post.

Lemma post_enum_value_definition fl : post wf_enum_value_definition (enum_value_definition fl).
Proof. unfold enum_value_definition. pbb. pbb. pbb. apply post_ret. constructor; assumption. Qed.

Lemma post_enum_values_definition fl :
  post (fun o => wf_nelist wf_enum_value_definition (oattr o)) (enum_values_definition fl).
Proof. unfold enum_values_definition. apply post_optional_many. apply post_enum_value_definition. Qed.
#[export] Hint Resolve post_enum_values_definition : post.

Lemma post_directive_location fl : post wf_location (directive_location fl).
Proof.
  unfold directive_location. pb_true. destruct (is_directive_location a) eqn:E; [|apply post_fail_prev].
  apply post_ret. constructor. exact E.
Qed.

Section TS.
Variable fl : nat.
Variable xfa xdd : bool.

Lemma post_schema_definition : post (wf_type_system_definition xdd) (schema_definition fl).
Proof.
  unfold schema_definition. pbb. pb_true. pbb.
  eapply post_bind; [apply (post_many fl _ wf_operation_type_definition); apply post_operation_type_definition|].
  intros l Hl. apply post_ret. constructor; assumption.
Qed.

Lemma post_scalar_type_definition : post (wf_type_system_definition xdd) (scalar_type_definition fl).
Proof. unfold scalar_type_definition. pbb. pb_true. pbb. pbb. apply post_ret. constructor; assumption. Qed.

Lemma post_object_type_definition : post (wf_type_system_definition xdd) (object_type_definition fl).
Proof.
  unfold object_type_definition. pbb. pb_true. pbb. pbb. pbb. pbb. apply post_ret. constructor; assumption.
Qed.

Lemma post_interface_type_definition : post (wf_type_system_definition xdd) (interface_type_definition fl).
Proof.
  unfold interface_type_definition. pbb. pb_true. pbb. pbb. pbb. pbb. apply post_ret.
  apply wf_interface_def; assumption.
Qed.

Lemma post_union_type_definition : post (wf_type_system_definition xdd) (union_type_definition fl).
Proof. unfold union_type_definition. pbb. pb_true. pbb. pbb. pbb. apply post_ret. constructor; assumption. Qed.

Lemma post_enum_type_definition : post (wf_type_system_definition xdd) (enum_type_definition fl).
Proof. unfold enum_type_definition. pbb. pb_true. pbb. pbb. pbb. apply post_ret. constructor; assumption. Qed.

Lemma post_input_object_type_definition : post (wf_type_system_definition xdd) (input_object_type_definition fl).
Proof.
  unfold input_object_type_definition. pbb. pb_true. pbb. pbb. pbb. apply post_ret.
  apply wf_input_def; assumption.
Qed.

Lemma post_directive_definition : post (wf_type_system_definition xdd) (directive_definition fl xdd).
Proof.
  unfold directive_definition. pbb. pb_true. pb_true. pbb. pbb.
  eapply (post_bind (fun ds => if xdd then wf_directives true ds else ds = ANone)).
  { destruct xdd; [apply post_directives|apply post_ret; reflexivity]. }
  intros ds Hds. pb_true. pb_true.
  eapply post_bind; [apply (post_delimited_many fl _ wf_location); apply post_directive_location|].
  intros ls Hls. apply post_ret. constructor; assumption.
Qed.

Lemma post_schema_extension : post (wf_extension xdd) (schema_extension fl).
Proof.
  unfold schema_extension. pb_true. pb_true. pbb.
  eapply post_bind; [apply (post_optional_many fl _ wf_operation_type_definition); apply post_operation_type_definition|].
  intros o Ho. cbv beta in Ho.
  match goal with |- post _ (if ?b then _ else _) => destruct b eqn:E end; [apply post_fail_here|].
  apply post_ret. constructor; try assumption. apply present2. exact E.
Qed.

Lemma post_scalar_type_extension : post (wf_extension xdd) (scalar_type_extension fl).
Proof.
  unfold scalar_type_extension. pb_true. pb_true. pbb. pbb.
  match goal with |- post _ (if ?b then _ else _) => destruct b eqn:E end; [apply post_fail_here|].
  apply post_ret. constructor; try assumption. apply present1. exact E.
Qed.

Lemma post_object_type_extension : post (wf_extension xdd) (object_type_extension fl).
Proof.
  unfold object_type_extension. pb_true. pb_true. pbb. pbb. pbb. pbb.
  match goal with |- post _ (if ?b then _ else _) => destruct b eqn:E end; [apply post_fail_here|].
  apply post_ret. constructor; try assumption. apply present3. exact E.
Qed.

Lemma post_interface_type_extension : post (wf_extension xdd) (interface_type_extension fl).
Proof.
  unfold interface_type_extension. pb_true. pb_true. pbb. pbb. pbb. pbb.
  match goal with |- post _ (if ?b then _ else _) => destruct b eqn:E end; [apply post_fail_here|].
  apply post_ret. apply wf_interface_ext; try assumption. apply present3. exact E.
Qed.

Lemma post_union_type_extension : post (wf_extension xdd) (union_type_extension fl).
Proof.
  unfold union_type_extension. pb_true. pb_true. pbb. pbb. pbb.
  match goal with |- post _ (if ?b then _ else _) => destruct b eqn:E end; [apply post_fail_here|].
  apply post_ret. constructor; try assumption. apply present2. exact E.
Qed.

Lemma post_enum_type_extension : post (wf_extension xdd) (enum_type_extension fl).
Proof.
  unfold enum_type_extension. pb_true. pb_true. pbb. pbb. pbb.
  match goal with |- post _ (if ?b then _ else _) => destruct b eqn:E end; [apply post_fail_here|].
  apply post_ret. constructor; try assumption. apply present2. exact E.
Qed.

Lemma post_input_object_type_extension : post (wf_extension xdd) (input_object_type_extension fl).
Proof.
  unfold input_object_type_extension. pb_true. pb_true. pbb. pbb. pbb.
  match goal with |- post _ (if ?b then _ else _) => destruct b eqn:E end; [apply post_fail_here|].
  apply post_ret. apply wf_input_ext; try assumption. apply present2. exact E.
Qed.

Lemma post_directive_definition_extension : xdd = true ->
  post (wf_extension xdd) (directive_definition_extension fl).
Proof.
  intros Hx. unfold directive_definition_extension. pb_true. pb_true. pb_true. pbb. pbb.
  match goal with |- post _ (if ?b then _ else _) => destruct b eqn:E end; [apply post_fail_here|].
  apply post_ret. constructor; try assumption. apply present1. exact E.
Qed.

Lemma post_type_system_extension : post (wf_extension xdd) (type_system_extension fl xdd).
Proof.
  unfold type_system_extension. pb_true. cbv zeta.
  destruct (fst a =? K_NAME)%N; [|apply post_fail_next].
  destruct (seqb (snd a) s_schema); [apply post_schema_extension|].
  destruct (seqb (snd a) s_scalar); [apply post_scalar_type_extension|].
  destruct (seqb (snd a) s_type); [apply post_object_type_extension|].
  destruct (seqb (snd a) s_interface); [apply post_interface_type_extension|].
  destruct (seqb (snd a) s_union); [apply post_union_type_extension|].
  destruct (seqb (snd a) s_enum); [apply post_enum_type_extension|].
  destruct (seqb (snd a) s_input); [apply post_input_object_type_extension|].
  destruct (seqb (snd a) s_directive && xdd) eqn:E; [|apply post_fail_next].
  apply andb_true_iff in E as [_ E]. apply post_directive_definition_extension. exact E.
Qed.

Lemma post_definition : post (wf_definition xfa xdd) (definition fl xfa xdd).
Proof.
  assert (OP : post (wf_definition xfa xdd) (operation_definition fl xfa)).
  { eapply post_weaken; [apply post_operation_definition|]. intros x Hx. apply wf_def_operation. exact Hx. }
  unfold definition. eapply (post_bind (fun _ => True)); [apply post_true|intros t _].
  destruct (fst t =? K_BRACE_L)%N; [exact OP|]. cbv zeta.
  eapply (post_bind (fun _ => True)); [apply post_true|intros kt _].
  destruct (peek_description t && (fst kt =? K_BRACE_L)%N); [apply post_fail_here|].
  destruct (fst kt =? K_NAME)%N; [|destruct (peek_description t); [apply post_fail_next|apply post_fail_here]].
  assert (TS : forall m, post (wf_type_system_definition xdd) m -> post (wf_definition xfa xdd) m).
  { intros m Hm. eapply post_weaken; [exact Hm|]. intros x Hx. apply wf_def_type_system. exact Hx. }
  destruct (seqb (snd kt) s_schema); [apply TS, post_schema_definition|].
  destruct (seqb (snd kt) s_scalar); [apply TS, post_scalar_type_definition|].
  destruct (seqb (snd kt) s_type); [apply TS, post_object_type_definition|].
  destruct (seqb (snd kt) s_interface); [apply TS, post_interface_type_definition|].
  destruct (seqb (snd kt) s_union); [apply TS, post_union_type_definition|].
  destruct (seqb (snd kt) s_enum); [apply TS, post_enum_type_definition|].
  destruct (seqb (snd kt) s_input); [apply TS, post_input_object_type_definition|].
  destruct (seqb (snd kt) s_directive); [apply TS, post_directive_definition|].
  destruct (seqb (snd kt) s_query || seqb (snd kt) s_mutation || seqb (snd kt) s_subscription); [exact OP|].
  destruct (seqb (snd kt) s_fragment).
  { eapply post_weaken; [apply post_fragment_definition|]. intros x Hx. apply wf_def_fragment. exact Hx. }
  destruct (peek_description t); [apply post_fail_here|].
  destruct (seqb (snd kt) s_extend); [|apply post_fail_here].
  eapply post_weaken; [apply post_type_system_extension|]. intros x Hx. apply wf_def_extension. exact Hx.
Qed.

Lemma post_document : post (wf_document xfa xdd) (document fl xfa xdd).
Proof.
  unfold document.
  eapply post_bind; [apply (post_many fl _ (wf_definition xfa xdd)); apply post_definition|].
  intros l [x l' Hx Hl]. apply post_ret. constructor; assumption.
Qed.

Lemma post_value_entry c : post (wf_value c) (value_entry fl c).
Proof. unfold value_entry. pb_true. pbb. pb_true. apply post_ret. assumption. Qed.

Lemma post_type_entry : post wf_type (type_entry fl).
Proof. unfold type_entry. pb_true. pbb. pb_true. apply post_ret. assumption. Qed.

Lemma post_schema_coordinate : post wf_coordinate (schema_coordinate fl).
Proof.
  unfold schema_coordinate. pb_true. rename a into od. pbb. rename a into n.
  eapply (post_bind (fun m => match m with Some x => wf_name x | None => True end)).
  { destruct od; [apply post_ret; exact I|]. pb_true.
    destruct a; [|apply post_ret; exact I]. pbb. apply post_ret. assumption. }
  intros m Hm.
  eapply (post_bind (fun m => match m with Some x => wf_name x | None => True end)).
  { destruct (od || match m with Some _ => true | None => false end); [|apply post_ret; exact I].
    pb_true. destruct a; [|apply post_ret; exact I].
    pbb. pb_true. pb_true. apply post_ret. assumption. }
  intros ar Har. apply post_ret.
  destruct od.
  - destruct ar; constructor; assumption.
  - destruct m; [destruct ar|]; constructor; assumption.
Qed.

Lemma post_coordinate_entry : post wf_coordinate (coordinate_entry fl).
Proof.
  unfold coordinate_entry. pb_true. eapply post_bind; [apply post_schema_coordinate|]. intros c Hc.
  pb_true. apply post_ret. assumption.
Qed.

Theorem core_wf e : post (wf_ast e xfa xdd) (core e fl xfa xdd).
Proof.
  destruct e; cbn [core wf_ast].
  - apply post_document.
  - apply post_value_entry.
  - apply post_value_entry.
  - apply post_type_entry.
  - apply post_coordinate_entry.
Qed.
End TS.

(* whatever an entry point returns is well formed *)
Theorem parse_entry_wf e o ts x c :
  parse_entry e o ts = Ok (x, c) ->
  wf_ast e (exp_fragment_arguments o) (exp_directives_on_directive_definitions o) x.
Proof.
  unfold parse_entry.
  destruct (core e _ _ _ _) as [d r|y|] eqn:E; try discriminate.
  intros H; inversion H; subst. eapply core_wf. exact E.
Qed.
