(* Proofs about the input coercion / validation model Types/Coerce.v (C15): coercion and validation
   agree on values and on literals, a coerced value conforms to its type, variables, the
   value -> literal -> value round trip, monotonicity in the fuel. *)
From GV Require Import Base.Prelude Base.ListFacts Types.Scalars Types.ScalarsProps Types.Coerce.

(* what validate_schema guarantees and the proofs need: unique field names, no default on a
   OneOf field, no enum member whose internal value is None/Undefined (build_schema: the name) *)
Definition wf_tdef (d : tdef) : Prop :=
  match d with
  | DScalar _ => True
  | DEnum e => forall n v, In (n, v) e -> is_null v = false
  | DInput oneof fds =>
      NoDup (map f_name fds) /\ (oneof = true -> forall fd, In fd fds -> f_default fd = None)
  end.

Definition wf_schema (s : schema) : Prop := forall n d, assoc n s = Some d -> wf_tdef d.

(* a Python dict has unique keys *)
Fixpoint wf_val (v : pyval) : Prop :=
  match v with
  | PList l => (fix all (l : list pyval) : Prop :=
                  match l with [] => True | x :: r => wf_val x /\ all r end) l
  | PDict kvs =>
      NoDup (map fst kvs) /\
      (fix all (l : list (text * pyval)) : Prop :=
         match l with [] => True | (_, x) :: r => wf_val x /\ all r end) kvs
  | _ => True
  end.

Lemma wf_val_list l x : wf_val (PList l) -> In x l -> wf_val x.
Proof. exact (all_in wf_val l x). Qed.

Lemma wf_val_dict kvs k x : wf_val (PDict kvs) -> In (k, x) kvs -> wf_val x.
Proof. intros [_ H]. exact (all_snd_in wf_val kvs k x H). Qed.

Lemma wf_val_dict_nodup kvs : wf_val (PDict kvs) -> NoDup (map fst kvs).
Proof. cbn [wf_val]. tauto. Qed.

Lemma wf_val_dget kvs k : wf_val (PDict kvs) -> wf_val (dget k kvs).
Proof.
  intro H. unfold dget. destruct (assoc k kvs) as [x|] eqn:E; [|exact I].
  apply assoc_in in E. eapply wf_val_dict; eauto.
Qed.

Definition settled {A} (r : result A) : Prop := r <> Crash /\ r <> Fuel.

Lemma settled_cases {A} (r : result A) : settled r -> (exists a, r = Good a) \/ r = Invalid.
Proof. destruct r; intros [H1 H2]; eauto; congruence. Qed.

Lemma settled_good {A} (a : A) : settled (Good a).
Proof. split; discriminate. Qed.

Lemma settled_invalid {A} : settled (@Invalid A).
Proof. split; discriminate. Qed.

Lemma rmap_settled {A B} (g : A -> B) r : settled (rmap g r) -> settled r.
Proof. destruct r; cbn; intros [H1 H2]; split; congruence. Qed.

Lemma rmap_invalid {A B} (g : A -> B) r : rmap g r = Invalid <-> r = Invalid.
Proof. destruct r; cbn; split; congruence. Qed.

Lemma rmap_good {A B} (g : A -> B) r b : rmap g r = Good b -> exists a, r = Good a /\ b = g a.
Proof. destruct r; cbn; intro H; inversion H. eauto. Qed.

Lemma good_settled v : settled (good v).
Proof. unfold good. destruct (is_undef v); [apply settled_invalid | apply settled_good]. Qed.

Lemma of_cres_settled r : settled (of_cres r).
Proof. destruct r; cbn [of_cres]; [apply good_settled | apply settled_invalid]. Qed.

Lemma oapp_some {A} (a b : option (list A)) l :
  oapp a b = Some l -> exists x y, a = Some x /\ b = Some y /\ l = x ++ y.
Proof. destruct a, b; cbn; intro H; inversion H. eauto. Qed.

(* both object coercers end alike: unknown names are rejected, the fields loop runs, a OneOf
   object is tested; a success is the dict of the loop's entries *)
Lemma obj_result_good (unk oneof : bool) (sf : result (list (text * pyval)))
    (ok : list (text * pyval) -> bool) r :
  (if unk then Invalid else
   match sf with
   | Good kvs => if oneof && negb (ok kvs) then Invalid else Good (PDict kvs)
   | Invalid => Invalid
   | Crash => Crash
   | Fuel => Fuel
   end) = Good r ->
  exists kvs, unk = false /\ sf = Good kvs /\ oneof && negb (ok kvs) = false /\ r = PDict kvs.
Proof.
  destruct unk; [discriminate|]. destruct sf as [kvs| | |]; try discriminate.
  destruct (oneof && negb (ok kvs)) eqn:E; [discriminate|]. intros [= <-]. eauto.
Qed.

(* A coercion result and the validator's error list agree: success with no error, failure with
   at least one; a run that crashed or ran out of fuel agrees with anything. *)
Definition agrees {A} (r : result A) (e : list path) : Prop :=
  match r with
  | Good _ => e = []
  | Invalid => e <> []
  | Crash | Fuel => True
  end.

Lemma agrees_settled {A} (r : result A) e : agrees r e -> settled r -> (r = Invalid <-> e <> []).
Proof.
  destruct r; cbn [agrees]; intros H [S1 S2]; try congruence.
  - subst e. split; [discriminate | congruence].
  - tauto.
Qed.

Lemma agrees_rmap {A B} (g : A -> B) r e : agrees r e -> agrees (rmap g r) e.
Proof. destruct r; exact (fun H => H). Qed.

Lemma agrees_leaf {A} (r : result A) (p : path) : agrees r (if is_good r then [] else [p]).
Proof. destruct r; cbn; trivial. discriminate. Qed.

Lemma seq_list_agree {A B} (c : A -> result B) (vf : nat -> A -> option (list path)) items :
  (forall x, In x items -> forall i e, vf i x = Some e -> agrees (c x) e) ->
  forall i errs, vseq vf i items = Some errs -> agrees (seq_list c items) errs.
Proof.
  induction items as [|x items IH]; intros Hx i errs V.
  - inversion V. reflexivity.
  - cbn [seq_list vseq] in *. apply oapp_some in V as [e1 [e2 [V1 [V2 ->]]]].
    pose proof (Hx x (or_introl eq_refl) i e1 V1) as H1.
    specialize (IH (fun y Iy => Hx y (or_intror Iy)) (S i) e2 V2).
    destruct (c x); cbn [agrees] in *; try exact I.
    + subst e1. apply agrees_rmap. exact IH.
    + apply app_nonempty. left. exact H1.
Qed.

(* the loop over the fields of an object is the loop over a list, followed by the pairing of the
   results with the field names; likewise for the validator *)
Fixpoint entries (fds : list field) (os : list (option pyval)) : list (text * pyval) :=
  match fds, os with
  | fd :: fds', o :: os' => add_entry fd o (entries fds' os')
  | _, _ => []
  end.

Lemma seq_fields_list step fds : seq_fields step fds = rmap (entries fds) (seq_list step fds).
Proof.
  induction fds as [|fd fds IH]; [reflexivity|]. cbn [seq_fields seq_list].
  destruct (step fd); try reflexivity. rewrite IH. destruct (seq_list step fds); reflexivity.
Qed.

Lemma vfields_vseq vstep fds : forall i, vfields vstep fds = vseq (fun _ => vstep) i fds.
Proof. induction fds as [|fd fds IH]; intro i; [reflexivity|]. cbn [vfields vseq]. rewrite (IH (S i)). reflexivity. Qed.

Lemma seq_fields_agree (step : field -> result (option pyval)) (vstep : field -> option (list path)) fds :
  (forall fd, In fd fds -> forall e, vstep fd = Some e -> agrees (step fd) e) ->
  forall errs, vfields vstep fds = Some errs -> agrees (seq_fields step fds) errs.
Proof.
  intros H errs V. rewrite seq_fields_list. apply agrees_rmap. rewrite (vfields_vseq _ _ O) in V.
  eapply seq_list_agree; [|exact V]. intros fd I i. exact (H fd I).
Qed.

Lemma known_in k fds : known k fds = true <-> exists fd, In fd fds /\ f_name fd = k.
Proof.
  induction fds as [|fd fds IH]; cbn [known].
  - split; [discriminate | intros [? [[] _]]].
  - rewrite orb_true_iff, IH, nat_list_eqb_eq. split.
    + intros [E|[fd' [I E]]].
      * exists fd. split; [left; reflexivity | symmetry; exact E].
      * exists fd'. split; [right; exact I | exact E].
    + intros [fd' [[E'|I] E]].
      * left. subst. reflexivity.
      * right. exists fd'. split; assumption.
Qed.

Lemma dget_defined_in k kvs : is_undef (dget k kvs) = false -> In (k, dget k kvs) (defined_entries kvs).
Proof.
  unfold dget, defined_entries. destruct (assoc k kvs) as [x|] eqn:E; [|discriminate].
  intro U. apply filter_In. split; [apply assoc_in; exact E | cbn; rewrite U; reflexivity].
Qed.

Lemma defined_in_dget k v kvs :
  NoDup (map fst kvs) -> In (k, v) (defined_entries kvs) -> dget k kvs = v /\ is_undef v = false.
Proof.
  intros ND I. apply filter_In in I as [I U]. cbn in U. apply negb_true_iff in U.
  unfold dget. rewrite (in_assoc_nodup _ _ _ ND I). auto.
Qed.

Definition scalar_conforms (sc : scalar) (v : pyval) : Prop :=
  match sc with
  | SInt => exists z, v = PInt z /\ int32 z
  | SFloat => exists n m e, v = PFloat (FFin n m e)
  | SString | SID => exists str, v = PStr str
  | SBoolean => exists b, v = PBool b
  end.

Lemma scalar_conforms_not_null sc v : scalar_conforms sc v -> is_null v = false.
Proof.
  destruct sc; cbn.
  - intros [z [-> _]]. reflexivity.
  - intros [n [m [e ->]]]. reflexivity.
  - intros [x ->]. reflexivity.
  - intros [x ->]. reflexivity.
  - intros [x ->]. reflexivity.
Qed.

Lemma coerce_input_conforms maxd sc v r : coerce_input maxd sc v = COk r -> scalar_conforms sc r.
Proof.
  destruct sc, v; cbn [coerce_input coerce_int coerce_float coerce_string coerce_boolean coerce_id scalar_conforms];
    try discriminate; intro H.
  - apply int_from_int_ok in H. exists z. exact H.
  - apply int_from_float_ok in H as [z [_ H]]. exists z. exact H.
  - apply float_from_int_ok in H as [-> _]. destruct (float_of_int_fin z) as [n [m [e E]]].
    exists n, m, e. rewrite E. reflexivity.
  - apply float_from_float_ok in H as [-> [n [m [e ->]]]]. exists n, m, e. reflexivity.
  - inversion H. eexists; reflexivity.
  - inversion H. eexists; reflexivity.
  - apply str_of_int_ok in H as [x [_ ->]]. eexists; reflexivity.
  - apply id_from_float_ok in H as [z [x [_ [_ ->]]]]. eexists; reflexivity.
  - inversion H. eexists; reflexivity.
Qed.

Lemma scalar_lit_conforms parse_float sc l r : scalar_lit parse_float sc l = Good r -> scalar_conforms sc r.
Proof.
  destruct sc, l; cbn [scalar_lit scalar_conforms]; try discriminate; unfold float_lit; intro H.
  - destruct (int_lit_value s) as [z|]; [|discriminate].
    destruct (in_int32 z) eqn:R; [|discriminate]. inversion H. exists z. split; [reflexivity|].
    apply in_int32_spec. exact R.
  - destruct (parse_float s) as [x|]; [|discriminate]. destruct x; cbn [f_finite] in H; try discriminate.
    inversion H. eexists _, _, _. reflexivity.
  - destruct (parse_float s) as [x|]; [|discriminate]. destruct x; cbn [f_finite] in H; try discriminate.
    inversion H. eexists _, _, _. reflexivity.
  - inversion H. eexists; reflexivity.
  - inversion H. eexists; reflexivity.
  - inversion H. eexists; reflexivity.
  - inversion H. eexists; reflexivity.
Qed.

Lemma coerce_input_not_null maxd sc v o : coerce_input maxd sc v = COk o -> is_null o = false.
Proof. intro H. eapply scalar_conforms_not_null, coerce_input_conforms, H. Qed.

Lemma good_inv v y : good v = Good y -> y = v /\ is_undef v = false.
Proof. unfold good. destruct (is_undef v); intro H; inversion H. auto. Qed.

Lemma leaf_val_not_null maxd d v y : wf_tdef d -> leaf_val maxd d v = Good y -> is_null y = false.
Proof.
  destruct d as [sc|e|o fds]; cbn [leaf_val wf_tdef]; intros W H.
  - destruct (coerce_input maxd sc v) as [x|] eqn:E; cbn [of_cres] in H; [|discriminate].
    apply good_inv in H as [-> _]. eapply coerce_input_not_null; eauto.
  - destruct v; cbn [enum_input of_cres] in H; try discriminate.
    destruct (assoc s e) as [x|] eqn:E; cbn [of_cres] in H; [|discriminate].
    apply good_inv in H as [-> _]. apply assoc_in in E. eapply W; eauto.
  - discriminate.
Qed.

Lemma leaf_val_settled maxd d v : settled (leaf_val maxd d v).
Proof. destruct d; cbn [leaf_val]; try apply of_cres_settled. apply settled_invalid. Qed.

Definition is_var (l : lit) : bool := match l with LVar _ => true | _ => false end.

(* no object literal names a field twice (UniqueInputFieldNamesRule) *)
Fixpoint lit_wf (l : lit) : Prop :=
  match l with
  | LList xs => (fix all (xs : list lit) : Prop :=
                   match xs with [] => True | x :: r => lit_wf x /\ all r end) xs
  | LObject fs =>
      NoDup (map fst fs) /\
      (fix all (fs : list (text * lit)) : Prop :=
         match fs with [] => True | (_, x) :: r => lit_wf x /\ all r end) fs
  | _ => True
  end.

(* a constant literal: no variable anywhere *)
Fixpoint lit_const (l : lit) : Prop :=
  match l with
  | LVar _ => False
  | LList xs => (fix all (xs : list lit) : Prop :=
                   match xs with [] => True | x :: r => lit_const x /\ all r end) xs
  | LObject fs =>
      (fix all (fs : list (text * lit)) : Prop :=
         match fs with [] => True | (_, x) :: r => lit_const x /\ all r end) fs
  | _ => True
  end.

Lemma lit_wf_list xs x : lit_wf (LList xs) -> In x xs -> lit_wf x.
Proof. exact (all_in lit_wf xs x). Qed.

Lemma lit_wf_obj fs k x : lit_wf (LObject fs) -> In (k, x) fs -> lit_wf x.
Proof. intros [_ H]. exact (all_snd_in lit_wf fs k x H). Qed.

Lemma lit_wf_obj_nodup fs : lit_wf (LObject fs) -> NoDup (map fst fs).
Proof. cbn [lit_wf]. tauto. Qed.

Lemma lit_const_list xs x : lit_const (LList xs) -> In x xs -> lit_const x.
Proof. exact (all_in lit_const xs x). Qed.

Lemma lit_const_obj fs k x : lit_const (LObject fs) -> In (k, x) fs -> lit_const x.
Proof. exact (all_snd_in lit_const fs k x). Qed.

Lemma lit_const_nonvar l : lit_const l -> is_var l = false.
Proof. destruct l; cbn; [intros [] | reflexivity ..]. Qed.

Lemma lit_get_in k fs x : lit_get k fs = Some x -> In (k, x) fs.
Proof.
  induction fs as [|[k' y] fs IH]; cbn [lit_get]; [discriminate|].
  destruct (lit_get k fs) as [z|] eqn:E.
  - intro H; inversion H; subst. right. apply IH. reflexivity.
  - destruct (nat_list_eqb k k') eqn:Ek; [|discriminate].
    intro H; inversion H; subst. apply nat_list_eqb_eq in Ek. subst. left. reflexivity.
Qed.

Lemma mem_text_in k l : mem_text k l = true <-> In k l.
Proof.
  induction l as [|x l IH]; cbn [mem_text]; [split; [discriminate | intros []]|].
  rewrite orb_true_iff, IH, nat_list_eqb_eq. split; intros [H|H]; [left; auto | right; auto | left; auto | right; auto].
Qed.

Lemma dedup_nodup l : forall seen, NoDup l -> (forall x, In x l -> ~ In x seen) -> dedup_names l seen = l.
Proof.
  induction l as [|x l IH]; intros seen ND H; [reflexivity|].
  cbn [dedup_names]. inversion ND as [|? ? Hn ND']; subst.
  destruct (mem_text x seen) eqn:M.
  - exfalso. apply mem_text_in in M. exact (H x (or_introl eq_refl) M).
  - f_equal. apply IH; [exact ND'|]. intros y Iy [E|Is].
    + subst. exact (Hn Iy).
    + exact (H y (or_intror Iy) Is).
Qed.

Lemma node_names_nodup fs : NoDup (map fst fs) -> node_names fs = map fst fs.
Proof. intro ND. unfold node_names. apply dedup_nodup; [exact ND | intros x _ []]. Qed.

Definition top_ok (vars : env) (t : ityp) (l : lit) : bool :=
  negb (var_missing vars l && negb (is_nonnull t)).

Lemma top_ok_nonvar vars t l : is_var l = false -> top_ok vars t l = true.
Proof. destruct l; cbn; try discriminate; reflexivity. Qed.

Lemma seq_fields_good_each (step : field -> result (option pyval)) fds :
  forall out, seq_fields step fds = Good out -> forall fd, In fd fds -> exists o, step fd = Good o.
Proof.
  induction fds as [|fd' fds IH]; intros out H fd I; [destruct I|].
  cbn [seq_fields] in H. destruct (step fd') as [o| | |] eqn:C; try discriminate.
  apply rmap_good in H as [out' [H _]]. destruct I as [->|I]; [eauto | eapply IH; eauto].
Qed.

Lemma vfields_some_each vstep fds :
  forall errs, vfields vstep fds = Some errs -> forall fd, In fd fds -> exists e, vstep fd = Some e.
Proof.
  induction fds as [|fd' fds IH]; intros errs H fd I; [destruct I|].
  cbn [vfields] in H. apply oapp_some in H as [e1 [e2 [V1 [V2 _]]]].
  destruct I as [->|I]; [eauto | eapply IH; eauto].
Qed.

Lemma vfields_invalid_errs (step : field -> result (option pyval)) vstep fds :
  (forall fd, In fd fds -> forall e, vstep fd = Some e -> step fd = Invalid -> e <> []) ->
  forall errs, seq_fields step fds = Invalid -> vfields vstep fds = Some errs -> errs <> [].
Proof.
  induction fds as [|fd fds IH]; intros H errs SF V; [discriminate|].
  cbn [seq_fields vfields] in *. apply oapp_some in V as [e1 [e2 [V1 [V2 ->]]]].
  apply app_nonempty.
  destruct (step fd) eqn:C; try discriminate.
  - right. apply rmap_invalid in SF. eapply IH; eauto. intros fd' I. apply H. right. exact I.
  - left. eapply H; eauto. left. reflexivity.
Qed.

(* the validator reports nothing for an object's fields iff it reports nothing for each *)
Lemma vfields_nil vstep fds : forall errs, vfields vstep fds = Some errs ->
  (errs = [] <-> forall fd e, In fd fds -> vstep fd = Some e -> e = []).
Proof.
  induction fds as [|fd fds IH]; intros errs V; cbn [vfields] in V.
  - inversion V. split; [intros _ fd e [] | reflexivity].
  - apply oapp_some in V as [e1 [e2 [V1 [V2 ->]]]]. rewrite app_nil_iff, (IH e2 V2). split.
    + intros [-> H] fd' e [<-|I] Ve; [congruence | exact (H fd' e I Ve)].
    + intro H. split; [exact (H fd e1 (or_introl eq_refl) V1) | intros fd' e I; apply H; right; exact I].
Qed.

Lemma seq_fields_ext (s1 s2 : field -> result (option pyval)) fds :
  (forall fd, In fd fds -> s1 fd = s2 fd) -> seq_fields s1 fds = seq_fields s2 fds.
Proof.
  induction fds as [|fd fds IH]; intro H; [reflexivity|]. cbn [seq_fields].
  rewrite (H fd (or_introl eq_refl)). rewrite IH by (intros; apply H; right; auto). reflexivity.
Qed.

(* val_step and lit_step differ only in how the field's argument is found ([None]: not provided) *)
Definition fstep (cd : ityp -> lit -> result pyval) (fd : field) (arg : option (result pyval))
  : result (option pyval) :=
  match arg with
  | None => if required fd then Invalid else default_step cd fd
  | Some r => rmap Some r
  end.

Definition val_arg (c : ityp -> pyval -> result pyval) kvs fd : option (result pyval) :=
  if is_undef (dget (f_name fd) kvs) then None else Some (c (f_type fd) (dget (f_name fd) kvs)).

Definition lit_arg (c : ityp -> lit -> result pyval) vars fs fd : option (result pyval) :=
  match lit_get (f_name fd) fs with
  | Some node => if var_missing vars node then None else Some (c (f_type fd) node)
  | None => None
  end.

Lemma val_step_eq c cd kvs fd : val_step c cd kvs fd = fstep cd fd (val_arg c kvs fd).
Proof. unfold val_step, val_arg. destruct (is_undef _); reflexivity. Qed.

Lemma lit_step_eq c cd vars fs fd : lit_step c cd vars fs fd = fstep cd fd (lit_arg c vars fs fd).
Proof.
  unfold lit_step, lit_arg. destruct (lit_get _ _) as [node|]; [destruct (var_missing vars node)|]; reflexivity.
Qed.

Lemma default_step_good cd fd o :
  default_step cd fd = Good o ->
  match o with
  | Some y => exists dl, f_default fd = Some dl /\ cd (f_type fd) dl = Good y
  | None => f_default fd = None
  end.
Proof.
  unfold default_step. destruct (f_default fd) as [dl|]; [destruct (cd (f_type fd) dl) eqn:C|];
    intro H; inversion H; eauto.
Qed.

(* a default never makes the coercion fail: an invalid default is a crash *)
Lemma default_step_agrees cd fd : agrees (default_step cd fd) [].
Proof.
  unfold default_step. destruct (f_default fd) as [dl|]; [destruct (cd (f_type fd) dl)|]; cbn; trivial.
Qed.

Lemma fstep_some cd fd a y :
  fstep cd fd a = Good (Some y) ->
  a = Some (Good y) \/ (a = None /\ exists dl, f_default fd = Some dl /\ cd (f_type fd) dl = Good y).
Proof.
  destruct a as [r|]; cbn [fstep].
  - intro H. apply rmap_good in H as [z [-> E]]. inversion E. auto.
  - destruct (required fd); [discriminate|]. intro H. apply default_step_good in H. auto.
Qed.

Lemma fstep_none cd fd a :
  fstep cd fd a = Good None -> a = None /\ required fd = false /\ f_default fd = None.
Proof.
  destruct a as [r|]; cbn [fstep].
  - intro H. apply rmap_good in H as [z [_ E]]. discriminate.
  - destruct (required fd); [discriminate|]. intro H. apply default_step_good in H. auto.
Qed.

(* without defaults, when at most the field named k is provided, the loop yields at most its entry *)
Lemma seq_fields_single step cd arg k :
  (forall fd, step fd = fstep cd fd (arg fd)) ->
  forall fds out,
  (forall fd, In fd fds -> f_default fd = None) ->
  NoDup (map f_name fds) ->
  (forall fd, In fd fds -> f_name fd <> k -> arg fd = None) ->
  seq_fields step fds = Good out ->
  (known k fds = true ->
     exists fd, In fd fds /\ f_name fd = k /\
       match arg fd with None => out = [] | Some r => exists y, r = Good y /\ out = [(k, y)] end)
  /\ (known k fds = false -> out = []).
Proof.
  intro Hs. induction fds as [|fd fds IH]; intros out ND NDn Hk H.
  - inversion H. split; [discriminate | reflexivity].
  - cbn [seq_fields] in H. rewrite Hs in H. inversion NDn as [|? ? Hnot ND']; subst.
    destruct (fstep cd fd (arg fd)) as [o| | |] eqn:C; try discriminate.
    apply rmap_good in H as [out' [H ->]].
    destruct (IH out' (fun fd' I => ND fd' (or_intror I)) ND' (fun fd' I => Hk fd' (or_intror I)) H) as [I1 I2].
    pose proof (ND fd (or_introl eq_refl)) as Nd.
    cbn [known]. destruct (nat_list_eqb k (f_name fd)) eqn:E; cbn [orb].
    + apply nat_list_eqb_eq in E. subst k.
      assert (Kr : known (f_name fd) fds = false).
      { destruct (known (f_name fd) fds) eqn:K; [|reflexivity]. exfalso. apply known_in in K as [fd' [A B]].
        apply Hnot. rewrite <- B. apply in_map. exact A. }
      rewrite (I2 Kr). split; [|discriminate]. intros _. exists fd. split; [left; reflexivity|].
      split; [reflexivity|]. destruct o as [y|].
      * apply fstep_some in C as [->|[_ [dl [D _]]]]; [eauto | congruence].
      * apply fstep_none in C as [-> _]. reflexivity.
    + assert (Na : arg fd = None).
      { apply Hk; [left; reflexivity|]. intro X. rewrite <- X, nat_list_eqb_refl in E. discriminate. }
      rewrite Na in C. destruct o as [y|].
      * apply fstep_some in C as [C|[_ [dl [D _]]]]; congruence.
      * split; [|exact I2]. intro K. destruct (I1 K) as [fd' [A B]]. exists fd'. split; [right; exact A | exact B].
Qed.

Section Agreement.
  Variable parse_float : text -> option pyfloat.
  Variable float_str : pyfloat -> text.
  Variable maxd : N.
  Variable s : schema.
  Hypothesis WF : wf_schema s.

  Notation cval := (coerce_val parse_float maxd s).
  Notation vval := (validate_val maxd s).
  Notation clit := (coerce_lit parse_float s).
  Notation vlit := (validate_lit parse_float s).

  (* a coerced None can only come from a null input *)
  Lemma cval_none : forall fuel t v y, cval fuel t v = Good y -> is_null y = true -> is_null v = true.
  Proof.
    induction fuel as [|f IH]; intros t v y H Ny; [discriminate|].
    destruct t as [n|it|t']; cbn [coerce_val] in H.
    - destruct (is_null v) eqn:Nv; [reflexivity|]. exfalso.
      destruct (assoc n s) as [d|] eqn:A; [|discriminate].
      destruct d as [sc|e|o fds];
        try (pose proof (leaf_val_not_null _ _ _ _ (WF _ _ A) H); congruence).
      destruct v; try discriminate.
      apply obj_result_good in H as (out & _ & _ & _ & ->). discriminate.
    - destruct (is_null v) eqn:Nv; [reflexivity|]. exfalso.
      destruct v; apply rmap_good in H as [a [_ ->]]; discriminate.
    - destruct (is_null v) eqn:Nv; [discriminate|]. rewrite <- Nv. eapply IH; eauto.
  Qed.

  Lemma cval_of_none fuel t y : cval fuel t PNone = Good y -> y = PNone.
  Proof.
    destruct fuel as [|f]; [discriminate|]. destruct t; cbn [coerce_val is_null]; intro H; inversion H; reflexivity.
  Qed.

  Lemma is_none_null v : is_undef v = false -> is_null v = true -> is_none v = true.
  Proof. destruct v; cbn; congruence. Qed.

  Lemma oneof_val_agree c cd fds kvs out p :
    (forall fd, In fd fds -> f_default fd = None) ->
    NoDup (map f_name fds) -> NoDup (map fst kvs) ->
    has_unknown fds kvs = false ->
    seq_fields (val_step c cd kvs) fds = Good out ->
    (forall t v y, c t v = Good y -> is_null y = true -> is_null v = true) ->
    (forall t y, c t PNone = Good y -> y = PNone) ->
    agrees (if negb (oneof_val_ok kvs out) then Invalid else Good (PDict out)) (oneof_val_errs p fds kvs).
  Proof.
    intros ND NDn NDk HU SF F1 F2.
    unfold oneof_val_ok, oneof_val_errs, known_entries. unfold has_unknown in HU.
    rewrite (filter_all_existsb _ _ HU).
    destruct (defined_entries kvs) as [|[k v] [|kv2 rest]] eqn:ED; [cbn; discriminate | | cbn; discriminate].
    cbn [map fst length Nat.eqb app].
    assert (Ikv : In (k, v) (defined_entries kvs)) by (rewrite ED; left; reflexivity).
    destruct (defined_in_dget _ _ _ NDk Ikv) as [Dk Uv].
    assert (Hk : forall n, is_undef (dget n kvs) = false -> n = k).
    { intros n U. apply dget_defined_in in U. rewrite ED in U. destruct U as [E|[]]. inversion E. reflexivity. }
    assert (K : known k fds = true).
    { pose proof (existsb_false_in _ _ (k, v) HU (or_introl eq_refl)) as X. apply negb_false_iff in X. exact X. }
    destruct (seq_fields_single _ cd (val_arg c kvs) k (val_step_eq c cd kvs) fds out ND NDn) as [S1 _]; [|exact SF|].
    { intros fd _ Hn. unfold val_arg. destruct (is_undef (dget (f_name fd) kvs)) eqn:U; [reflexivity|].
      apply Hk in U. contradiction. }
    destruct (S1 K) as [fd [_ [En S]]]. unfold val_arg in S. rewrite En, Dk, Uv in S.
    destruct S as [y [C ->]]. rewrite Dk.
    destruct (is_none v) eqn:Nv.
    - assert (Ev : v = PNone) by (destruct v; cbn in Nv; congruence). rewrite Ev in C.
      rewrite (F2 _ _ C). cbn. discriminate.
    - destruct (is_none y) eqn:Ny; [exfalso | reflexivity].
      assert (Ey : y = PNone) by (destruct y; cbn in Ny; congruence). rewrite Ey in C.
      pose proof (F1 _ _ _ C eq_refl) as Nl. rewrite (is_none_null _ Uv Nl) in Nv. discriminate.
  Qed.

  Lemma obj_val_agree c cd vv oneof fds kvs p errs :
    wf_tdef (DInput oneof fds) -> NoDup (map fst kvs) ->
    (forall fd, In fd fds -> forall e, vval_step vv kvs p fd = Some e -> agrees (val_step c cd kvs fd) e) ->
    (forall t v y, c t v = Good y -> is_null y = true -> is_null v = true) ->
    (forall t y, c t PNone = Good y -> y = PNone) ->
    validate_obj_val vv oneof fds kvs p = Some errs ->
    agrees (coerce_obj_val c cd oneof fds kvs) errs.
  Proof.
    intros [NDn OD] NDk Hf F1 F2 V.
    unfold coerce_obj_val. unfold validate_obj_val in V.
    apply oapp_some in V as [e1 [e2 [V1 [V2 ->]]]]. inversion V2; subst e2; clear V2.
    destruct (has_unknown fds kvs) eqn:HU; cbn [agrees].
    - apply app_nonempty. right. apply app_nonempty. left.
      unfold unknown_val_errs. apply map_nonempty, existsb_filter_nonempty. exact HU.
    - assert (UE : unknown_val_errs p fds kvs = []).
      { unfold unknown_val_errs. unfold has_unknown in HU. rewrite (existsb_filter_empty _ _ HU). reflexivity. }
      rewrite UE. cbn [app].
      pose proof (seq_fields_agree _ _ fds Hf e1 V1) as A.
      destruct (seq_fields (val_step c cd kvs) fds) as [out| | |] eqn:SF; cbn [agrees] in *; try exact I.
      + subst e1. cbn [app]. destruct oneof; cbn [andb]; [|reflexivity].
        exact (oneof_val_agree c cd fds kvs out p (OD eq_refl) NDn NDk HU SF F1 F2).
      + apply app_nonempty. left. exact A.
  Qed.

  (* agreement of a field step, from agreement of the recursive calls *)
  Lemma val_step_agree c cd vv kvs p fd e :
    (forall v q e', vv (f_type fd) v q = Some e' -> wf_val v -> agrees (c (f_type fd) v) e') ->
    wf_val (PDict kvs) ->
    vval_step vv kvs p fd = Some e -> agrees (val_step c cd kvs fd) e.
  Proof.
    intros H W V. unfold val_step, vval_step in *.
    destruct (is_undef (dget (f_name fd) kvs)).
    - inversion V; subst e; clear V. destruct (required fd); [cbn; discriminate|]. apply default_step_agrees.
    - apply agrees_rmap. eapply H; [exact V | apply wf_val_dget, W].
  Qed.

  Theorem value_agree : forall fuel t v p errs,
    wf_val v -> vval fuel t v p = Some errs -> agrees (cval fuel t v) errs.
  Proof.
    induction fuel as [|f IH]; intros t v p errs W V; [discriminate|].
    destruct t as [n|it|t']; cbn [coerce_val validate_val] in *.
    - destruct (is_null v) eqn:Nv; [inversion V; reflexivity|].
      destruct (assoc n s) as [d|] eqn:A; [|exact I].
      destruct d as [sc|e|o fds]; try (inversion V; apply agrees_leaf).
      destruct v; try (inversion V; cbn; discriminate).
      apply (obj_val_agree (cval f) (clit f []) (vval f) o fds kvs p errs (WF _ _ A) (wf_val_dict_nodup _ W));
        [|apply cval_none|apply cval_of_none|exact V].
      intros fd _ e0 V0. eapply val_step_agree; eauto.
    - destruct (is_null v) eqn:Nv; [inversion V; reflexivity|].
      destruct v; try (apply agrees_rmap; eapply IH; eauto).
      apply agrees_rmap. eapply seq_list_agree; [|exact V].
      intros x Ix i e V1. eapply IH; [|exact V1]. eapply wf_val_list; eauto.
    - destruct (is_null v) eqn:Nv; [inversion V; cbn; discriminate | eapply IH; eauto].
  Qed.

  Lemma clit_nonvar f vars t l : is_var l = false ->
    clit (S f) vars t l =
    match t with
    | TNonNull t' => if is_lnull l then Invalid else clit f vars t' l
    | TList it =>
        if is_lnull l then Good PNone else
        match l with
        | LList items => rmap PList (seq_list (lit_item (clit f vars it) vars it) items)
        | _ => rmap (fun y => PList [y]) (clit f vars it l)
        end
    | TNamed n =>
        if is_lnull l then Good PNone else
        match assoc n s with
        | None => Crash
        | Some (DInput oneof fds) =>
            match l with
            | LObject fs => coerce_obj_lit (clit f vars) (clit f []) vars oneof fds fs
            | _ => Invalid
            end
        | Some d => leaf_lit parse_float d l
        end
    end.
  Proof. destruct l; try discriminate; reflexivity. Qed.

  Lemma vlit_nonvar f static vars t l p : is_var l = false ->
    vlit (S f) static vars t l p =
    match t with
    | TNonNull t' => if is_lnull l then Some [p] else vlit f static vars t' l p
    | TList it =>
        if is_lnull l then Some [] else
        match l with
        | LList items => vseq (fun i x => vlit f static vars it x (p ++ [PIdx i])) O items
        | _ => vlit f static vars it l p
        end
    | TNamed n =>
        if is_lnull l then Some [] else
        match assoc n s with
        | None => Some []
        | Some (DInput oneof fds) =>
            match l with
            | LObject fs => validate_obj_lit (vlit f static vars) static vars oneof fds fs p
            | _ => Some [p]
            end
        | Some d => Some (if is_good (leaf_lit parse_float d l) then [] else [p])
        end
    end.
  Proof. destruct l; try discriminate; reflexivity. Qed.

  Lemma leaf_lit_settled d l : settled (leaf_lit parse_float d l).
  Proof.
    assert (F : forall str, settled (float_lit parse_float str)).
    { intro str. unfold float_lit. destruct (parse_float str) as [x|]; [destruct (f_finite x)|];
        try apply settled_invalid; apply settled_good. }
    destruct d as [sc|e|o fds]; cbn [leaf_lit].
    - destruct sc, l; cbn [scalar_lit]; try apply settled_invalid; try apply settled_good; try apply F.
      destruct (int_lit_value s0) as [z|]; [destruct (in_int32 z)|]; try apply settled_invalid; apply settled_good.
    - destruct l; cbn [enum_lit]; try apply settled_invalid.
      destruct (assoc n e); [apply good_settled | apply settled_invalid].
    - apply settled_invalid.
  Qed.

  Lemma leaf_lit_not_null d l y : wf_tdef d -> leaf_lit parse_float d l = Good y -> is_null y = false.
  Proof.
    destruct d as [sc|e|o fds]; cbn [leaf_lit wf_tdef]; intros W H.
    - eapply scalar_conforms_not_null, scalar_lit_conforms, H.
    - destruct l; cbn [enum_lit] in H; try discriminate.
      destruct (assoc n e) as [x|] eqn:E; [|discriminate].
      apply good_inv in H as [-> _]. apply assoc_in in E. eapply W; eauto.
    - discriminate.
  Qed.

  (* a coerced None comes from the null literal or from a variable *)
  Lemma clit_none : forall fuel vars t l y,
    clit fuel vars t l = Good y -> is_null y = true -> is_lnull l = true \/ is_var l = true.
  Proof.
    induction fuel as [|f IH]; intros vars t l y H Ny; [discriminate|].
    destruct (is_var l) eqn:Vl; [right; reflexivity|]. left.
    rewrite (clit_nonvar f vars t l Vl) in H.
    destruct t as [n|it|t'].
    - destruct (is_lnull l) eqn:Nl; [reflexivity|]. exfalso.
      destruct (assoc n s) as [d|] eqn:A; [|discriminate].
      destruct d as [sc|e|o fds];
        try (pose proof (leaf_lit_not_null _ _ _ (WF _ _ A) H); congruence).
      destruct l; try discriminate.
      apply obj_result_good in H as (out & _ & _ & _ & ->). discriminate.
    - destruct (is_lnull l) eqn:Nl; [reflexivity|]. exfalso.
      destruct l; apply rmap_good in H as [a [_ ->]]; discriminate.
    - destruct (is_lnull l) eqn:Nl; [discriminate|].
      destruct (IH _ _ _ _ H Ny) as [X|X]; congruence.
  Qed.

  Section ObjLit.
    Variable c cd : ityp -> lit -> result pyval.
    Variable vl : ityp -> lit -> path -> option (list path).
    Variable static : bool.
    Variable vars : env.

    (* what the proofs use of the recursive calls *)
    Hypothesis HIH : forall t x q e, lit_wf x -> (static = true -> lit_const x) ->
      (static = false -> top_ok vars t x = true) ->
      vl t x q = Some e -> agrees (c t x) e.
    Hypothesis HN : forall t x y, c t x = Good y -> is_null y = true -> is_lnull x = true \/ is_var x = true.
    Hypothesis HCV : forall t vn, c t (LVar vn) = Fuel \/
      c t (LVar vn) = (let v := lookup_var vn vars in if is_null v && is_nonnull t then Invalid else good v).
    Hypothesis HVV : forall t vn q e, vl t (LVar vn) q = Some e ->
      e = (if static then [] else if is_nonnull t && is_null (lookup_var vn vars) then [q] else []).

    Variable oneof : bool.
    Variable fs : list (text * lit).
    Variable p : path.
    Hypothesis FW : lit_wf (LObject fs).
    Hypothesis FC : static = true -> lit_const (LObject fs).

    (* The one place where the two disagree field by field: a OneOf field given as a variable
       whose value is null is reported at the field, while its coercion may succeed; the object
       as a whole is then rejected by the OneOf test. *)
    Definition exceptional (fd : field) : Prop :=
      oneof = true /\ static = false /\
      exists vn, lit_get (f_name fd) fs = Some (LVar vn) /\ is_null (lookup_var vn vars) = true.

    Lemma exceptional_node fd :
      exceptional fd -> exists vn, lit_get (f_name fd) fs = Some (LVar vn) /\ is_null (lookup_var vn vars) = true.
    Proof. intros [_ [_ H]]. exact H. Qed.

    Lemma var_node_dynamic k vn : In (k, LVar vn) fs -> static = false.
    Proof. intro I. destruct static; [|reflexivity]. destruct (lit_const_obj _ _ _ (FC eq_refl) I). Qed.

    Lemma exceptional_errs fd e :
      exceptional fd -> vlit_step vl static vars oneof fs p fd = Some e -> e <> [].
    Proof.
      intros [OO [ST [vn [LG Nv]]]] V. unfold vlit_step in V. rewrite LG, ST, OO, Nv in V.
      apply oapp_some in V as [a [b [Va [_ ->]]]]. inversion Va. discriminate.
    Qed.

    Lemma lit_step_facts fd e :
      vlit_step vl static vars oneof fs p fd = Some e ->
      agrees (lit_step c cd vars fs fd) e \/ exceptional fd.
    Proof.
      unfold lit_step, vlit_step, exceptional. intro V.
      pose proof (default_step_agrees cd fd) as D.
      destruct (lit_get (f_name fd) fs) as [node|] eqn:LG.
      2:{ left. inversion V. destruct (required fd); [cbn; discriminate | auto]. }
      pose proof (lit_get_in _ _ _ LG) as Inode.
      destruct (is_var node) eqn:Vn.
      - destruct node as [vn| | | | | | | |]; try discriminate Vn. cbn [var_missing] in *.
        rewrite (var_node_dynamic _ _ Inode) in V.
        set (v := lookup_var vn vars) in *.
        assert (HV : forall q e', vl (f_type fd) (LVar vn) q = Some e' ->
                       e' = if is_nonnull (f_type fd) && is_null v then [q] else []).
        { intros q e' X. apply HVV in X. rewrite (var_node_dynamic _ _ Inode) in X. exact X. }
        destruct (is_null v) eqn:Nv.
        + destruct oneof eqn:OO.
          { right. split; [reflexivity|]. split; [exact (var_node_dynamic _ _ Inode) | eauto]. }
          left. cbn [andb] in V. destruct (is_undef v) eqn:U.
          * destruct (required fd) eqn:R; cbn [negb] in V; [|inversion V; auto].
            apply HV in V. unfold required in R. apply andb_true_iff in R as [NN _].
            rewrite NN in V. subst e. cbn. discriminate.
          * apply HV in V. rewrite andb_true_r in V. subst e.
            apply agrees_rmap. destruct (HCV (f_type fd) vn) as [E|E]; rewrite E; [exact I|].
            cbn zeta. fold v. rewrite Nv. cbn [andb].
            destruct (is_nonnull (f_type fd)); [cbn; discriminate|].
            unfold good. rewrite U. reflexivity.
        + (* a variable with a value *)
          left. assert (U : is_undef v = false) by (destruct v; try reflexivity; discriminate Nv).
          rewrite U in V |- *. apply agrees_rmap. cbn [andb] in V.
          assert (Ee : e = []).
          { destruct oneof.
            - apply oapp_some in V as [e1 [e2 [V1 [V2 ->]]]]. inversion V1; subst e1.
              apply HV in V2. rewrite andb_false_r in V2. exact V2.
            - apply HV in V. rewrite andb_false_r in V. exact V. }
          subst e. destruct (HCV (f_type fd) vn) as [E|E]; rewrite E; [exact I|].
          cbn zeta. fold v. rewrite Nv. unfold good. rewrite U. reflexivity.
      - assert (VM : var_missing vars node = false) by (destruct node; try discriminate Vn; reflexivity).
        rewrite VM. left. apply agrees_rmap.
        apply (HIH (f_type fd) node (p ++ [PName (f_name fd)]) e (lit_wf_obj _ _ _ FW Inode)
                 (fun E => lit_const_obj _ _ _ (FC E) Inode) (fun _ => top_ok_nonvar vars _ _ Vn)).
        destruct node; try discriminate Vn; exact V.
    Qed.

    (* a field whose step succeeded has nothing reported, unless it is exceptional *)
    Definition quiet (fds : list field) : Prop :=
      forall fd, In fd fds -> forall e, vlit_step vl static vars oneof fs p fd = Some e ->
        e = [] \/ exceptional fd.

    (* the OneOf test after a successful fields loop, against the validator's reports *)
    Lemma oneof_lit_agree fds kvs e1 :
      oneof = true -> (forall fd, In fd fds -> f_default fd = None) -> NoDup (map f_name fds) ->
      existsb (fun x => negb (known (fst x) fds)) fs = false ->
      seq_fields (lit_step c cd vars fs) fds = Good kvs ->
      vfields (vlit_step vl static vars oneof fs p) fds = Some e1 -> quiet fds ->
      agrees (if negb (oneof_lit_ok fs kvs) then Invalid else Good (PDict kvs))
             (e1 ++ oneof_lit_errs p fds fs).
    Proof.
      intros OO OD NDn HU SF V1 Each. unfold quiet in Each.
      (* instances taken before fs is destructed: [fs] is a section variable, so afterwards the
         section's lemmas still speak of [fs] while the goal speaks of the explicit list *)
      pose proof var_node_dynamic as Dyn. pose proof exceptional_errs as XE.
      unfold oneof_lit_errs. rewrite (filter_all_existsb _ _ HU).
      unfold oneof_lit_ok. rewrite (node_names_nodup fs (lit_wf_obj_nodup _ FW)).
      destruct fs as [|[k node] [|kn2 rest]] eqn:EF; [cbn; apply app_nonempty; right; discriminate | |
                                                    cbn; apply app_nonempty; right; discriminate].
      cbn [map fst]. cbn in HU. rewrite orb_false_r in HU. apply negb_false_iff in HU.
      destruct (seq_fields_single _ cd (lit_arg c vars [(k, node)]) k (lit_step_eq c cd vars _)
                  fds kvs OD NDn) as [S1 _]; [|exact SF|].
      { intros fd _ Hn. unfold lit_arg. cbn [lit_get].
        destruct (nat_list_eqb (f_name fd) k) eqn:E; [|reflexivity].
        apply nat_list_eqb_eq in E. contradiction. }
      destruct (S1 HU) as [fd [Ifd [En Sh]]].
      destruct (vfields_some_each _ _ _ V1 fd Ifd) as [ek Vk].
      assert (LGk : lit_get (f_name fd) [(k, node)] = Some node).
      { cbn [lit_get]. rewrite En, nat_list_eqb_refl. reflexivity. }
      (* the field of the only node is exceptional when that node is a variable with a null value *)
      assert (Exc : forall vn, node = LVar vn -> is_null (lookup_var vn vars) = true -> e1 <> []).
      { intros vn -> Nv E1. refine (XE fd ek _ Vk (proj1 (vfields_nil _ _ _ V1) E1 fd ek Ifd Vk)).
        split; [exact OO|]. split; [exact (Dyn k vn (or_introl eq_refl))|]. exists vn. rewrite EF. auto. }
      unfold lit_arg in Sh. rewrite LGk in Sh.
      destruct (var_missing vars node) eqn:VM; [subst kvs | destruct Sh as [y [Cy ->]]].
      - (* a variable without a value *)
        cbn. apply app_nonempty. left.
        destruct node as [vn| | | | | | | |]; try discriminate VM. apply (Exc vn eq_refl).
        cbn [var_missing] in VM. destruct (lookup_var vn vars); try discriminate VM; reflexivity.
      - cbn [lit_get]. rewrite nat_list_eqb_refl. unfold dget. cbn [assoc]. rewrite nat_list_eqb_refl.
        destruct (is_lnull node) eqn:Nl; cbn [negb andb]; [apply app_nonempty; right; discriminate|].
        rewrite app_nil_r.
        (* the coerced entry is None exactly when the node is a variable holding None *)
        assert (Var : forall vn, node = LVar vn -> y = lookup_var vn vars).
        { intros vn ->. destruct (HCV (f_type fd) vn) as [E|E]; rewrite E in Cy; [discriminate|].
          cbn zeta in Cy. destruct (is_null (lookup_var vn vars) && is_nonnull (f_type fd)); [discriminate|].
          apply good_inv in Cy as [Ev _]. exact Ev. }
        destruct (is_none y) eqn:Ny; cbn [negb agrees].
        + assert (Ey : y = PNone) by (destruct y; cbn in Ny; congruence). subst y.
          destruct (HN _ _ _ Cy eq_refl) as [X|X]; [congruence|].
          destruct node as [vn| | | | | | | |]; try discriminate X.
          apply (Exc vn eq_refl). rewrite <- (Var vn eq_refl). reflexivity.
        + apply (vfields_nil _ _ _ V1). intros fd' e' I' Ve'.
          destruct (Each fd' I' e' Ve') as [E|X]; [exact E|]. exfalso.
          apply exceptional_node in X as [vn [LG' Nv]].
          rewrite EF in LG'. cbn [lit_get] in LG'. destruct (nat_list_eqb (f_name fd') k); [|discriminate LG'].
          inversion LG'; subst node. cbn [var_missing] in VM.
          rewrite (Var vn eq_refl), (is_none_null _ VM Nv) in Ny. discriminate.
    Qed.

    Lemma obj_lit_agree fds errs :
      wf_tdef (DInput oneof fds) ->
      validate_obj_lit vl static vars oneof fds fs p = Some errs ->
      agrees (coerce_obj_lit c cd vars oneof fds fs) errs.
    Proof.
      intros [NDn OD] V. unfold coerce_obj_lit. unfold validate_obj_lit in V.
      rewrite (node_names_nodup fs (lit_wf_obj_nodup _ FW)).
      apply oapp_some in V as [e1 [e2 [V1 [V2 ->]]]]. inversion V2; subst e2; clear V2.
      rewrite existsb_map.
      destruct (existsb (fun x => negb (known (fst x) fds)) fs) eqn:HU; cbn [agrees].
      { apply app_nonempty. right. apply app_nonempty. left.
        unfold unknown_lit_errs. apply map_nonempty, existsb_filter_nonempty. exact HU. }
      assert (UE : unknown_lit_errs p fds fs = []).
      { unfold unknown_lit_errs. rewrite (existsb_filter_empty _ _ HU). reflexivity. }
      rewrite UE. cbn [app].
      destruct (seq_fields (lit_step c cd vars fs) fds) as [kvs| | |] eqn:SF; cbn [agrees]; try exact I.
      2:{ apply app_nonempty. left. eapply vfields_invalid_errs; [|exact SF|exact V1].
          intros fd _ e Ve Hi. destruct (lit_step_facts fd e Ve) as [A|X].
          - rewrite Hi in A. exact A.
          - exact (exceptional_errs fd e X Ve). }
      assert (Each : quiet fds).
      { intros fd I e Ve. destruct (seq_fields_good_each _ _ _ SF fd I) as [o Ho].
        destruct (lit_step_facts fd e Ve) as [A|X]; [left | right; exact X]. rewrite Ho in A. exact A. }
      assert (OO : oneof = true \/ oneof = false) by (destruct oneof; auto).
      destruct OO as [OO|OO]; rewrite OO; cbn [andb].
      - exact (oneof_lit_agree fds kvs e1 OO (OD OO) NDn HU SF V1 Each).
      - rewrite app_nil_r. apply (vfields_nil _ _ _ V1). intros fd e I Ve.
        destruct (Each fd I e Ve) as [E|[E _]]; [exact E | congruence].
    Qed.
  End ObjLit.

  Lemma clit_var f vars t vn : clit f vars t (LVar vn) = Fuel \/
    clit f vars t (LVar vn) =
    (let v := lookup_var vn vars in if is_null v && is_nonnull t then Invalid else good v).
  Proof. destruct f; [left | right]; reflexivity. Qed.

  Lemma vlit_var f static vars t vn q e : vlit f static vars t (LVar vn) q = Some e ->
    e = (if static then [] else if is_nonnull t && is_null (lookup_var vn vars) then [q] else []).
  Proof. destruct f; [discriminate|]. cbn [validate_lit]. destruct static; intro H; inversion H; reflexivity. Qed.

  Lemma clit_null f vars t : settled (clit f vars t LNull) ->
    clit f vars t LNull = (if is_nonnull t then Invalid else Good PNone).
  Proof.
    destruct f; [intros [_ H]; exfalso; apply H; reflexivity|]. destruct t; reflexivity.
  Qed.

  Lemma lit_item_id {A} (r : result A) (g : A) : match r with Invalid => if false then Good g else Invalid | x => x end = r.
  Proof. destruct r; reflexivity. Qed.

  Theorem lit_agree_gen : forall fuel static vars t l p errs,
    lit_wf l -> (static = true -> lit_const l) -> (static = false -> top_ok vars t l = true) ->
    vlit fuel static vars t l p = Some errs -> agrees (clit fuel vars t l) errs.
  Proof.
    induction fuel as [|f IH]; intros static vars t l p errs W C TO V; [discriminate|].
    destruct (is_var l) eqn:Vl.
    - destruct l as [n| | | | | | | |]; try discriminate Vl. cbn [coerce_lit validate_lit] in *.
      destruct static. { exfalso. exact (C eq_refl). }
      specialize (TO eq_refl). unfold top_ok in TO. cbn [var_missing] in TO.
      inversion V; subst errs; clear V.
      destruct (lookup_var n vars), (is_nonnull t); cbn in *; congruence.
    - rewrite (clit_nonvar f vars t l Vl). rewrite (vlit_nonvar f static vars t l p Vl) in V.
      destruct t as [n|it|t'].
      + destruct (is_lnull l) eqn:Nl; [inversion V; reflexivity|].
        destruct (assoc n s) as [d|] eqn:A; [|exact I].
        destruct d as [sc|e|o fds]; try (inversion V; apply agrees_leaf).
        destruct l; try discriminate Vl; try (inversion V; cbn; discriminate).
        refine (obj_lit_agree (clit f vars) (clit f []) (vlit f static vars) static vars
                  _ _ _ _ o fs p W C fds errs (WF _ _ A) V).
        * intros t0 x q e W0 C0 T0 V0. exact (IH static vars t0 x q e W0 C0 T0 V0).
        * intros t0 x y. apply clit_none.
        * intros t0 vn. apply clit_var.
        * intros t0 vn q e. apply vlit_var.
      + destruct (is_lnull l) eqn:Nl; [inversion V; reflexivity|].
        destruct l; try discriminate Vl; try discriminate Nl;
          try (apply agrees_rmap; eapply IH; eauto; intros _; apply top_ok_nonvar; reflexivity).
        apply agrees_rmap. eapply seq_list_agree; [|exact V].
        intros x Ix i e V1. cbv beta in V1.
        pose proof (lit_wf_list _ _ W Ix) as Wx.
        assert (Cx : static = true -> lit_const x) by (intro E; exact (lit_const_list _ _ (C E) Ix)).
        unfold lit_item.
        destruct (negb (is_nonnull it) && var_nullish vars x) eqn:SP.
        * (* a null variable at a nullable item: nothing is reported and the item becomes None *)
          apply andb_true_iff in SP as [NN VN]. apply negb_true_iff in NN.
          destruct x as [vn| | | | | | | |]; try discriminate VN.
          apply vlit_var in V1. rewrite NN in V1. cbn [andb] in V1.
          assert (Ee : e = []) by (destruct static; exact V1). subst e.
          destruct (clit f vars it (LVar vn)); cbn; trivial.
        * assert (TOx : static = false -> top_ok vars it x = true).
          { intros _. unfold top_ok. destruct x; try reflexivity. cbn [var_missing var_nullish] in *.
            destruct (is_nonnull it), (lookup_var n vars); cbn in *; congruence. }
          pose proof (IH static vars it x (p ++ [PIdx i]) e Wx Cx TOx V1) as Ax.
          destruct (clit f vars it x); exact Ax.
      + destruct (is_lnull l) eqn:Nl; [inversion V; cbn; discriminate|].
        eapply IH; eauto. intros _. apply top_ok_nonvar. exact Vl.
  Qed.

  Inductive conforms : ityp -> pyval -> Prop :=
  | CNull t : is_nonnull t = false -> conforms t PNone
  | CNonNull t v : is_null v = false -> conforms t v -> conforms (TNonNull t) v
  | CList it vs : Forall (conforms it) vs -> conforms (TList it) (PList vs)
  | CScalar n sc v : assoc n s = Some (DScalar sc) -> scalar_conforms sc v -> conforms (TNamed n) v
  | CEnum n e v : assoc n s = Some (DEnum e) -> (exists name, In (name, v) e) -> conforms (TNamed n) v
  | CInput n oneof fds kvs :
      assoc n s = Some (DInput oneof fds) ->
      (* exactly the declared fields: every entry is a declared field holding a conforming value *)
      Forall (fun kv => exists fd, In fd fds /\ f_name fd = fst kv /\ conforms (f_type fd) (snd kv)) kvs ->
      NoDup (map fst kvs) ->
      (* defaults applied, required fields present *)
      (forall fd, In fd fds -> (f_default fd <> None \/ is_nonnull (f_type fd) = true) ->
                  exists y, In (f_name fd, y) kvs) ->
      (* OneOf: exactly one entry, not null *)
      (oneof = true -> exists k y, kvs = [(k, y)] /\ is_null y = false) ->
      conforms (TNamed n) (PDict kvs).

  Lemma conforms_scalar n sc v :
    conforms (TNamed n) v -> assoc n s = Some (DScalar sc) -> v = PNone \/ scalar_conforms sc v.
  Proof.
    intros H A. inversion H; subst; try congruence; [left; reflexivity|]. right.
    match goal with X : assoc n s = Some (DScalar _) |- _ => rewrite A in X; inversion X; subst end. assumption.
  Qed.

  Lemma conforms_not_undef t v : conforms t v -> is_undef v = false.
  Proof.
    destruct 1 as [t N|t v N C|it vs F|n sc v A Sc|n e v A [name I]|n oneof fds kvs A F ND D O].
    - reflexivity.
    - destruct v; cbn in *; congruence.
    - reflexivity.
    - apply scalar_conforms_not_null in Sc. destruct v; cbn in *; congruence.
    - pose proof (WF _ _ A name v I) as X. destruct v; cbn in *; congruence.
    - reflexivity.
  Qed.

  Lemma of_cres_good r y : of_cres r = Good y -> r = COk y.
  Proof. destruct r; cbn [of_cres]; [|discriminate]. intro H. apply good_inv in H as [-> _]. reflexivity. Qed.

  Lemma seq_list_forall {A B} (c : A -> result B) (P : B -> Prop) l :
    (forall x y, In x l -> c x = Good y -> P y) ->
    forall ys, seq_list c l = Good ys -> Forall P ys.
  Proof.
    induction l as [|x l IH]; intros H ys G; cbn [seq_list] in G.
    - inversion G. constructor.
    - destruct (c x) as [y| | |] eqn:C; try discriminate.
      apply rmap_good in G as [ys' [G ->]]. constructor.
      + eapply H; [left; reflexivity | exact C].
      + apply IH; auto. intros x' y' I. apply H. right. exact I.
  Qed.

  (* entries produced by a fields loop *)
  Lemma seq_fields_entries (step : field -> result (option pyval)) (P : field -> pyval -> Prop) :
    forall fds out,
    (forall fd y, In fd fds -> step fd = Good (Some y) -> P fd y) ->
    NoDup (map f_name fds) ->
    seq_fields step fds = Good out ->
    Forall (fun kv => exists fd, In fd fds /\ f_name fd = fst kv /\ P fd (snd kv)) out
    /\ NoDup (map fst out)
    /\ (forall k, In k (map fst out) -> In k (map f_name fds))
    /\ (forall fd, In fd fds -> (exists y, step fd = Good (Some y)) -> exists y, In (f_name fd, y) out).
  Proof.
    induction fds as [|fd fds IH]; intros out HP ND G; cbn [seq_fields] in G.
    - inversion G. repeat split; try constructor; intros ? []; contradiction.
    - destruct (step fd) as [o| | |] eqn:C; try discriminate.
      apply rmap_good in G as [out' [G ->]]. cbn [map] in ND. inversion ND as [|? ? Hn ND']; subst.
      destruct (IH out' (fun fd' y I => HP fd' y (or_intror I)) ND' G) as [F [N [Sub Ex]]].
      assert (F' : Forall (fun kv => exists fd0, In fd0 (fd :: fds) /\ f_name fd0 = fst kv /\ P fd0 (snd kv)) out').
      { eapply Forall_impl; [|exact F]. intros kv [fd0 [I [E Pk]]]. exists fd0. repeat split; auto. right. exact I. }
      destruct o as [y|]; cbn [add_entry].
      + repeat split.
        * constructor; [|exact F']. exists fd. cbn [fst snd]. split; [left; reflexivity|]. split; [reflexivity|].
          apply HP; [left; reflexivity | exact C].
        * cbn [map fst]. constructor; [|exact N]. intro I. apply Hn. apply Sub. exact I.
        * intros k [<-|I]; [left; reflexivity | right; apply Sub; exact I].
        * intros fd0 [<-|I] X.
          -- exists y. left. reflexivity.
          -- destruct (Ex fd0 I X) as [y0 I0]. exists y0. right. exact I0.
      + repeat split; auto.
        * intros k I. right. apply Sub. exact I.
        * intros fd0 [<-|I] [y0 X]; [congruence|]. apply Ex; eauto.
  Qed.

  (* the premises of CInput about the entries, for a loop of field steps *)
  Lemma fstep_entries step cd arg (P : field -> pyval -> Prop) fds out :
    (forall fd, step fd = fstep cd fd (arg fd)) ->
    (forall fd y, arg fd = Some (Good y) -> P fd y) ->
    (forall fd dl y, f_default fd = Some dl -> cd (f_type fd) dl = Good y -> P fd y) ->
    NoDup (map f_name fds) ->
    seq_fields step fds = Good out ->
    Forall (fun kv => exists fd, In fd fds /\ f_name fd = fst kv /\ P fd (snd kv)) out
    /\ NoDup (map fst out)
    /\ (forall fd, In fd fds -> (f_default fd <> None \/ is_nonnull (f_type fd) = true) ->
                   exists y, In (f_name fd, y) out).
  Proof.
    intros Hs Pa Pd ND SF.
    destruct (seq_fields_entries step P fds out) as [F [N [_ Ex]]]; [|exact ND|exact SF|].
    - intros fd y _ H. rewrite Hs in H. apply fstep_some in H as [H|[_ [dl [D C]]]]; eauto.
    - split; [exact F|]. split; [exact N|]. intros fd I Hd. apply Ex; [exact I|].
      destruct (seq_fields_good_each _ _ _ SF fd I) as [[y|] Ho]; [eauto|]. exfalso.
      rewrite Hs in Ho. apply fstep_none in Ho as [_ [R D]]. unfold required in R. rewrite D in R.
      destruct Hd as [Hd|Hd]; [congruence|]. rewrite Hd in R. discriminate.
  Qed.

  Lemma dedup_in x l : forall seen, In x l -> In x seen \/ In x (dedup_names l seen).
  Proof.
    induction l as [|y l IH]; intros seen I; [destruct I|]. cbn [dedup_names].
    destruct I as [->|I].
    - destruct (mem_text x seen) eqn:M; [left; apply mem_text_in; exact M | right; left; reflexivity].
    - destruct (mem_text y seen) eqn:M.
      + apply IH. exact I.
      + destruct (IH (y :: seen) I) as [[->|H]|H]; [right; left; reflexivity | left; exact H | right; right; exact H].
  Qed.

  Lemma lit_get_some_in k fs : lit_get k fs <> None -> In k (node_names fs).
  Proof.
    intro H. destruct (lit_get k fs) as [x|] eqn:E; [|congruence]. apply lit_get_in in E.
    unfold node_names. destruct (dedup_in k (map fst fs) [] (in_map fst _ _ E)) as [[]|I]. exact I.
  Qed.

  Lemma lookup_var_nil n : lookup_var n [] = PUndef.
  Proof. reflexivity. Qed.

  Theorem conforms_lit : forall fuel t l r, clit fuel [] t l = Good r -> conforms t r.
  Proof.
    induction fuel as [|f IH]; intros t l r H; [discriminate|].
    destruct (is_var l) eqn:Vl.
    - destruct l; try discriminate Vl. cbn [coerce_lit] in H. rewrite lookup_var_nil in H.
      cbn in H. destruct (is_nonnull t); discriminate.
    - rewrite (clit_nonvar f [] t l Vl) in H. destruct t as [n|it|t'].
      + destruct (is_lnull l) eqn:Nl. { inversion H. apply CNull. reflexivity. }
        destruct (assoc n s) as [d|] eqn:A; [|discriminate].
        destruct d as [sc|e|o fds].
        * eapply CScalar; [exact A|]. eapply scalar_lit_conforms. exact H.
        * cbn [leaf_lit] in H. destruct l; cbn [enum_lit] in H; try discriminate.
          destruct (assoc n0 e) as [x|] eqn:E; [|discriminate]. apply good_inv in H as [-> _].
          eapply CEnum; [exact A|]. exists n0. apply assoc_in. exact E.
        * (* an object: every entry comes from a field step, either the coerced node (IH) or the
             coerced default (IH again: defaults are literals); fstep_entries turns that into the
             premises of CInput *)
          destruct l; try discriminate. apply obj_result_good in H as (kvs & _ & SF & OK & ->).
          destruct (WF _ _ A) as [NDn OD].
          set (step := lit_step (clit f []) (clit f []) [] fs) in *.
          destruct (fstep_entries step (clit f []) (lit_arg (clit f []) [] fs) (fun fd y => conforms (f_type fd) y)
                      fds kvs (lit_step_eq _ _ _ _)) as [F [N Ex]]; [| |exact NDn|exact SF|].
          { intros fd y Ha. unfold lit_arg in Ha. destruct (lit_get (f_name fd) fs) as [node|]; [|discriminate].
            destruct (var_missing [] node); [discriminate|]. inversion Ha. eapply IH; eauto. }
          { intros fd dl y _ C. eapply IH; eauto. }
          eapply CInput; [exact A | exact F | exact N | exact Ex |].
          -- intros ->. cbn [andb] in OK. apply negb_false_iff in OK. unfold oneof_lit_ok in OK.
             destruct (node_names fs) as [|k [|]] eqn:NN; try discriminate.
             destruct kvs as [|[k' y] [|]]; try discriminate.
             destruct (lit_get k fs) as [node|] eqn:LG; [|discriminate].
             apply andb_true_iff in OK as [_ OK]. apply negb_true_iff in OK.
             exists k', y. split; [reflexivity|].
             destruct (Forall_inv F) as [fd0 [_ [_ Cf]]]. cbn [snd] in Cf.
             pose proof (conforms_not_undef _ _ Cf) as U.
             destruct (seq_fields_entries step (fun fd0 y0 => step fd0 = Good (Some y0)) fds _
                         (fun _ _ _ X => X) NDn SF) as [Fs _].
             destruct (Forall_inv Fs) as [fd [I [E Hs]]]. cbn [fst snd] in *.
             assert (Ek : k' = k).
             { assert (LG' : lit_get k' fs <> None).
               { unfold step, lit_step in Hs. rewrite E in Hs. destruct (lit_get k' fs); [discriminate|].
                 destruct (required fd); [discriminate|]. unfold default_step in Hs.
                 rewrite (OD eq_refl fd I) in Hs. discriminate. }
               apply lit_get_some_in in LG'. rewrite NN in LG'. destruct LG' as [->|[]]. reflexivity. }
             rewrite Ek in OK. unfold dget in OK. cbn [assoc] in OK. rewrite nat_list_eqb_refl in OK.
             destruct y; cbn in *; congruence.
      + destruct (is_lnull l) eqn:Nl. { inversion H. apply CNull. reflexivity. }
        assert (Hone : forall y, clit f [] it l = Good y -> conforms (TList it) (PList [y])).
        { intros y Hy. apply CList. constructor; [eapply IH; eauto | constructor]. }
        destruct l; try discriminate Vl; try discriminate Nl;
          try (apply rmap_good in H as [y [Hy ->]]; apply Hone; exact Hy).
        apply rmap_good in H as [ys [Hy ->]]. apply CList.
        eapply seq_list_forall; [|exact Hy]. intros x y _ Hx. unfold lit_item in Hx.
        destruct (clit f [] it x) eqn:C; try discriminate.
        * inversion Hx; subst. eapply IH; eauto.
        * destruct (negb (is_nonnull it) && var_nullish [] x) eqn:SP; [|discriminate].
          inversion Hx. apply CNull. apply andb_true_iff in SP as [SP _]. apply negb_true_iff in SP. exact SP.
      + destruct (is_lnull l) eqn:Nl; [discriminate|].
        apply CNonNull; [|eapply IH; eauto].
        destruct (is_null r) eqn:Nr; [|reflexivity]. exfalso.
        destruct (clit_none _ _ _ _ _ H Nr); congruence.
  Qed.

  Theorem conforms_val : forall fuel t v r, cval fuel t v = Good r -> conforms t r.
  Proof.
    induction fuel as [|f IH]; intros t v r H; [discriminate|].
    destruct t as [n|it|t']; cbn [coerce_val] in H.
    - destruct (is_null v) eqn:Nv. { inversion H. apply CNull. reflexivity. }
      destruct (assoc n s) as [d|] eqn:A; [|discriminate].
      destruct d as [sc|e|o fds].
      + cbn [leaf_val] in H. apply of_cres_good in H. eapply CScalar; [exact A|].
        eapply coerce_input_conforms. exact H.
      + cbn [leaf_val] in H. apply of_cres_good in H. destruct v; cbn [enum_input] in H; try discriminate.
        destruct (assoc s0 e) as [x|] eqn:E; [|discriminate]. inversion H; subst.
        eapply CEnum; [exact A|]. exists s0. apply assoc_in. exact E.
      + destruct v; try discriminate. apply obj_result_good in H as (out & _ & SF & OK & ->).
        destruct (WF _ _ A) as [NDn OD].
        destruct (fstep_entries _ (clit f []) (val_arg (cval f) kvs) (fun fd y => conforms (f_type fd) y)
                    fds out (val_step_eq _ _ _)) as [F [N Ex]]; [| |exact NDn|exact SF|].
        { intros fd y Ha. unfold val_arg in Ha. destruct (is_undef (dget (f_name fd) kvs)); [discriminate|].
          inversion Ha. eapply IH; eauto. }
        { intros fd dl y _ C. eapply conforms_lit; eauto. }
        eapply CInput; [exact A | exact F | exact N | exact Ex |].
        * intros ->. cbn [andb] in OK. apply negb_false_iff in OK. unfold oneof_val_ok in OK.
          destruct (defined_entries kvs) as [|? [|]]; try discriminate.
          destruct out as [|[k y] [|]]; try discriminate.
          exists k, y. split; [reflexivity|]. apply negb_true_iff in OK.
          destruct (Forall_inv F) as [fd [_ [_ Cf]]]. cbn [snd] in Cf.
          pose proof (conforms_not_undef _ _ Cf). destruct y; cbn in *; congruence.
    - destruct (is_null v) eqn:Nv. { inversion H. apply CNull. reflexivity. }
      assert (Hone : forall y, cval f it v = Good y -> conforms (TList it) (PList [y])).
      { intros y Hy. apply CList. constructor; [eapply IH; eauto | constructor]. }
      destruct v; try (apply rmap_good in H as [y [Hy ->]]; apply Hone; exact Hy).
      apply rmap_good in H as [ys [Hy ->]]. apply CList.
      eapply seq_list_forall; [|exact Hy]. intros x y _ Hx. eapply IH; eauto.
    - destruct (is_null v) eqn:Nv; [discriminate|].
      apply CNonNull; [|eapply IH; eauto].
      destruct (is_null r) eqn:Nr; [|reflexivity]. exfalso.
      pose proof (cval_none _ _ _ _ H Nr). congruence.
  Qed.

  Notation cvars_loop := (coerce_vars_loop parse_float maxd s).

  Lemma tag_nil n ps : tag n ps = [] -> ps = [].
  Proof. destruct ps; cbn; [reflexivity | discriminate]. Qed.

  Lemma vars_rest_good d loop errs o cs :
    vars_rest d loop errs o = Good ([], cs) ->
    errs = [] /\ exists cs0, loop = Good ([], cs0) /\
                   cs = match o with Some y => (v_name d, y) :: cs0 | None => cs0 end.
  Proof.
    unfold vars_rest. destruct loop as [[es cs0]| | |]; try discriminate.
    intro X. inversion X as [[E1 E2]]. apply app_eq_nil in E1 as [-> ->]. split; [reflexivity|]. exists cs0. auto.
  Qed.

  Lemma vars_default_errs_bad fuel d dl loop cs :
    vars_default_errs parse_float s fuel d dl loop = Good ([], cs) -> False.
  Proof.
    unfold vars_default_errs. destruct (vlit fuel true [] (v_type d) dl []) as [[|p0 ps0]|]; try discriminate;
      intro X; apply vars_rest_good in X as [X _]; discriminate.
  Qed.

  Lemma vars_loop_complete fuel inputs :
    (forall k v, In (k, v) inputs -> wf_val v) ->
    forall defs cs, cvars_loop fuel defs inputs = Good ([], cs) ->
    forall d, In d defs ->
      (is_undef (dget (v_name d) inputs) = false \/ v_default d <> None) ->
      exists y, In (v_name d, y) cs /\ conforms (v_type d) y.
  Proof.
    intros Winp. induction defs as [|d0 defs IH]; intros cs H d I Hd; [destruct I|].
    cbn [coerce_vars_loop] in H. cbv zeta in H.
    set (value := dget (v_name d0) inputs) in *.
    set (loop := cvars_loop fuel defs inputs) in *.
    assert (Wv : wf_val value).
    { unfold value, dget. destruct (assoc (v_name d0) inputs) eqn:E; [|constructor].
      apply assoc_in in E. eapply Winp; eauto. }
    assert (TAIL : forall o cs0, loop = Good ([], cs0) ->
      cs = match o with Some y => (v_name d0, y) :: cs0 | None => cs0 end ->
      In d defs -> exists y, In (v_name d, y) cs /\ conforms (v_type d) y).
    { intros o cs0 L -> Id. destruct (IH cs0 L d Id Hd) as [y [Iy Cy]]. exists y. split; [|exact Cy].
      destruct o; [right; exact Iy | exact Iy]. }
    assert (BYVAL : vars_by_value parse_float maxd s fuel d0 value loop = Good ([], cs) ->
      exists y, In (v_name d, y) cs /\ conforms (v_type d) y).
    { unfold vars_by_value. intro X.
      destruct (cval fuel (v_type d0) value) as [y| | |] eqn:C; try discriminate.
      - apply vars_rest_good in X as [_ [cs0 [L E]]].
        destruct I as [<-|Id]; [|exact (TAIL (Some y) cs0 L E Id)].
        exists y. split; [rewrite E; left; reflexivity | eapply conforms_val; eauto].
      - destruct (vval fuel (v_type d0) value []) as [ps|] eqn:V; [|discriminate].
        apply vars_rest_good in X as [T _]. exfalso.
        apply tag_nil in T. subst ps.
        pose proof (value_agree fuel (v_type d0) value [] [] Wv V) as A. rewrite C in A. exact (A eq_refl). }
    destruct (is_undef value) eqn:U.
    - destruct (v_default d0) as [dl|] eqn:Df.
      + destruct (clit fuel [] (v_type d0) dl) as [y| | |] eqn:C; try discriminate.
        * apply vars_rest_good in H as [_ [cs0 [L E]]].
          destruct I as [<-|Id]; [|exact (TAIL (Some y) cs0 L E Id)].
          exists y. split; [rewrite E; left; reflexivity | eapply conforms_lit; eauto].
        * exfalso. exact (vars_default_errs_bad _ _ _ _ _ H).
        * exfalso. exact (vars_default_errs_bad _ _ _ _ _ H).
      + destruct (is_nonnull (v_type d0)); [exact (BYVAL H)|].
        apply vars_rest_good in H as [_ [cs0 [L E]]].
        destruct I as [<-|Id]; [|exact (TAIL None cs0 L E Id)].
        exfalso. fold value in Hd. destruct Hd; congruence.
    - exact (BYVAL H).
  Qed.
End Agreement.

Definition leafy (l : lit) : bool :=
  match l with
  | LInt _ | LFloat _ | LString _ | LBool _ | LEnum _ => true
  | _ => false
  end.

Definition is_llist (l : lit) : bool := match l with LList _ => true | _ => false end.
Definition is_plist (v : pyval) : bool := match v with PList _ => true | _ => false end.

Lemma lit_get_notin k fs : ~ In k (map fst fs) -> lit_get k fs = None.
Proof.
  induction fs as [|[k' l] fs IH]; cbn [lit_get map fst]; intro H; [reflexivity|].
  rewrite IH by (intro X; apply H; right; exact X).
  destruct (nat_list_eqb k k') eqn:E; [|reflexivity].
  apply nat_list_eqb_eq in E. exfalso. apply H. left. symmetry. exact E.
Qed.

Lemma lit_get_nodup k l fs : NoDup (map fst fs) -> In (k, l) fs -> lit_get k fs = Some l.
Proof.
  induction fs as [|[k' l'] fs IH]; cbn [lit_get map fst]; intros ND I; [destruct I|].
  inversion ND as [|? ? Hn ND']; subst. destruct I as [E|I].
  - inversion E; subst. rewrite lit_get_notin by exact Hn. rewrite nat_list_eqb_refl. reflexivity.
  - rewrite (IH ND' I). reflexivity.
Qed.

(* Reading back the decimal text that int_str writes. *)

Lemma div_eucl_10 n q r : N.div_eucl n 10 = (q, r) -> n = 10 * q + r /\ r < 10.
Proof.
  intro E. pose proof (N.div_eucl_spec n 10) as S. rewrite E in S.
  split; [exact S|].
  assert (r = n mod 10) by (unfold N.modulo; rewrite E; reflexivity). subst r.
  apply N.mod_lt. discriminate.
Qed.

Lemma digit_ok r : r < 10 -> ((48 <=? 48 + r) && (48 + r <=? 57)) = true /\ (48 + r - 48 = r).
Proof.
  intro H. split; [|lia]. apply andb_true_iff. split; apply N.leb_le; lia.
Qed.

(* reading back the digits written by dec_digits *)
Lemma dec_digits_value : forall fuel n acc,
  n < 10 ^ N.of_nat fuel ->
  exists d : nat, forall a, dec_value (dec_digits fuel n acc) a = dec_value acc (a * 10 ^ Z.of_nat d + Z.of_N n)%Z.
Proof.
  induction fuel as [|f IH]; intros n acc H.
  - cbn in H. assert (n = 0) by lia. subst. exists O. intro a. cbn [dec_digits].
    cbn [Z.of_nat]. rewrite Z.pow_0_r, Z.mul_1_r, Z.add_0_r. reflexivity.
  - cbn [dec_digits]. destruct (N.div_eucl n 10) as [q r] eqn:E.
    destruct (div_eucl_10 _ _ _ E) as [En Hr]. destruct (digit_ok r Hr) as [D1 D2].
    destruct (q =? 0) eqn:Q.
    + apply N.eqb_eq in Q. subst q. exists 1%nat. intro a. cbn [dec_value]. rewrite D1, D2.
      cbn [Z.of_nat Pos.of_succ_nat]. rewrite Z.pow_1_r. f_equal. lia.
    + assert (Hq : q < 10 ^ N.of_nat f).
      { rewrite Nat2N.inj_succ, N.pow_succ_r' in H. lia. }
      destruct (IH q ((48 + r) :: acc) Hq) as [d Hd]. exists (S d). intro a.
      rewrite Hd. cbn [dec_value]. rewrite D1, D2. f_equal.
      rewrite Nat2Z.inj_succ, Z.pow_succ_r by lia. subst n. lia.
Qed.

Lemma dec_digits_head : forall fuel n acc, exists c r, dec_digits (S fuel) n acc = c :: r /\ 48 <= c /\ c <= 57.
Proof.
  induction fuel as [|f IH]; intros n acc.
  - cbn [dec_digits]. destruct (N.div_eucl n 10) as [q r] eqn:E.
    destruct (div_eucl_10 _ _ _ E) as [_ Hr]. destruct (q =? 0); eexists _, _; (split; [reflexivity | lia]).
  - cbn [dec_digits]. destruct (N.div_eucl n 10) as [q r] eqn:E.
    destruct (div_eucl_10 _ _ _ E) as [_ Hr]. destruct (q =? 0).
    + eexists _, _; (split; [reflexivity | lia]).
    + apply IH.
Qed.

Lemma fuel_enough n : n < 10 ^ N.of_nat (S (N.to_nat (N.log2 n))).
Proof.
  rewrite Nat2N.inj_succ, N2Nat.id.
  destruct n as [|p]; [cbn; lia|].
  pose proof (N.log2_spec (Npos p) eq_refl) as [_ H].
  eapply N.lt_le_trans; [exact H|]. apply N.pow_le_mono_l. lia.
Qed.

Lemma N_dec_value n : dec_value (N_dec n) 0%Z = Some (Z.of_N n).
Proof.
  unfold N_dec. destruct (dec_digits_value _ n [] (fuel_enough n)) as [d Hd].
  rewrite Hd. cbn [dec_value]. f_equal.
Qed.

Lemma int_lit_value_digit c r : 48 <= c -> int_lit_value (c :: r) = dec_value (c :: r) 0%Z.
Proof.
  intro H. unfold int_lit_value.
  destruct c as [|p]; [lia|].
  do 6 (destruct p as [p|p|]; try reflexivity); lia.
Qed.

Lemma int_str_roundtrip maxd z str : int_str maxd z = Some str -> int_lit_value str = Some z.
Proof.
  unfold int_str. destruct (negb (maxd =? 0) && (maxd <? N.of_nat (length (N_dec (Z.abs_N z))))); [discriminate|].
  intro H; inversion H; subst str; clear H.
  pose proof (N_dec_value (Z.abs_N z)) as V.
  destruct (dec_digits_head (N.to_nat (N.log2 (Z.abs_N z))) (Z.abs_N z) []) as [c [r [E [C1 C2]]]].
  fold (N_dec (Z.abs_N z)) in E. rewrite E in *.
  destruct (z <? 0)%Z eqn:Neg.
  - cbn [int_lit_value]. rewrite V. f_equal. apply Z.ltb_lt in Neg. rewrite N2Z.inj_abs_N. lia.
  - rewrite int_lit_value_digit by exact C1. rewrite V. f_equal. apply Z.ltb_ge in Neg. rewrite N2Z.inj_abs_N. lia.
Qed.

Lemma dec_digits_len : forall fuel n acc k,
  n < 10 ^ N.of_nat k -> (1 <= k)%nat -> (length (dec_digits fuel n acc) <= k + length acc)%nat.
Proof.
  induction fuel as [|f IH]; intros n acc k H K; cbn [dec_digits]; [lia|].
  destruct (N.div_eucl n 10) as [q r] eqn:E.
  destruct (div_eucl_10 _ _ _ E) as [En Hr].
  destruct (q =? 0) eqn:Q; [cbn [length]; lia|].
  apply N.eqb_neq in Q.
  destruct k as [|k]; [lia|]. destruct k as [|k].
  - cbn in H. lia.
  - assert (Hq : q < 10 ^ N.of_nat (S k)).
    { rewrite (Nat2N.inj_succ (S k)), N.pow_succ_r' in H. lia. }
    specialize (IH q ((48 + r) :: acc) (S k) Hq ltac:(lia)). cbn [length] in IH. lia.
Qed.

Lemma int_str_some maxd z :
  (maxd = 0 \/ 309 <= maxd) -> (Z.abs z < 2 ^ 1024)%Z -> exists str, int_str maxd z = Some str.
Proof.
  intros M B. unfold int_str.
  assert (L : (length (N_dec (Z.abs_N z)) <= 309)%nat).
  { unfold N_dec. pose proof (dec_digits_len (S (N.to_nat (N.log2 (Z.abs_N z)))) (Z.abs_N z) [] 309) as X.
    cbn [length] in X. rewrite Nat.add_0_r in X. apply X; [|lia].
    assert (Z.abs_N z < 2 ^ 1024).
    { apply N2Z.inj_lt. rewrite N2Z.inj_abs_N, N2Z.inj_pow. exact B. }
    eapply N.lt_le_trans; [exact H|]. apply N.leb_le. vm_compute. reflexivity. }
  destruct (negb (maxd =? 0) && (maxd <? N.of_nat (length (N_dec (Z.abs_N z))))) eqn:C; [|eauto].
  exfalso. apply andb_true_iff in C as [C1 C2]. apply negb_true_iff, N.eqb_neq in C1. apply N.ltb_lt in C2.
  destruct M as [M|M]; [congruence|]. lia.
Qed.

Section RoundTrip.
  Variable parse_float : text -> option pyfloat.
  Variable float_str : pyfloat -> text.
  Variable maxd : N.
  Variable s : schema.
  Hypothesis WF : wf_schema s.
  (* 309 digits hold every int below 2^1024; CPython only allows 0 (off) or a limit of at least 640 *)
  Hypothesis HM : maxd = 0 \/ 309 <= maxd.
  (* the two oracles are inverse to each other on what the coercers emit *)
  Hypothesis H1 : forall z str, int_representable z = true -> int_str maxd z = Some str ->
                                 parse_float str = Some (float_of_int z).
  Hypothesis H2 : forall x, f_finite x = true -> parse_float (float_str x) = Some x.

  Notation cval := (coerce_val parse_float maxd s).
  Notation clit := (coerce_lit parse_float s).
  Notation tolit := (to_literal float_str maxd s).

  Lemma int32_small z : int32 z -> (Z.abs z < 2 ^ 1024)%Z.
  Proof.
    unfold int32. change (2 ^ 31)%Z with 2147483648%Z. intro H.
    assert (2147483648 < 2 ^ 1024)%Z by (apply Z.ltb_lt; vm_compute; reflexivity). lia.
  Qed.

  Lemma scalar_roundtrip sc v r :
    coerce_input maxd sc v = COk r ->
    exists l, scalar_to_literal float_str maxd sc v = Good l /\ scalar_lit parse_float sc l = Good r /\ leafy l = true.
  Proof.
    destruct sc; cbn [coerce_input scalar_to_literal].
    - intro H.
      assert (E : exists z, coerce_int v = COk (PInt z) /\ r = PInt z /\ int32 z).
      { destruct v; cbn [coerce_int] in *; try discriminate.
        - apply int_from_int_ok in H as [-> R]. exists z. unfold int_from_int.
          apply in_int32_spec in R as R'. rewrite R'. auto.
        - pose proof H as H'. apply int_from_float_ok in H as [z [_ [-> R]]]. exists z. auto. }
      destruct E as [z [E [-> R]]]. rewrite E.
      destruct (int_str_some maxd z HM (int32_small z R)) as [str Es]. rewrite Es.
      exists (LInt str). split; [reflexivity|]. split; [|reflexivity].
      cbn [scalar_lit]. rewrite (int_str_roundtrip _ _ _ Es). apply in_int32_spec in R. rewrite R. reflexivity.
    - destruct v; cbn [coerce_float number_literal]; try discriminate; intro H.
      + apply float_from_int_ok in H as [-> B].
        assert (Rp : int_representable z = true) by (apply int_representable_spec; exact B).
        assert (Sm : (Z.abs z < 2 ^ 1024)%Z) by (destruct B as [m [k [_ [_ [_ X]]]]]; exact X).
        destruct (int_str_some maxd z HM Sm) as [str Es]. rewrite Es.
        exists (LInt str). split; [reflexivity|]. split; [|reflexivity].
        cbn [scalar_lit]. unfold float_lit. rewrite (H1 z str Rp Es).
        destruct (float_of_int_fin z) as [n [m [e E]]]. rewrite E. reflexivity.
      + apply float_from_float_ok in H as [-> [n [m [e ->]]]]. cbn [f_finite].
        set (x := FFin n m e). set (str := float_str x).
        assert (P : parse_float str = Some x) by (apply H2; reflexivity).
        exists (if is_integer_string str then LInt str else LFloat str). split; [reflexivity|].
        destruct (is_integer_string str); (split; [|reflexivity]); cbn [scalar_lit]; unfold float_lit; rewrite P; reflexivity.
    - destruct v; cbn [coerce_string]; try discriminate. intro H; inversion H.
      exists (LString s0). auto.
    - destruct v; cbn [coerce_boolean]; try discriminate. intro H; inversion H.
      exists (LBool b). auto.
    - destruct v; cbn [coerce_id]; try discriminate; intro H.
      + pose proof H as H'. apply str_of_int_ok in H as [str [_ ->]]. rewrite H'.
        exists (LInt str). auto.
      + pose proof H as H'. apply id_from_float_ok in H as [z [str [_ [_ ->]]]]. rewrite H'.
        exists (LInt str). auto.
      + inversion H. exists (if is_integer_string s0 then LInt s0 else LString s0).
        destruct (is_integer_string s0); auto.
  Qed.

  Lemma enum_roundtrip e v r :
    of_cres (enum_input e v) = Good r ->
    exists l, enum_to_literal e v = Good l /\ enum_lit e l = Good r /\ leafy l = true.
  Proof.
    intro H. destruct v; cbn [enum_input of_cres] in H; try discriminate.
    destruct (assoc s0 e) as [x|] eqn:E; cbn [of_cres] in H; [|discriminate].
    exists (LEnum s0). cbn [enum_to_literal enum_lit]. rewrite E. auto.
  Qed.

  (* facts about the literal produced for a value *)
  Definition good_lit (v : pyval) (l : lit) : Prop :=
    is_var l = false /\ (is_lnull l = true -> is_null v = true) /\ (is_llist l = true -> is_plist v = true).

  Lemma leafy_good v l : leafy l = true -> good_lit v l.
  Proof. destruct l; cbn; try discriminate; intros _; repeat split; discriminate. Qed.

  Definition provided (kvs : list (text * pyval)) (fd : field) : bool :=
    negb (is_undef (dget (f_name fd) kvs)).

  Section Fields.
    Variable f : nat.
    Variable kvs : list (text * pyval).
    Hypothesis IHf : forall t v r, cval f t v = Good r ->
      exists l, tolit f t v = Good l /\ clit f [] t l = Good r /\ good_lit v l.

    Let step_v := val_step (cval f) (clit f []) kvs.
    Let step_t := tolit_step (tolit f) kvs.

    (* the node kl of the literal object belongs to the provided field fd, whose step gave y *)
    Record entry_for (fds : list field) (out : list (text * pyval)) (kl : text * lit)
           (fd : field) (y : pyval) : Prop := mkEntry
      { ef_in : In fd fds;
        ef_name : f_name fd = fst kl;
        ef_clit : clit f [] (f_type fd) (snd kl) = Good y;
        ef_step : step_v fd = Good (Some y);
        ef_novar : is_var (snd kl) = false;
        ef_out : In (fst kl, y) out }.

    Definition entry_ok (fds : list field) (out : list (text * pyval)) (kl : text * lit) : Prop :=
      exists fd y, entry_for fds out kl fd y.

    (* the literal object has one node per provided field, in field order; without defaults these
       are also the keys of the coerced value *)
    Lemma fields_joint : forall fds out,
      seq_fields step_v fds = Good out ->
      exists lfs, seq_lit_fields step_t fds = Good lfs /\
        map fst lfs = map f_name (filter (provided kvs) fds) /\
        Forall (entry_ok fds out) lfs /\
        ((forall fd, In fd fds -> f_default fd = None) -> map fst out = map fst lfs).
    Proof.
      induction fds as [|fd fds IH]; intros out H.
      - inversion H. exists []. cbn. repeat split; constructor.
      - cbn [seq_fields] in H. destruct (step_v fd) as [o| | |] eqn:C; try discriminate.
        apply rmap_good in H as [out' [H ->]]. destruct (IH out' H) as [lfs [L [M [F K]]]].
        assert (F' : Forall (entry_ok (fd :: fds) (add_entry fd o out')) lfs).
        { eapply Forall_impl; [|exact F]. intros kl [fd0 [y E]]. exists fd0, y.
          destruct E. constructor; auto; [right; assumption | destruct o; [right|]; assumption]. }
        cbn [seq_lit_fields filter]. unfold step_t at 1, tolit_step. unfold provided at 1.
        unfold step_v, val_step in C.
        destruct (is_undef (dget (f_name fd) kvs)) eqn:U; cbn [negb].
        + destruct (required fd); [discriminate|]. rewrite L. exists lfs. cbn [rmap tolit_add].
          repeat split; auto. intro ND. apply default_step_good in C.
          destruct o as [y|]; [destruct C as [dl [D _]]; rewrite (ND fd (or_introl eq_refl)) in D; discriminate|].
          apply K. intros fd' I. apply ND. right. exact I.
        + apply rmap_good in C as [y [Cy ->]].
          destruct (IHf _ _ _ Cy) as [l [T [Cl [G1 _]]]]. rewrite T. cbn [rmap]. rewrite L. cbn [rmap tolit_add].
          exists ((f_name fd, l) :: lfs). split; [reflexivity|]. split; [cbn [map fst]; rewrite M; reflexivity|].
          split.
          * constructor; [|exact F']. exists fd, y. constructor; cbn [fst snd add_entry].
            -- left. reflexivity.
            -- reflexivity.
            -- exact Cl.
            -- unfold step_v, val_step. rewrite U, Cy. reflexivity.
            -- exact G1.
            -- left. reflexivity.
          * intro ND. cbn [add_entry map fst]. f_equal. apply K. intros fd' I. apply ND. right. exact I.
    Qed.

    (* coercing the literal object runs the same field steps *)
    Lemma lit_steps_same fds out lfs :
      NoDup (map f_name fds) ->
      map fst lfs = map f_name (filter (provided kvs) fds) ->
      Forall (entry_ok fds out) lfs ->
      forall fd, In fd fds -> lit_step (clit f []) (clit f []) [] lfs fd = step_v fd.
    Proof.
      intros ND M F fd I.
      assert (NDl : NoDup (map fst lfs)) by (rewrite M; apply nodup_map_filter; exact ND).
      unfold lit_step. destruct (provided kvs fd) eqn:P.
      - assert (Il : In (f_name fd) (map fst lfs)).
        { rewrite M. apply in_map. apply filter_In. auto. }
        apply in_map_iff in Il as [[k l] [Ek Il]]. cbn [fst] in Ek. subst k.
        rewrite (lit_get_nodup _ _ _ NDl Il).
        rewrite Forall_forall in F. destruct (F _ Il) as [fd' [y E]].
        pose proof (ef_in _ _ _ _ _ E) as I'. pose proof (ef_name _ _ _ _ _ E) as En.
        pose proof (ef_clit _ _ _ _ _ E) as Cl. pose proof (ef_step _ _ _ _ _ E) as Sv.
        pose proof (ef_novar _ _ _ _ _ E) as Nv. cbn [fst snd] in *.
        assert (fd' = fd) by (eapply nodup_map_inj; eauto). subst fd'.
        assert (VM : var_missing [] l = false) by (destruct l; try discriminate Nv; reflexivity).
        rewrite VM, Cl. cbn [rmap]. symmetry. exact Sv.
      - assert (Nl : ~ In (f_name fd) (map fst lfs)).
        { rewrite M. intro X. apply in_map_iff in X as [fd' [E X]]. apply filter_In in X as [_ X].
          unfold provided in *. rewrite E in X. congruence. }
        rewrite (lit_get_notin _ _ Nl). unfold step_v, val_step. unfold provided in P.
        apply negb_false_iff in P. rewrite P. reflexivity.
    Qed.
  End Fields.

  Lemma names_known fds (g : field -> bool) :
    existsb (fun k => negb (known k fds)) (map f_name (filter g fds)) = false.
  Proof.
    destruct (existsb _ _) eqn:E; [|reflexivity]. exfalso.
    apply existsb_exists in E as [k [I K]]. apply in_map_iff in I as [fd [<- I]].
    apply filter_In in I as [I _]. apply negb_true_iff in K.
    assert (known (f_name fd) fds = true) by (apply known_in; eauto). congruence.
  Qed.

  Lemma list_joint f it :
    (forall v r, cval f it v = Good r -> exists l, tolit f it v = Good l /\ clit f [] it l = Good r /\ good_lit v l) ->
    forall items ys, seq_list (cval f it) items = Good ys ->
    exists ls, seq_list (tolit f it) items = Good ls /\
               seq_list (lit_item (clit f [] it) [] it) ls = Good ys.
  Proof.
    intros IHf. induction items as [|x items IH]; intros ys H; cbn [seq_list] in H.
    - inversion H. exists []. auto.
    - destruct (cval f it x) as [y| | |] eqn:C; try discriminate.
      apply rmap_good in H as [ys' [H ->]]. destruct (IH ys' H) as [ls [L1 L2]].
      destruct (IHf _ _ C) as [l [T [Cl _]]].
      exists (l :: ls). cbn [seq_list]. rewrite T, L1. cbn [rmap]. split; [reflexivity|].
      unfold lit_item at 1. rewrite Cl, L2. reflexivity.
  Qed.

  (* at a scalar or enum type a leaf literal is coerced by the type's own literal coercer *)
  Lemma clit_leafy f n d l r :
    leafy l = true -> assoc n s = Some d -> leaf_lit parse_float d l = Good r ->
    clit (S f) [] (TNamed n) l = Good r.
  Proof.
    intros Lf A C. destruct l; try discriminate Lf; cbn [coerce_lit is_lnull]; rewrite A;
      destruct d; try exact C; discriminate C.
  Qed.

  Theorem roundtrip : forall fuel t v r,
    cval fuel t v = Good r ->
    exists l, tolit fuel t v = Good l /\ clit fuel [] t l = Good r /\ good_lit v l.
  Proof.
    (* to_literal follows coerce_val case by case; good_lit carries what coercing the literal needs
       of it one level up: it is no variable, null only for a null value, a list only for a list *)
    induction fuel as [|f IH]; intros t v r H; [discriminate|].
    assert (NULLCASE : forall t0, is_nonnull t0 = false -> is_null v = true ->
              exists l, Good LNull = Good l /\ clit (S f) [] t0 l = Good PNone /\ good_lit v l).
    { intros t0 N0 Nv. exists LNull. split; [reflexivity|]. split.
      - destruct t0; try discriminate N0; reflexivity.
      - repeat split; auto; discriminate. }
    destruct t as [n|it|t']; cbn [coerce_val to_literal] in *.
    - destruct (is_null v) eqn:Nv. { inversion H. apply NULLCASE; auto. }
      destruct (assoc n s) as [d|] eqn:A; [|discriminate].
      destruct d as [sc|e|o fds].
      + cbn [leaf_val] in H. apply of_cres_good in H.
        destruct (scalar_roundtrip _ _ _ H) as [l [T [C Lf]]]. exists l. split; [exact T|].
        split; [exact (clit_leafy f n _ l r Lf A C) | apply leafy_good; exact Lf].
      + cbn [leaf_val] in H.
        destruct (enum_roundtrip _ _ _ H) as [l [T [C Lf]]]. exists l. split; [exact T|].
        split; [exact (clit_leafy f n _ l r Lf A C) | apply leafy_good; exact Lf].
      + destruct v; try discriminate. apply obj_result_good in H as (out & HU & SF & OK & ->).
        destruct (WF _ _ A) as [NDn OD].
        destruct (fields_joint f kvs IH fds out SF) as [lfs [L [M [F K]]]].
        exists (LObject lfs). rewrite HU, L. cbn [rmap]. split; [reflexivity|].
        split; [|repeat split; discriminate].
        cbn [coerce_lit is_lnull]. rewrite A. unfold coerce_obj_lit.
        assert (NDl : NoDup (map fst lfs)) by (rewrite M; apply nodup_map_filter; exact NDn).
        rewrite (node_names_nodup lfs NDl). rewrite M at 1. rewrite names_known.
        rewrite (seq_fields_ext _ _ fds (lit_steps_same f kvs fds out lfs NDn M F)). rewrite SF.
        destruct o; cbn [andb] in *; [|reflexivity].
        apply negb_false_iff in OK.
        assert (OL : oneof_lit_ok lfs out = true); [|rewrite OL; reflexivity].
        unfold oneof_val_ok in OK. unfold oneof_lit_ok. rewrite (node_names_nodup lfs NDl).
        destruct (defined_entries kvs) as [|? [|]]; try discriminate.
        destruct out as [|[k y] [|]]; try discriminate.
        specialize (K (OD eq_refl)). destruct lfs as [|[k' l] [|]]; try discriminate K. inversion K; subst k'.
        cbn [map fst lit_get]. rewrite nat_list_eqb_refl.
        unfold dget. cbn [assoc]. rewrite nat_list_eqb_refl, OK, andb_true_r.
        apply negb_true_iff. destruct l; try reflexivity. exfalso.
        (* a null node would have been coerced to None, which the OneOf test on the value excludes *)
        destruct (Forall_inv F) as [fd [y' Ent]].
        pose proof (ef_clit _ _ _ _ _ _ _ Ent) as Cl. pose proof (ef_out _ _ _ _ _ _ _ Ent) as Iy. cbn [fst snd] in *.
        destruct Iy as [E|[]]. inversion E; subst y'.
        rewrite (clit_null parse_float s) in Cl by (rewrite Cl; apply settled_good).
        destruct (is_nonnull (f_type fd)); inversion Cl; subst y. discriminate OK.
    - destruct (is_null v) eqn:Nv. { inversion H. apply NULLCASE; auto. }
      assert (NONLIST : is_plist v = false ->
                rmap (fun y => PList [y]) (cval f it v) = Good r ->
                exists l, tolit f it v = Good l /\ clit (S f) [] (TList it) l = Good r /\ good_lit v l).
      { intros NP X. apply rmap_good in X as [y [Cy ->]].
        destruct (IH _ _ _ Cy) as [l [T [Cl [G1 [G2 G3]]]]]. exists l. split; [exact T|].
        split; [|repeat split; auto].
        rewrite (clit_nonvar parse_float s f [] (TList it) l G1).
        destruct (is_lnull l) eqn:Nl; [specialize (G2 eq_refl); congruence|].
        destruct l; try (rewrite Cl; reflexivity). specialize (G3 eq_refl). congruence. }
      destruct v; try (apply NONLIST; [reflexivity | exact H]).
      apply rmap_good in H as [ys [Hy ->]].
      destruct (list_joint f it (IH it) l ys Hy) as [ls [L1 L2]].
      exists (LList ls). rewrite L1. cbn [rmap]. split; [reflexivity|].
      split; [|repeat split; auto; discriminate].
      cbn [coerce_lit is_lnull]. rewrite L2. reflexivity.
    - destruct (is_null v) eqn:Nv; [discriminate|].
      destruct (IH _ _ _ H) as [l [T [Cl [G1 [G2 G3]]]]]. exists l. split; [exact T|].
      split; [|repeat split; auto].
      rewrite (clit_nonvar parse_float s f [] (TNonNull t') l G1).
      destruct (is_lnull l) eqn:Nl; [specialize (G2 eq_refl); congruence | exact Cl].
  Qed.
End RoundTrip.

(* a step that passes Crash and Fuel on settles only if what it inspects does *)
Lemma bind_settled {A B} (r : result A) (k : A -> result B) :
  settled (match r with Good a => k a | Invalid => Invalid | Crash => Crash | Fuel => Fuel end) ->
  settled r.
Proof. destruct r; intros [X Y]; split; congruence. Qed.

Lemma lit_item_settled c vars it x : settled (lit_item c vars it x) -> settled (c x).
Proof. unfold lit_item. destruct (c x); intros [X Y]; split; congruence. Qed.

Lemma seq_list_stable {A B} (c1 c2 : A -> result B) l :
  (forall x, In x l -> settled (c1 x) -> c2 x = c1 x) ->
  settled (seq_list c1 l) -> seq_list c2 l = seq_list c1 l.
Proof.
  induction l as [|x l IH]; intros H St; [reflexivity|]. cbn [seq_list] in *.
  rewrite (H x (or_introl eq_refl) (bind_settled _ _ St)).
  destruct (c1 x) as [y| | |]; try reflexivity.
  rewrite IH; [reflexivity | intros; apply H; auto; right; auto | eapply rmap_settled; exact St].
Qed.

Lemma seq_fields_stable (s1 s2 : field -> result (option pyval)) fds :
  (forall fd, In fd fds -> settled (s1 fd) -> s2 fd = s1 fd) ->
  settled (seq_fields s1 fds) -> seq_fields s2 fds = seq_fields s1 fds.
Proof.
  rewrite !seq_fields_list. intros H St. apply rmap_settled in St.
  rewrite (seq_list_stable s1 s2 fds H St). reflexivity.
Qed.

Lemma default_step_stable (cd1 cd2 : ityp -> lit -> result pyval) fd :
  (forall t l, settled (cd1 t l) -> cd2 t l = cd1 t l) ->
  settled (default_step cd1 fd) -> default_step cd2 fd = default_step cd1 fd.
Proof.
  intros H St. unfold default_step in *. destruct (f_default fd) as [dl|]; [|reflexivity].
  destruct (cd1 (f_type fd) dl) as [y| | |] eqn:C.
  - rewrite (H _ _) by (rewrite C; apply settled_good). rewrite C. reflexivity.
  - destruct St as [St _]. congruence.
  - destruct St as [St _]. congruence.
  - destruct St as [_ St]. congruence.
Qed.

Lemma vseq_stable {A} (v1 v2 : nat -> A -> option (list path)) l :
  (forall x i e, In x l -> v1 i x = Some e -> v2 i x = Some e) ->
  forall i e, vseq v1 i l = Some e -> vseq v2 i l = Some e.
Proof.
  induction l as [|x l IH]; intros H i e V; [exact V|]. cbn [vseq] in *.
  apply oapp_some in V as [e1 [e2 [V1 [V2 ->]]]].
  rewrite (H x i e1 (or_introl eq_refl) V1). rewrite (IH (fun y j e' I => H y j e' (or_intror I)) (S i) e2 V2).
  reflexivity.
Qed.

Lemma vfields_stable (v1 v2 : field -> option (list path)) fds :
  (forall fd e, In fd fds -> v1 fd = Some e -> v2 fd = Some e) ->
  forall e, vfields v1 fds = Some e -> vfields v2 fds = Some e.
Proof.
  intros H e. rewrite !(vfields_vseq _ _ O). apply vseq_stable. intros fd _ e' I. apply H. exact I.
Qed.

Section FuelStable.
  Variable parse_float : text -> option pyfloat.
  Variable maxd : N.
  Variable s : schema.

  Notation cval := (coerce_val parse_float maxd s).
  Notation vval := (validate_val maxd s).
  Notation clit := (coerce_lit parse_float s).
  Notation vlit := (validate_lit parse_float s).

  Lemma not_settled_fuel {A} : ~ settled (@Fuel A).
  Proof. intros [_ H]. apply H. reflexivity. Qed.

  Lemma clit_mono : forall f f' vars t l,
    (f <= f')%nat -> settled (clit f vars t l) -> clit f' vars t l = clit f vars t l.
  Proof.
    induction f as [|f IH]; intros f' vars t l Le St; [destruct (not_settled_fuel St)|].
    destruct f' as [|f']; [lia|]. apply le_S_n in Le.
    destruct (is_var l) eqn:Vl; [destruct l; try discriminate Vl; reflexivity|].
    rewrite (clit_nonvar parse_float s f' vars t l Vl).
    rewrite (clit_nonvar parse_float s f vars t l Vl) in *.
    destruct t as [n|it|t'].
    - destruct (is_lnull l); [reflexivity|]. destruct (assoc n s) as [d|]; [|reflexivity].
      destruct d as [sc|e|o fds]; try reflexivity.
      destruct l; try reflexivity. unfold coerce_obj_lit in *.
      destruct (existsb _ (node_names fs)); [reflexivity|].
      apply bind_settled in St. rewrite (seq_fields_stable _ _ fds) with (2 := St); [reflexivity|].
      intros fd _ S0. unfold lit_step in *.
      destruct (lit_get (f_name fd) fs) as [node|]; [destruct (var_missing vars node)|].
      + destruct (required fd); [reflexivity|]. apply default_step_stable; auto.
      + apply rmap_settled in S0. rewrite (IH _ _ _ _ Le S0). reflexivity.
      + destruct (required fd); [reflexivity|]. apply default_step_stable; auto.
    - destruct (is_lnull l); [reflexivity|].
      destruct l; try (apply rmap_settled in St; rewrite (IH _ _ _ _ Le St); reflexivity).
      apply rmap_settled in St. f_equal. apply seq_list_stable; [|exact St].
      intros x _ S0. unfold lit_item. rewrite (IH f' vars it x Le (lit_item_settled _ _ _ _ S0)). reflexivity.
    - destruct (is_lnull l); [reflexivity|]. apply IH; assumption.
  Qed.

  Lemma cval_mono : forall f f' t v, (f <= f')%nat -> settled (cval f t v) -> cval f' t v = cval f t v.
  Proof.
    induction f as [|f IH]; intros f' t v Le St; [destruct (not_settled_fuel St)|].
    destruct f' as [|f']; [lia|]. apply le_S_n in Le. cbn [coerce_val] in *.
    destruct t as [n|it|t'].
    - destruct (is_null v); [reflexivity|]. destruct (assoc n s) as [d|]; [|reflexivity].
      destruct d as [sc|e|o fds]; try reflexivity.
      destruct v; try reflexivity. unfold coerce_obj_val in *.
      destruct (has_unknown fds kvs); [reflexivity|].
      apply bind_settled in St. rewrite (seq_fields_stable _ _ fds) with (2 := St); [reflexivity|].
      intros fd _ S0. unfold val_step in *.
      destruct (is_undef (dget (f_name fd) kvs)).
      + destruct (required fd); [reflexivity|]. apply default_step_stable; auto.
        intros t0 l0. apply clit_mono. exact Le.
      + apply rmap_settled in S0. rewrite (IH _ _ _ Le S0). reflexivity.
    - destruct (is_null v); [reflexivity|].
      destruct v; try (apply rmap_settled in St; rewrite (IH _ _ _ Le St); reflexivity).
      apply rmap_settled in St. f_equal. apply seq_list_stable; [|exact St].
      intros x _ S0. apply IH; assumption.
    - destruct (is_null v); [reflexivity|]. apply IH; assumption.
  Qed.

  Lemma vval_mono : forall f f' t v p e, (f <= f')%nat -> vval f t v p = Some e -> vval f' t v p = Some e.
  Proof.
    induction f as [|f IH]; intros f' t v p e Le V; [discriminate|].
    destruct f' as [|f']; [lia|]. apply le_S_n in Le. cbn [validate_val] in *.
    destruct t as [n|it|t'].
    - destruct (is_null v); [exact V|]. destruct (assoc n s) as [d|]; [|exact V].
      destruct d as [sc|en|o fds]; try exact V.
      destruct v; try exact V. unfold validate_obj_val in *.
      apply oapp_some in V as [e1 [e2 [V1 [V2 ->]]]].
      rewrite (vfields_stable (vval_step (vval f) kvs p) (vval_step (vval f') kvs p) fds) with (e := e1);
        [rewrite V2; reflexivity | | exact V1].
      intros fd e0 _ V0. unfold vval_step in *. destruct (is_undef (dget (f_name fd) kvs)); [exact V0|].
      apply (IH _ _ _ _ _ Le V0).
    - destruct (is_null v); [exact V|].
      destruct v; try (apply (IH _ _ _ _ _ Le V)).
      eapply vseq_stable; [|exact V]. intros x i e0 _ V0. apply (IH _ _ _ _ _ Le V0).
    - destruct (is_null v); [exact V|]. apply (IH _ _ _ _ _ Le V).
  Qed.

  Lemma vlit_mono : forall f f' static vars t l p e,
    (f <= f')%nat -> vlit f static vars t l p = Some e -> vlit f' static vars t l p = Some e.
  Proof.
    induction f as [|f IH]; intros f' static vars t l p e Le V; [discriminate|].
    destruct f' as [|f']; [lia|]. apply le_S_n in Le.
    destruct (is_var l) eqn:Vl; [destruct l; try discriminate Vl; exact V|].
    rewrite (vlit_nonvar parse_float s f' static vars t l p Vl).
    rewrite (vlit_nonvar parse_float s f static vars t l p Vl) in V.
    destruct t as [n|it|t'].
    - destruct (is_lnull l); [exact V|]. destruct (assoc n s) as [d|]; [|exact V].
      destruct d as [sc|en|o fds]; try exact V.
      destruct l; try exact V. unfold validate_obj_lit in *.
      apply oapp_some in V as [e1 [e2 [V1 [V2 ->]]]].
      rewrite (vfields_stable (vlit_step (vlit f static vars) static vars o fs p)
                              (vlit_step (vlit f' static vars) static vars o fs p) fds) with (e := e1);
        [rewrite V2; reflexivity | | exact V1].
      intros fd e0 _ V0. unfold vlit_step in *.
      destruct (lit_get (f_name fd) fs) as [node|]; [|exact V0].
      destruct node; try (apply (IH _ _ _ _ _ _ _ Le V0)).
      destruct static; [apply (IH _ _ _ _ _ _ _ Le V0)|].
      destruct o.
      + apply oapp_some in V0 as [a [b [Va [Vb ->]]]]. rewrite Va, (IH _ _ _ _ _ _ _ Le Vb). reflexivity.
      + destruct (is_undef (lookup_var n0 vars) && negb (required fd)); [exact V0 | apply (IH _ _ _ _ _ _ _ Le V0)].
    - destruct (is_lnull l); [exact V|].
      destruct l; try (apply (IH _ _ _ _ _ _ _ Le V)).
      eapply vseq_stable; [|exact V]. intros x i e0 _ V0. apply (IH _ _ _ _ _ _ _ Le V0).
    - destruct (is_lnull l); [exact V|]. apply (IH _ _ _ _ _ _ _ Le V).
  Qed.

End FuelStable.
