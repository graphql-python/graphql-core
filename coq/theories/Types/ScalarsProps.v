(* Proofs about the scalar / enum leaf coercion model (C16). *)
From GV Require Import Base.Prelude Types.Scalars.

Local Open Scope Z_scope.

Definition int32 (z : Z) : Prop := - 2 ^ 31 <= z <= 2 ^ 31 - 1.

Definition in_domain (sc : scalar) (o : pyval) : Prop :=
  match sc with
  | SInt => exists z, o = PInt z /\ int32 z
  | SFloat => (exists z, o = PInt z /\ (z = 0 \/ z = 1)) \/ (exists n m e, o = PFloat (FFin n m e))
  | SString | SID => exists s, o = PStr s
  | SBoolean => exists b, o = PBool b
  end.

(* o' (what input coercion returns for the emitted o) denotes the same value as o *)
Definition same_meaning (o o' : pyval) : Prop :=
  o' = o \/ exists z f, o = PInt z /\ o' = PFloat f /\ f_int_value f = Some z.

Lemma in_int32_spec z : in_int32 z = true <-> int32 z.
Proof.
  unfold in_int32, int32, GRAPHQL_MIN_INT, GRAPHQL_MAX_INT.
  change (2 ^ 31) with 2147483648.
  rewrite andb_true_iff, !Z.leb_le. lia.
Qed.

Lemma signed_abs b n : 0 <= n -> Z.abs (signed b n) = n.
Proof. destruct b; cbn; lia. Qed.

Lemma odd_tz p : 0 <= trailing_zeros p /\ Zpos p = Zpos (odd_part p) * 2 ^ trailing_zeros p.
Proof.
  induction p as [p IH|p IH|]; cbn [odd_part trailing_zeros].
  - rewrite Z.pow_0_r. lia.
  - destruct IH as [H0 H]. split; [lia|].
    rewrite Z.pow_add_r, Z.pow_1_r by lia. rewrite Pos2Z.inj_xO, H at 1. ring.
  - rewrite Z.pow_0_r. lia.
Qed.

Lemma f_int_value_of_int z : f_int_value (float_of_int z) = Some z.
Proof.
  unfold float_of_int. destruct z as [|p|p]; cbn [Z.abs_N Z.ltb Z.compare f_norm]; [reflexivity|..].
  (* both signs alike *)
  all: destruct (odd_tz p) as [H0 H]; unfold f_int_value.
  all: rewrite Z.add_0_l; apply Z.leb_le in H0; rewrite H0; cbn [signed Z.of_N]; rewrite <- H; reflexivity.
Qed.

Lemma float_of_int_fin z : exists n m e, float_of_int z = FFin n m e.
Proof. unfold float_of_int. destruct z; cbn [Z.abs_N f_norm]; eauto. Qed.

Lemma odd_part_le_factor : forall (k : nat) (p : positive) (m : Z),
  0 < m -> Zpos p = m * 2 ^ (Z.of_nat k) -> Zpos (odd_part p) <= m.
Proof.
  induction k as [|k IH]; intros p m Hm H.
  - cbn [Z.of_nat] in H. rewrite Z.pow_0_r, Z.mul_1_r in H. subst m.
    clear. induction p as [p IH|p IH|]; cbn [odd_part]; lia.
  - rewrite Nat2Z.inj_succ, Z.pow_succ_r in H by lia.
    destruct p as [p|p|].
    + exfalso. rewrite Pos2Z.inj_xI in H. lia.
    + cbn [odd_part]. apply IH; [exact Hm|]. rewrite Pos2Z.inj_xO in H. lia.
    + exfalso. assert (0 < 2 ^ Z.of_nat k) by (apply Z.pow_pos_nonneg; lia). nia.
Qed.

Definition binary64_int (z : Z) : Prop :=
  exists m k, 0 <= k /\ 0 <= m < 2 ^ 53 /\ Z.abs z = m * 2 ^ k /\ Z.abs z < 2 ^ 1024.

Lemma representable_pos p :
  (Npos p <? 2 ^ 1024)%N && (Npos (odd_part p) <? 2 ^ 53)%N = true <-> binary64_int (Zpos p).
Proof.
  rewrite andb_true_iff, !N.ltb_lt. unfold binary64_int. cbn [Z.abs].
  assert (E1 : Z.of_N (2 ^ 1024)%N = 2 ^ 1024) by (rewrite N2Z.inj_pow; reflexivity).
  assert (E2 : Z.of_N (2 ^ 53)%N = 2 ^ 53) by (rewrite N2Z.inj_pow; reflexivity).
  split.
  - intros [A B]. destruct (odd_tz p) as [Hk Hp].
    exists (Zpos (odd_part p)), (trailing_zeros p).
    apply N2Z.inj_lt in B. rewrite E2 in B. cbn [Z.of_N] in B.
    apply N2Z.inj_lt in A. rewrite E1 in A. cbn [Z.of_N] in A.
    split; [exact Hk|]. split; [split; [apply Pos2Z.is_nonneg | exact B]|].
    split; [exact Hp | exact A].
  - intros [m [k [Hk [Hm [Hp Hlt]]]]]. split.
    + apply N2Z.inj_lt. rewrite E1. cbn [Z.of_N]. exact Hlt.
    + apply N2Z.inj_lt. rewrite E2. cbn [Z.of_N].
      assert (0 < m).
      { destruct (Z.eq_dec m 0) as [->|]; [rewrite Z.mul_0_l in Hp; lia | lia]. }
      assert (L := odd_part_le_factor (Z.to_nat k) p m H).
      rewrite Z2Nat.id in L by lia. specialize (L Hp). lia.
Qed.

Lemma int_representable_spec z : int_representable z = true <-> binary64_int z.
Proof.
  destruct z as [|p|p]; cbn [int_representable].
  - split; [|reflexivity]. intros _. exists 0, 0.
    split; [lia|]. split; [split; [lia | apply Z.pow_pos_nonneg; lia]|].
    split; [reflexivity | apply Z.pow_pos_nonneg; lia].
  - apply representable_pos.
  - rewrite representable_pos. unfold binary64_int. cbn [Z.abs]. reflexivity.
Qed.

Section Oracles.
  Variable parse_int : text -> option Z.
  Variable parse_float : text -> option pyfloat.
  Variable float_str : pyfloat -> text.
  Variable maxd : N.

  Notation ser := (serialize parse_int parse_float float_str maxd).
  Notation inp := (coerce_input maxd).

  Lemma int_from_int_ok z o : int_from_int z = COk o -> o = PInt z /\ int32 z.
  Proof.
    unfold int_from_int. destruct (in_int32 z) eqn:E; [|discriminate].
    intro H; inversion H. split; [reflexivity|]. apply in_int32_spec, E.
  Qed.

  Lemma int_from_float_ok f o :
    int_from_float f = COk o -> exists z, f_int_value f = Some z /\ o = PInt z /\ int32 z.
  Proof using.
    unfold int_from_float. destruct (f_int_value f) as [z|]; [|discriminate].
    intro H. apply int_from_int_ok in H. destruct H as [H1 H2]. exists z. split; [reflexivity|]. split; assumption.
  Qed.

  Lemma serialize_int_range v o :
    serialize_int parse_int v = COk o -> exists z, o = PInt z /\ int32 z.
  Proof.
    destruct v; cbn [serialize_int]; try discriminate.
    - intro H; inversion H. destruct b; eexists; (split; [reflexivity|]);
        unfold int32; change (2 ^ 31) with 2147483648; lia.
    - intro H. apply int_from_int_ok in H. eauto.
    - intro H. apply int_from_float_ok in H as [z [_ H]]. eauto.
    - unfold int_from_string. destruct (is_empty s); [discriminate|].
      destruct (parse_int s); [|discriminate]. intro H. apply int_from_int_ok in H. eauto.
  Qed.

  Lemma float_from_float_ok f o :
    float_from_float f = COk o -> o = PFloat f /\ exists n m e, f = FFin n m e.
  Proof.
    unfold float_from_float. destruct f; cbn [f_finite]; try discriminate.
    intro H; inversion H. split; [reflexivity|]. eauto.
  Qed.

  Lemma float_from_int_ok z o :
    float_from_int z = COk o -> o = PFloat (float_of_int z) /\ binary64_int z.
  Proof.
    unfold float_from_int. destruct (int_representable z) eqn:E; [|discriminate].
    intro H; inversion H. split; [reflexivity|]. apply int_representable_spec, E.
  Qed.

  Lemma serialize_float_finite v o :
    serialize_float parse_float v = COk o -> in_domain SFloat o.
  Proof.
    destruct v; cbn [serialize_float in_domain]; try discriminate.
    - intro H; inversion H. left. destruct b; eauto.
    - intro H. apply float_from_int_ok in H as [-> _]. right.
      destruct (float_of_int_fin z) as [n [m [e E]]]. rewrite E. eauto.
    - intro H. apply float_from_float_ok in H as [-> [n [m [e ->]]]]. right. eauto.
    - unfold float_from_string. destruct (is_empty s); [discriminate|].
      destruct (parse_float s) as [f|]; [|discriminate].
      intro H. apply float_from_float_ok in H as [-> [n [m [e ->]]]]. right. eauto.
  Qed.

  Lemma str_of_int_ok z o : str_of_int maxd z = COk o -> exists s, int_str maxd z = Some s /\ o = PStr s.
  Proof.
    unfold str_of_int. destruct (int_str maxd z); [|discriminate]. intro H; inversion H. eauto.
  Qed.

  Lemma str_of_custom_ok v o : str_of_custom v = COk o -> exists s, o = PStr s.
  Proof.
    destruct v; cbn [str_of_custom]; try discriminate.
    - intro H; inversion H. eauto.
    - destruct builtin; [discriminate|]. intro H; inversion H. eauto.
  Qed.

  Lemma serialize_string_text v o : serialize_string float_str maxd v = COk o -> exists s, o = PStr s.
  Proof.
    destruct v; cbn [serialize_string]; try discriminate;
      try (intro H; apply str_of_custom_ok in H; exact H).
    - intro H; inversion H. eauto.
    - intro H. apply str_of_int_ok in H as [s [_ ->]]. eauto.
    - destruct (f_finite f); [|discriminate]. intro H; inversion H. eauto.
    - intro H; inversion H. eauto.
  Qed.

  Lemma id_from_float_ok f o :
    id_from_float maxd f = COk o ->
    exists z s, f_int_value f = Some z /\ int_str maxd z = Some s /\ o = PStr s.
  Proof.
    unfold id_from_float. destruct (f_int_value f) as [z|]; [|discriminate].
    intro H. apply str_of_int_ok in H as [s [A ->]]. eauto.
  Qed.

  Lemma serialize_id_text v o : serialize_id maxd v = COk o -> exists s, o = PStr s.
  Proof.
    destruct v; cbn [serialize_id]; try discriminate;
      try (intro H; apply str_of_custom_ok in H; exact H).
    - intro H. apply str_of_int_ok in H as [s [_ ->]]. eauto.
    - intro H. apply id_from_float_ok in H as [z [s [_ [_ ->]]]]. eauto.
    - intro H; inversion H. eauto.
  Qed.

  Lemma serialize_boolean_bool v o : serialize_boolean v = COk o -> exists b, o = PBool b.
  Proof.
    destruct v; cbn [serialize_boolean]; try discriminate.
    - intro H; inversion H. eauto.
    - intro H; inversion H. eauto.
    - destruct (f_finite f); [|discriminate]. intro H; inversion H. eauto.
  Qed.

  Theorem serialize_in_domain sc v o : ser sc v = COk o -> in_domain sc o.
  Proof.
    destruct sc; cbn [serialize in_domain].
    - apply serialize_int_range.
    - apply serialize_float_finite.
    - apply serialize_string_text.
    - apply serialize_boolean_bool.
    - apply serialize_id_text.
  Qed.

  Theorem float_of_int_exact z o :
    ser SFloat (PInt z) = COk o ->
    o = PFloat (float_of_int z) /\ f_int_value (float_of_int z) = Some z /\ binary64_int z.
  Proof.
    cbn [serialize serialize_float]. intro H. apply float_from_int_ok in H as [-> B].
    repeat split; auto. apply f_int_value_of_int.
  Qed.

  Theorem float_of_int_complete z :
    binary64_int z -> ser SFloat (PInt z) = COk (PFloat (float_of_int z)).
  Proof.
    intro B. cbn [serialize serialize_float]. unfold float_from_int.
    apply int_representable_spec in B. rewrite B. reflexivity.
  Qed.

  Theorem int_of_float_exact f o :
    ser SInt (PFloat f) = COk o -> exists z, o = PInt z /\ f_int_value f = Some z.
  Proof.
    cbn [serialize serialize_int]. intro H. apply int_from_float_ok in H as [z [A [-> _]]]. eauto.
  Qed.

  Theorem int_of_int_same z o : ser SInt (PInt z) = COk o -> o = PInt z.
  Proof. cbn [serialize serialize_int]. intro H. apply int_from_int_ok in H. tauto. Qed.

  Theorem id_of_number_exact v o :
    ser SID v = COk o ->
    match v with
    | PInt z => exists s, int_str maxd z = Some s /\ o = PStr s
    | PFloat f => exists z s, f_int_value f = Some z /\ int_str maxd z = Some s /\ o = PStr s
    | _ => True
    end.
  Proof.
    destruct v; try exact (fun _ => I); cbn [serialize serialize_id]; intro H.
    - apply str_of_int_ok in H. exact H.
    - apply id_from_float_ok in H. exact H.
  Qed.

  Theorem serialize_reaccepted sc v o :
    ser sc v = COk o -> exists o', inp sc o = COk o' /\ same_meaning o o'.
  Proof.
    intro H. destruct sc; cbn [serialize coerce_input] in *.
    - apply serialize_int_range in H as [z [-> R]]. exists (PInt z). split; [|left; reflexivity].
      cbn [coerce_int]. unfold int_from_int. apply in_int32_spec in R. rewrite R. reflexivity.
    - apply serialize_float_finite in H. destruct H as [[z [-> Hz]]|[n [m [e ->]]]].
      + (* the int 0 or 1 emitted for a bool comes back as the float of the same value *)
        exists (PFloat (float_of_int z)). split.
        * cbn [coerce_float]. destruct Hz as [-> | ->]; reflexivity.
        * right. eexists _, _. split; [reflexivity|]. split; [reflexivity|]. apply f_int_value_of_int.
      + eexists. split; [reflexivity | left; reflexivity].
    - apply serialize_string_text in H as [s ->]. eexists. split; [reflexivity | left; reflexivity].
    - apply serialize_boolean_bool in H as [b ->]. eexists. split; [reflexivity | left; reflexivity].
    - apply serialize_id_text in H as [s ->]. eexists. split; [reflexivity | left; reflexivity].
  Qed.

  Lemma in_domain_not_null sc o : in_domain sc o -> is_null o = false.
  Proof.
    destruct sc; cbn [in_domain].
    - intros [z [-> _]]. reflexivity.
    - intros [[z [-> _]] | [n [m [e ->]]]]; reflexivity.
    - intros [s ->]. reflexivity.
    - intros [b ->]. reflexivity.
    - intros [s ->]. reflexivity.
  Qed.

End Oracles.

Lemma assoc_in {A} k (l : list (text * A)) v : assoc k l = Some v -> In (k, v) l.
Proof.
  induction l as [|[k' v'] l IH]; cbn [assoc]; [discriminate|].
  destruct (nat_list_eqb k k') eqn:E.
  - intro H; inversion H; subst. apply nat_list_eqb_eq in E. subst. left. reflexivity.
  - intro H. right. apply IH, H.
Qed.

Lemma in_assoc_nodup {A} k (v : A) l : NoDup (map fst l) -> In (k, v) l -> assoc k l = Some v.
Proof.
  induction l as [|[k' v'] l IH]; cbn [map fst assoc]; intros ND H; [destruct H|].
  inversion ND as [|? ? Hn ND']; subst.
  destruct H as [H|H].
  - inversion H; subst. rewrite nat_list_eqb_refl. reflexivity.
  - destruct (nat_list_eqb k k') eqn:E.
    + apply nat_list_eqb_eq in E. subst. exfalso. apply Hn.
      change k' with (fst (k', v)). apply in_map, H.
    + apply IH; assumption.
Qed.

Lemma find_key_in v tbl n : find_key v tbl = Some n -> exists k, In (k, n) tbl /\ pyeq k v = true.
Proof.
  induction tbl as [|[k m] tbl IH]; cbn [find_key]; [discriminate|].
  destruct (pyeq k v) eqn:E.
  - intro H; inversion H; subst. exists k. split; [left; reflexivity | exact E].
  - intro H. destruct (IH H) as [k' [A B]]. exists k'. split; [right; exact A | exact B].
Qed.

(* every entry of the lookup table is (key of a member, that member's name) *)
Lemma value_lookup_entries e : forall acc k n,
  In (k, n) (value_lookup e acc) ->
  In (k, n) acc \/ exists val, In (n, val) e /\ k = lookup_key n val.
Proof.
  induction e as [|[name value] e IH]; intros acc k n H; cbn [value_lookup] in H; [left; exact H|].
  destruct (hashable (lookup_key name value)).
  - destruct (find_key (lookup_key name value) acc).
    + destruct (IH _ _ _ H) as [A|[val [A B]]]; [left; exact A|].
      right. exists val. split; [right; exact A | exact B].
    + destruct (IH _ _ _ H) as [A|[val [A B]]].
      * apply in_app_or in A as [A|A]; [left; exact A|].
        destruct A as [A|[]]. inversion A; subst. right. exists value. split; [left; reflexivity | reflexivity].
      * right. exists val. split; [right; exact A | exact B].
  - destruct (IH _ _ _ H) as [A|[val [A B]]]; [left; exact A|].
    right. exists val. split; [right; exact A | exact B].
Qed.

Lemma scan_values_in v e n : scan_values v e = Some n -> exists val, In (n, val) e /\ pyeq val v = true.
Proof.
  induction e as [|[name value] e IH]; cbn [scan_values]; [discriminate|].
  destruct (pyeq value v) eqn:E.
  - intro H; inversion H; subst. exists value. split; [left; reflexivity | exact E].
  - intro H. destruct (IH H) as [val [A B]]. exists val. split; [right; exact A | exact B].
Qed.

(* the emitted text is the name of a member whose internal value (or, for a member without a
   value, whose name) equals the resolver's value by Python == *)
Theorem enum_output_member e v o :
  enum_output e v = COk o ->
  exists name val, o = PStr name /\ In (name, val) e /\
    (pyeq (lookup_key name val) v = true \/ pyeq val v = true).
Proof.
  unfold enum_output. destruct (hashable v).
  - destruct (find_key v (value_lookup e [])) as [n|] eqn:F; [|discriminate].
    intro H; inversion H; subst; clear H.
    apply find_key_in in F as [k [A B]].
    apply value_lookup_entries in A as [[]|[val [A ->]]].
    exists n, val. auto.
  - destruct (scan_values v e) as [n|] eqn:F; [|discriminate].
    intro H; inversion H; subst; clear H.
    apply scan_values_in in F as [val [A B]]. exists n, val. auto.
Qed.

Theorem enum_output_declared e v o :
  enum_output e v = COk o -> exists name, o = PStr name /\ In name (map fst e).
Proof.
  intro H. apply enum_output_member in H as [name [val [-> [A _]]]].
  exists name. split; [reflexivity|]. change name with (fst (name, val)). apply in_map, A.
Qed.

