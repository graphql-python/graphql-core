(* Proofs about the schema validation model Types/SchemaValidate.v (C20): the cycle detector, the
   declarative rule set ValidSchema with the checker's rules reflected one by one, and where each
   reported kind can come from. *)
From GV Require Import Base.Prelude Base.ListFacts Types.SchemaValidate.

(* The cycle detector over an arbitrary graph: dfs_all terminates with fuel = number of nodes,
   reports only cycles, and reports one whenever there is one. *)
Section DFSProps.
  Variable A : Type.
  Variable eqb : A -> A -> bool.
  Hypothesis eqb_spec : forall a b, eqb a b = true <-> a = b.
  Variable succ : A -> list A.

  Notation memA := (memA A eqb).
  Notation dstate := (dstate A).
  Notation dfs := (dfs A eqb succ).
  Notation loop := (loop A eqb).
  Notation step := (step A eqb).
  Notation dfs_all := (dfs_all A eqb succ).
  Notation cycle_from := (cycle_from A eqb).

  Definition edge (a b : A) : Prop := In b (succ a).

  Lemma memA_In x l : memA x l = true <-> In x l.
  Proof.
    induction l as [|y l IH]; cbn.
    - split; [discriminate | tauto].
    - rewrite orb_true_iff, IH, eqb_spec. split; intros [H|H]; auto.
  Qed.

  Lemma memA_false x l : memA x l = false <-> ~ In x l.
  Proof.
    rewrite <- memA_In. destruct (memA x l).
    - split; [discriminate | intro H; exfalso; apply H; reflexivity].
    - split; [intros _ H; discriminate | reflexivity].
  Qed.

  Lemma dfs_all_loop fuel roots : forall st,
    dfs_all fuel roots st = loop (dfs fuel []) [] roots st.
  Proof.
    induction roots as [|r roots IH]; intro st; [reflexivity|].
    cbn [SchemaValidate.dfs_all SchemaValidate.loop]. unfold SchemaValidate.step. cbn [SchemaValidate.memA].
    destruct (memA r (d_visited st)); [apply IH|].
    destruct (dfs fuel [] r st); [apply IH | reflexivity].
  Qed.

  Lemma loop_cons_some rec p y ys st st' :
    loop rec p (y :: ys) st = Some st' ->
    exists st1, step rec p y st = Some st1 /\ loop rec p ys st1 = Some st'.
  Proof. cbn [SchemaValidate.loop]. destruct (step rec p y st) as [st1|]; [eauto | discriminate]. Qed.

  (* back edge, already visited, or explored *)
  Lemma step_some rec p y st st1 :
    step rec p y st = Some st1 ->
    (memA y p = true /\ st1 = mkD (d_visited st) (cycle_from y p :: d_reports st) (d_done st))
    \/ (memA y p = false /\ memA y (d_visited st) = true /\ st1 = st)
    \/ (memA y p = false /\ memA y (d_visited st) = false /\ rec y st = Some st1).
  Proof.
    unfold SchemaValidate.step. destruct (memA y p); [intro H; inversion H; auto|].
    destruct (memA y (d_visited st)); [intro H; inversion H; auto | auto].
  Qed.

  Lemma dfs_some f p x st st' :
    dfs (S f) p x st = Some st' ->
    exists st1, loop (dfs f (x :: p)) (x :: p) (succ x) (mark A x st) = Some st1 /\ st' = finish A x st1.
  Proof.
    cbn [SchemaValidate.dfs]. destruct (loop _ _ _ _) as [st1|]; [|discriminate].
    intro H; inversion H. eauto.
  Qed.

  Definition unv (U vis : list A) : nat :=
    length (filter (fun a => negb (memA a vis)) U).

  Lemma unv_mono U vis vis' : incl vis vis' -> (unv U vis' <= unv U vis)%nat.
  Proof.
    intro Hi. unfold unv. induction U as [|a U IH]; cbn; [lia|].
    destruct (memA a vis) eqn:E1; destruct (memA a vis') eqn:E2; cbn; try lia.
    apply memA_In in E1. apply Hi in E1. apply memA_In in E1. congruence.
  Qed.

  Lemma unv_cons_lt U vis x :
    In x U -> memA x vis = false -> (unv U (x :: vis) < unv U vis)%nat.
  Proof.
    intros Hin Hm. unfold unv. induction U as [|a U IH]; [destruct Hin|].
    pose proof (unv_mono U vis (x :: vis) (incl_tl x (incl_refl vis))) as Hle. unfold unv in Hle.
    cbn [filter]. destruct Hin as [->|Hin].
    - assert (E : memA x (x :: vis) = true) by (apply memA_In; left; reflexivity).
      rewrite E, Hm. cbn [negb length]. lia.
    - specialize (IH Hin).
      destruct (memA a (x :: vis)) eqn:E1; destruct (memA a vis) eqn:E2; cbn [negb length]; try lia.
      apply memA_In in E2. assert (In a (x :: vis)) by (right; exact E2).
      apply memA_In in H. congruence.
  Qed.

  Lemma unv_nil U : unv U [] = length U.
  Proof. unfold unv. induction U as [|a l IH]; cbn; [reflexivity | f_equal; exact IH]. Qed.

  Section Termination.
    Variable U : list A.
    Hypothesis U_closed : forall a, In a U -> incl (succ a) U.

    Lemma loop_terminates rec f p :
      (forall y st, In y U -> memA y (d_visited st) = false -> (unv U (d_visited st) <= f)%nat ->
         exists st', rec y st = Some st' /\ incl (d_visited st) (d_visited st')) ->
      forall ys st, incl ys U -> (unv U (d_visited st) <= f)%nat ->
        exists st', loop rec p ys st = Some st' /\ incl (d_visited st) (d_visited st').
    Proof.
      intros Hrec ys. induction ys as [|y ys IH]; intros st Hys Hu.
      - exists st. split; [reflexivity | apply incl_refl].
      - apply incl_cons_inv in Hys as [Hy Hys].
        cbn [SchemaValidate.loop]. unfold SchemaValidate.step.
        destruct (memA y p); [apply (IH (mkD _ _ _) Hys Hu)|].
        destruct (memA y (d_visited st)) eqn:E2; [apply IH; assumption|].
        destruct (Hrec y st Hy E2 Hu) as [st1 [H1 H2]]. rewrite H1.
        pose proof (unv_mono U _ _ H2).
        destruct (IH st1 Hys ltac:(lia)) as [st' [H3 H4]].
        exists st'. split; [exact H3 | eapply incl_tran; eassumption].
    Qed.

    Lemma dfs_terminates fuel : forall p x st,
      In x U -> memA x (d_visited st) = false -> (unv U (d_visited st) <= fuel)%nat ->
      exists st', dfs fuel p x st = Some st' /\ incl (d_visited st) (d_visited st').
    Proof.
      induction fuel as [|f IHf]; intros p x st Hx Hm Hu;
        pose proof (unv_cons_lt U (d_visited st) x Hx Hm) as Hlt; [lia|].
      cbn [SchemaValidate.dfs].
      destruct (loop_terminates _ f (x :: p) (IHf (x :: p)) (succ x) (mark A x st) (U_closed x Hx))
        as [st' [H1 H2]]; [cbn; lia|].
      rewrite H1. exists (finish A x st'). split; [reflexivity|].
      intros z Hz. apply H2. right. exact Hz.
    Qed.

    Theorem dfs_all_fuel_suffices roots :
      incl roots U -> exists st', dfs_all (length U) roots dstate0 = Some st'.
    Proof.
      intro H. rewrite dfs_all_loop.
      destruct (loop_terminates _ (length U) [] (dfs_terminates (length U) []) roots dstate0 H)
        as [st' [H1 _]]; [cbn; rewrite unv_nil; lia | eauto].
    Qed.
  End Termination.

  (* a path stack: top first, every element is a successor of the one below it *)
  Fixpoint chain (p : list A) : Prop :=
    match p with
    | a :: ((b :: _) as p') => edge b a /\ chain p'
    | _ => True
    end.

  (* c = [top; ...; bottom]: bottom -> ... -> top -> bottom *)
  Definition is_cycle (c : list A) : Prop :=
    match c with
    | [] => False
    | top :: _ => chain c /\ edge top (last c top)
    end.

  Lemma chain_tail a p : chain (a :: p) -> chain p.
  Proof. destruct p; cbn; tauto. Qed.

  Lemma cycle_from_chain y p : chain p -> chain (cycle_from y p).
  Proof.
    induction p as [|z p IH]; intro H; cbn; [exact I|].
    destruct (eqb y z); [exact I|].
    destruct p as [|w p]; [exact I|].
    cbn in H. destruct H as [H1 H2]. specialize (IH H2).
    cbn [SchemaValidate.cycle_from] in *. destruct (eqb y w); cbn; split; auto.
  Qed.

  Lemma cycle_from_last y p d : memA y p = true -> last (cycle_from y p) d = y.
  Proof.
    induction p as [|z p IH]; intro H; cbn in H; [discriminate|].
    cbn [SchemaValidate.cycle_from]. destruct (eqb y z) eqn:E.
    - apply eqb_spec in E. subst. reflexivity.
    - cbn in H. specialize (IH H).
      destruct (cycle_from y p) as [|w q] eqn:Eq.
      + destruct p as [|w p]; [discriminate|]. cbn in Eq. destruct (eqb y w); discriminate.
      + exact IH.
  Qed.

  Lemma cycle_from_is_cycle y x p :
    chain (x :: p) -> memA y (x :: p) = true -> edge x y -> is_cycle (cycle_from y (x :: p)).
  Proof.
    intros Hc Hm He.
    pose proof (cycle_from_chain y _ Hc) as H1.
    pose proof (cycle_from_last y _ x Hm) as H2.
    cbn [SchemaValidate.cycle_from] in *. destruct (eqb y x) eqn:E.
    - cbn. split; [exact I|]. apply eqb_spec in E. subst. exact He.
    - cbn [is_cycle]. split; [exact H1|]. rewrite H2. exact He.
  Qed.

  Notation sound st := (Forall is_cycle (d_reports st)).

  Lemma loop_sound rec p ys :
    (forall y, In y ys -> memA y p = true -> is_cycle (cycle_from y p)) ->
    (forall y st st', In y ys -> sound st -> rec y st = Some st' -> sound st') ->
    forall st st', sound st -> loop rec p ys st = Some st' -> sound st'.
  Proof.
    induction ys as [|y ys IH]; intros Hc Hrec st st' Hf H.
    - inversion H; subst. exact Hf.
    - apply loop_cons_some in H as [st1 [H1 H2]].
      refine (IH (fun z I => Hc z (or_intror I)) (fun z s s' I => Hrec z s s' (or_intror I)) st1 st' _ H2).
      apply step_some in H1 as [[E ->]|[[_ [_ ->]]|[_ [_ H1]]]].
      + constructor; [apply Hc; [left; reflexivity | exact E] | exact Hf].
      + exact Hf.
      + exact (Hrec y st st1 (or_introl eq_refl) Hf H1).
  Qed.

  Lemma dfs_sound fuel : forall p x st st',
    chain (x :: p) -> sound st -> dfs fuel p x st = Some st' -> sound st'.
  Proof.
    induction fuel as [|f IHf]; intros p x st st' Hc Hf H; [discriminate|].
    apply dfs_some in H as [st1 [E ->]].
    refine (loop_sound _ (x :: p) (succ x) _ _ (mark A x st) st1 Hf E).
    - intros y Hy Hm. apply cycle_from_is_cycle; assumption.
    - intros y s s' Hy. apply IHf. split; [exact Hy | exact Hc].
  Qed.

  Theorem dfs_all_sound fuel roots st st' :
    sound st -> dfs_all fuel roots st = Some st' -> sound st'.
  Proof.
    rewrite dfs_all_loop. apply loop_sound.
    - discriminate.
    - intros y s s' _. apply dfs_sound. exact I.
  Qed.

  (* a non-empty path in the graph *)
  Inductive reach : A -> A -> Prop :=
  | reach_one a b : edge a b -> reach a b
  | reach_step a b c : edge a b -> reach b c -> reach a c.

  Lemma reach_snoc a b c : reach a b -> edge b c -> reach a c.
  Proof.
    intros H He. induction H as [a b H|a b b' H _ IH].
    - eapply reach_step; [exact H | apply reach_one; exact He].
    - eapply reach_step; [exact H | apply IH; exact He].
  Qed.

  Lemma chain_reach l : forall a, chain (a :: l) -> last l a = a \/ reach (last l a) a.
  Proof.
    induction l as [|b l IH]; intros a H.
    - left. reflexivity.
    - cbn in H. destruct H as [He Hc]. specialize (IH b Hc).
      rewrite last_cons. right. destruct IH as [IH|IH].
      + rewrite IH. apply reach_one. exact He.
      + eapply reach_snoc; eassumption.
  Qed.

  Lemma is_cycle_reach c : is_cycle c -> exists x, reach x x.
  Proof.
    destruct c as [|top l]; [intros []|]. intros [Hc He]. exists top.
    rewrite last_cons in He.
    destruct (chain_reach l top Hc) as [H|H].
    - rewrite H in He. apply reach_one. exact He.
    - eapply reach_step; eassumption.
  Qed.

  (* the exit order is a reverse topological order as long as nothing is reported *)
  Fixpoint topo (l : list A) : Prop :=
    match l with
    | [] => True
    | x :: r => ~ In x r /\ (forall s, edge x s -> In s r) /\ topo r
    end.

  Lemma topo_closed l : topo l -> forall x s, In x l -> edge x s -> In s l.
  Proof.
    induction l as [|a l IH]; intros H x s Hx He; [destruct Hx|].
    destruct H as [_ [H2 H3]]. destruct Hx as [->|Hx].
    - right. apply H2. exact He.
    - right. eapply IH; eassumption.
  Qed.

  Lemma reach_closed l : topo l -> forall x y, reach x y -> In x l -> In y l.
  Proof.
    intros Ht x y H. induction H as [a b H|a b c H _ IH]; intro Hx.
    - eapply topo_closed; eassumption.
    - apply IH. eapply topo_closed; eassumption.
  Qed.

  Lemma topo_acyclic l : topo l -> forall x, In x l -> ~ reach x x.
  Proof.
    induction l as [|a l IH]; intros Ht x Hx Hr; [destruct Hx|].
    destruct Ht as [H1 [H2 H3]]. destruct Hx as [->|Hx].
    - apply H1. inversion Hr as [? ? He|? b ? He Hr']; subst.
      + apply H2. exact He.
      + eapply reach_closed; [exact H3 | exact Hr' | apply H2; exact He].
    - eapply IH; eassumption.
  Qed.

  Record Inv (p : list A) (st : dstate) : Prop := mkInv
    { inv_vis : forall a, In a (d_visited st) -> In a p \/ In a (d_done st);
      inv_path : forall a, In a p -> In a (d_visited st);
      inv_disj : forall a, In a p -> ~ In a (d_done st);
      inv_done : forall a, In a (d_done st) -> In a (d_visited st);
      inv_topo : topo (d_done st) }.

  Notation clean st := (d_reports st = []).

  (* A run that ends clean started clean (reports only grow), and then it keeps the invariant
     and finishes every node it was asked to explore. *)
  Lemma loop_complete rec p :
    (forall y st st', rec y st = Some st' -> clean st' ->
        clean st /\ (Inv p st -> ~ In y (d_visited st) ->
                     Inv p st' /\ In y (d_done st') /\ incl (d_done st) (d_done st'))) ->
    forall ys st st', loop rec p ys st = Some st' -> clean st' ->
      clean st /\ (Inv p st ->
                   Inv p st' /\ incl (d_done st) (d_done st') /\ (forall s, In s ys -> In s (d_done st'))).
  Proof.
    intros Hrec ys. induction ys as [|y ys IH]; intros st st' H Hr.
    - inversion H; subst. split; [exact Hr|]. intro Hi.
      split; [exact Hi|]. split; [apply incl_refl | intros s []].
    - apply loop_cons_some in H as [st1 [H1 H2]]. destruct (IH st1 st' H2 Hr) as [Hr1 Ht].
      apply step_some in H1 as [[_ ->]|[[E1 [E2 ->]]|[E1 [E2 H1]]]].
      + discriminate Hr1.
      + split; [exact Hr1|]. intro Hi. destruct (Ht Hi) as [A1 [A2 A3]].
        split; [exact A1|]. split; [exact A2|].
        intros s [<-|Hs]; [|exact (A3 s Hs)]. apply A2. apply memA_In in E2. apply memA_false in E1.
        destruct (inv_vis p st Hi y E2); [contradiction | assumption].
      + destruct (Hrec y st st1 H1 Hr1) as [Hr0 Hy]. split; [exact Hr0|]. intro Hi.
        apply memA_false in E2. destruct (Hy Hi E2) as [Hi1 [Hd Hinc]].
        destruct (Ht Hi1) as [A1 [A2 A3]].
        split; [exact A1|]. split; [eapply incl_tran; eassumption|].
        intros s [<-|Hs]; [apply A2; exact Hd | exact (A3 s Hs)].
  Qed.

  Lemma dfs_complete fuel : forall p x st st',
    dfs fuel p x st = Some st' -> clean st' ->
    clean st /\ (Inv p st -> ~ In x (d_visited st) ->
                 Inv p st' /\ In x (d_done st') /\ incl (d_done st) (d_done st')).
  Proof.
    induction fuel as [|f IHf]; intros p x st st' H Hr; [discriminate|].
    apply dfs_some in H as [st1 [E ->]].
    destruct (loop_complete _ (x :: p) (IHf (x :: p)) _ _ _ E Hr) as [Hr0 Ht].
    split; [exact Hr0|]. intros [I1 I2 I3 I4 I5] Hx.
    destruct Ht as [[J1 J2 J3 J4 J5] [Hinc Hs]].
    { constructor; cbn.
      - intros a [<-|Ha]; [left; left; reflexivity|].
        destruct (I1 a Ha); [left; right; assumption | right; assumption].
      - intros a [<-|Ha]; [left; reflexivity | right; apply I2; exact Ha].
      - intros a [<-|Ha]; [|apply I3; exact Ha]. intro Hd. apply Hx. apply I4. exact Hd.
      - intros a Ha. right. apply I4. exact Ha.
      - exact I5. }
    split; [constructor; cbn | split; [left; reflexivity | intros a Ha; right; apply Hinc; exact Ha]].
    - intros a Ha. destruct (J1 a Ha) as [[<-|Hp]|Hd]; [right; left; reflexivity | left; exact Hp | right; right; exact Hd].
    - intros a Ha. apply J2. right. exact Ha.
    - intros a Ha [<-|Hd].
      + apply Hx. apply I2. exact Ha.
      + apply (J3 a); [right; exact Ha | exact Hd].
    - intros a [<-|Ha]; [apply J2; left; reflexivity | apply J4; exact Ha].
    - split; [apply J3; left; reflexivity|]. split; [exact Hs | exact J5].
  Qed.

  Lemma Inv0 : Inv [] dstate0.
  Proof. constructor; cbn; try tauto. Qed.

  (* if every node with a successor is a root and nothing is reported, the graph is acyclic *)
  Theorem dfs_all_complete_acyclic fuel roots st :
    (forall x s, edge x s -> In x roots) ->
    dfs_all fuel roots dstate0 = Some st -> d_reports st = [] ->
    forall x, ~ reach x x.
  Proof.
    intros Hroots H Hr x Hx. rewrite dfs_all_loop in H.
    destruct (loop_complete _ [] (dfs_complete fuel []) _ _ _ H Hr) as [_ Ht].
    destruct (Ht Inv0) as [Hi [_ Hd]].
    assert (Hin : In x roots).
    { inversion Hx as [? ? He|? b ? He _]; subst; eapply Hroots; exact He. }
    eapply topo_acyclic; [exact (inv_topo [] st Hi) | apply Hd; exact Hin | exact Hx].
  Qed.

  Theorem dfs_all_sound_reach fuel roots st :
    dfs_all fuel roots dstate0 = Some st -> d_reports st <> [] -> exists x, reach x x.
  Proof.
    intros H Hr. pose proof (dfs_all_sound fuel roots dstate0 st (Forall_nil _) H) as Hf.
    destruct (d_reports st) as [|c l]; [congruence|]. inversion Hf; subst.
    eapply is_cycle_reach; eassumption.
  Qed.
End DFSProps.

Arguments edge {A}.
Arguments reach {A}.
Arguments is_cycle {A}.

Lemma lookup_in_In ts n d : lookup_in ts n = Some d -> In (n, d) ts.
Proof.
  induction ts as [|[m e] ts IH]; cbn [lookup_in]; [discriminate|].
  destruct (n =? m) eqn:E.
  - intro H. inversion H; subst. apply N.eqb_eq in E. subst. left. reflexivity.
  - intro H. right. apply IH. exact H.
Qed.

Definition type_names (rs : raw_schema) : list N := map fst (s_types rs).

Lemma lookup_input_name rs n o fs : lookup rs n = Some (DInput o fs) -> In n (input_object_names rs).
Proof.
  intro E. apply lookup_in_In in E. unfold input_object_names. apply in_flat_map.
  eexists. split; [exact E | left; reflexivity].
Qed.

Lemma input_fields_nonempty_name rs n f :
  In f (input_fields_of rs n) -> In n (input_object_names rs).
Proof.
  unfold input_fields_of. destruct (lookup rs n) as [[]|] eqn:E; try (intros []).
  intros _. exact (lookup_input_name rs n _ _ E).
Qed.

Lemma is_input_object_name rs n : is_input_object rs n = true -> In n (input_object_names rs).
Proof.
  unfold is_input_object. destruct (lookup rs n) as [[]|] eqn:E; try discriminate.
  intros _. exact (lookup_input_name rs n _ _ E).
Qed.

Lemma input_object_names_incl rs : incl (input_object_names rs) (type_names rs).
Proof.
  intros n H. unfold input_object_names in H. apply in_flat_map in H.
  destruct H as [[m d] [H1 H2]]. destruct d; cbn in H2; try contradiction.
  destruct H2 as [<-|[]]. unfold type_names. apply in_map_iff. eexists. split; [|exact H1]. reflexivity.
Qed.

Lemma nn_succ_spec rs n m :
  In m (nn_succ rs n) <->
  exists f, In f (input_fields_of rs n) /\ iv_type f = TNonNull (TNamed m) /\ is_input_object rs m = true.
Proof.
  unfold nn_succ. rewrite in_flat_map. split.
  - intros [f [H1 H2]]. exists f. split; [exact H1|]. unfold nn_target in H2.
    destruct (iv_type f) as [|?|t]; try contradiction. destruct t as [k| |]; try contradiction.
    destruct (is_input_object rs k) eqn:E; [|contradiction]. destruct H2 as [<-|[]]. auto.
  - intros [f [H1 [H2 H3]]]. exists f. split; [exact H1|]. unfold nn_target. rewrite H2, H3. left. reflexivity.
Qed.

Lemma nn_closed rs a : incl (nn_succ rs a) (type_names rs).
Proof.
  intros m H. apply nn_succ_spec in H. destruct H as [f [_ [_ H]]].
  apply input_object_names_incl. apply is_input_object_name. exact H.
Qed.

Theorem nn_detect_terminates rs : exists st, nn_detect rs = Some st.
Proof.
  unfold nn_detect.
  destruct (dfs_all_fuel_suffices N N.eqb N.eqb_eq (nn_succ rs) (type_names rs) (fun a _ => nn_closed rs a)
              (input_object_names rs) (input_object_names_incl rs)) as [st H].
  unfold type_names in H. rewrite map_length in H. exists st. exact H.
Qed.

Lemma nn_roots rs x s : edge (nn_succ rs) x s -> In x (input_object_names rs).
Proof.
  unfold edge. intro H. apply nn_succ_spec in H. destruct H as [f [H _]].
  eapply input_fields_nonempty_name. exact H.
Qed.


(* induction on a literal with the hypothesis for the items of a list and the values of an object *)
Definition child (x v : lit) : Prop :=
  match v with LList vs => In x vs | LObj kvs => In x (map snd kvs) | _ => False end.

Fixpoint lit_child_ind (P : lit -> Prop) (H : forall v, (forall x, child x v -> P x) -> P v) (v : lit) : P v :=
  H v
    match v return forall x, child x v -> P x with
    | LList vs =>
        (fix go (l : list lit) : forall x, In x l -> P x :=
           match l with
           | [] => fun x F => match F with end
           | y :: l' => fun x I =>
               match I with
               | or_introl E => eq_ind y P (lit_child_ind P H y) x E
               | or_intror I' => go l' x I'
               end
           end) vs
    | LObj kvs =>
        (fix go (l : list (N * lit)) : forall x, In x (map snd l) -> P x :=
           match l with
           | [] => fun x F => match F with end
           | kv :: l' => fun x I =>
               match I with
               | or_introl E => eq_ind (snd kv) P (lit_child_ind P H (snd kv)) x E
               | or_intror I' => go l' x I'
               end
           end) kvs
    | _ => fun x F => match F with end
    end.

Lemma fnode_eqb_spec a b : fnode_eqb a b = true <-> a = b.
Proof.
  destruct a as [a1 a2], b as [b1 b2]. unfold fnode_eqb. cbn.
  rewrite andb_true_iff, !N.eqb_eq. split; [intros [-> ->]; reflexivity | intro H; inversion H; auto].
Qed.

Lemma input_field_node rs ty f :
  In f (input_fields_of rs ty) -> In (ty, iv_name f) (all_input_fields rs).
Proof.
  intro H. unfold all_input_fields. apply in_flat_map. exists ty. split.
  - eapply input_fields_nonempty_name. exact H.
  - apply in_map_iff. exists f. auto.
Qed.

Lemma dv_walk_in rs : forall v ty nd, In nd (dv_walk rs v ty) -> In nd (all_input_fields rs).
Proof.
  induction v as [v IH] using lit_child_ind. intros ty nd H.
  destruct v; try (cbn in H; contradiction); cbn [dv_walk child] in *.
  - induction vs as [|x vs IHvs]; [destruct H|]. apply in_app_or in H as [H|H].
    + exact (IH x (or_introl eq_refl) ty nd H).
    + apply IHvs; [|exact H]. intros y Iy. apply IH. right. exact Iy.
  - apply in_app_or in H as [H|H].
    + induction kvs as [|[k x] kvs IHk]; [destruct H|]. apply in_app_or in H as [H|H].
      * destruct (find_inval k (input_fields_of rs ty)) as [f|]; [|destruct H].
        destruct (is_input_object rs (named_of (iv_type f))); [|destruct H].
        exact (IH x (or_introl eq_refl) _ nd H).
      * apply IHk; [|exact H]. intros y Iy. apply IH. right. exact Iy.
    + apply in_flat_map in H. destruct H as [f [Hf H]].
      destruct (is_input_object rs (named_of (iv_type f)) && negb (memN (iv_name f) (keys kvs))
                && match lit_default f with Some _ => true | None => false end); [|destruct H].
      destruct H as [<-|[]]. apply input_field_node. exact Hf.
Qed.

Lemma dv_succ_in rs nd : incl (dv_succ rs nd) (all_input_fields rs).
Proof.
  intros x H. unfold dv_succ in H.
  destruct (find_inval (snd nd) (input_fields_of rs (fst nd))) as [f|]; [|destruct H].
  destruct (lit_default f) as [v|]; [|destruct H].
  destruct (is_input_object rs (named_of (iv_type f))); [|destruct H].
  eapply dv_walk_in. exact H.
Qed.

Lemma dv_roots_incl rs : incl (dv_roots rs) (all_input_fields rs).
Proof.
  intros x H. unfold dv_roots in H. apply in_flat_map in H. destruct H as [n [_ H]].
  eapply dv_walk_in. exact H.
Qed.

Theorem dv_detect_terminates rs : exists st, dv_detect rs = Some st.
Proof.
  unfold dv_detect.
  apply (dfs_all_fuel_suffices fnode fnode_eqb fnode_eqb_spec (dv_succ rs) (all_input_fields rs)
           (fun a _ => dv_succ_in rs a) (dv_roots rs) (dv_roots_incl rs)).
Qed.

Lemma find_inval_In n l f : find_inval n l = Some f -> In f l /\ iv_name f = n.
Proof.
  induction l as [|a l IH]; cbn [find_inval]; [discriminate|].
  destruct (n =? iv_name a) eqn:E.
  - intro H. inversion H; subst. apply N.eqb_eq in E. split; [left; reflexivity | auto].
  - intro H. destruct (IH H). split; [right|]; assumption.
Qed.

Lemma dv_roots_cover rs x s : edge (dv_succ rs) x s -> In x (dv_roots rs).
Proof.
  unfold edge, dv_succ. destruct x as [ty g]. cbn [fst snd].
  destruct (find_inval g (input_fields_of rs ty)) as [f|] eqn:Ef; [|intros []].
  destruct (lit_default f) as [v|] eqn:Ed; [|intros []].
  destruct (is_input_object rs (named_of (iv_type f))) eqn:Ei; [|intros []].
  intros _. apply find_inval_In in Ef. destruct Ef as [Hf Hn].
  unfold dv_roots. apply in_flat_map. exists ty. split.
  - eapply input_fields_nonempty_name. exact Hf.
  - cbn [dv_walk]. cbn [app]. apply in_flat_map. exists f. split; [exact Hf|].
    rewrite Ei, Ed. cbn. left. rewrite Hn. reflexivity.
Qed.

(* what the two rules report, for a detector that terminates and whose roots cover every node
   with a successor *)
Section Reports.
  Variable A : Type.
  Variable eqb : A -> A -> bool.
  Hypothesis eqb_spec : forall a b, eqb a b = true <-> a = b.
  Variable succ : A -> list A.
  Variable fuel : nat.
  Variable roots : list A.
  Variable k : rule_kind.
  Hypothesis roots_cover : forall x s, edge succ x s -> In x roots.
  Hypothesis terminates : exists st, dfs_all A eqb succ fuel roots dstate0 = Some st.

  Notation reports := (cycle_reports k (dfs_all A eqb succ fuel roots dstate0)).

  Lemma in_cycle_reports k' : In k' reports <-> k' = k /\ exists x, reach succ x x.
  Proof.
    destruct terminates as [st H]. rewrite H. cbn [cycle_reports]. rewrite in_map_iff. split.
    - intros [c [<- Hc]]. split; [reflexivity|].
      apply (dfs_all_sound_reach A eqb eqb_spec succ _ _ st H). intro E. rewrite E in Hc. destruct Hc.
    - intros [-> [x Hx]]. destruct (d_reports st) as [|c l] eqn:E.
      + exfalso. exact (dfs_all_complete_acyclic A eqb eqb_spec succ _ _ st roots_cover H E x Hx).
      + exists c. split; [reflexivity | left; reflexivity].
  Qed.

  Lemma cycle_reports_nil : reports = [] <-> forall x, ~ reach succ x x.
  Proof.
    split.
    - intros E x Hx. assert (H : In k reports) by (apply in_cycle_reports; eauto).
      rewrite E in H. destruct H.
    - intro Hac. destruct reports as [|k' l] eqn:E; [reflexivity|]. exfalso.
      assert (H : In k' reports) by (rewrite E; left; reflexivity).
      apply in_cycle_reports in H as [_ [x Hx]]. exact (Hac x Hx).
  Qed.
End Reports.

Definition in_nn_reports rs := in_cycle_reports N N.eqb N.eqb_eq (nn_succ rs) _ _ KNonNullCycle (nn_roots rs) (nn_detect_terminates rs).
Definition in_dv_reports rs := in_cycle_reports fnode fnode_eqb fnode_eqb_spec (dv_succ rs) _ _ KDefaultCycle (dv_roots_cover rs) (dv_detect_terminates rs).

Lemma lmax_assert a b : lmax a b = RAssert <-> a = RAssert \/ b = RAssert.
Proof. destruct a, b; cbn; split; intro H; try discriminate; auto; destruct H; discriminate. Qed.

Lemma ofb_assert b : ofb b <> RAssert.
Proof. destruct b; discriminate. Qed.

Lemma is_input_named_cases rs n :
  is_input_named rs n = true ->
  (exists s, lookup rs n = Some (DScalar s)) \/ (exists vs, lookup rs n = Some (DEnum vs))
  \/ (exists o fs, lookup rs n = Some (DInput o fs)).
Proof.
  unfold is_input_named. destruct (lookup rs n) as [d|]; [|discriminate].
  destruct d; try discriminate; intros _; eauto.
Qed.

(* [lmax_all g l] is the worst result of g over l; the three equations below are how the proofs
   use lit_check *)
Definition lmax_all {B} (g : B -> lres) (l : list B) : lres :=
  fold_right (fun x r => lmax (g x) r) RValid l.

Lemma lmax_all_assert {B} (g : B -> lres) l : lmax_all g l = RAssert -> exists x, In x l /\ g x = RAssert.
Proof.
  induction l as [|x l IH]; cbn; [discriminate|]. rewrite lmax_assert.
  intros [H|H]; [eauto | destruct (IH H) as [y [I E]]; eauto].
Qed.

Definition field_check rs (fs : list inval) (kx : N * lit) : lres :=
  match find_inval (fst kx) fs with
  | None => RInvalid
  | Some f => if is_input_tref rs (iv_type f) then lit_check rs (snd kx) (iv_type f) else RSkipped
  end.

Lemma lit_check_nonnull rs v t :
  lit_check rs v (TNonNull t) = if is_lnull v then RInvalid else lit_check rs v t.
Proof. destruct v; reflexivity. Qed.

Lemma lit_check_list rs v t :
  lit_check rs v (TList t) =
  match v with
  | LNull => RValid
  | LList vs => lmax_all (fun x => lit_check rs x t) vs
  | _ => lit_check rs v t
  end.
Proof.
  destruct v; reflexivity.
Qed.

Lemma lit_check_named rs v n :
  lit_check rs v (TNamed n) =
  if is_lnull v then RValid else
  match lookup rs n with
  | Some (DScalar s) => ofb (scalar_accepts s v)
  | Some (DEnum vals) => match v with LEnum e => ofb (memN e vals) | _ => RInvalid end
  | Some (DInput oneof fs) =>
      match v with
      | LObj kvs =>
          lmax (lmax_all (field_check rs fs) kvs)
               (lmax (ofb (forallb (fun f => memN (iv_name f) (keys kvs) || negb (required f)) fs))
                     (ofb (negb oneof || oneof_ok fs kvs)))
      | _ => RInvalid
      end
  | _ => RAssert
  end.
Proof.
  destruct v; try reflexivity. cbn [lit_check is_lnull].
  destruct (lookup rs n) as [[]|]; try reflexivity. f_equal. unfold lmax_all, field_check.
  induction kvs as [|[k x] kvs IH]; [reflexivity|]. cbn [fold_right fst snd]. rewrite <- IH. reflexivity.
Qed.

(* validate_input_literal's assert_leaf_type is never reached from a declared input type *)
Lemma lit_check_no_assert rs : forall v t, is_input_tref rs t = true -> lit_check rs v t <> RAssert.
Proof.
  induction v as [v IH] using lit_child_ind. intro t.
  induction t as [n|t IHt|t IHt]; cbn [is_input_tref]; intro Hin.
  - rewrite lit_check_named. destruct (is_lnull v); [discriminate|].
    destruct (is_input_named_cases rs n Hin) as [[s H]|[[ws H]|[o [fs H]]]]; rewrite H.
    + apply ofb_assert.
    + destruct v; try discriminate; apply ofb_assert.
    + destruct v; try discriminate. rewrite !lmax_assert. intros [H1|[H1|H1]]; try exact (ofb_assert _ H1).
      apply lmax_all_assert in H1 as [[k x] [I H1]]. unfold field_check in H1. cbn [fst snd] in H1.
      destruct (find_inval k fs) as [f|]; [|discriminate].
      destruct (is_input_tref rs (iv_type f)) eqn:E; [|discriminate].
      exact (IH x (in_map snd _ _ I) _ E H1).
  - rewrite lit_check_list. destruct v; try discriminate; try (apply IHt; exact Hin).
    intro H1. apply lmax_all_assert in H1 as [x [I H1]]. exact (IH x I t Hin H1).
  - rewrite lit_check_nonnull. destruct (is_lnull v); [discriminate | apply IHt; exact Hin].
Qed.


(* declarative covariance: the specification's "valid subtype" relation *)
Definition PossibleType (rs : raw_schema) (p b : N) : Prop :=
  (exists ms, lookup rs p = Some (DUnion ms) /\ In b ms)
  \/ (is_interface rs p = true /\ In p (ifaces_of rs b)).

Inductive Subtype (rs : raw_schema) : tref -> tref -> Prop :=
| ST_same n : Subtype rs (TNamed n) (TNamed n)
| ST_possible b p :
    (is_interface rs b = true \/ is_object rs b = true) -> PossibleType rs p b ->
    Subtype rs (TNamed b) (TNamed p)
| ST_nonnull a b : Subtype rs a b -> Subtype rs (TNonNull a) (TNonNull b)
| ST_nonnull_of_nullable a b : is_nonnull b = false -> Subtype rs a b -> Subtype rs (TNonNull a) b
| ST_list a b : Subtype rs a b -> Subtype rs (TList a) (TList b).


(* declarative "value is valid for type" (input coercion rules of the specification) *)
Inductive LitValid (rs : raw_schema) : lit -> tref -> Prop :=
| LV_nonnull v t : v <> LNull -> LitValid rs v t -> LitValid rs v (TNonNull t)
| LV_null_list t : LitValid rs LNull (TList t)
| LV_null_named n : LitValid rs LNull (TNamed n)
| LV_list vs t : Forall (fun x => LitValid rs x t) vs -> LitValid rs (LList vs) (TList t)
| LV_item v t : v <> LNull -> (forall vs, v <> LList vs) -> LitValid rs v t -> LitValid rs v (TList t)
| LV_scalar v n s :
    v <> LNull -> lookup rs n = Some (DScalar s) -> scalar_accepts s v = true ->
    LitValid rs v (TNamed n)
| LV_enum e n vals : lookup rs n = Some (DEnum vals) -> In e vals -> LitValid rs (LEnum e) (TNamed n)
| LV_object kvs n oneof fs :
    lookup rs n = Some (DInput oneof fs) ->
    (forall k x, In (k, x) kvs ->
       exists f, find_inval k fs = Some f /\ is_input_tref rs (iv_type f) = true
                 /\ LitValid rs x (iv_type f)) ->
    (forall f, In f fs -> required f = true -> In (iv_name f) (keys kvs)) ->
    (oneof = true -> exists k x, kvs = [(k, x)] /\ x <> LNull) ->
    LitValid rs (LObj kvs) (TNamed n).

Definition roots_list (rs : raw_schema) : list N :=
  opt_list (s_query rs) ++ opt_list (s_mutation rs) ++ opt_list (s_subscription rs).

Definition RootsOK (rs : raw_schema) : Prop :=
  (exists q, s_query rs = Some q)
  /\ (forall n, In n (roots_list rs) -> is_object rs n = true)
  /\ NoDup (roots_list rs).

Definition DefaultOK (rs : raw_schema) (t : tref) (d : dflt) : Prop :=
  match d with DLit v => LitValid rs v t | _ => True end.

Definition InvalOK (rs : raw_schema) (iv : inval) : Prop :=
  reserved (iv_name iv) = false
  /\ is_input_tref rs (iv_type iv) = true
  /\ ~ (required iv = true /\ iv_dep iv = true)
  /\ DefaultOK rs (iv_type iv) (iv_default iv).

Definition DirectiveOK (rs : raw_schema) (d : directive) : Prop :=
  d_isdir d = true /\ reserved (d_name d) = false /\ d_haslocs d = true /\ Forall (InvalOK rs) (d_args d).

Definition FieldOK (rs : raw_schema) (f : field) : Prop :=
  reserved (f_name f) = false /\ is_output_tref rs (f_type f) = true /\ Forall (InvalOK rs) (f_args f).

Definition ArgOK (tf : field) (ia : inval) : Prop :=
  exists ta, find_inval (iv_name ia) (f_args tf) = Some ta /\ iv_type ia = iv_type ta.

Definition ExtraOK (ifld : field) (ta : inval) : Prop :=
  find_inval (iv_name ta) (f_args ifld) = None -> required ta = false.

Definition FieldImpl (rs : raw_schema) (tfields : list field) (ifld : field) : Prop :=
  exists tf, find_field (f_name ifld) tfields = Some tf
    /\ Subtype rs (f_type tf) (f_type ifld)
    /\ Forall (ArgOK tf) (f_args ifld)
    /\ Forall (ExtraOK ifld) (f_args tf)
    /\ (f_dep tf = true -> f_dep ifld = true).

Definition IfaceOK (rs : raw_schema) (self : N) (sfields : list field) (sifaces : list N) (i : N) : Prop :=
  is_interface rs i = true /\ i <> self /\ incl (ifaces_of rs i) sifaces
  /\ Forall (FieldImpl rs sfields) (fields_of rs i).

Definition OneOfOK (iv : inval) : Prop := is_nonnull (iv_type iv) = false /\ iv_default iv = DNone.

Definition TypeOK (rs : raw_schema) (nd : N * tdef) : Prop :=
  reserved (fst nd) = false /\
  match snd nd with
  | DBogus => False
  | DScalar _ => True
  | DObject fs ifs | DInterface fs ifs =>
      fs <> [] /\ Forall (FieldOK rs) fs /\ NoDup ifs /\ Forall (IfaceOK rs (fst nd) fs ifs) ifs
  | DUnion ms => ms <> [] /\ NoDup ms /\ Forall (fun m => is_object rs m = true) ms
  | DEnum vs => vs <> [] /\ Forall (fun v => reserved v = false) vs
  | DInput oneof fs =>
      fs <> [] /\ Forall (InvalOK rs) fs /\ (oneof = true -> Forall OneOfOK fs)
  end.

Record ValidSchema (rs : raw_schema) : Prop := mkValid
  { vs_roots : RootsOK rs;
    vs_dirs : Forall (DirectiveOK rs) (s_dirs rs);
    vs_types : Forall (TypeOK rs) (s_types rs);
    vs_nn_acyclic : forall n, ~ reach (nn_succ rs) n n;
    vs_dv_acyclic : forall nd, ~ reach (dv_succ rs) nd nd }.

Lemma chk_nil b k : chk b k = [] <-> b = true.
Proof. destruct b; cbn; split; intro H; congruence. Qed.

Lemma memN_In x l : memN x l = true <-> In x l.
Proof.
  induction l as [|y l IH]; cbn; [split; [discriminate | tauto]|].
  rewrite orb_true_iff, IH, N.eqb_eq. split; intros [H|H]; auto.
Qed.

Lemma nodupN_NoDup l : nodupN l = true <-> NoDup l.
Proof.
  induction l as [|x l IH]; cbn; [split; [constructor | reflexivity]|].
  rewrite andb_true_iff, negb_true_iff, IH. split.
  - intros [H1 H2]. constructor; [|exact H2]. rewrite <- memN_In. congruence.
  - intro H. inversion H; subst. split; [|assumption].
    destruct (memN x l) eqn:E; [|reflexivity]. apply memN_In in E. contradiction.
Qed.

Lemma is_nil_false {B} (l : list B) : negb (is_nil l) = true <-> l <> [].
Proof. destruct l; cbn; split; intro H; congruence. Qed.

Lemma tref_eqb_eq a : forall b, tref_eqb a b = true <-> a = b.
Proof.
  induction a as [n|a IH|a IH]; intros [m|b|b]; cbn; try (split; intro H; discriminate).
  - rewrite N.eqb_eq. split; intro H; [subst; reflexivity | inversion H; reflexivity].
  - rewrite IH. split; intro H; [subst; reflexivity | inversion H; reflexivity].
  - rewrite IH. split; intro H; [subst; reflexivity | inversion H; reflexivity].
Qed.

Lemma is_sub_named_possible rs p b :
  ((is_interface rs p || is_union rs p) && is_sub_named rs p b) = true <-> PossibleType rs p b.
Proof.
  unfold PossibleType, is_sub_named, is_interface, is_union.
  destruct (lookup rs p) as [d|]; [destruct d|]; cbn; rewrite ?memN_In; split;
    try (intro H; discriminate); try (intros [[ms [H _]]|[H _]]; discriminate).
  - intro H. right. auto.
  - intros [[ms [H _]]|[_ H]]; [discriminate | exact H].
  - intro H. left. eauto.
  - intros [[ms' [H H']]|[H _]]; [inversion H; subst; exact H' | discriminate].
Qed.

Lemma subtype_reflect rs : forall sub sup, subtype rs sub sup = true <-> Subtype rs sub sup.
Proof.
  induction sub as [b|sb IH|sb IH]; intros sup.
  - destruct sup as [p|sp|sp]; cbn [subtype].
    + rewrite orb_true_iff, N.eqb_eq. split.
      * intros [->|H]; [constructor|].
        rewrite <- andb_assoc, (andb_comm (is_interface rs b || is_object rs b)), andb_assoc in H.
        apply andb_true_iff in H. destruct H as [H1 H2]. apply is_sub_named_possible in H1.
        apply orb_true_iff in H2. apply ST_possible; assumption.
      * intro H. inversion H; subst; [left; reflexivity|]. right.
        rewrite <- andb_assoc, (andb_comm (is_interface rs b || is_object rs b)), andb_assoc.
        apply andb_true_iff. split; [apply is_sub_named_possible; assumption | apply orb_true_iff; assumption].
    + split; [discriminate | intro H; inversion H].
    + split; [discriminate | intro H; inversion H].
  - destruct sup as [p|sp|sp]; cbn [subtype].
    + split; [discriminate | intro H; inversion H].
    + rewrite IH. split; [apply ST_list | intro H; inversion H; subst; assumption].
    + split; [discriminate | intro H; inversion H].
  - destruct sup as [p|sp|sp]; cbn [subtype].
    + rewrite IH. split; [apply ST_nonnull_of_nullable; reflexivity | intro H; inversion H; subst; assumption].
    + rewrite IH. split; [apply ST_nonnull_of_nullable; reflexivity | intro H; inversion H; subst; assumption].
    + rewrite IH. split; [apply ST_nonnull|]. intro H. inversion H; subst; [assumption | discriminate].
Qed.

Lemma lmax_valid a b : lmax a b = RValid <-> a = RValid /\ b = RValid.
Proof. destruct a, b; cbn; split; intro H; try discriminate; auto; destruct H; discriminate. Qed.

Lemma ofb_valid b : ofb b = RValid <-> b = true.
Proof. destruct b; cbn; split; intro H; congruence. Qed.

Ltac inv H := inversion H; subst; clear H.

Lemma lmax_all_valid {B} (g : B -> lres) l : lmax_all g l = RValid <-> Forall (fun x => g x = RValid) l.
Proof.
  induction l as [|x l IH]; cbn; [split; constructor|]. rewrite lmax_valid, IH, Forall_cons_iff. reflexivity.
Qed.

(* LitValid by the form of the type, in step with the equations of lit_check *)
Lemma LitValid_nonnull rs v t : LitValid rs v (TNonNull t) <-> v <> LNull /\ LitValid rs v t.
Proof. split; [intro H; inv H; auto | intros [A B]; apply LV_nonnull; auto]. Qed.

Lemma LitValid_list rs v t :
  LitValid rs v (TList t) <->
  match v with
  | LNull => True
  | LList vs => Forall (fun x => LitValid rs x t) vs
  | _ => LitValid rs v t
  end.
Proof.
  split.
  - intro H. inv H; auto. destruct v; try assumption; [congruence|].
    exfalso. match goal with Hx : forall vs0, _ <> LList vs0 |- _ => eapply Hx; reflexivity end.
  - destruct v; intro H; try (apply LV_item; [discriminate | discriminate | exact H]).
    + apply LV_null_list.
    + apply LV_list. exact H.
Qed.

Lemma LitValid_named rs v n :
  v <> LNull ->
  (LitValid rs v (TNamed n) <->
   match lookup rs n with
   | Some (DScalar s) => scalar_accepts s v = true
   | Some (DEnum vals) => exists e, v = LEnum e /\ In e vals
   | Some (DInput oneof fs) =>
       exists kvs, v = LObj kvs
         /\ (forall k x, In (k, x) kvs ->
               exists f, find_inval k fs = Some f /\ is_input_tref rs (iv_type f) = true
                         /\ LitValid rs x (iv_type f))
         /\ (forall f, In f fs -> required f = true -> In (iv_name f) (keys kvs))
         /\ (oneof = true -> exists k x, kvs = [(k, x)] /\ x <> LNull)
   | _ => False
   end).
Proof.
  intro Nv. split.
  - intro H. inv H; try congruence; match goal with E : lookup rs n = _ |- _ => rewrite E end; eauto 6.
  - destruct (lookup rs n) as [[s|?|?|?|vals|oneof fs|]|] eqn:El; try contradiction.
    + intro H. eapply LV_scalar; eauto.
    + intros [e [-> I]]. eapply LV_enum; eauto.
    + intros [kvs [-> [A [B C]]]]. eapply LV_object; eauto.
Qed.

Lemma oneof_ok_spec fs kvs :
  (forall k x, In (k, x) kvs -> exists f, find_inval k fs = Some f) ->
  (oneof_ok fs kvs = true <-> exists k x, kvs = [(k, x)] /\ x <> LNull).
Proof.
  intro Hk. unfold oneof_ok.
  assert (E : filter (fun kv => match find_inval (fst kv) fs with Some _ => true | None => false end) kvs = kvs).
  { apply filter_all. intros [k x] Hin. cbn. destruct (Hk k x Hin) as [f ->]. reflexivity. }
  rewrite E. destruct kvs as [|[k x] [|kv kvs]].
  - split; [discriminate | intros [k [x [H _]]]; discriminate].
  - rewrite negb_true_iff. split.
    + intro H. exists k, x. split; [reflexivity|]. intro Hx. subst. discriminate.
    + intros [k' [x' [H Hx]]]. inv H. destruct x'; try reflexivity. congruence.
  - split; [discriminate | intros [k' [x' [H _]]]; discriminate].
Qed.

Lemma required_forallb fs kvs :
  forallb (fun f => memN (iv_name f) (keys kvs) || negb (required f)) fs = true <->
  (forall f, In f fs -> required f = true -> In (iv_name f) (keys kvs)).
Proof.
  rewrite forallb_forall. split; intros H f Hf.
  - intro Hr. specialize (H f Hf). rewrite Hr in H. cbn in H. rewrite orb_false_r in H.
    apply memN_In. exact H.
  - destruct (required f) eqn:Er; [|apply orb_true_r].
    apply orb_true_iff. left. apply memN_In. apply H; auto.
Qed.

Lemma lit_check_reflect rs : forall v t, lit_check rs v t = RValid <-> LitValid rs v t.
Proof.
  (* by the form of the type, on both sides at once: the equation of lit_check against the
     matching inversion of LitValid; the items of a list and the values of an object by IH *)
  induction v as [v IH] using lit_child_ind. intro t. induction t as [n|t IHt|t IHt].
  - rewrite lit_check_named. destruct (is_lnull v) eqn:Nl.
    { destruct v; try discriminate Nl. split; [constructor | reflexivity]. }
    assert (Nv : v <> LNull) by (intros ->; discriminate Nl).
    rewrite (LitValid_named rs v n Nv).
    destruct (lookup rs n) as [[s|?|?|?|vals|oneof fs|]|]; try (split; [discriminate | intros []]).
    + apply ofb_valid.
    + destruct v; try (split; [discriminate | intros [e [E _]]; discriminate E]).
      rewrite ofb_valid, memN_In. split; [eauto | intros [e [E Hin]]; inversion E; subst; exact Hin].
    + destruct v; try (split; [discriminate | intros [kvs0 [E _]]; discriminate E]).
      rewrite !lmax_valid, !ofb_valid, required_forallb, lmax_all_valid.
      assert (Hf : Forall (fun kx => field_check rs fs kx = RValid) kvs <->
                   (forall k x, In (k, x) kvs ->
                      exists f, find_inval k fs = Some f /\ is_input_tref rs (iv_type f) = true
                                /\ LitValid rs x (iv_type f))).
      { rewrite Forall_forall. unfold field_check. split.
        - intros H k x I. specialize (H _ I). cbn [fst snd] in H.
          destruct (find_inval k fs) as [f|]; [|discriminate].
          destruct (is_input_tref rs (iv_type f)) eqn:E; [|discriminate].
          exists f. repeat split; auto. apply (IH x); [exact (in_map snd _ _ I) | exact H].
        - intros H [k x] I. destruct (H k x I) as [f [E1 [E2 E3]]]. cbn [fst snd]. rewrite E1, E2.
          apply (IH x); [exact (in_map snd _ _ I) | exact E3]. }
      rewrite Hf. split.
      * intros [A [B C]]. exists kvs. repeat split; auto. intro Ho. subst oneof. cbn in C.
        apply (oneof_ok_spec fs kvs); [|exact C]. intros k x I. destruct (A k x I) as [f [E _]]. eauto.
      * intros [kvs0 [E [A [B C]]]]. inversion E; subst kvs0. repeat split; auto.
        destruct oneof; [|reflexivity]. cbn. apply (oneof_ok_spec fs kvs); [|auto].
        intros k x I. destruct (A k x I) as [f [E1 _]]. eauto.
  - rewrite lit_check_list, LitValid_list. destruct v; try exact IHt; [tauto|].
    rewrite lmax_all_valid, !Forall_forall. split; intros H x I; apply (IH x I), H, I.
  - rewrite lit_check_nonnull, LitValid_nonnull, <- IHt. destruct (is_lnull v) eqn:Nl.
    + destruct v; try discriminate Nl. split; [discriminate | intros [H _]; congruence].
    + split; [intro H; split; [intros ->; discriminate Nl | exact H] | tauto].
Qed.

Lemma root_check_nil rs o : root_check rs o = [] <-> (forall n, In n (opt_list o) -> is_object rs n = true).
Proof.
  destruct o as [n|]; cbn.
  - rewrite chk_nil. split; [intros H m [<-|[]]; exact H | intro H; apply H; left; reflexivity].
  - split; [intros _ n [] | reflexivity].
Qed.

Lemma validate_roots_nil rs : validate_roots rs = [] <-> RootsOK rs.
Proof.
  unfold validate_roots, RootsOK. rewrite !app_nil_iff, !chk_nil, !root_check_nil, nodupN_NoDup.
  unfold root_objects, roots_list. split.
  - intros [Hq [H1 [H2 [H3 H4]]]].
    assert (Hall : forall n, In n (opt_list (s_query rs) ++ opt_list (s_mutation rs) ++ opt_list (s_subscription rs))
                             -> is_object rs n = true).
    { intros n Hn. apply in_app_or in Hn. destruct Hn as [Hn|Hn]; [auto|].
      apply in_app_or in Hn. destruct Hn; auto. }
    split; [destruct (s_query rs); [eauto | discriminate]|]. split; [exact Hall|].
    rewrite (filter_all _ _ Hall) in H4. exact H4.
  - intros [[q Hq] [Hall Hnd]]. rewrite (filter_all _ _ Hall).
    split; [rewrite Hq; reflexivity|].
    split; [intros n Hn; apply Hall, in_or_app; left; exact Hn|].
    split; [intros n Hn; apply Hall, in_or_app; right; apply in_or_app; left; exact Hn|].
    split; [intros n Hn; apply Hall, in_or_app; right; apply in_or_app; right; exact Hn | exact Hnd].
Qed.

Lemma default_check_nil rs t d :
  is_input_tref rs t = true -> (default_check rs t d = [] <-> DefaultOK rs t d).
Proof.
  intro Hi. unfold default_check, DefaultOK. destruct d as [| |v]; try tauto.
  rewrite Hi, <- lit_check_reflect. destruct (lit_check rs v t); split; intro H; congruence.
Qed.

Lemma validate_inval_nil rs iv : validate_inval rs iv = [] <-> InvalOK rs iv.
Proof.
  unfold validate_inval, InvalOK, name_ok. rewrite !app_nil_iff, !chk_nil, negb_true_iff, negb_true_iff.
  rewrite andb_false_iff. split.
  - intros [H1 [H2 [H3 H4]]]. split; [exact H1|]. split; [exact H2|]. split.
    + intros [Ha Hb]. destruct H3; congruence.
    + apply default_check_nil; assumption.
  - intros [H1 [H2 [H3 H4]]]. split; [exact H1|]. split; [exact H2|]. split.
    + destruct (required iv); [|left; reflexivity]. destruct (iv_dep iv); [|right; reflexivity].
      exfalso. apply H3. auto.
    + apply default_check_nil; assumption.
Qed.

Lemma validate_invals_nil rs l : flat_map (validate_inval rs) l = [] <-> Forall (InvalOK rs) l.
Proof. apply flat_map_nil_Forall, validate_inval_nil. Qed.

Lemma validate_directive_nil rs d : validate_directive rs d = [] <-> DirectiveOK rs d.
Proof.
  unfold validate_directive, DirectiveOK, name_ok. destruct (d_isdir d).
  - rewrite !app_nil_iff, !chk_nil, negb_true_iff, validate_invals_nil. tauto.
  - split; [discriminate | intros [H _]; discriminate].
Qed.

Lemma validate_field_nil rs f : validate_field rs f = [] <-> FieldOK rs f.
Proof.
  unfold validate_field, FieldOK, name_ok.
  rewrite !app_nil_iff, !chk_nil, negb_true_iff, validate_invals_nil. tauto.
Qed.

Lemma implements_arg_nil tf ia : implements_arg tf ia = [] <-> ArgOK tf ia.
Proof.
  unfold implements_arg, ArgOK. destruct (find_inval (iv_name ia) (f_args tf)) as [ta|].
  - rewrite chk_nil, tref_eqb_eq. split; [intro H; eauto | intros [ta' [H1 H2]]; congruence].
  - split; [discriminate | intros [ta [H _]]; discriminate].
Qed.

Lemma extra_arg_nil ifld ta : extra_arg ifld ta = [] <-> ExtraOK ifld ta.
Proof.
  unfold extra_arg, ExtraOK. rewrite chk_nil, negb_true_iff.
  destruct (find_inval (iv_name ta) (f_args ifld)); split; intro H; auto; discriminate.
Qed.

Lemma implements_field_nil rs tfields ifld :
  implements_field rs tfields ifld = [] <-> FieldImpl rs tfields ifld.
Proof.
  unfold implements_field, FieldImpl. destruct (find_field (f_name ifld) tfields) as [tf|].
  - rewrite !app_nil_iff, !chk_nil, negb_true_iff, andb_false_iff, negb_false_iff, subtype_reflect.
    rewrite (flat_map_nil_Forall _ _ _ (implements_arg_nil tf)), (flat_map_nil_Forall _ _ _ (extra_arg_nil ifld)).
    split.
    + intros [H1 [H2 [H3 H4]]]. exists tf. repeat split; auto.
      intro Hd. destruct H4; congruence.
    + intros [tf' [E [H1 [H2 [H3 H4]]]]]. inversion E; subst tf'. repeat split; auto.
      destruct (f_dep tf); [right; auto | left; reflexivity].
  - split; [discriminate | intros [tf [H _]]; discriminate].
Qed.

Lemma validate_ancestors_nil rs sifaces i :
  validate_ancestors rs sifaces i = [] <-> incl (ifaces_of rs i) sifaces.
Proof.
  unfold validate_ancestors. rewrite (flat_map_nil_Forall _ (fun tr => In tr sifaces)), Forall_forall; [reflexivity|].
  intro tr. rewrite chk_nil. apply memN_In.
Qed.

Lemma validate_ifaces_nil rs self sf si : forall l seen,
  validate_ifaces rs self sf si seen l = [] <->
  (NoDup l /\ (forall i, In i l -> ~ In i seen)) /\ Forall (IfaceOK rs self sf si) l.
Proof.
  induction l as [|i l IH]; intro seen; cbn [validate_ifaces].
  - split; [intros _; repeat split; [constructor | intros ? [] | constructor] | reflexivity].
  - destruct (is_interface rs i) eqn:Ei; cbn [negb].
    + rewrite app_nil_iff, chk_nil, negb_true_iff, N.eqb_neq.
      destruct (memN i seen) eqn:Em.
      * split; [intros [_ H]; discriminate|].
        intros [[_ H] _]. exfalso. apply (H i (or_introl eq_refl)). apply memN_In. exact Em.
      * assert (Hns : ~ In i seen) by (rewrite <- memN_In; congruence).
        unfold validate_implements.
        rewrite !app_nil_iff, IH, validate_ancestors_nil, (flat_map_nil_Forall _ _ _ (implements_field_nil rs sf)).
        rewrite (nodup_seen_step i l seen Hns), Forall_cons_iff. unfold IfaceOK. tauto.
    + split; [discriminate|]. intros [_ H]. apply Forall_inv in H. destruct H as [H _]. congruence.
Qed.

Lemma validate_members_nil rs : forall l seen,
  validate_members rs seen l = [] <->
  (NoDup l /\ (forall m, In m l -> ~ In m seen)) /\ Forall (fun m => is_object rs m = true) l.
Proof.
  induction l as [|m l IH]; intro seen; cbn [validate_members].
  - split; [intros _; repeat split; [constructor | intros ? [] | constructor] | reflexivity].
  - destruct (is_object rs m) eqn:Eo.
    + destruct (memN m seen) eqn:Em.
      * split; [discriminate|]. intros [[_ H] _]. exfalso.
        apply (H m (or_introl eq_refl)). apply memN_In. exact Em.
      * assert (Hns : ~ In m seen) by (rewrite <- memN_In; congruence).
        rewrite IH, (nodup_seen_step m l seen Hns), Forall_cons_iff. tauto.
    + split; [discriminate|]. intros [_ H]. apply Forall_inv in H. congruence.
Qed.

Lemma validate_input_field_nil rs o iv :
  validate_input_field rs o iv = [] <-> InvalOK rs iv /\ (o = true -> OneOfOK iv).
Proof.
  unfold validate_input_field, OneOfOK. rewrite app_nil_iff, validate_inval_nil. destruct o.
  - rewrite app_nil_iff, !chk_nil, !negb_true_iff. split.
    + intros [H1 [H2 H3]]. split; [exact H1|]. intros _. split; [exact H2|].
      destruct (iv_default iv); cbn in H3; congruence.
    + intros [H1 H2]. destruct (H2 eq_refl) as [H3 H4]. rewrite H4. cbn. auto.
  - split; [intros [H _]; split; [exact H | discriminate] | intros [H _]; auto].
Qed.

Lemma fields_ifaces_nil rs n fs ifs :
  validate_fields rs fs ++ validate_ifaces rs n fs ifs [] ifs = [] <->
  fs <> [] /\ Forall (FieldOK rs) fs /\ NoDup ifs /\ Forall (IfaceOK rs n fs ifs) ifs.
Proof.
  unfold validate_fields.
  rewrite !app_nil_iff, chk_nil, is_nil_false, (flat_map_nil_Forall _ _ _ (validate_field_nil rs)), validate_ifaces_nil.
  split; [intros [[H1 H2] [[H3 _] H4]]; auto | intros [H1 [H2 [H3 H4]]]; repeat split; auto].
Qed.

Lemma validate_type_nil rs nd : validate_type rs nd = [] <-> TypeOK rs nd.
Proof.
  destruct nd as [n d]. unfold validate_type, TypeOK, name_ok. cbn [fst snd].
  (* every definition but DBogus begins with the check of its name *)
  destruct d as [s|fs ifs|fs ifs|ms|vs|o fs|]; cbn [validate_type_body];
    try rewrite app_nil_iff, chk_nil, negb_true_iff.
  - tauto.
  - rewrite fields_ifaces_nil. tauto.
  - rewrite fields_ifaces_nil. tauto.
  - rewrite app_nil_iff, chk_nil, is_nil_false, validate_members_nil.
    split; [intros [H0 [H1 [[H2 _] H3]]]; auto | intros [H0 [H1 [H2 H3]]]; repeat split; auto].
  - rewrite app_nil_iff, chk_nil, is_nil_false, (flat_map_nil_Forall _ (fun v => reserved v = false)); [tauto|].
    intro v. unfold name_ok. rewrite chk_nil, negb_true_iff. tauto.
  - rewrite app_nil_iff, chk_nil, is_nil_false.
    rewrite (flat_map_nil_Forall _ _ _ (validate_input_field_nil rs o)), Forall_and_iff.
    split.
    + intros [H0 [H1 [H2 H3]]]. repeat split; auto. intro Ho. revert H3. apply Forall_impl. auto.
    + intros [H0 [H1 [H2 H3]]]. repeat split; auto. destruct o.
      * specialize (H3 eq_refl). revert H3. apply Forall_impl. auto.
      * apply Forall_forall. intros x _ Hd. discriminate.
  - split; [discriminate | tauto].
Qed.

Lemma in_chk k b k' : In k (chk b k') <-> b = false /\ k = k'.
Proof.
  unfold chk. destruct b; cbn.
  - split; [intros [] | intros [H _]; discriminate].
  - split; [intros [H|[]]; auto | intros [_ ->]; left; reflexivity].
Qed.

(* every input value definition looked at by validate: directive arguments, field arguments,
   input fields *)
Definition type_invals (nd : N * tdef) : list inval :=
  match snd nd with
  | DObject fs _ | DInterface fs _ => flat_map f_args fs
  | DInput _ fs => fs
  | _ => []
  end.
Definition all_invals (rs : raw_schema) : list inval :=
  flat_map (fun d => if d_isdir d then d_args d else []) (s_dirs rs)
  ++ flat_map type_invals (s_types rs).

Definition type_fields (nd : N * tdef) : list field :=
  match snd nd with DObject fs _ | DInterface fs _ => fs | _ => [] end.
Definition all_fields (rs : raw_schema) : list field := flat_map type_fields (s_types rs).

(* The kinds characterised below come from three places only: the output-type test of a field,
   the shared tests of an input value definition (without its name), and the two detectors.
   [located rs] lists exactly these; everything else validate emits is of a [plain] kind. *)
Definition plain (k : rule_kind) : bool :=
  match k with
  | KNotInputType | KNotOutputType | KRequiredDeprecated | KInvalidDefault | KDefaultNotValidated
  | KNonNullCycle | KDefaultCycle | KCrash | KOutOfFuel => false
  | _ => true
  end.

Definition out_errs rs (f : field) : list rule_kind := chk (is_output_tref rs (f_type f)) KNotOutputType.

Definition inval_errs rs (iv : inval) : list rule_kind :=
  chk (is_input_tref rs (iv_type iv)) KNotInputType
  ++ chk (negb (required iv && iv_dep iv)) KRequiredDeprecated
  ++ default_check rs (iv_type iv) (iv_default iv).

Definition located rs : list rule_kind :=
  flat_map (out_errs rs) (all_fields rs) ++ flat_map (inval_errs rs) (all_invals rs)
  ++ cycle_reports KNonNullCycle (nn_detect rs) ++ cycle_reports KDefaultCycle (dv_detect rs).

(* l has the members of m and, beside them, plain kinds only *)
Definition extends (l m : list rule_kind) : Prop :=
  (forall k, In k l -> plain k = true \/ In k m) /\ incl m l.

Lemma extends_refl l : extends l l.
Proof. split; [auto | apply incl_refl]. Qed.

Lemma extends_same l m m' : extends l m -> (forall k, In k m <-> In k m') -> extends l m'.
Proof.
  intros [H1 H2] E. split.
  - intros k Hk. destruct (H1 k Hk); [auto | right; apply E; assumption].
  - intros k Hk. apply H2, E, Hk.
Qed.

Lemma extends_app a b a' b' : extends a a' -> extends b b' -> extends (a ++ b) (a' ++ b').
Proof.
  intros [A1 A2] [B1 B2]. split.
  - intros k Hk. rewrite in_app_iff. apply in_app_or in Hk as [Hk|Hk]; [destruct (A1 k Hk) | destruct (B1 k Hk)]; auto.
  - apply incl_app_app; assumption.
Qed.

Lemma extends_app_l a b m : extends a [] -> extends b m -> extends (a ++ b) m.
Proof. apply (extends_app a b [] m). Qed.

Lemma extends_app_r a b m : extends a m -> extends b [] -> extends (a ++ b) m.
Proof. intros Ha Hb. rewrite <- (app_nil_r m). apply extends_app; assumption. Qed.

Lemma extends_flat_map {B} (f g : B -> list rule_kind) l :
  (forall x, extends (f x) (g x)) -> extends (flat_map f l) (flat_map g l).
Proof.
  intro H. induction l as [|x l IH]; [apply extends_refl | apply extends_app; [apply H | exact IH]].
Qed.

Lemma extends_flat_map_nil {B} (f : B -> list rule_kind) l :
  (forall x, extends (f x) []) -> extends (flat_map f l) [].
Proof.
  intro H. induction l as [|x l IH]; [apply extends_refl | apply extends_app_l; [apply H | exact IH]].
Qed.

Lemma extends_chk b k : plain k = true -> extends (chk b k) [].
Proof.
  intro Hk. split; [|intros ? []]. intros k' H. apply in_chk in H as [_ ->]. auto.
Qed.

Lemma extends_cons k l m : plain k = true -> extends l m -> extends (k :: l) m.
Proof. intros Hk H. apply (extends_app_l [k] l m); [|exact H]. apply (extends_chk false k Hk). Qed.

Lemma validate_inval_extends rs iv : extends (validate_inval rs iv) (inval_errs rs iv).
Proof. apply extends_app_l; [apply extends_chk; reflexivity | apply extends_refl]. Qed.

Lemma validate_ifaces_plain rs self sf si : forall l seen, extends (validate_ifaces rs self sf si seen l) [].
Proof.
  induction l as [|i l IH]; intro seen; cbn [validate_ifaces]; [apply extends_refl|].
  destruct (negb (is_interface rs i)); [apply extends_cons; [reflexivity | apply IH]|].
  apply extends_app_l; [apply extends_chk; reflexivity|].
  destruct (memN i seen); [apply extends_cons; [reflexivity | apply IH]|].
  apply extends_app_l; [|apply extends_app_l; [|apply IH]]; apply extends_flat_map_nil.
  - intro tr. apply extends_chk. reflexivity.
  - intro f. unfold implements_field.
    destruct (find_field (f_name f) sf) as [tf|]; [|apply extends_cons; [reflexivity | apply extends_refl]].
    apply extends_app_l; [apply extends_chk; reflexivity|].
    apply extends_app_l; [|apply extends_app_l; [|apply extends_chk; reflexivity]]; apply extends_flat_map_nil.
    + intro ia. unfold implements_arg. destruct (find_inval (iv_name ia) (f_args tf)).
      * apply extends_chk. reflexivity.
      * apply extends_cons; [reflexivity | apply extends_refl].
    + intro ta. apply extends_chk. reflexivity.
Qed.

Lemma validate_members_plain rs : forall l seen, extends (validate_members rs seen l) [].
Proof.
  induction l as [|m l IH]; intro seen; cbn [validate_members]; [apply extends_refl|].
  destruct (is_object rs m); [destruct (memN m seen)|]; try apply IH;
    (apply extends_cons; [reflexivity | apply IH]).
Qed.

Lemma validate_field_extends rs f :
  extends (validate_field rs f) (out_errs rs f ++ flat_map (inval_errs rs) (f_args f)).
Proof.
  apply extends_app_l; [apply extends_chk; reflexivity|].
  apply extends_app; [apply extends_refl | apply extends_flat_map, validate_inval_extends].
Qed.

Lemma validate_type_extends rs nd :
  extends (validate_type rs nd)
          (flat_map (out_errs rs) (type_fields nd) ++ flat_map (inval_errs rs) (type_invals nd)).
Proof.
  destruct nd as [n d]. unfold validate_type, type_fields, type_invals. cbn [fst snd].
  assert (Hfs : forall fs ifs,
    extends (validate_fields rs fs ++ validate_ifaces rs n fs ifs [] ifs)
            (flat_map (out_errs rs) fs ++ flat_map (inval_errs rs) (flat_map f_args fs))).
  { intros fs ifs. apply extends_app_r; [|apply validate_ifaces_plain].
    apply extends_app_l; [apply extends_chk; reflexivity|].
    eapply extends_same; [apply extends_flat_map, validate_field_extends|].
    intro k. rewrite flat_map_flat_map. apply in_flat_map_app. }
  destruct d as [s|fs ifs|fs ifs|ms|vs|o fs|]; cbn [validate_type_body];
    try (apply extends_app_l; [apply extends_chk; reflexivity|]).
  - apply extends_refl.
  - apply Hfs.
  - apply Hfs.
  - apply extends_app_l; [apply extends_chk; reflexivity | apply validate_members_plain].
  - apply extends_app_l; [apply extends_chk; reflexivity|].
    apply extends_flat_map_nil. intro v. apply extends_chk. reflexivity.
  - apply extends_app_l; [apply extends_chk; reflexivity|].
    apply extends_flat_map. intro iv. apply extends_app_r; [apply validate_inval_extends|].
    destruct o; [|apply extends_refl].
    apply extends_app_l; apply extends_chk; reflexivity.
  - apply extends_cons; [reflexivity | apply extends_refl].
Qed.

Lemma validate_directive_extends rs d :
  extends (validate_directive rs d) (flat_map (inval_errs rs) (if d_isdir d then d_args d else [])).
Proof.
  unfold validate_directive. destruct (d_isdir d); [|apply extends_cons; [reflexivity | apply extends_refl]].
  apply extends_app_l; [apply extends_chk; reflexivity|].
  apply extends_app_l; [apply extends_chk; reflexivity|].
  apply extends_flat_map, validate_inval_extends.
Qed.

Lemma validate_roots_plain rs : extends (validate_roots rs) [].
Proof.
  assert (Hr : forall o, extends (root_check rs o) []).
  { intros [n|]; [apply extends_chk; reflexivity | apply extends_refl]. }
  unfold validate_roots. repeat apply extends_app_l; try apply Hr; apply extends_chk; reflexivity.
Qed.

Theorem validate_extends rs : extends (validate rs) (located rs).
Proof.
  unfold validate. apply extends_app_l; [apply validate_roots_plain|].
  eapply extends_same.
  - apply extends_app; [apply extends_flat_map, validate_directive_extends|].
    apply extends_app; [apply extends_flat_map, validate_type_extends | apply extends_refl].
  - intro k. unfold located, all_fields, all_invals.
    rewrite flat_map_app, !flat_map_flat_map, !in_app_iff, in_flat_map_app, in_app_iff. tauto.
Qed.

(* where a kind that is not plain comes from *)
Definition source rs (k : rule_kind) : Prop :=
  match k with
  | KNotOutputType => exists f, In f (all_fields rs) /\ is_output_tref rs (f_type f) = false
  | KNotInputType => exists iv, In iv (all_invals rs) /\ is_input_tref rs (iv_type iv) = false
  | KRequiredDeprecated => exists iv, In iv (all_invals rs) /\ required iv = true /\ iv_dep iv = true
  | KInvalidDefault =>
      exists iv v, In iv (all_invals rs) /\ iv_default iv = DLit v
                   /\ is_input_tref rs (iv_type iv) = true /\ lit_check rs v (iv_type iv) = RInvalid
  | KNonNullCycle => exists n, reach (nn_succ rs) n n
  | KDefaultCycle => exists nd, reach (dv_succ rs) nd nd
  | KCrash | KOutOfFuel => False
  | _ => True
  end.

Lemma in_inval_errs rs iv k :
  In k (inval_errs rs iv) <->
  (k = KNotInputType /\ is_input_tref rs (iv_type iv) = false)
  \/ (k = KRequiredDeprecated /\ required iv = true /\ iv_dep iv = true)
  \/ In k (default_check rs (iv_type iv) (iv_default iv)).
Proof.
  unfold inval_errs. rewrite !in_app_iff, !in_chk, negb_false_iff, andb_true_iff. tauto.
Qed.

(* the assert site is excluded by [lit_check_no_assert] *)
Lemma in_default_check rs t d k :
  In k (default_check rs t d) ->
  k = KDefaultNotValidated
  \/ k = KInvalidDefault /\ exists v, d = DLit v /\ is_input_tref rs t = true /\ lit_check rs v t = RInvalid.
Proof.
  unfold default_check. destruct d as [| |v]; try intros [].
  destruct (is_input_tref rs t) eqn:E; [|intros [<-|[]]; auto].
  pose proof (lit_check_no_assert rs v t E) as Hna.
  destruct (lit_check rs v t) eqn:L; [intros [] | intros [<-|[]] ..].
  - right. split; [reflexivity|]. exists v. auto.
  - left. reflexivity.
  - congruence.
Qed.

Lemma located_source rs k : In k (located rs) -> source rs k.
Proof.
  unfold located. rewrite !in_app_iff, !in_flat_map. intros [[f [Hf H]]|[[iv [Hiv H]]|[H|H]]].
  - apply in_chk in H as [E ->]. cbn. eauto.
  - apply in_inval_errs in H as [[-> E]|[[-> E]|H]]; cbn; eauto.
    apply in_default_check in H as [->|[-> [v [Ed E]]]]; cbn; eauto.
  - apply in_nn_reports in H as [-> H]. exact H.
  - apply in_dv_reports in H as [-> H]. exact H.
Qed.

Theorem validate_source rs k : In k (validate rs) -> source rs k.
Proof.
  intro H. destruct (proj1 (validate_extends rs) k H) as [P|L]; [|exact (located_source rs k L)].
  (* a plain kind has the source True *)
  destruct k; try discriminate P; exact I.
Qed.

Lemma located_inval rs iv k : In iv (all_invals rs) -> In k (inval_errs rs iv) -> In k (validate rs).
Proof.
  intros Hiv H. apply validate_extends. unfold located. rewrite !in_app_iff, !in_flat_map. eauto.
Qed.

Lemma located_field rs f k : In f (all_fields rs) -> In k (out_errs rs f) -> In k (validate rs).
Proof.
  intros Hf H. apply validate_extends. unfold located. rewrite !in_app_iff, !in_flat_map. eauto.
Qed.

Lemma located_nn_report rs k : In k (cycle_reports KNonNullCycle (nn_detect rs)) -> In k (validate rs).
Proof. intro H. apply validate_extends. unfold located. rewrite !in_app_iff. auto. Qed.

Lemma located_dv_report rs k : In k (cycle_reports KDefaultCycle (dv_detect rs)) -> In k (validate rs).
Proof. intro H. apply validate_extends. unfold located. rewrite !in_app_iff. auto. Qed.

