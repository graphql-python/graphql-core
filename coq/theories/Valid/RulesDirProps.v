(* C12 / rules 23-26 (Valid/RulesDir.v): the lemmas behind Properties/C12dirs.v - rule 23, the
   `ancestors` chain one step at a time, the test of rule 24 on one directive, injectivity of the
   dictionary keys of rule 25. *)
From GV Require Import Base.Prelude Base.ListFacts Lang.Ast Valid.Rules Valid.RulesBase Valid.RulesSpec
  Valid.RulesPaths Valid.RulesWire Valid.RulesDir.

Theorem known_operation_types_In ds d e :
  In e (rule_known_operation_types ds d) <->
  exists j n o, nth_error (ddefs d) j = Some n /\ op_code n = Some o /\ has_root ds o = false /\
                e = VE R_KOPT [[(O, j)]].
Proof.
  unfold rule_known_operation_types. rewrite In_concat_mapi. split.
  - intros (j & n & Hj & He).
    destruct (op_code n) as [o|] eqn:Eo; [|destruct He]. destruct (has_root ds o) eqn:Er; [destruct He|].
    destruct He as [<-|[]]. exists j, n, o. auto.
  - intros (j & n & o & Hj & Ho & Hr & ->). exists j, n. rewrite Ho, Hr. cbn. auto.
Qed.

Theorem known_operation_types_nil ds d :
  rule_known_operation_types ds d = [] <->
  forall n o, In n (ddefs d) -> op_code n = Some o -> has_root ds o = true.
Proof.
  rewrite nil_iff_no_In. split.
  - intros H n o Hn Ho. destruct (has_root ds o) eqn:Er; [reflexivity|].
    apply In_nth_error in Hn as [j Hj].
    destruct (H (VE R_KOPT [[(O, j)]])). apply known_operation_types_In. exists j, n, o. auto.
  - intros H e He. apply known_operation_types_In in He as (j & n & o & Hj & Ho & Hr & _).
    rewrite (H n o (nth_error_In _ _ Hj) Ho) in Hr. discriminate.
Qed.

(* one step more: the chain of q ++ [(i, j)] is the chain of q extended by the node at q (and the
   tuple the child sits in) *)
Lemma chain_snoc q : forall n acc i j,
  chain n (q ++ [(i, j)]) acc =
  match chain n q acc, get n q with
  | Some up, Some m =>
    match nth i (attrs_of m) ANone with
    | ANode _ => if (j =? 0)%nat then Some (uitem_of m :: up) else None
    | AList l => match nth_error l j with Some _ => Some (UList :: uitem_of m :: up) | None => None end
    | _ => None
    end
  | _, _ => None
  end.
Proof.
  induction q as [|[i0 j0] r IH]; intros n acc i j.
  - cbn [app chain get]. destruct (nth i (attrs_of n) ANone) as [|m|l| | |]; reflexivity.
  - cbn [app chain get]. destruct (nth i0 (attrs_of n) ANone) as [|m|l| | |]; try reflexivity.
    + destruct (j0 =? 0)%nat; [apply IH | reflexivity].
    + destruct (nth_error l j0) as [m|]; [apply IH | reflexivity].
Qed.

Lemma chain_defined q : forall n acc, (exists up, chain n q acc = Some up) <-> (exists m, get n q = Some m).
Proof.
  induction q as [|[i j] r IH]; intros n acc; cbn [chain get].
  - split; eauto.
  - destruct (nth i (attrs_of n) ANone) as [|m|l| | |]; try (split; intros [x Hx]; discriminate).
    + destruct (j =? 0)%nat; [apply IH | split; intros [x Hx]; discriminate].
    + destruct (nth_error l j) as [m|]; [apply IH | split; intros [x Hx]; discriminate].
Qed.

Lemma kind_of_code_code k : kind_of_code (kind_code k) = Some k.
Proof. destruct k; reflexivity. Qed.

Lemma is_kind_eq k k' : is_kind k k' = true <-> k = k'.
Proof.
  unfold is_kind. rewrite N.eqb_eq. split; [|intros ->; reflexivity].
  intro H. apply (f_equal kind_of_code) in H. rewrite !kind_of_code_code in H. congruence.
Qed.

(* the directive named x at path p is not defined, or is used at a location it is not declared for *)
Definition Unknown (lm : list (str * list N)) (x : str) : Prop :=
  lookup x lm = None \/ lookup x lm = Some [].
Definition Misplaced (lm : list (str * list N)) (d : node) (p : path) (x : str) : Prop :=
  exists locs u anc c, lookup x lm = Some locs /\ locs <> [] /\ chain d p [] = Some (u :: anc) /\
                       loc_of anc = Some (Some c) /\ ~ In c locs.

Lemma memN_In c l : memN c l = true <-> In c l.
Proof.
  induction l as [|x r IH]; cbn; [split; [discriminate | tauto]|].
  rewrite orb_true_iff, N.eqb_eq, IH. split; intros [H|H]; auto.
Qed.

Lemma kd_check_spec lm d p x r : kd_check lm (chain d p []) p x = Some r ->
  forall e, In e r <-> (e = VE R_KDIR [p] /\ (Unknown lm x \/ Misplaced lm d p x)).
Proof.
  unfold kd_check, Unknown, Misplaced. intros H e.
  destruct (lookup x lm) as [[|l0 ls]|] eqn:El.
  - inversion H; subst. cbn. split; [intros [<-|[]]; auto | intros [-> _]; auto].
  - destruct (chain d p []) as [[|u anc]|] eqn:Ec; try discriminate.
    destruct (loc_of anc) as [[c|]|] eqn:Eloc; try discriminate.
    + destruct (memN c (l0 :: ls)) eqn:Em; inversion H; subst; cbn [In].
      * split; [tauto|]. intros [_ [[Hx|Hx]|(locs & u' & anc' & c' & H1 & _ & H3 & H4 & H5)]]; try discriminate.
        inversion H1; subst locs. inversion H3; subst. rewrite Eloc in H4. inversion H4; subst c'.
        apply H5. apply memN_In. exact Em.
      * split; [intros [<-|[]]; split; [reflexivity|]; right | intros [-> _]; auto].
        exists (l0 :: ls), u, anc, c. repeat split; try assumption; try discriminate.
        intro Hin. apply memN_In in Hin. congruence.
    + inversion H; subst. cbn [In]. split; [tauto|].
      intros [_ [[Hx|Hx]|(locs & u' & anc' & c' & H1 & _ & H3 & H4 & _)]]; try discriminate.
      inversion H3; subst. rewrite Eloc in H4. discriminate.
  - inversion H; subst. cbn. split; [intros [<-|[]]; auto | intros [-> _]; auto].
Qed.

(* the dictionary keys identify (group, directive name) *)
Lemma flat_path_inj p : forall q, flat_path p = flat_path q -> p = q.
Proof.
  induction p as [|[a b] r IH]; intros [|[a' b'] r'] H; cbn in H; try discriminate; [reflexivity|].
  inversion H as [[H1 H2 H3]]. apply Nat2N.inj in H1, H2. subst. f_equal. apply IH. exact H3.
Qed.

Lemma group_code_inj g g' : group_code g = group_code g' -> g = g'.
Proof.
  destruct g, g'; cbn; intro H; try discriminate; try reflexivity; inversion H; subst; try reflexivity.
  f_equal. apply flat_path_inj. assumption.
Qed.

