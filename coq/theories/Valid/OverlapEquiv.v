(* Selection sets as the two functions see them: the field map and the spread names of a set as
   lists ([flat], [sprs]), nesting depth, typability ([typed_sels]), and the correspondence between
   the sets the algorithm visits and the sets the specification checks.
   Then the fragment-free case: without named fragments the memo tables play no part, and the
   algorithm agrees with the specification function without the assumptions on argument names
   and inline-fragment ids that the general theorem needs ([equiv_fragment_free]).
   Last, typable documents: the specification function never answers VUntyped on them. *)
From GV Require Import Base.Prelude Valid.Overlap Valid.OverlapProps Valid.PairSet Valid.OverlapOpt
  Valid.OverlapAdequacy Valid.OverlapOptCalls.

Fixpoint nospread (ss : sels) : Prop :=
  match ss with
  | SelNil => True
  | SelField _ sub rest => nospread sub /\ nospread rest
  | SelInline _ _ sub rest => nospread sub /\ nospread rest
  | SelSpread _ _ => False
  end.

(* the fields of a selection set, inline fragments flattened, in document order *)
Fixpoint flat (p : N) (ss : sels) : list entry :=
  match ss with
  | SelNil => []
  | SelField f sub rest => mkEntry p f sub :: flat p rest
  | SelInline _ tc sub rest => flat (match tc with Some t => t | None => p end) sub ++ flat p rest
  | SelSpread _ rest => flat p rest
  end.

(* spread names of a selection set, inline fragments flattened *)
Fixpoint sprs (ss : sels) : list N :=
  match ss with
  | SelNil => []
  | SelField _ _ rest => sprs rest
  | SelInline _ _ sub rest => sprs sub ++ sprs rest
  | SelSpread n rest => n :: sprs rest
  end.

Lemma fas_fst : forall ss p acc, fst (fields_and_spreads p ss acc) = fst acc ++ flat p ss.
Proof.
  induction ss as [|f sub IHsub rest IHrest|iid tc sub IHsub rest IHrest|n rest IHrest];
    intros p acc; cbn [fields_and_spreads flat].
  - rewrite app_nil_r. reflexivity.
  - rewrite IHrest. cbn [fst]. rewrite <- app_assoc. reflexivity.
  - rewrite IHrest, IHsub, <- app_assoc. reflexivity.
  - rewrite IHrest. reflexivity.
Qed.

Lemma fas_snd_in : forall ss p acc n,
  In n (snd (fields_and_spreads p ss acc)) <-> In n (snd acc) \/ In n (sprs ss).
Proof.
  induction ss as [|f sub IHsub rest IHrest|iid tc sub IHsub rest IHrest|m rest IHrest];
    intros p acc n; cbn [fields_and_spreads sprs].
  - cbn. tauto.
  - rewrite IHrest. cbn [snd]. tauto.
  - rewrite IHrest, IHsub, in_app_iff. tauto.
  - rewrite IHrest. cbn [snd In]. destruct (mem m (snd acc)) eqn:E.
    + apply mem_In in E. split; [tauto|]. intros [H|[<-|H]]; auto.
    + rewrite in_app_iff. cbn [In]. tauto.
Qed.

Lemma D_flat p ss : fm_of p ss = flat p ss.
Proof. unfold fm_of. rewrite fas_fst. reflexivity. Qed.

Lemma S_sprs p ss n : In n (sp_of p ss) <-> In n (sprs ss).
Proof. unfold sp_of. rewrite fas_snd_in. cbn. tauto. Qed.

Lemma fas_flat : forall ss p acc, nospread ss ->
  fields_and_spreads p ss acc = (fst acc ++ flat p ss, snd acc).
Proof.
  induction ss as [|f sub IHsub rest IHrest|iid tc sub IHsub rest IHrest|n rest IHrest];
    intros p acc H; cbn [fields_and_spreads flat nospread] in *.
  - rewrite app_nil_r. destruct acc; reflexivity.
  - destruct H as [_ H]. rewrite IHrest by exact H. cbn [fst snd]. rewrite <- app_assoc. reflexivity.
  - destruct H as [H1 H2]. rewrite IHsub by exact H1. rewrite IHrest by exact H2. cbn [fst snd].
    rewrite <- app_assoc. reflexivity.
  - contradiction.
Qed.

Lemma collect_go_flat frags rec : forall ss p st, nospread ss ->
  collect_go frags rec p ss st = Some (fst st, snd st ++ flat p ss).
Proof.
  induction ss as [|f sub IHsub rest IHrest|iid tc sub IHsub rest IHrest|n rest IHrest];
    intros p st H; cbn [collect_go flat nospread] in *.
  - rewrite app_nil_r. destruct st; reflexivity.
  - destruct H as [_ H]. rewrite IHrest by exact H. cbn [fst snd]. rewrite <- app_assoc. reflexivity.
  - destruct H as [H1 H2]. rewrite IHsub by exact H1. rewrite IHrest by exact H2. cbn [fst snd].
    rewrite <- app_assoc. reflexivity.
  - contradiction.
Qed.

Lemma collect_flat frags fuel p ss st : nospread ss ->
  collect frags fuel p ss st = Some (fst st, snd st ++ flat p ss).
Proof. intro H. destruct fuel; cbn [collect]; apply collect_go_flat; exact H. Qed.

Lemma flat_nospread : forall ss p, nospread ss -> Forall (fun e => nospread (e_sub e)) (flat p ss).
Proof.
  induction ss as [|f sub IHsub rest IHrest|iid tc sub IHsub rest IHrest|n rest IHrest];
    intros p H; cbn [flat nospread] in *.
  - constructor.
  - destruct H as [H1 H2]. constructor; auto.
  - destruct H as [H1 H2]. apply Forall_app. split; auto.
  - contradiction.
Qed.

(* nesting depth in fields *)
Fixpoint dep (ss : sels) : nat :=
  match ss with
  | SelNil => O
  | SelField _ sub rest => Nat.max (S (dep sub)) (dep rest)
  | SelInline _ _ sub rest => Nat.max (dep sub) (dep rest)
  | SelSpread _ rest => dep rest
  end.

Lemma flat_dep : forall ss p e, In e (flat p ss) -> (S (dep (e_sub e)) <= dep ss)%nat.
Proof.
  induction ss as [|f sub IHsub rest IHrest|iid tc sub IHsub rest IHrest|n rest IHrest];
    intros p e H; cbn [flat dep] in *.
  - contradiction.
  - destruct H as [<-|H]; [cbn [e_sub]; lia|]. specialize (IHrest _ _ H). lia.
  - apply in_app_or in H as [H|H]; [specialize (IHsub _ _ H) | specialize (IHrest _ _ H)]; lia.
  - specialize (IHrest _ _ H). lia.
Qed.

Lemma do_types_conflict_shape s : forall a b, do_types_conflict s a b = shape_conflict s a b.
Proof.
  induction a as [x|a IH|a IH]; intros [y|b|b]; cbn; auto.
Qed.

(* keys are distinct and no stored group is empty *)
Definition groups_wf (g : list (N * list entry)) : Prop :=
  NoDup (map fst g) /\ forall k l, In (k, l) g -> l <> [].

Definition stable (f : memo -> result) : Prop := forall m, f m = ROk m \/ f m = RConflict m.

Lemma for_each_stable {A} (f : A -> memo -> result) l :
  (forall x, In x l -> stable (f x)) ->
  stable (for_each f l) /\
  forall m, for_each f l m = RConflict m <-> exists x, In x l /\ f x m = RConflict m.
Proof.
  induction l as [|x r IH]; intro H.
  - split; [intro m; left; reflexivity|]. intro m; cbn. split; [discriminate | intros [? [[] _]]].
  - destruct (IH (fun y Hy => H y (or_intror Hy))) as [I1 I2]. split.
    + intro m. cbn [for_each]. destruct (H x (or_introl eq_refl) m) as [-> | ->]; cbn [bind]; auto.
    + intro m. cbn [for_each]. destruct (H x (or_introl eq_refl) m) as [E|E]; rewrite E; cbn [bind].
      * rewrite I2. split.
        -- intros [y [Hy Hf]]. exists y. split; [right|]; auto.
        -- intros [y [[<-|Hy] Hf]]; [rewrite E in Hf; discriminate | exists y; auto].
      * split; [intros _; exists x; split; [left|]; auto | reflexivity].
Qed.

Section NoFrag.
  Variable s : schema.

  Fixpoint typed_sels (p : N) (ss : sels) : Prop :=
    match ss with
    | SelNil => True
    | SelField f sub rest =>
      (exists t, field_type s p (f_name f) = Some t /\ typed_sels (named t) sub) /\ typed_sels p rest
    | SelInline _ tc sub rest =>
      is_composite s (match tc with Some t => t | None => p end) = true /\
      typed_sels (match tc with Some t => t | None => p end) sub /\ typed_sels p rest
    | SelSpread _ rest => typed_sels p rest
    end.

  (* a field occurrence that can be typed, whose sub-selection is typed and spread-free *)
  Definition good (e : entry) : Prop :=
    (exists t, ft s e = Some t /\ typed_sels (named t) (e_sub e)) /\ nospread (e_sub e).

  Lemma flat_good : forall ss p, typed_sels p ss -> nospread ss -> Forall good (flat p ss).
  Proof.
    induction ss as [|f sub IHsub rest IHrest|iid tc sub IHsub rest IHrest|n rest IHrest];
      intros p Ht Hn; cbn [flat typed_sels nospread] in *.
    - constructor.
    - destruct Ht as [[t [H1 H2]] H3]. destruct Hn as [N1 N2]. constructor; auto.
      split; auto. exists t. split; auto.
    - destruct Ht as [_ [H2 H3]]. destruct Hn as [N1 N2]. apply Forall_app. split; auto.
    - contradiction.
  Qed.

  (* what find_conflict computes: like Conf, but nested pairs are only the cross pairs between
     the two sub-selections *)
  Inductive FC : bool -> entry -> entry -> Prop :=
  | FC_direct so a b ta tb :
      ft s a = Some ta -> ft s b = Some tb -> direct s so a b ta tb = true -> FC so a b
  | FC_nested so a b ta tb x y :
      ft s a = Some ta -> ft s b = Some tb -> direct s so a b ta tb = false ->
      In x (flat (named ta) (e_sub a)) -> In y (flat (named tb) (e_sub b)) ->
      same_rname x y = true -> FC (excl_of s so a b) x y -> FC so a b.

  Definition cross (so : bool) (l1 l2 : list entry) : Prop :=
    exists x y, In x l1 /\ In y l2 /\ same_rname x y = true /\ FC so x y.

  Lemma has_sub_flat p ss : has_sub ss = false -> flat p ss = [].
  Proof. destruct ss; cbn; auto; discriminate. Qed.

  Lemma fc_direct_direct r x y tx ty : ft s x = Some tx -> ft s y = Some ty ->
    fc_direct s r x y = direct s r x y tx ty.
  Proof. intros Hx Hy. unfold fc_direct, direct. rewrite Hx, Hy, do_types_conflict_shape. reflexivity. Qed.

  Lemma sub_parent_named x t : ft s x = Some t -> sub_parent s x = named t.
  Proof. unfold ft, sub_parent. intros ->. reflexivity. Qed.

  (* what a call finds in a document without spreads; only two kinds of call occur *)
  Definition finds (c : call) : Prop :=
    match c with
    | CFindConflict so a b => FC so a b
    | CBetweenSubs e p1 _ ss1 p2 _ ss2 => cross e (flat p1 ss1) (flat p2 ss2)
    | _ => False
    end.

  Definition cgood (c : call) : Prop :=
    match c with
    | CFindConflict _ a b => good a /\ good b
    | CBetweenSubs _ p1 _ ss1 p2 _ ss2 => typed_sels p1 ss1 /\ nospread ss1 /\ typed_sels p2 ss2 /\ nospread ss2
    | _ => False
    end.

  Definition csize (c : call) : nat :=
    match c with
    | CFindConflict _ a b => (2 * Nat.max (dep (e_sub a)) (dep (e_sub b)) + 2)%nat
    | CBetweenSubs _ _ _ ss1 _ _ ss2 => (2 * Nat.max (dep ss1) (dep ss2) + 1)%nat
    | _ => O
    end.

  Lemma sub_calls_nospread frags c c' : cgood c -> In c' (sub_calls s frags c) ->
    cgood c' /\ (S (csize c') <= csize c)%nat.
  Proof.
    intros Hg Hin. destruct c as [so a b|e p1 id1 ss1 p2 id2 ss2| |]; cbn [cgood sub_calls] in *; try contradiction.
    - destruct Hg as [[[ta [Hta Htya]] Hna] [[tb [Htb Htyb]] Hnb]].
      destruct (has_sub (e_sub a) && has_sub (e_sub b)); [|contradiction]. destruct Hin as [<-|[]].
      rewrite (sub_parent_named a ta Hta), (sub_parent_named b tb Htb). cbn [cgood csize]. split; [auto|lia].
    - destruct Hg as [Ht1 [Hn1 [Ht2 Hn2]]].
      unfold fm_of, sp_of in Hin. rewrite !fas_flat in Hin by assumption. cbn [fst snd app] in Hin.
      unfold between_calls in Hin. cbn [map flat_map] in Hin. rewrite !app_nil_r in Hin.
      apply in_cross_calls in Hin as [x [y [-> [Hx [Hy _]]]]].
      pose proof (flat_good ss1 p1 Ht1 Hn1) as G1. pose proof (flat_good ss2 p2 Ht2 Hn2) as G2.
      rewrite Forall_forall in G1, G2. pose proof (flat_dep _ _ _ Hx). pose proof (flat_dep _ _ _ Hy).
      cbn [cgood csize]. split; [auto|lia].
  Qed.

  Lemma decide_nospread frags c m : cgood c ->
    (decide s c m = Done (RConflict m) /\ finds c) \/
    (decide s c m = Go m /\ ((exists c', In c' (sub_calls s frags c) /\ finds c') <-> finds c)).
  Proof.
    intro Hg. destruct c as [so a b|e p1 id1 ss1 p2 id2 ss2| |]; cbn [cgood decide sub_calls finds] in *;
      try contradiction.
    - destruct Hg as [[[ta [Hta Htya]] Hna] [[tb [Htb Htyb]] Hnb]].
      rewrite (fc_direct_direct so a b ta tb Hta Htb).
      destruct (direct s so a b ta tb) eqn:Ed; [left; split; [reflexivity | eapply FC_direct; eauto]|].
      right. split; [reflexivity|].
      rewrite (sub_parent_named a ta Hta), (sub_parent_named b tb Htb). split.
      + intros [c' [Hc' Hf]]. destruct (has_sub (e_sub a) && has_sub (e_sub b)); [|contradiction].
        destruct Hc' as [<-|[]]. destruct Hf as [x [y [Hx [Hy [Hr Hfc]]]]]. eapply FC_nested; eauto.
      + intro Hfc. inversion Hfc as [? ? ? ta' tb' A1 A2 A3|? ? ? ta' tb' x y A1 A2 A3 A4 A5 A6 A7]; subst;
          rewrite Hta in A1; rewrite Htb in A2; inversion A1; inversion A2; subst; [congruence|].
        destruct (has_sub (e_sub a)) eqn:Ea; [|rewrite (has_sub_flat _ _ Ea) in A4; contradiction].
        destruct (has_sub (e_sub b)) eqn:Eb; [|rewrite (has_sub_flat _ _ Eb) in A5; contradiction].
        eexists. split; [left; reflexivity|]. exists x, y. auto.
    - right. split; [reflexivity|]. destruct Hg as [Ht1 [Hn1 [Ht2 Hn2]]].
      unfold fm_of, sp_of. rewrite !fas_flat by assumption. cbn [fst snd app].
      unfold between_calls. cbn [map flat_map]. rewrite !app_nil_r. split.
      + intros [c' [Hc' Hf]]. apply in_cross_calls in Hc' as [x [y [-> [Hx [Hy Hr]]]]]. exists x, y. auto.
      + intros [x [y [Hx [Hy [Hr Hf]]]]]. exists (CFindConflict e x y). split; [|exact Hf].
        apply in_cross_calls. eauto 6.
  Qed.

  Lemma exec_finds frags fuel : forall c, cgood c -> (csize c <= fuel)%nat ->
    stable (exec s frags fuel c) /\ forall m, exec s frags fuel c m = RConflict m <-> finds c.
  Proof.
    induction fuel as [|f IH]; intros c Hg Hsz.
    - destruct c; cbn in Hg, Hsz; try contradiction; lia.
    - destruct (for_each_stable (exec s frags f) (sub_calls s frags c)) as [S1 S2].
      { intros c' Hc'. destruct (sub_calls_nospread frags c c' Hg Hc'). apply IH; [assumption | lia]. }
      assert (S3 : forall m, for_each (exec s frags f) (sub_calls s frags c) m = RConflict m <->
                             exists c', In c' (sub_calls s frags c) /\ finds c').
      { intro m. rewrite S2. split; intros [c' [Hc' H]]; exists c'; (split; [exact Hc'|]);
          destruct (sub_calls_nospread frags c c' Hg Hc') as [Hg' Hs'];
          apply (proj2 (IH c' Hg' ltac:(lia)) m); exact H. }
      cbn [exec]. split; intro m; rewrite exec_step_eq;
        destruct (decide_nospread frags c m Hg) as [[-> Hf]|[-> Hiff]].
      + right. reflexivity.
      + apply S1.
      + split; [intros _; exact Hf | reflexivity].
      + rewrite S3. exact Hiff.
  Qed.
End NoFrag.

Section NoFragDoc.
  Variable s : schema.

  (* find_conflicts_within_selection_set reports: two fields of the set, same response name, FC *)
  Definition WS (q : N) (t : sels) : Prop :=
    exists x y, before x y (flat q t) /\ same_rname x y = true /\ FC s false x y.

  Definition some_ws (l : list (N * sels)) : Prop := exists q t, In (q, t) l /\ WS q t.

  Lemma set_finds fuel q id t : typed_sels s q t -> nospread t -> (2 * dep t <= fuel)%nat ->
    (forall c, In c (set_calls (q, id, t)) -> cgood s c /\ (csize c <= fuel)%nat) /\
    ((exists c, In c (set_calls (q, id, t)) /\ finds s c) <-> WS q t).
  Proof.
    intros Ht Hn Hfuel. pose proof (flat_good s t q Ht Hn) as G. rewrite Forall_forall in G.
    assert (Hc : forall c, In c (set_calls (q, id, t)) <->
                           exists x y, c = CFindConflict false x y /\ before x y (flat q t) /\ same_rname x y = true).
    { intro c. rewrite in_set_calls. unfold fm_of, sp_of. rewrite fas_flat by exact Hn. cbn [fst snd app]. split.
      - intros [H|[[sp [_ []]]|[s1 [s2 [_ H]]]]]; [exact H | inversion H].
      - auto. }
    split.
    - intros c Hin. apply Hc in Hin as [x [y [-> [Hb _]]]]. destruct (before_in _ _ _ Hb) as [Hx Hy].
      pose proof (flat_dep t q x Hx). pose proof (flat_dep t q y Hy). cbn [cgood csize]. split; [auto|lia].
    - split.
      + intros [c [Hin Hf]]. apply Hc in Hin as [x [y [-> [Hb Hr]]]]. exists x, y. auto.
      + intros [x [y [Hb [Hr Hf]]]]. exists (CFindConflict false x y). split; [apply Hc; eauto | exact Hf].
  Qed.
End NoFragDoc.

Lemma opt_in_checked s : forall ss p q id t, typed_sels s p ss ->
  In (q, id, t) (opt_sets s p ss) -> In (q, t) (checked_sets s p ss).
Proof.
  induction ss as [|f sub IHsub rest IHrest|iid tc sub IHsub rest IHrest|n rest IHrest];
    intros p q id t Ht Hin; cbn [opt_sets checked_sets typed_sels] in *.
  - contradiction.
  - destruct Ht as [[ty [Hft Hts]] Htr]. rewrite Hft in *.
    apply in_app_or in Hin as [Hin|Hin]; apply in_or_app; [left | right; eauto].
    destruct sub; [contradiction| | |];
      (destruct Hin as [Hin|Hin]; [inversion Hin; subst; left; reflexivity | right; eauto]).
  - destruct Ht as [Hc [Hts Htr]]. rewrite Hc.
    apply in_app_or in Hin as [[Hin|Hin]|Hin]; apply in_or_app;
      [inversion Hin; subst; left; left; reflexivity | left; right; eauto | right; eauto].
  - eauto.
Qed.

Lemma checked_in_opt s : forall ss p q t, In (q, t) (checked_sets s p ss) ->
  exists id, In (q, id, t) (opt_sets s p ss).
Proof.
  induction ss as [|f sub IHsub rest IHrest|iid tc sub IHsub rest IHrest|n rest IHrest];
    intros p q t Hin; cbn [checked_sets opt_sets] in *.
  - contradiction.
  - apply in_app_or in Hin as [Hin|Hin].
    + destruct (field_type s p (f_name f)) as [ty|]; [|contradiction].
      destruct sub; [contradiction| | |];
        (destruct Hin as [Hin|Hin];
         [inversion Hin; subst; eexists; apply in_or_app; left; left; reflexivity
         |destruct (IHsub _ _ _ Hin) as [id Hi]; exists id; apply in_or_app; left; right; exact Hi]).
    + destruct (IHrest _ _ _ Hin) as [id Hi]. exists id. apply in_or_app. right. exact Hi.
  - apply in_app_or in Hin as [Hin|Hin].
    + destruct (is_composite s match tc with Some t0 => t0 | None => p end); [|contradiction].
      destruct Hin as [Hin|Hin].
      * inversion Hin; subst. eexists. apply in_or_app. left. left. reflexivity.
      * destruct (IHsub _ _ _ Hin) as [id Hi]. exists id. apply in_or_app. left. right. exact Hi.
    + destruct (IHrest _ _ _ Hin) as [id Hi]. exists id. apply in_or_app. right. exact Hi.
  - eauto.
Qed.

Section Visited.
  Variable s : schema.
  Variable d : document.
  Variable ord : list (bool * nat).

  Lemma run_sets_doc x :
    (forall o, In o (d_ops d) -> is_composite s (fst o) = true /\ typed_sels s (fst o) (snd o)) ->
    (forall fd, In fd (d_frags d) -> is_composite s (fr_type fd) = true /\ typed_sels s (fr_type fd) (fr_body fd)) ->
    In x (run_sets s d ord) -> In (fst (fst x), snd x) (doc_sets s d).
  Proof.
    intros Hops_t Hfr_t Hx. apply in_flat_map in Hx as [[isop i] [_ Hx]]. unfold order_sets in Hx. cbn [fst snd] in Hx.
    unfold doc_sets. apply in_or_app. destruct isop; [left | right].
    - destruct (nth_error (d_ops d) i) as [o|] eqn:En; [|contradiction].
      pose proof (nth_error_In _ _ En) as Ho. destruct (Hops_t o Ho) as [Hc Ht].
      apply in_flat_map. exists o. split; [exact Ho|]. unfold root_sets. rewrite Hc.
      destruct Hx as [<-|Hx]; [left; reflexivity | right]. destruct x as [[q id] t]. eapply opt_in_checked; eauto.
    - destruct (nth_error (d_frags d) i) as [fd|] eqn:En; [|contradiction].
      pose proof (nth_error_In _ _ En) as Hf. destruct (Hfr_t fd Hf) as [Hc Ht].
      apply in_flat_map. exists fd. split; [exact Hf|]. unfold root_sets. rewrite Hc.
      destruct Hx as [<-|Hx]; [left; reflexivity | right]. destruct x as [[q id] t]. eapply opt_in_checked; eauto.
  Qed.

  Lemma doc_sets_run q t :
    (forall i, (i < length (d_ops d))%nat -> In (true, i) ord) ->
    (forall i, (i < length (d_frags d))%nat -> In (false, i) ord) ->
    In (q, t) (doc_sets s d) -> exists id, In (q, id, t) (run_sets s d ord).
  Proof.
    intros Cops Cfr Hin. unfold doc_sets, root_sets in Hin.
    assert (Hvis : forall b i, In (b, i) ord -> forall y, In y (order_sets s d (b, i)) -> In y (run_sets s d ord)).
    { intros b i Hi y Hy. apply in_flat_map. exists (b, i). auto. }
    apply in_app_or in Hin as [Hin|Hin]; apply in_flat_map in Hin as [x [Hx Hin]].
    - destruct (is_composite s (fst x)); [|contradiction].
      apply In_nth_error in Hx as [i Hi].
      assert (Ho : In (true, i) ord) by (apply Cops; apply nth_error_Some; congruence).
      specialize (Hvis true i Ho). unfold order_sets in Hvis. cbn [fst snd] in Hvis. rewrite Hi in Hvis.
      destruct Hin as [Hin|Hin].
      + inversion Hin; subst. eexists. apply Hvis. left. reflexivity.
      + destruct (checked_in_opt s _ _ _ _ Hin) as [id Hid]. exists id. apply Hvis. right. exact Hid.
    - destruct (is_composite s (fr_type x)); [|contradiction].
      apply In_nth_error in Hx as [i Hi].
      assert (Ho : In (false, i) ord) by (apply Cfr; apply nth_error_Some; congruence).
      specialize (Hvis false i Ho). unfold order_sets in Hvis. cbn [fst snd] in Hvis. rewrite Hi in Hvis.
      destruct Hin as [Hin|Hin].
      + inversion Hin; subst. eexists. apply Hvis. left. reflexivity.
      + destruct (checked_in_opt s _ _ _ _ Hin) as [id Hid]. exists id. apply Hvis. right. exact Hid.
  Qed.
End Visited.

Lemma before_app_l {A} (x y : A) l1 l2 : before x y l1 -> before x y (l1 ++ l2).
Proof.
  induction 1; cbn [app]; constructor; auto. apply in_or_app. left. assumption.
Qed.

Lemma before_app_r {A} (x y : A) l1 l2 : before x y l2 -> before x y (l1 ++ l2).
Proof. intro H. induction l1; cbn [app]; auto. constructor. exact IHl1. Qed.

Section Link.
  Variable s : schema.
  Variable d : document.
  Hypothesis Hnf : d_frags d = [].

  Lemma merged_flat a b ta tb : nospread (e_sub a) -> nospread (e_sub b) ->
    merged d a b ta tb = Some (flat (named ta) (e_sub a) ++ flat (named tb) (e_sub b)).
  Proof.
    intros Ha Hb. unfold merged. rewrite Hnf.
    rewrite (collect_flat [] _ (named ta) (e_sub a) ([], []) Ha). cbn [fst snd app].
    rewrite (collect_flat [] _ (named tb) (e_sub b) _ Hb). reflexivity.
  Qed.

  Lemma good_sub_flat e t : good s e -> ft s e = Some t -> Forall (good s) (flat (named t) (e_sub e)).
  Proof.
    intros [[t' [H1 H2]] H3] Ht. rewrite Ht in H1. inversion H1; subst. apply flat_good; auto.
  Qed.

  Lemma FC_Conf : forall so a b, FC s so a b -> good s a -> good s b -> Conf s d so a b.
  Proof.
    induction 1 as [so a b ta tb Ha Hb Hd|so a b ta tb x y Ha Hb Hd Hx Hy Hr Hfc IH]; intros Ga Gb.
    - eapply Conf_direct; eauto.
    - pose proof (good_sub_flat a ta Ga Ha) as Fa. pose proof (good_sub_flat b tb Gb Hb) as Fb.
      rewrite Forall_forall in Fa, Fb.
      eapply Conf_nested; eauto.
      + apply merged_flat; [apply Ga | apply Gb].
      + apply before_app_cross; auto.
  Qed.

  Lemma excl_of_mono so a b : excl_of s false a b = true -> excl_of s so a b = true.
  Proof. unfold excl_of. destruct so; cbn; auto. Qed.

  (* what conflicts directly under "shape only" conflicts directly under the full conditions *)
  Lemma direct_mono so a b ta tb : direct s so a b ta tb = true -> direct s false a b ta tb = true.
  Proof.
    unfold direct. intro Hd. destruct (shape_conflict s ta tb); [apply orb_true_r|]. rewrite orb_false_r in *.
    apply andb_true_iff in Hd as [H1 H2]. rewrite H2, andb_true_r.
    destruct (excl_of s false a b) eqn:E; auto. rewrite (excl_of_mono so a b E) in H1. discriminate.
  Qed.

  Lemma Conf_mono : forall so a b, Conf s d so a b -> Conf s d false a b.
  Proof.
    induction 1 as [so a b ta tb Ha Hb Hd|so a b ta tb l x y Ha Hb Hd Hm Hbf Hr Hc IH].
    - exact (Conf_direct s d false a b ta tb Ha Hb (direct_mono so a b ta tb Hd)).
    - destruct (direct s false a b ta tb) eqn:Ed; [eapply Conf_direct; eauto|].
      eapply Conf_nested; eauto.
      destruct (excl_of s false a b) eqn:E; [|exact IH].
      rewrite (excl_of_mono so a b E) in Hc. exact Hc.
  Qed.

  Lemma FC_mono : forall so a b, FC s so a b -> FC s false a b.
  Proof.
    induction 1 as [so a b ta tb Ha Hb Hd|so a b ta tb x y Ha Hb Hd Hx Hy Hr Hc IH].
    - exact (FC_direct s false a b ta tb Ha Hb (direct_mono so a b ta tb Hd)).
    - destruct (direct s false a b ta tb) eqn:Ed; [eapply FC_direct; eauto|].
      eapply FC_nested; eauto.
      destruct (excl_of s false a b) eqn:E; [|exact IH].
      rewrite (excl_of_mono so a b E) in Hc. exact Hc.
  Qed.

  (* the sub-selection of a field of a typed set is one of the sets checked below it *)
  Lemma flat_sub_checked : forall ss p x tx, typed_sels s p ss -> In x (flat p ss) ->
    ft s x = Some tx -> has_sub (e_sub x) = true -> In (named tx, e_sub x) (checked_sets s p ss).
  Proof.
    induction ss as [|f sub IHsub rest IHrest|iid tc sub IHsub rest IHrest|n rest IHrest];
      intros p x tx Ht Hx Hft Hs; cbn [flat checked_sets typed_sels] in *.
    - contradiction.
    - destruct Ht as [[t [Hf Hts]] Htr]. apply in_or_app. destruct Hx as [<-|Hx]; [left | right; eauto].
      unfold ft in Hft. cbn [e_parent e_fld e_sub] in *. rewrite Hf in *. inversion Hft; subst t.
      destruct sub; [discriminate| | |]; left; reflexivity.
    - destruct Ht as [Hc [Hts Htr]]. rewrite Hc. apply in_or_app.
      apply in_app_or in Hx as [Hx|Hx]; [left; right | right]; eauto.
    - eauto.
  Qed.

  (* facts about the sets listed by checked_sets *)
  Lemma checked_props : forall ss p q t, typed_sels s p ss -> nospread ss ->
    In (q, t) (checked_sets s p ss) ->
    typed_sels s q t /\ nospread t /\ (dep t <= dep ss)%nat /\ incl (checked_sets s q t) (checked_sets s p ss).
  Proof.
    induction ss as [|f sub IHsub rest IHrest|iid tc sub IHsub rest IHrest|n rest IHrest];
      intros p q t Ht Hn Hin; cbn [checked_sets typed_sels nospread dep] in *.
    - contradiction.
    - destruct Ht as [[ty [Hft Hts]] Htr]. destruct Hn as [Hns Hnr]. rewrite Hft in *.
      apply in_app_or in Hin as [Hin|Hin].
      + assert (Hcase : In (q, t) ((named ty, sub) :: checked_sets s (named ty) sub)).
        { destruct sub; [contradiction| | |]; exact Hin. }
        assert (Hincl : incl ((named ty, sub) :: checked_sets s (named ty) sub)
                             (match sub with
                              | SelNil => []
                              | _ => (named ty, sub) :: checked_sets s (named ty) sub
                              end)).
        { destruct sub; [contradiction| | |]; apply incl_refl. }
        destruct Hcase as [Hq|Hq].
        * inversion Hq; subst. repeat split; auto; [lia|].
          intros z Hz. apply in_or_app. left. apply Hincl. right. exact Hz.
        * destruct (IHsub _ _ _ Hts Hns Hq) as [A1 [A2 [A3 A4]]]. repeat split; auto; [lia|].
          intros z Hz. apply in_or_app. left. apply Hincl. right. apply A4. exact Hz.
      + destruct (IHrest _ _ _ Htr Hnr Hin) as [A1 [A2 [A3 A4]]]. repeat split; auto; [lia|].
        intros z Hz. apply in_or_app. right. apply A4. exact Hz.
    - destruct Ht as [Hc [Hts Htr]]. destruct Hn as [Hns Hnr]. rewrite Hc in *.
      apply in_app_or in Hin as [[Hq|Hq]|Hin].
      + inversion Hq; subst. repeat split; auto; [lia|].
        intros z Hz. apply in_or_app. left. right. exact Hz.
      + destruct (IHsub _ _ _ Hts Hns Hq) as [A1 [A2 [A3 A4]]]. repeat split; auto; [lia|].
        intros z Hz. apply in_or_app. left. right. apply A4. exact Hz.
      + destruct (IHrest _ _ _ Htr Hnr Hin) as [A1 [A2 [A3 A4]]]. repeat split; auto; [lia|].
        intros z Hz. apply in_or_app. right. apply A4. exact Hz.
    - contradiction.
  Qed.

  (* A family of typed spread-free sets that contains the sub-selection of each of its fields:
     a derivation for two of its fields is one of find_conflict's, or some set of the family has
     two fields of its own with one (the nested pair left the cross pairs of find_conflict). *)
  Variable Sets : N -> sels -> Prop.
  Hypothesis Sets_ok : forall q t, Sets q t -> typed_sels s q t /\ nospread t.
  Hypothesis Sets_sub : forall q t x tx, Sets q t -> In x (flat q t) -> ft s x = Some tx ->
    has_sub (e_sub x) = true -> Sets (named tx) (e_sub x).

  Lemma Sets_good q t x : Sets q t -> In x (flat q t) -> good s x.
  Proof.
    intros Hq Hx. destruct (Sets_ok q t Hq) as [Ht Hn].
    pose proof (flat_good s t q Ht Hn) as G. rewrite Forall_forall in G. auto.
  Qed.

  Lemma Conf_ws : forall so a b, Conf s d so a b ->
    forall q t q' t', Sets q t -> In a (flat q t) -> Sets q' t' -> In b (flat q' t') ->
    FC s so a b \/ exists q1 t1, Sets q1 t1 /\ WS s q1 t1.
  Proof.
    induction 1 as [so a b ta tb Ha Hb Hd|so a b ta tb l x y Ha Hb Hd Hm Hbf Hr Hc IH];
      intros q t q' t' Sa Ia Sb Ib.
    - left. eapply FC_direct; eauto.
    - pose proof (Sets_good q t a Sa Ia) as Ga. pose proof (Sets_good q' t' b Sb Ib) as Gb.
      rewrite (merged_flat a b ta tb (proj2 Ga) (proj2 Gb)) in Hm. inversion Hm; subst l. clear Hm.
      assert (Hsub : forall e te u qe te', Sets qe te' -> In e (flat qe te') ->
                ft s e = Some te -> In u (flat (named te) (e_sub e)) -> Sets (named te) (e_sub e)).
      { intros e te u qe te' Se Ie He Hu. apply (Sets_sub qe te' e te Se Ie He).
        destruct (has_sub (e_sub e)) eqn:E; [reflexivity|]. rewrite (has_sub_flat _ _ E) in Hu. contradiction. }
      (* a pair inside one of the two sub-selections: that sub-selection has a conflict of its own *)
      assert (Hwithin : forall e te u v, forall qe te', Sets qe te' -> In e (flat qe te') -> ft s e = Some te ->
                before u v (flat (named te) (e_sub e)) -> same_rname u v = true ->
                Conf s d (excl_of s so a b) u v ->
                (forall qu tu qv tv, Sets qu tu -> In u (flat qu tu) -> Sets qv tv -> In v (flat qv tv) ->
                   FC s (excl_of s so a b) u v \/ exists q1 t1, Sets q1 t1 /\ WS s q1 t1) ->
                exists q1 t1, Sets q1 t1 /\ WS s q1 t1).
      { intros e te u v qe te' Se Ie He Hb' Hr' Hc' IH'. destruct (before_in _ _ _ Hb') as [Hu Hv].
        pose proof (Hsub e te u qe te' Se Ie He Hu) as Ss.
        destruct (IH' _ _ _ _ Ss Hu Ss Hv) as [Hfc|Hex]; [|exact Hex].
        exists (named te), (e_sub e). split; [exact Ss|]. exists u, v. repeat split; auto. eapply FC_mono; eauto. }
      apply before_app_inv in Hbf as [Hbf|[Hbf|[Hx Hy]]].
      + right. exact (Hwithin a ta x y q t Sa Ia Ha Hbf Hr Hc IH).
      + right. exact (Hwithin b tb x y q' t' Sb Ib Hb Hbf Hr Hc IH).
      + destruct (IH _ _ _ _ (Hsub a ta x q t Sa Ia Ha Hx) Hx (Hsub b tb y q' t' Sb Ib Hb Hy) Hy) as [Hfc|Hex];
          [|right; exact Hex].
        left. eapply FC_nested; eauto.
  Qed.

  Lemma ws_setconf q t : typed_sels s q t -> nospread t -> WS s q t -> SetConf s d q t.
  Proof.
    intros Ht Hn [x [y [Hb [Hr Hfc]]]].
    pose proof (flat_good s t q Ht Hn) as G. rewrite Forall_forall in G.
    destruct (before_in _ _ _ Hb) as [Hx Hy].
    exists ([], flat q t), x, y. rewrite Hnf, (collect_flat [] _ q t ([], []) Hn). cbn [fst snd app].
    repeat split; auto. apply FC_Conf; auto.
  Qed.
End Link.

Section Final.
  Variable s : schema.
  Variable d : document.
  Hypothesis Hnf : d_frags d = [].
  (* every operation has a composite root type, can be typed and contains no fragment spread *)
  Hypothesis Hops : forall o, In o (d_ops d) ->
    is_composite s (fst o) = true /\ typed_sels s (fst o) (snd o) /\ nospread (snd o).

  Definition doc_dep : nat := fold_right (fun o acc => Nat.max (dep (snd o)) acc) 0%nat (d_ops d).

  Lemma op_dep o : In o (d_ops d) -> (dep (snd o) <= doc_dep)%nat.
  Proof.
    unfold doc_dep. clear Hops. induction (d_ops d) as [|a l IH]; cbn; intro H; [contradiction|].
    destruct H as [->|H]; [lia | specialize (IH H); lia].
  Qed.

  Lemma doc_sets_ops q t : In (q, t) (doc_sets s d) <->
    exists o, In o (d_ops d) /\ In (q, t) ((fst o, snd o) :: checked_sets s (fst o) (snd o)).
  Proof.
    unfold doc_sets. rewrite Hnf. cbn [flat_map]. rewrite app_nil_r. rewrite in_flat_map. split.
    - intros [o [Ho Hi]]. exists o. split; auto. unfold root_sets in Hi.
      destruct (Hops o Ho) as [Hc _]. rewrite Hc in Hi. exact Hi.
    - intros [o [Ho Hi]]. exists o. split; auto. unfold root_sets.
      destruct (Hops o Ho) as [Hc _]. rewrite Hc. exact Hi.
  Qed.

  Lemma doc_sets_props q t : In (q, t) (doc_sets s d) ->
    typed_sels s q t /\ nospread t /\ (dep t <= doc_dep)%nat /\
    incl ((q, t) :: checked_sets s q t) (doc_sets s d).
  Proof.
    intro H. apply doc_sets_ops in H as [o [Ho Hi]].
    destruct (Hops o Ho) as [Hc [Ht Hn]]. pose proof (op_dep o Ho) as Hd.
    destruct Hi as [Hi|Hi].
    - inversion Hi; subst. repeat split; auto.
      intros z Hz. destruct z as [q' t']. apply doc_sets_ops. exists o. auto.
    - destruct (checked_props s _ _ _ _ Ht Hn Hi) as [A1 [A2 [A3 A4]]]. repeat split; auto; [lia|].
      intros z Hz. destruct z as [q' t']. apply doc_sets_ops. exists o. split; auto. right.
      destruct Hz as [Hz|Hz]; [inversion Hz; subst; exact Hi | apply A4; exact Hz].
  Qed.

  Definition covers (order : list (bool * nat)) : Prop :=
    forall i, (i < length (d_ops d))%nat -> In (true, i) order.

  Lemma opt_run_spec order fuel : (2 * doc_dep <= fuel)%nat ->
    let m0 := mkMemo [] [] [] in
    (opt_run s d order fuel = ROk m0 \/ opt_run s d order fuel = RConflict m0) /\
    (opt_run s d order fuel = RConflict m0 -> some_ws s (doc_sets s d)) /\
    (covers order -> some_ws s (doc_sets s d) -> opt_run s d order fuel = RConflict m0).
  Proof.
    intros Hfuel m0. rewrite opt_run_eq.
    assert (Hty : forall o, In o (d_ops d) -> is_composite s (fst o) = true /\ typed_sels s (fst o) (snd o))
      by (intros o Ho; destruct (Hops o Ho) as [Hc [Ht _]]; auto).
    assert (Hfr : forall fd, In fd (d_frags d) ->
                  is_composite s (fr_type fd) = true /\ typed_sels s (fr_type fd) (fr_body fd))
      by (rewrite Hnf; intros fd []).
    (* every visited set is a spread-free set of the document, shallow enough for the fuel *)
    assert (Hset : forall q id t, In (q, id, t) (run_sets s d order) ->
              In (q, t) (doc_sets s d) /\
              (forall c, In c (set_calls (q, id, t)) -> cgood s c /\ (csize c <= fuel)%nat) /\
              ((exists c, In c (set_calls (q, id, t)) /\ finds s c) <-> WS s q t)).
    { intros q id t Hx. pose proof (run_sets_doc s d order _ Hty Hfr Hx) as Hd. cbn [fst snd] in Hd.
      destruct (doc_sets_props q t Hd) as [A1 [A2 [A3 _]]]. split; [exact Hd|].
      apply set_finds; auto. lia. }
    assert (Hex : forall c, In c (calls_of (run_sets s d order)) ->
              stable (exec s (d_frags d) fuel c) /\
              forall m, exec s (d_frags d) fuel c m = RConflict m <-> finds s c).
    { intros c Hc. apply in_flat_map in Hc as [[[q id] t] [Hx Hc]].
      destruct (Hset q id t Hx) as [_ [Hg _]]. destruct (Hg c Hc). apply exec_finds; assumption. }
    destruct (for_each_stable (exec s (d_frags d) fuel) _ (fun c Hc => proj1 (Hex c Hc))) as [S1 S2].
    split; [apply S1|]. split.
    - intro H0. apply S2 in H0 as [c [Hc H1]]. apply (proj2 (Hex c Hc)) in H1.
      apply in_flat_map in Hc as [[[q id] t] [Hx Hc]]. destruct (Hset q id t Hx) as [Hd [_ Hw]].
      exists q, t. split; [exact Hd|]. apply Hw. exists c. auto.
    - intros Hcov [q [t [Hi Hw]]]. apply S2.
      destruct (doc_sets_run s d order q t Hcov ltac:(rewrite Hnf; cbn; intros; lia) Hi) as [id Hx].
      destruct (Hset q id t Hx) as [_ [_ Hiff]]. destruct (proj2 Hiff Hw) as [c [Hc Hf]].
      assert (Hin : In c (calls_of (run_sets s d order))) by (apply in_flat_map; eauto).
      exists c. split; [exact Hin|]. apply (proj2 (Hex c Hin)). exact Hf.
  Qed.

  Theorem equiv_fragment_free order fuel :
    covers order -> (2 * doc_dep <= fuel)%nat ->
    nodupb (doc_fids d) = true -> spec_verdict s d <> VUntyped ->
    opt_conflicts s d order fuel = Some (spec_conflicts s d).
  Proof.
    intros Hcov Hfuel Hids Hty.
    destruct (opt_run_spec order fuel Hfuel) as [Hst [Hto Hfrom]].
    unfold opt_conflicts. destruct Hst as [E|E]; rewrite E.
    - (* the algorithm finds nothing: neither does the specification *)
      destruct (spec_conflicts s d) eqn:Es; [|reflexivity]. exfalso.
      destruct (spec_sound s d Es) as [q [t [Hi [st [x [y [Hc [Hb [Hr Hconf]]]]]]]]].
      destruct (doc_sets_props q t Hi) as [A1 [A2 _]].
      rewrite Hnf, (collect_flat [] _ q t ([], []) A2) in Hc. inversion Hc; subst st. cbn [snd app] in Hb.
      destruct (before_in _ _ _ Hb) as [Hx Hy].
      assert (Hok : forall q0 t0, In (q0, t0) (doc_sets s d) -> typed_sels s q0 t0 /\ nospread t0).
      { intros q0 t0 H0. destruct (doc_sets_props q0 t0 H0) as [B1 [B2 _]]. auto. }
      assert (Hsub : forall q0 t0 z tz, In (q0, t0) (doc_sets s d) -> In z (flat q0 t0) -> ft s z = Some tz ->
                has_sub (e_sub z) = true -> In (named tz, e_sub z) (doc_sets s d)).
      { intros q0 t0 z tz H0 Hz Hft Hs. destruct (doc_sets_props q0 t0 H0) as [B1 [_ [_ B4]]].
        apply B4. right. exact (flat_sub_checked s t0 q0 z tz B1 Hz Hft Hs). }
      assert (Hw : some_ws s (doc_sets s d)).
      { destruct (Conf_ws s d Hnf (fun q t => In (q, t) (doc_sets s d)) Hok Hsub false x y Hconf q t q t Hi Hx Hi Hy)
          as [Hfc|[q1 [t1 [H1 Hw]]]].
        - exists q, t. split; [exact Hi|]. exists x, y. auto.
        - exists q1, t1. auto. }
      rewrite (Hfrom Hcov Hw) in E. discriminate.
    - (* the algorithm reports a conflict: it is one of the specification *)
      destruct (Hto E) as [q [t [Hi Hw]]].
      destruct (doc_sets_props q t Hi) as [A1 [A2 _]].
      assert (Hdc : DocConf s d) by (exists q, t; split; auto; apply ws_setconf; auto).
      rewrite (spec_complete s d (unique_ids_identify s d Hids) Hdc Hty). reflexivity.
  Qed.
End Final.

Lemma VUntyped_not_no : VUntyped <> VNo.
Proof. discriminate. Qed.

(* a typable document: every field occurrence has a type, and the specification function never
   answers VUntyped *)
Section Typed.
  Variable s : schema.
  Variable d : document.
  Hypothesis Hops_t : forall o, In o (d_ops d) -> is_composite s (fst o) = true /\ typed_sels s (fst o) (snd o).
  Hypothesis Hfr_t : forall fd, In fd (d_frags d) ->
    is_composite s (fr_type fd) = true /\ typed_sels s (fr_type fd) (fr_body fd).

  Lemma indoc_typed p ss : InDoc s d p ss -> typed_sels s p ss.
  Proof.
    induction 1 as [o Ho|fd Hf|p f sub rest _ IH|p f sub rest t _ IH Ht|p i tc sub rest _ IH
                   |p i tc sub rest _ IH|p n rest _ IH]; cbn [typed_sels] in *.
    - apply Hops_t. exact Ho.
    - apply Hfr_t. exact Hf.
    - tauto.
    - destruct IH as [[t' [Ht' Hs]] _]. rewrite Ht in Ht'. inversion Ht'; subst. exact Hs.
    - tauto.
    - tauto.
    - exact IH.
  Qed.

  Lemma entry_typed x : EntryOk s d x -> exists t, ft s x = Some t.
  Proof.
    intros [rest Hr]. apply indoc_typed in Hr. cbn [typed_sels] in Hr.
    destruct Hr as [[t [Ht _]] _]. exists t. exact Ht.
  Qed.
  Lemma conf_not_untyped fuel : forall vis so a b, EntryOk s d a -> EntryOk s d b ->
    fst (conf s (d_frags d) (length (d_frags d)) fuel vis so a b) <> VUntyped.
  Proof.
    induction fuel as [|f IH]; intros vis so a b Oa Ob; cbn [conf]; [discriminate|].
    destruct (entry_typed a Oa) as [ta Ha]. destruct (entry_typed b Ob) as [tb Hb].
    rewrite conf_step_eq, Ha, Hb. cbv zeta.
    destruct (pkey_mem (f_id (e_fld a), f_id (e_fld b), so) vis); [discriminate|].
    destruct (direct s so a b ta tb); [discriminate|].
    destruct (merged d a b ta tb) as [l|] eqn:El; [|discriminate].
    pose proof (merged_entries s d a b ta tb l Oa Ob Ha Hb El) as Hl. rewrite Forall_forall in Hl.
    intro Hc. apply (pairs_hit _ _ _ VUntyped_not_no) in Hc as [x [y [v [Hbf Hf]]]]. destruct (before_in _ _ _ Hbf) as [Hx Hy].
    destruct (same_rname x y); [|discriminate].
    exact (IH v _ x y (Hl x Hx) (Hl y Hy) Hf).
  Qed.

  Lemma check_set_not_untyped p ss : InDoc s d p ss ->
    check_set s (d_frags d) (collect_fuel d) (depth_fuel d) p ss <> VUntyped.
  Proof.
    intro Hin. unfold check_set, collect_fuel.
    destruct (collect (d_frags d) (length (d_frags d)) p ss ([], [])) as [st|] eqn:Ec; [|discriminate].
    assert (Hst : Forall (EntryOk s d) (snd st)).
    { eapply collect_entries; [exact Hin| |exact Ec]. constructor. }
    rewrite Forall_forall in Hst.
    intro Hc. apply (pairs_hit _ _ _ VUntyped_not_no) in Hc as [x [y [v [Hbf Hf]]]]. destruct (before_in _ _ _ Hbf) as [Hx Hy].
    destruct (same_rname x y); [|discriminate].
    exact (conf_not_untyped _ v false x y (Hst x Hx) (Hst y Hy) Hf).
  Qed.

  Lemma walk_not_untyped chk : (forall p ss, InDoc s d p ss -> chk p ss <> VUntyped) ->
    forall ss p, InDoc s d p ss -> walk s chk p ss <> VUntyped.
  Proof.
    intros Hchk.
    induction ss as [|f sub IHsub rest IHrest|iid tc sub IHsub rest IHrest|n rest IHrest];
      intros p Hin; cbn [walk].
    - discriminate.
    - pose proof (indoc_typed _ _ Hin) as Ht. cbn [typed_sels] in Ht.
      destruct Ht as [[t [Hft _]] _]. rewrite Hft.
      assert (Hs : InDoc s d (named t) sub) by (eapply ID_field_sub; eauto).
      intro Hc. apply vjoin_eq in Hc as [Hc|Hc].
      + assert (Hj : vjoin (chk (named t) sub) (walk s chk (named t) sub) <> VUntyped).
        { intro Hj. apply vjoin_eq in Hj as [Hj|Hj]; [exact (Hchk _ _ Hs Hj) | exact (IHsub _ Hs Hj)]. }
        destruct sub; [discriminate| | |]; exact (Hj Hc).
      + revert Hc. apply IHrest. eapply ID_field_rest; eauto.
    - pose proof (indoc_typed _ _ Hin) as Ht. cbn [typed_sels] in Ht.
      destruct Ht as [Hc0 _]. rewrite Hc0.
      assert (Hs : InDoc s d (match tc with Some t => t | None => p end) sub) by (eapply ID_inline_sub; eauto).
      intro Hc. apply vjoin_eq in Hc as [Hc|Hc].
      + apply vjoin_eq in Hc as [Hc|Hc]; [exact (Hchk _ _ Hs Hc) | exact (IHsub _ Hs Hc)].
      + revert Hc. apply IHrest. eapply ID_inline_rest; eauto.
    - apply IHrest. eapply ID_spread_rest; eauto.
  Qed.

  Theorem typed_not_untyped : spec_verdict s d <> VUntyped.
  Proof.
    unfold spec_verdict.
    set (chk := check_set s (d_frags d) (collect_fuel d) (depth_fuel d)).
    assert (Hroot : forall p ss, InDoc s d p ss -> is_composite s p = true -> check_root s chk p ss <> VUntyped).
    { intros p ss Hin Hc. unfold check_root. rewrite Hc. intro H. apply vjoin_eq in H as [H|H].
      - exact (check_set_not_untyped p ss Hin H).
      - revert H. apply walk_not_untyped; auto. intros; apply check_set_not_untyped; auto. }
    intro Hc. apply vjoin_eq in Hc as [Hc|Hc].
    - apply (fold_vjoin_hit (fun o => check_root s chk (fst o) (snd o)) _ _ VUntyped_not_no) in Hc as [o [Ho Hc]].
      revert Hc. apply Hroot; [apply ID_op; exact Ho | apply Hops_t; exact Ho].
    - apply (fold_vjoin_hit (fun fd => check_root s chk (fr_type fd) (fr_body fd)) _ _ VUntyped_not_no) in Hc
        as [fd [Hf Hc]].
      revert Hc. apply Hroot; [apply ID_frag; exact Hf | apply Hfr_t; exact Hf].
  Qed.
End Typed.
