(* The specification function of Valid/Overlap.v (a search with a visited set) computes the
   declarative reading of FieldsInSetCanMerge / SameResponseShape: a conflict is a finite
   derivation (a chain of nested field pairs ending in a direct conflict). *)
From GV Require Import Base.Prelude Base.ListFacts Valid.Overlap Valid.OverlapProps.

Inductive before {A} (x y : A) : list A -> Prop :=
| before_here l : In y l -> before x y (x :: l)
| before_later z l : before x y l -> before x y (z :: l).

Lemma before_in {A} (x y : A) l : before x y l -> In x l /\ In y l.
Proof. induction 1; cbn; intuition. Qed.

Lemma before_cons_inv {A} (a b x : A) r : before a b (x :: r) -> (a = x /\ In b r) \/ before a b r.
Proof. intro H. inversion H; subst; auto. Qed.

Lemma before_filter {A} (f : A -> bool) x y l :
  before x y l -> f x = true -> f y = true -> before x y (filter f l).
Proof.
  induction 1 as [l Hy|z l Hb IH]; intros Hx Hy'; cbn [filter].
  - rewrite Hx. constructor. apply filter_In. auto.
  - destruct (f z); [constructor|]; auto.
Qed.

Lemma before_filter_inv {A} (f : A -> bool) x y l :
  before x y (filter f l) -> before x y l /\ f x = true /\ f y = true.
Proof.
  induction l as [|z l IH]; cbn [filter]; intro H; [inversion H|].
  assert (Hrec : before x y (filter f l) -> before x y (z :: l) /\ f x = true /\ f y = true).
  { intro Hb. destruct (IH Hb) as [I1 I2]. split; [constructor; exact I1 | exact I2]. }
  destruct (f z) eqn:E; [|exact (Hrec H)].
  apply before_cons_inv in H as [[-> Hi]|Hb]; [|exact (Hrec Hb)].
  apply filter_In in Hi as [Hi1 Hi2]. repeat split; auto. constructor. exact Hi1.
Qed.

Lemma before_tricho {A} (x y : A) l : In x l -> In y l -> x = y \/ before x y l \/ before y x l.
Proof.
  induction l as [|z l IH]; intros Hx Hy; [contradiction|].
  destruct Hx as [->|Hx], Hy as [->|Hy]; auto.
  - right. left. constructor. exact Hy.
  - right. right. constructor. exact Hx.
  - destruct (IH Hx Hy) as [H|[H|H]]; auto; right; [left|right]; constructor; exact H.
Qed.

Lemma before_app_cross {A} (x y : A) l1 l2 : In x l1 -> In y l2 -> before x y (l1 ++ l2).
Proof.
  induction l1 as [|z l1 IH]; intros Hx Hy; [contradiction|]. cbn [app].
  destruct Hx as [->|Hx].
  - constructor. apply in_or_app. right. exact Hy.
  - constructor. apply IH; auto.
Qed.

Lemma before_app_inv {A} (x y : A) l1 l2 :
  before x y (l1 ++ l2) -> before x y l1 \/ before x y l2 \/ (In x l1 /\ In y l2).
Proof.
  induction l1 as [|z l1 IH]; cbn [app]; intro H; auto.
  apply before_cons_inv in H as [[-> Hy]|H].
  - apply in_app_or in Hy as [Hy|Hy].
    + left. constructor. exact Hy.
    + right. right. split; [left; reflexivity | exact Hy].
  - destruct (IH H) as [H1|[H1|[H1 H2]]].
    + left. constructor. exact H1.
    + auto.
    + right. right. split; [right|]; auto.
Qed.

Lemma row_hit {A S} (f : S -> A -> verdict * S) v l : v <> VNo -> forall st,
  fst (row f st l) = v -> exists y st', In y l /\ fst (f st' y) = v.
Proof.
  intro Hv. induction l as [|y r IH]; intros st H; cbn [row] in H.
  - cbn in H. congruence.
  - destruct (f st y) as [v1 st1] eqn:E1. destruct (row f st1 r) as [v2 st2] eqn:E2.
    cbn [fst] in H. apply vjoin_eq in H as [->| ->].
    + exists y, st. rewrite E1. cbn. auto.
    + destruct (IH st1) as [y' [st' [Hy Hf]]]; [rewrite E2; reflexivity|].
      exists y', st'. cbn. auto.
Qed.

Lemma pairs_hit {A S} (f : S -> A -> A -> verdict * S) v l : v <> VNo -> forall st,
  fst (pairs f st l) = v -> exists x y st', before x y l /\ fst (f st' x y) = v.
Proof.
  intro Hv. induction l as [|x r IH]; intros st H; cbn [pairs] in H.
  - cbn in H. congruence.
  - destruct (row (fun st y => f st x y) st r) as [v1 st1] eqn:E1.
    destruct (pairs f st1 r) as [v2 st2] eqn:E2.
    cbn [fst] in H. apply vjoin_eq in H as [->| ->].
    + destruct (row_hit (fun st y => f st x y) v r Hv st) as [y [st' [Hy Hf]]]; [rewrite E1; reflexivity|].
      exists x, y, st'. split; auto. constructor. exact Hy.
    + destruct (IH st1) as [x' [y' [st' [Hb Hf]]]]; [rewrite E2; reflexivity|].
      exists x', y', st'. split; auto. constructor. exact Hb.
Qed.

Lemma VConflict_not_no : VConflict <> VNo.
Proof. discriminate. Qed.

(* threading lemma for the completeness direction: [T x y V] = the pair (x,y) is accounted for in
   V, [C V k] = k is closed with respect to V; both monotone in V *)
Section Closure.
  Context {A K : Type}.
  Variable K_dec : forall a b : K, {a = b} + {a <> b}.
  Variable T : A -> A -> list K -> Prop.
  Variable C : list K -> K -> Prop.
  Hypothesis T_mono : forall x y V V', incl V V' -> T x y V -> T x y V'.
  Hypothesis C_mono : forall k V V', incl V V' -> C V k -> C V' k.

  Definition step_ok (v : list K) (x y : A) (r : verdict * list K) : Prop :=
    incl v (snd r) /\ (fst r = VNo -> T x y (snd r) /\ forall k, In k (snd r) -> ~ In k v -> C (snd r) k).

  Lemma row_closure (f : list K -> A -> verdict * list K) x l :
    (forall v y, In y l -> step_ok v x y (f v y)) ->
    forall st, incl st (snd (row f st l)) /\
      (fst (row f st l) = VNo ->
       (forall y, In y l -> T x y (snd (row f st l))) /\
       forall k, In k (snd (row f st l)) -> ~ In k st -> C (snd (row f st l)) k).
  Proof.
    induction l as [|y r IH]; intros H st; cbn [row].
    - cbn. split; [apply incl_refl|]. intros _. split; [intros ? []|]. intros k Hk Hn. contradiction.
    - destruct (H st y (or_introl eq_refl)) as [S1 S2].
      destruct (f st y) as [v1 st1]. cbn [fst snd] in S1, S2.
      destruct (IH (fun v y' Hy => H v y' (or_intror Hy)) st1) as [R1 R2].
      destruct (row f st1 r) as [v2 st2]. cbn [fst snd] in *.
      split; [eapply incl_tran; eauto|].
      intro Hv. apply vjoin_no in Hv as [-> ->].
      destruct (S2 eq_refl) as [S3 S4]. destruct (R2 eq_refl) as [R3 R4].
      split.
      + intros y' [<-|Hy]; [eapply T_mono; eauto | apply R3; exact Hy].
      + intros k Hk Hn. destruct (in_dec K_dec k st1) as [Hi|Hi].
        * eapply C_mono; [exact R1|]. apply S4; assumption.
        * apply R4; assumption.
  Qed.

  Lemma pairs_closure (f : list K -> A -> A -> verdict * list K) l :
    (forall v x y, In x l -> In y l -> step_ok v x y (f v x y)) ->
    forall st, incl st (snd (pairs f st l)) /\
      (fst (pairs f st l) = VNo ->
       (forall x y, before x y l -> T x y (snd (pairs f st l))) /\
       forall k, In k (snd (pairs f st l)) -> ~ In k st -> C (snd (pairs f st l)) k).
  Proof.
    induction l as [|x r IH]; intros H st; cbn [pairs].
    - cbn. split; [apply incl_refl|]. intros _. split; [intros ? ? Hb; inversion Hb|].
      intros k Hk Hn. contradiction.
    - destruct (row_closure (fun v y => f v x y) x r
                  (fun v y Hy => H v x y (or_introl eq_refl) (or_intror Hy)) st) as [R1 R2].
      destruct (row (fun v y => f v x y) st r) as [v1 st1]. cbn [fst snd] in R1, R2.
      destruct (IH (fun v x' y' Hx Hy => H v x' y' (or_intror Hx) (or_intror Hy)) st1) as [P1 P2].
      destruct (pairs f st1 r) as [v2 st2]. cbn [fst snd] in *.
      split; [eapply incl_tran; eauto|].
      intro Hv. apply vjoin_no in Hv as [-> ->].
      destruct (R2 eq_refl) as [R3 R4]. destruct (P2 eq_refl) as [P3 P4].
      split.
      + intros x' y' Hb. inversion Hb; subst.
        * eapply T_mono; [exact P1|]. apply R3. assumption.
        * apply P3. assumption.
      + intros k Hk Hn. destruct (in_dec K_dec k st1) as [Hi|Hi].
        * eapply C_mono; [exact P1|]. apply R4; assumption.
        * apply P4; assumption.
  Qed.
End Closure.

Section Spec.
  Variable s : schema.
  Variable d : document.
  Notation frags := (d_frags d).
  Notation cf := (length (d_frags d)).

  Definition ft (e : entry) : option ty := field_type s (e_parent e) (f_name (e_fld e)).

  (* "the parent types are different Object types" or an enclosing pair already was *)
  Definition excl_of (so : bool) (a b : entry) : bool :=
    so || (negb (e_parent a =? e_parent b) && is_object s (e_parent a) && is_object s (e_parent b)).

  (* the pair cannot be merged by itself: different field / arguments (unless exclusive), or
     different response shapes of the return types *)
  Definition direct (so : bool) (a b : entry) (ta tb : ty) : bool :=
    (negb (excl_of so a b)
     && (negb (f_name (e_fld a) =? f_name (e_fld b)) || negb (args_same (f_args (e_fld a)) (f_args (e_fld b)))))
    || shape_conflict s ta tb.

  (* mergedSet with fragments visited once *)
  Definition merged (a b : entry) (ta tb : ty) : option (list entry) :=
    match collect frags cf (named ta) (e_sub a) ([], []) with
    | None => None
    | Some st1 => match collect frags cf (named tb) (e_sub b) st1 with
                  | None => None
                  | Some st2 => Some (snd st2)
                  end
    end.

  (* fieldA and fieldB (same response name) cannot be merged; [so] = only SameResponseShape is required *)
  Inductive Conf : bool -> entry -> entry -> Prop :=
  | Conf_direct so a b ta tb :
      ft a = Some ta -> ft b = Some tb -> direct so a b ta tb = true -> Conf so a b
  | Conf_nested so a b ta tb l x y :
      ft a = Some ta -> ft b = Some tb -> direct so a b ta tb = false ->
      merged a b ta tb = Some l -> before x y l -> same_rname x y = true ->
      Conf (excl_of so a b) x y -> Conf so a b.

  (* FieldsInSetCanMerge(set) is false *)
  Definition SetConf (p : N) (ss : sels) : Prop :=
    exists st x y, collect frags cf p ss ([], []) = Some st /\
                   before x y (snd st) /\ same_rname x y = true /\ Conf false x y.

  Lemma conf_step_eq rec vis so a b :
    conf_step s frags cf rec vis so a b =
    let k := (f_id (e_fld a), f_id (e_fld b), so) in
    if pkey_mem k vis then (VNo, vis)
    else match ft a, ft b with
         | Some ta, Some tb =>
           if direct so a b ta tb then (VConflict, k :: vis)
           else match merged a b ta tb with
                | None => (VFuel, k :: vis)
                | Some l => pairs (fun v x y => if same_rname x y then rec v (excl_of so a b) x y else (VNo, v))
                                  (k :: vis) l
                end
         | _, _ => (VUntyped, k :: vis)
         end.
  Proof.
    unfold conf_step, ft. cbv zeta. destruct (pkey_mem _ vis); [reflexivity|].
    destruct (field_type s (e_parent a) (f_name (e_fld a))) as [ta|]; [|reflexivity].
    destruct (field_type s (e_parent b) (f_name (e_fld b))) as [tb|]; [|reflexivity].
    unfold direct, merged, excl_of.
    destruct (negb _ && _); cbn [orb]; [reflexivity|].
    destruct (shape_conflict s ta tb); [reflexivity|].
    destruct (collect frags cf (named ta) (e_sub a) ([], [])) as [st1|]; [|reflexivity].
    destruct (collect frags cf (named tb) (e_sub b) st1) as [st2|]; reflexivity.
  Qed.

  Lemma conf_sound fuel : forall vis so a b,
    fst (conf s frags cf fuel vis so a b) = VConflict -> Conf so a b.
  Proof.
    induction fuel as [|f IH]; intros vis so a b H; cbn [conf] in H.
    - discriminate.
    - rewrite conf_step_eq in H. cbv zeta in H.
      destruct (pkey_mem (f_id (e_fld a), f_id (e_fld b), so) vis); [discriminate|].
      destruct (ft a) as [ta|] eqn:Ea; [|discriminate]. destruct (ft b) as [tb|] eqn:Eb; [|discriminate].
      destruct (direct so a b ta tb) eqn:Ed.
      + eapply Conf_direct; eauto.
      + destruct (merged a b ta tb) as [l|] eqn:El; [|discriminate].
        apply (pairs_hit _ _ _ VConflict_not_no) in H as [x [y [v [Hb Hf]]]].
        destruct (same_rname x y) eqn:Er; [|discriminate].
        eapply Conf_nested; eauto.
  Qed.

  Theorem check_set_sound p ss : check_set s frags cf (depth_fuel d) p ss = VConflict -> SetConf p ss.
  Proof.
    unfold check_set. destruct (collect frags cf p ss ([], [])) as [st|] eqn:Ec; [|discriminate].
    intro H. apply (pairs_hit _ _ _ VConflict_not_no) in H as [x [y [v [Hb Hf]]]].
    destruct (same_rname x y) eqn:Er; [|discriminate].
    exists st, x, y. repeat split; auto. eapply conf_sound. exact Hf.
  Qed.

  Inductive InDoc : N -> sels -> Prop :=
  | ID_op o : In o (d_ops d) -> InDoc (fst o) (snd o)
  | ID_frag fd : In fd frags -> InDoc (fr_type fd) (fr_body fd)
  | ID_field_rest p f sub rest : InDoc p (SelField f sub rest) -> InDoc p rest
  | ID_field_sub p f sub rest t :
      InDoc p (SelField f sub rest) -> field_type s p (f_name f) = Some t -> InDoc (named t) sub
  | ID_inline_rest p i tc sub rest : InDoc p (SelInline i tc sub rest) -> InDoc p rest
  | ID_inline_sub p i tc sub rest :
      InDoc p (SelInline i tc sub rest) -> InDoc (match tc with Some t => t | None => p end) sub
  | ID_spread_rest p n rest : InDoc p (SelSpread n rest) -> InDoc p rest.

  Definition EntryOk (e : entry) : Prop :=
    exists rest, InDoc (e_parent e) (SelField (e_fld e) (e_sub e) rest).

  Lemma collect_entries fuel p ss st st' : InDoc p ss -> Forall EntryOk (snd st) ->
    collect frags fuel p ss st = Some st' -> Forall EntryOk (snd st').
  Proof.
    apply (collect_keeps frags InDoc EntryOk).
    - intros q f sub rest H. split; [exists rest; exact H | eapply ID_field_rest; eauto].
    - intros q i tc sub rest H. split; [eapply ID_inline_sub | eapply ID_inline_rest]; eauto.
    - intros q n rest H. eapply ID_spread_rest; eauto.
    - apply ID_frag.
  Qed.

  Lemma merged_entries a b ta tb l :
    EntryOk a -> EntryOk b -> ft a = Some ta -> ft b = Some tb -> merged a b ta tb = Some l ->
    Forall EntryOk l.
  Proof.
    intros [ra Ha] [rb Hb] Hta Htb H. unfold merged in H.
    destruct (collect frags cf (named ta) (e_sub a) ([], [])) as [st1|] eqn:E1; [|discriminate].
    destruct (collect frags cf (named tb) (e_sub b) st1) as [st2|] eqn:E2; [|discriminate].
    inversion H; subst.
    eapply collect_entries; [|
      eapply collect_entries; [| |exact E1]|exact E2].
    - eapply ID_field_sub; [exact Hb|exact Htb].
    - eapply ID_field_sub; [exact Ha|exact Hta].
    - constructor.
  Qed.

  (* Completeness: the search misses no derivation, provided ids identify field occurrences. *)
  Hypothesis Hid : forall e e', EntryOk e -> EntryOk e' -> f_id (e_fld e) = f_id (e_fld e') -> e = e'.

  Definition key (so : bool) (a b : entry) : N * N * bool := (f_id (e_fld a), f_id (e_fld b), so).

  (* a visited pair that neither conflicts directly nor has an unvisited nested pair *)
  Definition closed (V : list (N * N * bool)) (k : N * N * bool) : Prop :=
    forall so a b, EntryOk a -> EntryOk b -> key so a b = k ->
      exists ta tb l, ft a = Some ta /\ ft b = Some tb /\ direct so a b ta tb = false /\
                      merged a b ta tb = Some l /\
                      forall x y, before x y l -> same_rname x y = true -> In (key (excl_of so a b) x y) V.

  Lemma closed_mono k V V' : incl V V' -> closed V k -> closed V' k.
  Proof.
    intros Hi Hc so a b Ha Hb Hk. destruct (Hc so a b Ha Hb Hk) as [ta [tb [l [H1 [H2 [H3 [H4 H5]]]]]]].
    exists ta, tb, l. repeat split; auto.
  Qed.

  Definition pkey_dec : forall a b : N * N * bool, {a = b} + {a <> b}.
  Proof. decide equality; [apply Bool.bool_dec | decide equality; apply N.eq_dec]. Defined.

  Lemma conf_complete fuel : forall vis so a b, EntryOk a -> EntryOk b ->
    let r := conf s frags cf fuel vis so a b in
    incl vis (snd r) /\
    (fst r = VNo -> In (key so a b) (snd r) /\ forall k, In k (snd r) -> ~ In k vis -> closed (snd r) k).
  Proof.
    induction fuel as [|f IH]; intros vis so a b Ha Hb; cbn zeta; cbn [conf].
    - cbn. split; [apply incl_refl | discriminate].
    - rewrite conf_step_eq. cbv zeta.
      destruct (pkey_mem (f_id (e_fld a), f_id (e_fld b), so) vis) eqn:Em.
      { cbn [fst snd]. split; [apply incl_refl|]. intros _.
        split; [apply pkey_mem_In; exact Em|]. intros k Hk Hn. contradiction. }
      destruct (ft a) as [ta|] eqn:Ea; [|cbn [fst snd]; split; [apply incl_tl, incl_refl | discriminate]].
      destruct (ft b) as [tb|] eqn:Eb; [|cbn [fst snd]; split; [apply incl_tl, incl_refl | discriminate]].
      destruct (direct so a b ta tb) eqn:Ed.
      { cbn [fst snd]. split; [apply incl_tl, incl_refl | discriminate]. }
      destruct (merged a b ta tb) as [l|] eqn:El.
      2:{ cbn [fst snd]. split; [apply incl_tl, incl_refl | discriminate]. }
      pose proof (merged_entries a b ta tb l Ha Hb Ea Eb El) as Hl. rewrite Forall_forall in Hl.
      set (k0 := (f_id (e_fld a), f_id (e_fld b), so)).
      set (g := fun v x y => if same_rname x y then conf s frags cf f v (excl_of so a b) x y else (VNo, v)).
      destruct (pairs_closure pkey_dec
                  (fun x y V => same_rname x y = true -> In (key (excl_of so a b) x y) V)
                  closed
                  (fun x y V V' Hi HT Hr => Hi _ (HT Hr))
                  closed_mono g l) with (st := k0 :: vis) as [P1 P2].
      { intros v x y Hx Hy. unfold step_ok, g. destruct (same_rname x y) eqn:Er.
        - destruct (IH v (excl_of so a b) x y (Hl x Hx) (Hl y Hy)) as [I1 I2]. split; auto.
          intro Hv. destruct (I2 Hv) as [I3 I4]. split; auto.
        - cbn [fst snd]. split; [apply incl_refl|]. intros _. split; [discriminate|].
          intros k Hk Hn. contradiction. }
      split.
      + intros z Hz. apply P1. right. exact Hz.
      + intro Hv. destruct (P2 Hv) as [P3 P4]. split.
        * apply P1. left. reflexivity.
        * intros k Hk Hn. destruct (pkey_dec k k0) as [->|Hne].
          -- (* the pair itself is closed *)
             intros so' a' b' Ha' Hb' Hk'. unfold key, k0 in Hk'. inversion Hk'; subst so'.
             assert (a' = a) by (apply Hid; auto). assert (b' = b) by (apply Hid; auto). subst a' b'.
             exists ta, tb, l. repeat split; auto.
          -- apply P4; auto. intros [Hc|Hc]; [congruence | contradiction].
  Qed.

  (* a closed visited set contains no pair with a derivation *)
  Lemma closed_no_conf V : (forall k, In k V -> closed V k) ->
    forall so a b, Conf so a b -> EntryOk a -> EntryOk b -> In (key so a b) V -> False.
  Proof.
    intros HV so a b H. induction H as [so a b ta tb Ha Hb Hd | so a b ta tb l x y Ha Hb Hd Hm Hbf Hr Hc IH];
      intros Hoa Hob Hin.
    - destruct (HV _ Hin so a b Hoa Hob eq_refl) as [ta' [tb' [l [H1 [H2 [H3 _]]]]]].
      rewrite Ha in H1. rewrite Hb in H2. inversion H1; inversion H2; subst. congruence.
    - destruct (HV _ Hin so a b Hoa Hob eq_refl) as [ta' [tb' [l' [H1 [H2 [H3 [H4 H5]]]]]]].
      rewrite Ha in H1. rewrite Hb in H2. inversion H1; inversion H2; subst ta' tb'.
      rewrite Hm in H4. inversion H4; subst l'.
      pose proof (merged_entries a b ta tb l Hoa Hob Ha Hb Hm) as Hl. rewrite Forall_forall in Hl.
      destruct (before_in x y l Hbf) as [Hx Hy].
      apply IH; auto.
  Qed.

  Theorem check_set_complete p ss :
    InDoc p ss -> SetConf p ss -> check_set s frags cf (depth_fuel d) p ss <> VNo.
  Proof.
    intros Hin [st [x [y [Hc [Hb [Hr Hconf]]]]]] Hv. unfold check_set in Hv. rewrite Hc in Hv.
    assert (Hst : Forall EntryOk (snd st)).
    { eapply collect_entries; [exact Hin| |exact Hc]. constructor. }
    rewrite Forall_forall in Hst.
    set (g := fun v x y => if same_rname x y then conf s frags cf (depth_fuel d) v false x y else (VNo, v)) in *.
    destruct (pairs_closure pkey_dec
                (fun x y V => same_rname x y = true -> In (key false x y) V)
                closed
                (fun x y V V' Hi HT Hr => Hi _ (HT Hr))
                closed_mono g (snd st)) with (st := @nil (N * N * bool)) as [P1 P2].
    { intros v x' y' Hx Hy. unfold step_ok, g. destruct (same_rname x' y') eqn:Er.
      - destruct (conf_complete (depth_fuel d) v false x' y' (Hst x' Hx) (Hst y' Hy)) as [I1 I2]. split; auto.
        intro Hv'. destruct (I2 Hv') as [I3 I4]. split; auto.
      - cbn [fst snd]. split; [apply incl_refl|]. intros _. split; [discriminate|].
        intros k Hk Hn. contradiction. }
    destruct (P2 Hv) as [P3 P4].
    destruct (before_in x y (snd st) Hb) as [Hx Hy].
    eapply (closed_no_conf (snd (pairs g [] (snd st)))); eauto.
  Qed.
End Spec.

Section Doc.
  Variable s : schema.
  Variable d : document.
  Notation frags := (d_frags d).

  (* the selection sets below (p, ss) on which the rule is evaluated, with the type they apply to *)
  Fixpoint checked_sets (p : N) (ss : sels) : list (N * sels) :=
    match ss with
    | SelNil => []
    | SelField f sub rest =>
      (match field_type s p (f_name f) with
       | None => []
       | Some t => match sub with
                   | SelNil => []
                   | _ => (named t, sub) :: checked_sets (named t) sub
                   end
       end) ++ checked_sets p rest
    | SelInline _ tc sub rest =>
      let p' := match tc with Some t => t | None => p end in
      (if is_composite s p' then (p', sub) :: checked_sets p' sub else []) ++ checked_sets p rest
    | SelSpread _ rest => checked_sets p rest
    end.

  Definition root_sets (p : N) (ss : sels) : list (N * sels) :=
    if is_composite s p then (p, ss) :: checked_sets p ss else [].

  (* "any selection set defined in the GraphQL document" *)
  Definition doc_sets : list (N * sels) :=
    flat_map (fun o => root_sets (fst o) (snd o)) (d_ops d) ++
    flat_map (fun fd => root_sets (fr_type fd) (fr_body fd)) frags.

  Definition DocConf : Prop := exists p ss, In (p, ss) doc_sets /\ SetConf s d p ss.

  Lemma walk_no chk : forall ss p, walk s chk p ss = VNo ->
    forall q t, In (q, t) (checked_sets p ss) -> chk q t = VNo.
  Proof.
    induction ss as [|f sub IHsub rest IHrest|iid tc sub IHsub rest IHrest|n rest IHrest];
      intros p H q t Hin; cbn [walk checked_sets] in *.
    - contradiction.
    - apply vjoin_no in H as [H1 H2]. apply in_app_or in Hin as [Hin|Hin]; [|eapply IHrest; eauto].
      destruct (field_type s p (f_name f)) as [ty|]; [|contradiction].
      (* a field without sub-selection contributes no set; the other three shapes of sub alike *)
      assert (Hsub : vjoin (chk (named ty) sub) (walk s chk (named ty) sub) = VNo ->
                In (q, t) ((named ty, sub) :: checked_sets (named ty) sub) -> chk q t = VNo).
      { intros Hj Hi. apply vjoin_no in Hj as [H3 H4]. destruct Hi as [Hi|Hi].
        - inversion Hi; subst. exact H3.
        - eapply IHsub; eauto. }
      destruct sub; [contradiction| | |]; exact (Hsub H1 Hin).
    - apply vjoin_no in H as [H1 H2]. apply in_app_or in Hin as [Hin|Hin]; [|eapply IHrest; eauto].
      destruct (is_composite s match tc with Some t0 => t0 | None => p end); [|contradiction].
      apply vjoin_no in H1 as [H3 H4]. destruct Hin as [Hin|Hin];
        [inversion Hin; subst; exact H3 | eapply IHsub; eauto].
    - eapply IHrest; eauto.
  Qed.

  Lemma walk_hit chk v : v <> VNo -> v <> VUntyped -> forall ss p, walk s chk p ss = v ->
    exists q t, In (q, t) (checked_sets p ss) /\ chk q t = v.
  Proof.
    intros Hn Hu.
    induction ss as [|f sub IHsub rest IHrest|iid tc sub IHsub rest IHrest|n rest IHrest];
      intros p H; cbn [walk checked_sets] in *.
    - congruence.
    - apply vjoin_eq in H as [H|H].
      + destruct (field_type s p (f_name f)) as [ty|]; [|congruence].
        assert (Hsub : vjoin (chk (named ty) sub) (walk s chk (named ty) sub) = v ->
                  exists q t, In (q, t) ((named ty, sub) :: checked_sets (named ty) sub) /\ chk q t = v).
        { intro Hj. apply vjoin_eq in Hj as [Hj|Hj].
          - exists (named ty), sub. split; [left; reflexivity | exact Hj].
          - destruct (IHsub _ Hj) as [q [t [Hi Hc]]]. exists q, t. split; [right; exact Hi | exact Hc]. }
        assert (Hin : exists q t, In (q, t) (match sub with
                                             | SelNil => []
                                             | _ => (named ty, sub) :: checked_sets (named ty) sub
                                             end) /\ chk q t = v)
          by (destruct sub; [congruence| | |]; exact (Hsub H)).
        destruct Hin as [q [t [Hi Hc]]]. exists q, t. split; [apply in_or_app; left; exact Hi | exact Hc].
      + destruct (IHrest _ H) as [q [t [Hi Hc]]]. exists q, t. split; auto. apply in_or_app. right. exact Hi.
    - apply vjoin_eq in H as [H|H].
      + destruct (is_composite s match tc with Some t0 => t0 | None => p end); [|congruence].
        apply vjoin_eq in H as [H|H].
        * eexists; eexists; split; [apply in_or_app; left; left; reflexivity | exact H].
        * destruct (IHsub _ H) as [q [t [Hi Hc]]]. exists q, t. split; auto.
          apply in_or_app. left. right. exact Hi.
      + destruct (IHrest _ H) as [q [t [Hi Hc]]]. exists q, t. split; auto. apply in_or_app. right. exact Hi.
    - apply IHrest. exact H.
  Qed.

  Lemma checked_sets_indoc : forall ss p q t,
    InDoc s d p ss -> In (q, t) (checked_sets p ss) -> InDoc s d q t.
  Proof.
    induction ss as [|f sub IHsub rest IHrest|iid tc sub IHsub rest IHrest|n rest IHrest];
      intros p q t Hd Hin; cbn [checked_sets] in Hin.
    - contradiction.
    - apply in_app_or in Hin as [Hin|Hin].
      + destruct (field_type s p (f_name f)) as [ty|] eqn:Et; [|contradiction].
        assert (Hs : InDoc s d (named ty) sub) by (eapply ID_field_sub; eauto).
        destruct sub; [contradiction| | |];
          (destruct Hin as [Hin|Hin]; [inversion Hin; subst; exact Hs | eapply IHsub; eauto]).
      + eapply IHrest; [eapply ID_field_rest; eauto | exact Hin].
    - apply in_app_or in Hin as [Hin|Hin].
      + assert (Hs : InDoc s d (match tc with Some t0 => t0 | None => p end) sub) by (eapply ID_inline_sub; eauto).
        destruct (is_composite s match tc with Some t0 => t0 | None => p end); [|contradiction].
        destruct Hin as [Hin|Hin]; [inversion Hin; subst; exact Hs | eapply IHsub; eauto].
      + eapply IHrest; [eapply ID_inline_rest; eauto | exact Hin].
    - eapply IHrest; [eapply ID_spread_rest; eauto | exact Hin].
  Qed.

  Lemma doc_sets_indoc p ss : In (p, ss) doc_sets -> InDoc s d p ss.
  Proof.
    unfold doc_sets, root_sets. intro H. apply in_app_or in H as [H|H]; apply in_flat_map in H as [x [Hx H]].
    - destruct (is_composite s (fst x)); [|contradiction].
      destruct H as [H|H]; [inversion H; subst; apply ID_op; exact Hx|].
      eapply checked_sets_indoc; [apply ID_op; exact Hx | exact H].
    - destruct (is_composite s (fr_type x)); [|contradiction].
      destruct H as [H|H]; [inversion H; subst; apply ID_frag; exact Hx|].
      eapply checked_sets_indoc; [apply ID_frag; exact Hx | exact H].
  Qed.

  Let chk := check_set s frags (collect_fuel d) (depth_fuel d).

  Lemma spec_verdict_hit v : v <> VNo -> v <> VUntyped -> spec_verdict s d = v ->
    exists q t, In (q, t) doc_sets /\ chk q t = v.
  Proof.
    intros Hn Hu Ev. unfold spec_verdict in Ev. fold chk in Ev.
    assert (Hroot : forall p ss, check_root s chk p ss = v ->
              exists q t, In (q, t) (root_sets p ss) /\ chk q t = v).
    { unfold check_root, root_sets. intros p ss H. destruct (is_composite s p); [|congruence].
      apply vjoin_eq in H as [H|H]; [exists p, ss; split; [left; reflexivity | exact H]|].
      destruct (walk_hit chk v Hn Hu ss p H) as [q [t [Hi Hc]]]. exists q, t. split; [right; exact Hi | exact Hc]. }
    unfold doc_sets. apply vjoin_eq in Ev as [Ev|Ev].
    - apply (fold_vjoin_hit (fun o => check_root s chk (fst o) (snd o)) _ v Hn) in Ev as [o [Ho Hc]].
      destruct (Hroot _ _ Hc) as [q [t [Hi Hq]]]. exists q, t. split; [|exact Hq].
      apply in_or_app. left. apply in_flat_map. exists o. auto.
    - apply (fold_vjoin_hit (fun fd => check_root s chk (fr_type fd) (fr_body fd)) _ v Hn) in Ev as [fd [Hf Hc]].
      destruct (Hroot _ _ Hc) as [q [t [Hi Hq]]]. exists q, t. split; [|exact Hq].
      apply in_or_app. right. apply in_flat_map. exists fd. auto.
  Qed.

  Lemma spec_verdict_no : spec_verdict s d = VNo -> forall q t, In (q, t) doc_sets -> chk q t = VNo.
  Proof.
    intros Ev q t Hin. unfold spec_verdict in Ev. fold chk in Ev. apply vjoin_no in Ev as [E1 E2].
    assert (Hroot : forall p ss, check_root s chk p ss = VNo -> In (q, t) (root_sets p ss) -> chk q t = VNo).
    { unfold check_root, root_sets. intros p ss H Hi. destruct (is_composite s p); [|discriminate].
      apply vjoin_no in H as [H1 H2]. destruct Hi as [Hi|Hi]; [inversion Hi; subst; exact H1 | eapply walk_no; eauto]. }
    unfold doc_sets in Hin. apply in_app_or in Hin as [Hin|Hin]; apply in_flat_map in Hin as [x [Hx Hin]].
    - exact (Hroot _ _ (fold_vjoin_no (fun o => check_root s chk (fst o) (snd o)) _ E1 x Hx) Hin).
    - exact (Hroot _ _ (fold_vjoin_no (fun fd => check_root s chk (fr_type fd) (fr_body fd)) _ E2 x Hx) Hin).
  Qed.

  Theorem spec_sound : spec_conflicts s d = true -> DocConf.
  Proof.
    unfold spec_conflicts. destruct (spec_verdict s d) eqn:Ev; try discriminate. intros _.
    destruct (spec_verdict_hit VConflict ltac:(discriminate) ltac:(discriminate) Ev) as [q [t [Hi Hq]]].
    exists q, t. split; [exact Hi | apply check_set_sound; exact Hq].
  Qed.
End Doc.

Section Ids.
  Variable s : schema.
  Variable d : document.

  Fixpoint occ (p : N) (ss : sels) : list entry :=
    match ss with
    | SelNil => []
    | SelField f sub rest =>
      mkEntry p f sub ::
      occ (match field_type s p (f_name f) with Some t => named t | None => 0 end) sub ++ occ p rest
    | SelInline _ tc sub rest => occ (match tc with Some t => t | None => p end) sub ++ occ p rest
    | SelSpread _ rest => occ p rest
    end.

  Definition efid (e : entry) : N := f_id (e_fld e).

  Lemma occ_fids : forall ss p, map efid (occ p ss) = fids_sels ss.
  Proof.
    induction ss as [|f sub IHsub rest IHrest|iid tc sub IHsub rest IHrest|n rest IHrest];
      intro p; cbn [occ fids_sels map]; auto.
    - rewrite map_app, IHsub, IHrest. reflexivity.
    - rewrite map_app, IHsub, IHrest. reflexivity.
  Qed.

  Definition doc_occ : list entry :=
    flat_map (fun o => occ (fst o) (snd o)) (d_ops d) ++
    flat_map (fun fd => occ (fr_type fd) (fr_body fd)) (d_frags d).

  Lemma doc_occ_fids : map efid doc_occ = doc_fids d.
  Proof.
    unfold doc_occ, doc_fids. rewrite map_app, !map_flat_map. f_equal.
    - apply flat_map_ext. intro o. apply occ_fids.
    - apply flat_map_ext. intro fd. apply occ_fids.
  Qed.

  Lemma indoc_occ p ss : InDoc s d p ss -> incl (occ p ss) doc_occ.
  Proof.
    induction 1 as [o Ho|fd Hf|p f sub rest _ IH|p f sub rest t _ IH Ht|p i tc sub rest _ IH
                   |p i tc sub rest _ IH|p n rest _ IH]; intros e He.
    - unfold doc_occ. apply in_or_app. left. apply in_flat_map. exists o. auto.
    - unfold doc_occ. apply in_or_app. right. apply in_flat_map. exists fd. auto.
    - apply IH. cbn [occ]. right. apply in_or_app. right. exact He.
    - apply IH. cbn [occ]. rewrite Ht. right. apply in_or_app. left. exact He.
    - apply IH. cbn [occ]. apply in_or_app. right. exact He.
    - apply IH. cbn [occ]. apply in_or_app. left. exact He.
    - apply IH. exact He.
  Qed.

  Lemma indoc_fids p ss : InDoc s d p ss -> incl (fids_sels ss) (doc_fids d).
  Proof.
    intros H x Hx. rewrite <- doc_occ_fids. rewrite <- (occ_fids ss p) in Hx.
    apply in_map_iff in Hx as [e [<- He]]. apply in_map. exact (indoc_occ p ss H e He).
  Qed.

  Lemma nodupb_NoDup l : nodupb l = true -> NoDup l.
  Proof.
    induction l as [|x l IH]; cbn; intro H; constructor.
    - apply andb_true_iff in H as [H _]. intro Hc. apply mem_In in Hc. rewrite Hc in H. discriminate.
    - apply andb_true_iff in H as [_ H]. auto.
  Qed.

  Theorem unique_ids_identify : nodupb (doc_fids d) = true ->
    forall e e', EntryOk s d e -> EntryOk s d e' -> f_id (e_fld e) = f_id (e_fld e') -> e = e'.
  Proof.
    intros Hn e e' [r Hr] [r' Hr'] Hf.
    apply nodupb_NoDup in Hn. rewrite <- doc_occ_fids in Hn.
    apply (nodup_map_inj efid doc_occ _ _ Hn); auto.
    - apply (indoc_occ _ _ Hr). destruct e. cbn. left. reflexivity.
    - apply (indoc_occ _ _ Hr'). destruct e'. cbn. left. reflexivity.
  Qed.
End Ids.

(* The specification function terminates: neither the fragment-expansion fuel nor the nesting
   fuel is exhausted, for every schema and every document (cyclic and mutually recursive spreads
   included): no selection set of the document runs out of fuel. *)
Theorem spec_verdict_terminates s d : spec_verdict s d <> VFuel.
Proof.
  intro H. destruct (spec_verdict_hit s d VFuel ltac:(discriminate) ltac:(discriminate) H) as [q [t [Hi Hc]]].
  revert Hc. unfold collect_fuel, depth_fuel. rewrite <- (KU_length (doc_fids d)).
  apply check_set_no_fuel.
  - intros fd Hfd. apply (indoc_fids s d (fr_type fd)). apply ID_frag. exact Hfd.
  - apply (indoc_fids s d q). apply doc_sets_indoc. exact Hi.
Qed.

Theorem spec_complete s d :
  (forall e e', EntryOk s d e -> EntryOk s d e' -> f_id (e_fld e) = f_id (e_fld e') -> e = e') ->
  DocConf s d -> spec_verdict s d <> VUntyped -> spec_conflicts s d = true.
Proof.
  intros Hid [p [ss [Hin Hc]]] Hu. unfold spec_conflicts.
  pose proof (spec_verdict_terminates s d) as Hf.
  destruct (spec_verdict s d) eqn:Ev; try reflexivity; try contradiction.
  exfalso.
  apply (check_set_complete s d Hid p ss (doc_sets_indoc s d p ss Hin) Hc).
  exact (spec_verdict_no s d Ev p ss Hin).
Qed.

(* the direct conflict of a pair does not depend on its orientation *)
Section DirectSym.
  Variable s : schema.

  Lemma excl_of_sym e a b : excl_of s e a b = excl_of s e b a.
  Proof.
    unfold excl_of. rewrite (N.eqb_sym (e_parent a)).
    destruct (is_object s (e_parent a)), (is_object s (e_parent b)), (negb _), e; reflexivity.
  Qed.

  Lemma direct_sym e a b ta tb : args_nodup a -> args_nodup b ->
    direct s e a b ta tb = direct s e b a tb ta.
  Proof.
    intros Ha Hb. unfold direct. rewrite excl_of_sym, (shape_conflict_sym s ta tb).
    rewrite (N.eqb_sym (f_name (e_fld a))), (args_same_sym_eq _ _ Ha Hb). reflexivity.
  Qed.

  Lemma direct_refl e a ta : args_nodup a -> direct s e a a ta ta = false.
  Proof.
    intro Ha. unfold direct. rewrite N.eqb_refl, (args_same_refl _ Ha), shape_conflict_refl.
    cbn. rewrite andb_false_r. reflexivity.
  Qed.

  (* a stronger (or equal) flag finds at least the same direct conflicts *)
End DirectSym.
