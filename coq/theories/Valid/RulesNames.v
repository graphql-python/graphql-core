(* The two duplicate-name algorithms of the rules (dictionary scan reporting [first, this];
   group_by reporting whole groups) against their declarative characterisations. *)
From GV Require Import Base.Prelude Base.ListFacts Lang.Ast Valid.Rules Valid.RulesBase Valid.RulesSpec.


(* state-free formulation: an element is reported iff its name occurs in front of it *)
Fixpoint dup_spec (done l : list (str * path)) : list (path * path) :=
  match l with
  | [] => []
  | (s, p) :: r =>
    (match lookup s done with Some p0 => [(p0, p)] | None => [] end) ++ dup_spec (done ++ [(s, p)]) r
  end.

Lemma lookup_app {V} s (a b : list (str * V)) :
  lookup s (a ++ b) = match lookup s a with Some x => Some x | None => lookup s b end.
Proof. induction a as [|[k v] a IH]; cbn; [reflexivity|]. destruct (streq s k); auto. Qed.

Lemma lookup_snoc {V} s (m : list (str * V)) k v :
  lookup s (m ++ [(k, v)]) =
  match lookup s m with Some x => Some x | None => if streq s k then Some v else None end.
Proof. rewrite lookup_app. reflexivity. Qed.

Lemma dup_scan_spec l : forall known done,
  (forall s, lookup s known = lookup s done) -> dup_scan known l = dup_spec done l.
Proof.
  induction l as [|[s p] l IH]; intros known done H; cbn; [reflexivity|].
  rewrite <- H. destruct (lookup s known) as [p0|] eqn:El.
  - cbn. f_equal. apply IH. intro s'. rewrite lookup_snoc, <- H.
    destruct (lookup s' known) eqn:E'; [reflexivity|].
    destruct (streq s' s) eqn:Es; [|reflexivity]. apply streq_eq in Es. congruence.
  - cbn. apply IH. intro s'. cbn. rewrite lookup_snoc, <- H.
    destruct (streq s' s) eqn:Es.
    + apply streq_eq in Es. subst. rewrite El. reflexivity.
    + destruct (lookup s' known); reflexivity.
Qed.

Lemma dup_spec_In l : forall done p0 p,
  In (p0, p) (dup_spec done l) <->
  exists pre s post, l = pre ++ (s, p) :: post /\ lookup s (done ++ pre) = Some p0.
Proof.
  induction l as [|[s q] l IH]; intros done p0 p; cbn.
  - split; [tauto | intros (pre & s & post & H & _); destruct pre; discriminate].
  - rewrite in_app_iff, IH. split.
    + intros [H | (pre & s' & post & H1 & H2)].
      * destruct (lookup s done) as [x|] eqn:El; cbn in H; [|tauto].
        destruct H as [H|[]]. inversion H; subst. exists [], s, l. rewrite app_nil_r. auto.
      * exists ((s, q) :: pre), s', post. subst. split; [reflexivity|].
        rewrite <- app_assoc in H2. exact H2.
    + intros (pre & s' & post & H1 & H2). destruct pre as [|[s0 q0] pre]; cbn in H1; inversion H1; subst.
      * left. rewrite app_nil_r in H2. rewrite H2. cbn. auto.
      * right. exists pre, s', post. split; [reflexivity|]. rewrite <- app_assoc. exact H2.
Qed.

Theorem dup_scan_In l p0 p : In (p0, p) (dup_scan [] l) <-> Dup l p0 p.
Proof.
  rewrite (dup_scan_spec l [] []) by reflexivity. rewrite dup_spec_In. cbn [app]. split.
  - intros (pre & s & post & H1 & H2). apply lookup_first in H2 as (pre0 & mid & H2 & Hn).
    subst. apply (Dup_intro _ _ _ pre0 s mid post); [|exact Hn]. rewrite <- app_assoc. reflexivity.
  - intros [pre s mid post H Hn]. exists (pre ++ (s, p0) :: mid), s, post. split.
    + rewrite H, <- app_assoc. reflexivity.
    + apply lookup_first. exists pre, mid. auto.
Qed.

Lemma dup_spec_nil l : forall done,
  dup_spec done l = [] <->
  NoDup (map fst l) /\ (forall s, In s (map fst l) -> ~ In s (map fst done)).
Proof.
  induction l as [|[s p] l IH]; intro done; cbn.
  - split; [intros _; split; [constructor | tauto] | reflexivity].
  - split.
    + intro H. apply app_eq_nil in H as [H1 H2]. apply IH in H2 as [Hnd Hfr].
      assert (Hl : lookup s done = None) by (destruct (lookup s done); [discriminate | reflexivity]).
      apply lookup_None in Hl. split.
      * constructor; [|exact Hnd]. intro Hin. apply (Hfr s Hin). rewrite map_app, in_app_iff. cbn. auto.
      * intros s' [<-|Hs']; [exact Hl|]. intro Hd. apply (Hfr s' Hs'). rewrite map_app, in_app_iff. auto.
    + intros [Hnd Hfr]. inversion Hnd as [|? ? Hn Hnd']; subst.
      assert (Hl : lookup s done = None) by (apply lookup_None; apply Hfr; auto).
      rewrite Hl. cbn. apply IH. split; [exact Hnd'|].
      intros s' Hs'. rewrite map_app, in_app_iff. cbn. intros [H|[H|[]]].
      * apply (Hfr s'); auto.
      * subst. contradiction.
Qed.

Theorem dup_scan_nil l : dup_scan [] l = [] <-> UniqueNames l.
Proof.
  rewrite (dup_scan_spec l [] []) by reflexivity. rewrite dup_spec_nil. unfold UniqueNames.
  split; [tauto | intro H; split; [exact H | cbn; tauto]].
Qed.


Lemma group_by_snoc {V} (l : list (str * V)) k v :
  group_by (l ++ [(k, v)]) = group_insert k v (group_by l).
Proof. unfold group_by. rewrite fold_left_app. reflexivity. Qed.

Lemma distinct_snoc l k :
  distinct (l ++ [k]) = if mem k (distinct l) then distinct l else distinct l ++ [k].
Proof. unfold distinct. rewrite fold_left_app. reflexivity. Qed.

Lemma distinct_In l : forall s, In s (distinct l) <-> In s l.
Proof.
  induction l as [|k l IH] using rev_ind; intro s; [cbn; tauto|].
  rewrite distinct_snoc, in_app_iff. cbn [In].
  destruct (mem k (distinct l)) eqn:Em.
  - rewrite IH. apply mem_In in Em. rewrite IH in Em. split; [auto|]. intros [H|[<-|[]]]; auto.
  - rewrite in_app_iff, IH. cbn [In]. tauto.
Qed.

Lemma distinct_NoDup l : NoDup (distinct l).
Proof.
  induction l as [|k l IH] using rev_ind; [constructor|].
  rewrite distinct_snoc. destruct (mem k (distinct l)) eqn:Em; [exact IH|].
  apply mem_false in Em. apply NoDup_snoc; assumption.
Qed.

Lemma occ_snoc s l k v :
  occ s (l ++ [(k, v)]) = occ s l ++ (if streq k s then [v] else []).
Proof.
  unfold occ. rewrite filter_app, map_app. cbn [filter fst]. destruct (streq k s); reflexivity.
Qed.

Lemma occ_nil l k : occ k l = [] <-> ~ In k (map fst l).
Proof.
  unfold occ. induction l as [|[k' v] l IH]; cbn [filter map fst snd In]; [tauto|].
  destruct (streq k' k) eqn:E; cbn [filter map fst snd In].
  - apply streq_eq in E. subst. split; [discriminate | intro H; exfalso; apply H; auto].
  - apply streq_neq in E. rewrite IH. split; [intros H [H'|H']; [congruence | auto] | auto].
Qed.

Lemma group_insert_map {V} k (v : V) (g : str -> list V) D : NoDup D ->
  group_insert k v (map (fun s => (s, g s)) D) =
  map (fun s => (s, g s ++ if streq k s then [v] else [])) D ++ (if mem k D then [] else [(k, [v])]).
Proof.
  induction 1 as [|s D Hs HD IH]; cbn [map group_insert mem app]; [reflexivity|].
  destruct (streq k s) eqn:E; cbn [orb app].
  - apply streq_eq in E. subst s. rewrite app_nil_r. f_equal. apply map_ext_in. intros s' Hs'.
    destruct (streq k s') eqn:E'; [apply streq_eq in E'; subst; contradiction|].
    rewrite app_nil_r. reflexivity.
  - rewrite app_nil_r, IH. reflexivity.
Qed.

Theorem group_by_spec (l : list (str * path)) :
  group_by l = map (fun s => (s, occ s l)) (distinct (map fst l)).
Proof.
  induction l as [|[k v] l IH] using rev_ind; [reflexivity|].
  rewrite group_by_snoc, IH, map_app. cbn [map fst]. rewrite distinct_snoc.
  rewrite group_insert_map by apply distinct_NoDup.
  destruct (mem k (distinct (map fst l))) eqn:Em.
  - rewrite app_nil_r. apply map_ext. intro s. rewrite occ_snoc. reflexivity.
  - rewrite map_app. cbn [map]. f_equal.
    + apply map_ext. intro s. rewrite occ_snoc. reflexivity.
    + rewrite occ_snoc, streq_refl.
      apply mem_false in Em. rewrite distinct_In in Em. apply occ_nil in Em. rewrite Em. reflexivity.
Qed.

(* one error per name that occurs more than once, in order of first occurrence, pointing at
   all its occurrences in order *)
Theorem dup_groups_spec r l :
  dup_groups r l =
  flat_map (fun s => match occ s l with _ :: _ :: _ => [VE r (occ s l)] | _ => [] end)
           (distinct (map fst l)).
Proof. unfold dup_groups. rewrite group_by_spec, flat_map_map. reflexivity. Qed.

Lemma occ_cons s k v l : occ s ((k, v) :: l) = if streq k s then v :: occ s l else occ s l.
Proof. unfold occ. cbn [filter fst]. destruct (streq k s); reflexivity. Qed.

Lemma occ_len_NoDup l : NoDup (map fst l) <-> forall s, (length (occ s l) <= 1)%nat.
Proof.
  induction l as [|[k v] l IH]; cbn [map fst].
  - split; [intros _ s; cbn; lia | constructor].
  - split.
    + intros H s. inversion H as [|? ? Hk Hl]; subst. rewrite occ_cons.
      destruct (streq k s) eqn:E.
      * apply streq_eq in E. subst. apply (occ_nil l) in Hk. rewrite Hk. cbn. lia.
      * apply IH. exact Hl.
    + intro H. constructor.
      * specialize (H k). rewrite occ_cons, streq_refl in H. cbn in H.
        apply (occ_nil l). destruct (occ k l); [reflexivity | cbn in H; lia].
      * apply IH. intro s. specialize (H s). rewrite occ_cons in H.
        destruct (streq k s); cbn in H; lia.
Qed.

Theorem dup_groups_nil r l : dup_groups r l = [] <-> UniqueNames l.
Proof.
  rewrite dup_groups_spec, flat_map_nil. unfold UniqueNames. rewrite occ_len_NoDup. split.
  - intros H s. destruct (in_dec (list_eq_dec N.eq_dec) s (map fst l)) as [Hi|Hn].
    + specialize (H s (proj2 (distinct_In _ s) Hi)).
      destruct (occ s l) as [|a [|b t]]; cbn; try lia. discriminate.
    + apply (occ_nil l) in Hn. rewrite Hn. cbn. lia.
  - intros H s _. specialize (H s). destruct (occ s l) as [|a [|b t]]; try reflexivity. cbn in H. lia.
Qed.

(* every reported group: all occurrences of a name occurring at least twice *)
Theorem dup_groups_In r l e :
  In e (dup_groups r l) <->
  exists s, In s (map fst l) /\ e = VE r (occ s l) /\ (2 <= length (occ s l))%nat.
Proof.
  rewrite dup_groups_spec, in_flat_map. split.
  - intros (s & Hs & He). apply (proj1 (distinct_In _ s)) in Hs. exists s. split; [exact Hs|].
    destruct (occ s l) as [|a [|b t]]; cbn in He; try tauto. destruct He as [<-|[]]. cbn. split; [reflexivity | lia].
  - intros (s & Hs & -> & Hl). exists s. split; [apply distinct_In; exact Hs|].
    destruct (occ s l) as [|a [|b t]]; cbn in Hl; try lia. cbn. auto.
Qed.

Lemma dup_rule_In r l e :
  In e (map (fun pq => VE r [fst pq; snd pq]) (dup_scan [] l)) <-> exists p0 p, Dup l p0 p /\ e = VE r [p0; p].
Proof.
  rewrite in_map_iff. split.
  - intros ([p0 p] & <- & H). apply dup_scan_In in H. eauto.
  - intros (p0 & p & H & ->). exists (p0, p). split; [reflexivity | apply dup_scan_In; exact H].
Qed.

Lemma dup_rule_nil r l : map (fun pq => VE r [fst pq; snd pq]) (dup_scan [] l) = [] <-> UniqueNames l.
Proof. rewrite <- dup_scan_nil. split; [apply map_eq_nil | intros ->; reflexivity]. Qed.

Lemma dup_groups_rule_In {A} r (names : A -> list (str * path)) ls e :
  In e (flat_map (fun a => dup_groups r (names a)) ls) <->
  exists a s, In a ls /\ In s (map fst (names a)) /\
              e = VE r (occ s (names a)) /\ (2 <= length (occ s (names a)))%nat.
Proof.
  rewrite in_flat_map. split.
  - intros (a & Ha & He). apply dup_groups_In in He as (s & H1 & H2 & H3). exists a, s. auto.
  - intros (a & s & Ha & H1 & H2 & H3). exists a. split; [exact Ha|]. apply dup_groups_In. eauto.
Qed.

Lemma dup_groups_rule_nil {A} r (names : A -> list (str * path)) ls :
  flat_map (fun a => dup_groups r (names a)) ls = [] <-> forall a, In a ls -> UniqueNames (names a).
Proof. rewrite flat_map_nil. split; intros H a Ha; apply (dup_groups_nil r), H, Ha. Qed.
