(* C13 / the expansion of a selection list through fragment spreads is finite when no fragment
   is cyclic.  First on the execution model's document (acyclic spread graph over finitely many
   fragment definitions => a height bound OverlapBridge.hb exists); then the spread graph of the
   translated document (ToExec.to_exec) is a subgraph of the one NoFragmentCycles
   (Rules.rule_no_fragment_cycles, RulesSpec.Cyclic) speaks about.  At the end roots_agree: the
   view of the root operation types KnownOperationTypes (RulesDir) and Exec.Schema share. *)
From Coq Require Import Relations.
From GV Require Import Base.Prelude Base.ListFacts Lang.Ast Exec.Value Exec.Schema Exec.Spec Exec.Typing Valid.Rules
  Valid.RulesBase Valid.RulesSpec Valid.RulesErase Valid.RulesProps Valid.StaticTypingProps Valid.ToExec
  Valid.RulesLit Valid.RulesTyping Valid.RulesTypingDoc Valid.RulesTypingGlue Valid.ToOverlapProps
  Valid.OverlapBridge Valid.RulesDir Exec.ValueFacts.

(* names of the fragment spreads anywhere inside a selection *)
Fixpoint xspr (x : selection) : list Value.str :=
  match x with
  | SField _ _ _ _ sub => flat_map xspr sub
  | SSpread n _ => [n]
  | SInline _ _ sub => flat_map xspr sub
  end.
Definition xsprs (L : list selection) : list Value.str := flat_map xspr L.

Section Fin.
  Variable frags : list fragment.

  Definition xedge (a b : Value.str) : Prop :=
    exists fr, find_frag a frags = Some fr /\ In b (xsprs (fr_sels fr)).

  Definition xacyclic : Prop := forall a, ~ clos_trans Value.str xedge a a.

  Definition resolved (b : Value.str) : Prop :=
    forall fr, find_frag b frags = Some fr -> exists n, hb frags n (fr_sels fr).

  Lemma hb_single_app n m x r : hb frags n [x] -> hb frags m r -> hb frags (Nat.max n m) (x :: r).
  Proof.
    intros H1 H2. change (x :: r) with ([x] ++ r). apply hb_app.
    - apply (hb_le frags n); [apply Nat.le_max_l | exact H1].
    - apply (hb_le frags m); [apply Nat.le_max_r | exact H2].
  Qed.

  Definition hgoal (x : selection) : Prop :=
    (forall b, In b (xspr x) -> resolved b) -> exists n, hb frags n [x].

  Lemma list_height L : Forall hgoal L -> (forall b, In b (xsprs L) -> resolved b) -> exists n, hb frags n L.
  Proof.
    induction 1 as [|x r Hx Hr IH]; intro Hres.
    - exists O. reflexivity.
    - destruct Hx as [n Hn]. { intros b Hb. apply Hres. unfold xsprs. cbn. apply in_app_iff. left. exact Hb. }
      destruct IH as [m Hm]. { intros b Hb. apply Hres. unfold xsprs. cbn. apply in_app_iff. right. exact Hb. }
      exists (Nat.max n m). apply hb_single_app; assumption.
  Qed.

  Lemma sel_height x : hgoal x.
  Proof.
    induction x as [al nm args dirs sub IH|nm dirs|tc dirs sub IH] using selection_sub_ind; intro Hres.
    - destruct (list_height sub IH) as [n Hn]. { intros b Hb. apply Hres. exact Hb. }
      exists (S n). cbn [hb]. intros y [<-|[]]. exact Hn.
    - destruct (find_frag nm frags) as [fr|] eqn:Ef.
      + destruct (Hres nm (or_introl eq_refl) fr Ef) as [n Hn]. exists (S n). cbn [hb]. intros y [<-|[]].
        intros fr' Hf'. rewrite Ef in Hf'. inversion Hf'; subst. exact Hn.
      + exists 1%nat. cbn [hb]. intros y [<-|[]]. intros fr' Hf'. rewrite Ef in Hf'. discriminate.
    - destruct (list_height sub IH) as [n Hn]. { intros b Hb. apply Hres. exact Hb. }
      exists (S n). cbn [hb]. intros y [<-|[]]. exact Hn.
  Qed.

  Lemma sels_height L : (forall b, In b (xsprs L) -> resolved b) -> exists n, hb frags n L.
  Proof. apply list_height. apply Forall_forall. intros x _. apply sel_height. Qed.

  Lemma find_frag_name a fr : find_frag a frags = Some fr -> In a (map fr_name frags).
  Proof. intro H. apply find_frag_In in H as [Hin <-]. apply List.in_map. exact Hin. Qed.

  Hypothesis Hacyc : xacyclic.

  (* a: the current fragment, p: the distinct fragments on the way to it; one more edge *)
  Lemma path_extend a p b fr' :
    NoDup (a :: p) -> (forall y, In y p -> clos_trans Value.str xedge y a) ->
    incl (a :: p) (map fr_name frags) -> xedge a b -> find_frag b frags = Some fr' ->
    NoDup (b :: a :: p) /\ (forall y, In y (a :: p) -> clos_trans Value.str xedge y b) /\
    incl (b :: a :: p) (map fr_name frags).
  Proof.
    intros Hnd Hpath Hincl Hab Hf'.
    assert (Hreach : forall y, In y (a :: p) -> clos_trans Value.str xedge y b).
    { intros y [<-|Hy]; [apply t_step; exact Hab|].
      apply t_trans with a; [apply Hpath; exact Hy | apply t_step; exact Hab]. }
    split; [|split; [exact Hreach|]].
    - constructor; [|exact Hnd]. intro Hin. apply (Hacyc b). apply Hreach. exact Hin.
    - intros y [<-|Hy]; [eapply find_frag_name; eauto | apply Hincl; exact Hy].
  Qed.

  (* k: how many fragment names are left beyond the path *)
  Lemma frag_height k : forall a p,
    NoDup (a :: p) -> (forall y, In y p -> clos_trans Value.str xedge y a) ->
    incl (a :: p) (map fr_name frags) ->
    (length (map fr_name frags) <= length (a :: p) + k)%nat ->
    resolved a.
  Proof.
    induction k as [|k IH]; intros a p Hnd Hpath Hincl Hlen fr Hf; apply sels_height; intros b Hb fr' Hf'.
    - destruct (path_extend a p b fr' Hnd Hpath Hincl (ex_intro _ fr (conj Hf Hb)) Hf') as (Hnd' & Hpath' & Hincl').
      exfalso. pose proof (NoDup_incl_length Hnd' Hincl') as Hl. cbn [length] in Hl, Hlen. lia.
    - destruct (path_extend a p b fr' Hnd Hpath Hincl (ex_intro _ fr (conj Hf Hb)) Hf') as (Hnd' & Hpath' & Hincl').
      apply (IH b (a :: p) Hnd' Hpath' Hincl'); [cbn [length] in *; lia | exact Hf'].
  Qed.

  Theorem acyclic_finite L : exists n, hb frags n L.
  Proof.
    apply sels_height. intros b _ fr Hf.
    refine (frag_height (length (map fr_name frags)) b [] _ _ _ _ fr Hf).
    - constructor; [intros [] | constructor].
    - intros y [].
    - intros y [<-|[]]. eapply find_frag_name; eauto.
    - cbn. lia.
  Qed.
End Fin.

(* the spreads of a translated selection set are among those the validation context lists *)
Lemma set_spreads_part p sels r j sel s :
  nth_error sels j = Some sel -> In s (fst (sel_part p j sel) ++ snd (sel_part p j sel)) ->
  In s (set_spreads p (Nd KSelectionSet (AList sels :: r))).
Proof.
  intros Hj Hs. rewrite set_spreads_unfold.
  assert (Hin : In (sel_part p j sel) (mapi (sel_part p) sels)) by (apply In_mapi; eauto).
  apply in_app_iff. apply in_app_iff in Hs as [Hs|Hs].
  - left. apply in_concat. exists (fst (sel_part p j sel)). split; [apply List.in_map; exact Hin | exact Hs].
  - right. apply in_concat. exists (snd (sel_part p j sel)). split; [|exact Hs].
    apply -> in_rev. apply List.in_map. exact Hin.
Qed.

Section Glue.
  Variable fl : list N -> Z * N.

  Definition gA (n : node) : Prop := forall L, sels_of fl n = Some L ->
    forall p b, In b (xsprs L) -> exists s, In s (set_spreads p n) /\ sp_name s = b.
  Definition gB (n : node) : Prop := forall x, sel1_of fl n = Some x ->
    forall p j b, In b (xspr x) -> exists s, In s (fst (sel_part p j n) ++ snd (sel_part p j n)) /\ sp_name s = b.

  Lemma gA_from sels r : (forall sel, In sel sels -> gB sel) -> gA (Nd KSelectionSet (AList sels :: r)).
  Proof.
    intros HF L HL p b Hb. rewrite sels_of_unfold in HL.
    pose proof (all_some_Forall2 _ _ _ HL) as H2.
    unfold xsprs in Hb. apply in_flat_map in Hb as (x & Hx & Hb).
    apply In_nth_error in Hx as [j Hj]. destruct (Forall2_nth_r _ _ _ H2 j _ Hj) as (sel & Ej & Hs).
    destruct (HF sel (nth_error_In _ _ Ej) x Hs p j b Hb) as (s & Hin & Hn).
    exists s. split; [|exact Hn]. eapply set_spreads_part; eauto.
  Qed.

  Lemma spreads_glue n : gA n /\ gB n.
  Proof.
    induction n as [k attrs IHn IHl] using node_children_ind. split.
    - destruct k; try (intros L HL; discriminate HL).
      destruct attrs as [|[| |sels| | |] r]; try (intros L HL; discriminate HL).
      apply gA_from. intros m Hm. apply (IHl O sels eq_refl m Hm).
    - destruct k; try (intros x Hx; discriminate Hx).
      + (* field *)
        destruct attrs as [|d [|[|nm| | | |] [|al [|a [|sset r]]]]]; try (intros x Hx; discriminate Hx).
        intros x Hx p j b Hb. cbn [sel1_of] in Hx.
        destruct (args_of fl a) as [args|]; [|discriminate]. destruct (dirs_of fl d) as [dirs|]; [|discriminate].
        destruct sset as [|s'| | | |].
        2:{ destruct (sels_of fl s') as [sub|] eqn:Es; [|discriminate]. inversion Hx; subst x. cbn [xspr] in Hb.
            cbn [sel_part fst snd app]. exact (proj1 (IHn 4%nat s' eq_refl) sub Es _ b Hb). }
        all: inversion Hx; subst x; cbn in Hb; destruct Hb.
      + (* spread *)
        intros x Hx p j b Hb.
        destruct attrs as [|d [|[|nm| | | |] [|[] r]]]; try discriminate Hx. cbn [sel1_of] in Hx.
        destruct (dirs_of fl d) as [dirs|]; [|discriminate]. inversion Hx; subst x. cbn in Hb. destruct Hb as [<-|[]].
        eexists. split; [cbn; left; reflexivity | reflexivity].
      + (* inline fragment *)
        destruct attrs as [|d [|[|s'| | | |] [|tc r]]]; try (intros x Hx; discriminate Hx).
        intros x Hx p j b Hb. cbn [sel1_of] in Hx.
        destruct (dirs_of fl d) as [dirs|]; [|discriminate].
        destruct (sels_of fl s') as [sub|] eqn:Es; [|discriminate].
        destruct (match tc with ANode (Nd KNamedType (ANode nm :: _)) => Some (Some (name_str nm))
                  | ANode _ => None | _ => Some None end) as [c|]; [|discriminate].
        inversion Hx; subst x. cbn [xspr] in Hb.
        cbn [sel_part fst snd app]. exact (proj1 (IHn 1%nat s' eq_refl) sub Es _ b Hb).
  Qed.

  (* an edge of the translated document is an edge "a spreads b" of the validation graph *)
  Lemma xedge_spreads d x a b : to_exec fl None d = Some x ->
    xedge (d_frags x) a b -> Spreads (frags_of (xdefs d)) a b.
  Proof.
    intros Hx (fr & Hf & Hb).
    destruct (to_exec_inv fl d x Hx) as (jo & ss & a1 & a2 & vds & a4 & o & r & _ & _ & _ & _ & _ & Hfr).
    destruct (find_frag_In _ _ _ Hf) as [Hin Hname].
    destruct (all_some_In _ _ _ _ Hfr Hin) as (fn & Hfn & Hof).
    apply filter_In in Hfn as [Hfn _]. apply In_nth_error in Hfn as [j Hj].
    apply frag_of_inv in Hof as (fss & a1' & nm & a4' & tn & rt5 & r' & body & -> & Eb & ->).
    cbn [fr_sels fr_name] in *.
    destruct (proj1 (spreads_glue fss) body Eb ([(O, j)] ++ [(O, O)])%nat b Hb) as (sp & Hsp & Hn).
    eexists (FR [(O, j)]%nat (name_str nm) _ _ _), sp. split.
    - apply In_frags. rewrite xdefs_doc. apply In_mapi. eexists j, _. split; [exact Hj|]. cbn. reflexivity.
    - cbn [f_name f_spreads]. split; [exact Hname|]. split; [exact Hsp | exact Hn].
  Qed.

  Theorem to_exec_acyclic d x : to_exec fl None d = Some x ->
    (forall a, ~ Cyclic (frags_of (xdefs d)) a) -> xacyclic (d_frags x).
  Proof.
    intros Hx Hno a Hc. apply (Hno a). unfold Cyclic.
    assert (Hall : forall u v, clos_trans Value.str (xedge (d_frags x)) u v ->
                               clos_trans Rules.str (Spreads (frags_of (xdefs d))) u v).
    { intros u v H. induction H as [u v Huv|u v w _ IH1 _ IH2].
      - apply t_step. eapply xedge_spreads; eauto.
      - apply t_trans with v; assumption. }
    apply Hall. exact Hc.
  Qed.

  (* NoFragmentCycles and UniqueFragmentNames silent => the expansion of the translated operation is finite *)
  Theorem rules_expansion_finite d x : to_exec fl None d = Some x ->
    rule_unique_fragment_names d = [] -> rule_no_fragment_cycles d = Some [] ->
    exists n, hb (d_frags x) n (d_sels x).
  Proof.
    intros Hx Hu Hc. apply acyclic_finite. apply (to_exec_acyclic d x Hx).
    apply (proj1 (no_fragment_cycles_nil d [] (proj1 (unique_fragment_names_NoDup d) Hu) Hc) eq_refl).
  Qed.
End Glue.

(* the rule's view of the schema agrees with the execution model's: a mutation type is present
   when the rule believes so (the query type always is, in Exec.Schema) *)
Definition roots_agree (ds : dschema) (s : schema) : Prop :=
  has_root ds 1 = true -> s_mutation s <> None.

