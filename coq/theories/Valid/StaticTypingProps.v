(* Static typing (what validation's descent establishes) implies the runtime-type-directed
   judgment of Exec/Typing.v, on schemas whose objects implement their interfaces, for operations
   whose mergeable fields have one name (the part OverlappingFieldsCanBeMerged contributes). *)
From GV Require Import Base.Prelude Exec.Value Exec.Schema Exec.Spec Exec.SpecProps Exec.Typing
  Exec.Soundness Valid.StaticTyping Exec.ValueFacts.

Lemma ty_eqb_eq a : forall b, ty_eqb a b = true -> a = b.
Proof.
  induction a as [x|a IH|a IH]; intros [y|b|b] H; cbn in H; try discriminate.
  - apply str_eqb_eq in H. congruence.
  - f_equal. apply IH. exact H.
  - f_equal. apply IH. exact H.
Qed.

Lemma is_nil_true {A} (l : list A) : is_nil l = true -> l = [].
Proof. destruct l; [reflexivity | discriminate]. Qed.

Lemma leaf_not_composite td : is_leaf_def td = true -> is_composite_def td = false.
Proof. destruct td; cbn; congruence. Qed.

Lemma find_frag_In a frags fr : find_frag a frags = Some fr -> In fr frags /\ fr_name fr = a.
Proof.
  induction frags as [|g r IH]; cbn; [discriminate|].
  destruct (str_eqb a (fr_name g)) eqn:E; intro H.
  - inversion H; subst. apply str_eqb_eq in E. auto.
  - destruct (IH H). auto.
Qed.

(* the leaf / composite agreement of a field with its sub-selection, from the static test on a type
   tdi to the test of field_ok on tdo: the same type, or both composite *)
Lemma sub_shape_ok tdi tdo (sub : list selection) X :
  (if is_leaf_def tdi then is_nil sub else is_composite_def tdi && negb (is_nil sub) && X) = true ->
  tdo = tdi \/ (is_composite_def tdi = true /\ is_composite_def tdo = true) ->
  (if is_leaf_def tdo then match sub with [] => true | _ => false end
   else is_composite_def tdo && match sub with [] => false | _ => true end) = true.
Proof.
  intros H [->|[Hi Ho]].
  - destruct (is_leaf_def tdi); [destruct sub; [reflexivity | discriminate]|].
    apply andb_true_iff in H as [H _]. apply andb_true_iff in H as [H1 H2]. rewrite H1.
    destruct sub; [discriminate | reflexivity].
  - destruct (is_leaf_def tdo) eqn:Elo; [rewrite (leaf_not_composite _ Elo) in Ho; discriminate|].
    destruct (is_leaf_def tdi) eqn:Eli; [rewrite (leaf_not_composite _ Eli) in Hi; discriminate|].
    rewrite Ho. apply andb_true_iff in H as [H _]. apply andb_true_iff in H as [_ H2].
    destruct sub; [discriminate | reflexivity].
Qed.

Section Props.
  Variable s : schema.
  Variable vdefs : list var_def.

  Lemma sstatic_all pt' sub :
    (fix all (l : list selection) : bool :=
       match l with [] => true | y :: r => sstatic s vdefs pt' y && all r end) sub
    = forallb (sstatic s vdefs pt') sub.
  Proof. induction sub as [|y r IH]; cbn; [reflexivity | rewrite IH; reflexivity]. Qed.

  Lemma sstatic_field pt al name args dirs sub :
    sstatic s vdefs pt (SField al name args dirs sub) =
    if str_eqb name n_typename then is_nil args && is_nil sub
    else
      match lookup_field s pt name with
      | None => false
      | Some fd =>
        args_ok s vdefs [] (f_args fd) args &&
        match lookup_type s (named_of (f_type fd)) with
        | None => false
        | Some td =>
          if is_leaf_def td then is_nil sub
          else is_composite_def td && negb (is_nil sub) &&
               forallb (sstatic s vdefs (named_of (f_type fd))) sub
        end
      end.
  Proof.
    cbn [sstatic]. destruct (str_eqb name n_typename); [reflexivity|].
    destruct (lookup_field s pt name) as [fd|]; [|reflexivity].
    destruct (lookup_type s (named_of (f_type fd))) as [td|]; [|reflexivity].
    destruct (is_leaf_def td); [reflexivity|]. rewrite sstatic_all. reflexivity.
  Qed.

  Lemma sstatic_inline pt tc dirs sub :
    sstatic s vdefs pt (SInline tc dirs sub) =
    forallb (sstatic s vdefs (match tc with Some c => c | None => pt end)) sub.
  Proof. cbn [sstatic]. apply sstatic_all. Qed.

  Lemma cond_runtime c rt : is_object s rt = true -> cond_matches s c rt = true ->
    runtime_of_b s c rt = true.
  Proof.
    intros Ho H. unfold cond_matches in H. unfold runtime_of_b. apply orb_true_iff in H as [H|H].
    - apply str_eqb_eq in H. subst c. rewrite Ho, str_eqb_refl. reflexivity.
    - rewrite Ho, H. cbn. apply orb_true_r.
  Qed.

  Lemma runtime_object pt rt : runtime_of_b s pt rt = true -> is_object s rt = true.
  Proof.
    unfold runtime_of_b. intro H. apply orb_true_iff in H as [H|H]; apply andb_true_iff in H as [H1 H2].
    - apply str_eqb_eq in H2. subst. exact H1.
    - exact H1.
  Qed.

  Lemma is_object_inv n : is_object s n = true ->
    exists fs ifs, lookup_type s n = Some (TObject fs ifs) /\ In (n, TObject fs ifs) (s_types s).
  Proof.
    unfold is_object. destruct (lookup_type s n) as [[| |fs ifs| | |]|] eqn:E; try discriminate.
    intros _. exists fs, ifs. split; [reflexivity|]. unfold lookup_type in E.
    destruct (scalar_of_name n); [discriminate|]. apply lookup_In. exact E.
  Qed.

  Lemma object_in_names n : is_object s n = true -> In n (object_names s).
  Proof.
    intro H. destruct (is_object_inv n H) as (fs & ifs & _ & Hin).
    unfold object_names. apply in_flat_map. exists (n, TObject fs ifs). cbn. auto.
  Qed.

  Lemma runtime_cases pt rt : runtime_of_b s pt rt = true ->
    (is_object s pt = true /\ rt = pt) \/ (is_object s rt = true /\ possible s pt rt = true).
  Proof.
    unfold runtime_of_b. intro H. apply orb_true_iff in H as [H|H]; apply andb_true_iff in H as [H1 H2].
    - left. apply str_eqb_eq in H2. auto.
    - right. auto.
  Qed.

  Variable frags : list fragment.
  Hypothesis Hfrags : frags_static s vdefs frags = true.

  Definition lstatic (rt : str) (sels : list selection) : Prop :=
    forall x, In x sels -> exists pt, runtime_of_b s pt rt = true /\ sstatic s vdefs pt x = true.

  Lemma lstatic_of_list pt rt sels : runtime_of_b s pt rt = true ->
    forallb (sstatic s vdefs pt) sels = true -> lstatic rt sels.
  Proof.
    intros Hr H x Hx. exists pt. split; [exact Hr|]. rewrite forallb_forall in H. apply H. exact Hx.
  Qed.

  Lemma lstatic_self rt sels : is_object s rt = true ->
    sstatic_list s vdefs rt sels = true -> lstatic rt sels.
  Proof.
    intros Ho H. apply (lstatic_of_list rt rt); [|exact H].
    unfold runtime_of_b. rewrite Ho, str_eqb_refl. reflexivity.
  Qed.

  Lemma runtime_composite_def pt rt : runtime_of_b s pt rt = true ->
    exists td, lookup_type s pt = Some td /\ is_composite_def td = true.
  Proof.
    intro H. destruct (runtime_cases pt rt H) as [[Ho _]|[_ Hp]].
    - destruct (is_object_inv pt Ho) as (fs & ifs & E & _). eexists. split; [exact E | reflexivity].
    - unfold possible in Hp. destruct (lookup_type s pt) as [[| | | | |]|]; try discriminate;
        eexists; split; reflexivity.
  Qed.

  Lemma reach_static rt sels k f :
    is_object s rt = true -> reach s frags rt sels k f -> lstatic rt sels ->
    exists pt al dirs, runtime_of_b s pt rt = true /\
      sstatic s vdefs pt (SField al (fs_name f) (fs_args f) dirs (fs_sels f)) = true.
  Proof.
    intros Ho H. induction H as [sels al name args dirs sub Hin
                               | sels tc dirs sub k f Hin Hc Hr IH
                               | sels name dirs fr k f Hin Hf Hc Hr IH]; intro Hl.
    - destruct (Hl _ Hin) as (pt & H1 & H2). exists pt, al, dirs. auto.
    - apply IH. destruct (Hl _ Hin) as (pt & H1 & H2). rewrite sstatic_inline in H2.
      destruct tc as [c|].
      + apply (lstatic_of_list c); [apply cond_runtime; assumption | exact H2].
      + apply (lstatic_of_list pt); assumption.
    - apply IH. pose proof (proj1 (find_frag_In _ _ _ Hf)) as Hin'.
      pose proof (cond_runtime _ _ Ho Hc) as Hrt.
      destruct (runtime_composite_def _ _ Hrt) as (td & Etd & Hcomp).
      unfold frags_static in Hfrags. rewrite forallb_forall in Hfrags. specialize (Hfrags _ Hin').
      rewrite Etd, Hcomp in Hfrags. cbn in Hfrags.
      apply (lstatic_of_list (fr_cond fr)); assumption.
  Qed.

  Hypothesis Himpl : schema_impl_ok s = true.

  Lemma object_fields_wf rt fs ifs : In (rt, TObject fs ifs) (s_types s) -> fields_wf s fs = true.
  Proof.
    intro Hin. unfold schema_impl_ok in Himpl. rewrite forallb_forall in Himpl.
    specialize (Himpl _ Hin). cbn in Himpl. apply andb_true_iff in Himpl as [H _]. exact H.
  Qed.

  Lemma impl_field pt rt name fi :
    is_object s rt = true -> possible s pt rt = true -> lookup_field s pt name = Some fi ->
    exists fo, lookup_field s rt name = Some fo /\ field_impl s fi fo = true.
  Proof.
    intros Ho Hp Hl. destruct (is_object_inv rt Ho) as (fs & ifs & Ert & Hin).
    unfold possible in Hp. rewrite Ert in Hp. unfold lookup_field in *.
    destruct (lookup_type s pt) as [[| | |ifs'|ms|]|] eqn:Ept; try discriminate.
    pose proof Himpl as Hi. unfold schema_impl_ok in Hi. rewrite forallb_forall in Hi.
    specialize (Hi _ Hin). cbn in Hi. apply andb_true_iff in Hi as [_ Hi].
    rewrite forallb_forall in Hi. apply mem_In in Hp. specialize (Hi _ Hp). rewrite Ept in Hi.
    rewrite forallb_forall in Hi. apply find_field_In in Hl as [Hfi Hn]. specialize (Hi _ Hfi).
    rewrite Hn in Hi. rewrite Ert. destruct (find_field name fs) as [fo|]; [|discriminate]. eauto.
  Qed.

  Lemma required_compat ai ao : arg_compat ai ao = true -> required_arg ao = required_arg ai.
  Proof.
    unfold arg_compat, required_arg, has_default. intro H. apply andb_true_iff in H as [H1 H2].
    apply ty_eqb_eq in H1. rewrite H1. apply Bool.eqb_prop in H2.
    destruct (a_default ai), (a_default ao); cbn in *; congruence.
  Qed.

  Lemma args_transfer nulls di do_ args :
    args_impl di do_ = true -> nodup_names (map a_name do_) = true ->
    args_ok s vdefs nulls di args = true -> args_ok s vdefs nulls do_ args = true.
  Proof.
    intros Hi Hnd Hok. unfold args_impl in Hi. apply andb_true_iff in Hi as [Hi1 Hi2].
    rewrite forallb_forall in Hi1, Hi2.
    unfold args_ok in *. apply andb_true_iff in Hok as [Hk Hd]. rewrite forallb_forall in Hk, Hd.
    assert (Hknown : forall k v, In (k, v) args -> exists ai ao,
              find_arg k di = Some ai /\ find_arg k do_ = Some ao /\ arg_compat ai ao = true).
    { intros k v Hin. specialize (Hk _ Hin). cbn in Hk.
      destruct (find_arg k di) as [ai|] eqn:Ea; [|discriminate].
      pose proof (find_arg_In _ _ _ Ea) as [Hai Hn]. specialize (Hi1 _ Hai). rewrite Hn in Hi1.
      destruct (find_arg k do_) as [ao|] eqn:Eo; [|discriminate]. eauto. }
    apply andb_true_iff. split; apply forallb_forall.
    - intros [k v] Hin. cbn. destruct (Hknown k v Hin) as (ai & ao & _ & -> & _). reflexivity.
    - intros ao Hao. pose proof (find_arg_self _ _ Hnd Hao) as Hself.
      destruct (lookup (a_name ao) args) as [v|] eqn:El.
      + pose proof (lookup_In _ _ _ El) as Hin. destruct (Hknown _ _ Hin) as (ai & ao' & Ea & Eo & Hc).
        rewrite Hself in Eo. inversion Eo; subst ao'.
        pose proof (find_arg_In _ _ _ Ea) as [Hai Hn]. specialize (Hd _ Hai). rewrite Hn, El in Hd.
        unfold arg_compat in Hc. apply andb_true_iff in Hc as [H1 H2].
        apply ty_eqb_eq in H1. apply Bool.eqb_prop in H2. rewrite <- H1, <- H2. exact Hd.
      + destruct (find_arg (a_name ao) di) as [ai|] eqn:Ea.
        * pose proof (find_arg_In _ _ _ Ea) as [Hai Hn]. pose proof (Hd _ Hai) as Hd'.
          rewrite Hn, El in Hd'. specialize (Hi1 _ Hai). rewrite Hn, Hself in Hi1.
          rewrite (required_compat _ _ Hi1). exact Hd'.
        * specialize (Hi2 _ Hao). rewrite Ea in Hi2. exact Hi2.
  Qed.

  Lemma out_compat_runtime ni no rt' : out_compat s ni no = true ->
    runtime_of_b s no rt' = true -> runtime_of_b s ni rt' = true.
  Proof.
    unfold out_compat. intros H Hr. apply orb_true_iff in H as [H|H].
    - apply str_eqb_eq in H. subst. exact Hr.
    - apply andb_true_iff in H as [_ H]. rewrite forallb_forall in H.
      specialize (H rt' (object_in_names _ (runtime_object _ _ Hr))). rewrite Hr in H. exact H.
  Qed.

  (* a field typed at a static parent type is accepted at every runtime type of that parent *)
  Lemma field_transfer pt rt al name args dirs sub :
    runtime_of_b s pt rt = true ->
    sstatic s vdefs pt (SField al name args dirs sub) = true ->
    field_ok s vdefs [] rt (mkFS name args sub) = true /\
    (str_eqb name n_typename = false ->
     exists fi fo, lookup_field s pt name = Some fi /\ lookup_field s rt name = Some fo /\
                   out_compat s (named_of (f_type fi)) (named_of (f_type fo)) = true /\
                   (sub <> [] -> forallb (sstatic s vdefs (named_of (f_type fi))) sub = true)).
  Proof.
    intros Hr H. rewrite sstatic_field in H. unfold field_ok. cbn [fs_name fs_args fs_sels].
    destruct (str_eqb name n_typename) eqn:Et.
    { split; [|discriminate]. apply andb_true_iff in H as [H1 H2].
      apply is_nil_true in H1, H2. subst. reflexivity. }
    destruct (lookup_field s pt name) as [fi|] eqn:Ei; [|discriminate].
    apply andb_true_iff in H as [Hargs Hty].
    destruct (lookup_type s (named_of (f_type fi))) as [tdi|] eqn:Etdi; [|discriminate].
    assert (Hsub : sub <> [] -> forallb (sstatic s vdefs (named_of (f_type fi))) sub = true).
    { intro Hne. destruct (is_leaf_def tdi).
      - apply is_nil_true in Hty. contradiction.
      - apply andb_true_iff in Hty as [_ Hty]. exact Hty. }
    destruct (runtime_cases _ _ Hr) as [[Ho ->]|[Ho Hp]].
    - (* the parent is the object type itself *)
      rewrite Ei, Hargs, Etdi. cbn [andb]. split.
      + apply (sub_shape_ok tdi tdi sub _ Hty). auto.
      + intros _. exists fi, fi. repeat split; try assumption.
        unfold out_compat. rewrite str_eqb_refl. reflexivity.
    - (* an abstract parent *)
      destruct (impl_field _ _ _ _ Ho Hp Ei) as (fo & Eo & Hfi).
      unfold field_impl in Hfi. apply andb_true_iff in Hfi as [Ha Hout].
      destruct (is_object_inv rt Ho) as (fs & ifs & Ert & Hin).
      pose proof (object_fields_wf _ _ _ Hin) as Hwf. unfold fields_wf in Hwf. rewrite forallb_forall in Hwf.
      assert (Hfo : In fo fs).
      { unfold lookup_field in Eo. rewrite Ert in Eo. apply find_field_In in Eo. tauto. }
      specialize (Hwf _ Hfo). apply andb_true_iff in Hwf as [Hnd Hto].
      rewrite Eo, (args_transfer [] _ _ _ Ha Hnd Hargs). cbn [andb]. split.
      + destruct (lookup_type s (named_of (f_type fo))) as [tdo|] eqn:Etdo; [|discriminate].
        apply (sub_shape_ok tdi tdo sub _ Hty).
        unfold out_compat in Hout. apply orb_true_iff in Hout as [Hout|Hout].
        * apply str_eqb_eq in Hout. rewrite Hout, Etdi in Etdo. inversion Etdo. auto.
        * apply andb_true_iff in Hout as [Hout _]. apply andb_true_iff in Hout as [Hci Hco].
          unfold composite_name in Hci, Hco. rewrite Etdi in Hci. rewrite Etdo in Hco. auto.
      + intros _. exists fi, fo. repeat split; assumption.
  Qed.

  Theorem static_typed rt sels :
    names_agree s frags rt sels -> is_object s rt = true -> lstatic rt sels ->
    set_typed s frags vdefs [] rt sels.
  Proof.
    induction 1 as [rt sels Hn1 Hn2 IH]. intros Ho Hl. constructor.
    - intros k f Hr. destruct (reach_static _ _ _ _ Ho Hr Hl) as (pt & al & dirs & Hrt & Hs).
      destruct f as [name args sub]. cbn [fs_name fs_args fs_sels] in Hs.
      apply (field_transfer _ _ _ _ _ _ _ Hrt Hs).
    - exact Hn1.
    - intros k fs f1 fd rt' Hall Hin1 Hfd Hrt'. apply (IH k fs f1 fd rt' Hall Hin1 Hfd Hrt').
      + eapply runtime_object; eauto.
      + intros x Hx. unfold merged_sels in Hx. apply in_flat_map in Hx as (f & Hf & Hx).
        pose proof (Hall _ Hf) as Hr.
        destruct (reach_static _ _ _ _ Ho Hr Hl) as (pt & al & dirs & Hrt & Hs).
        pose proof (Hn1 k f f1 Hr (Hall _ Hin1)) as Hname.
        destruct f as [name args sub]. cbn [fs_name fs_args fs_sels] in *.
        destruct (field_transfer _ _ _ _ _ _ _ Hrt Hs) as [_ Hex].
        assert (Ht : str_eqb name n_typename = false).
        { destruct (str_eqb name n_typename) eqn:Et; [|reflexivity]. exfalso.
          rewrite sstatic_field, Et in Hs. apply andb_true_iff in Hs as [_ Hs].
          apply is_nil_true in Hs. subst. destruct Hx. }
        destruct (Hex Ht) as (fi & fo & Ei & Eo & Hout & Hsub).
        rewrite Hname, Hfd in Eo. inversion Eo; subst fo.
        exists (named_of (f_type fi)). split.
        * eapply out_compat_runtime; eauto.
        * assert (Hne : sub <> []) by (intro; subst; destruct Hx).
          specialize (Hsub Hne). rewrite forallb_forall in Hsub. apply Hsub. exact Hx.
  Qed.
End Props.

(* static typing is enough for C13's conclusion: conforming data, accepted variables none of which
   is a null of nullable type => no errors *)
Theorem static_sound fuel s d vars root cv rt j es cs :
  schema_ok s = true -> schema_impl_ok s = true ->
  nodup_names (map v_name (d_vars d)) = true ->
  root_type s (d_kind d) = Some rt -> is_object s rt = true ->
  sstatic_list s (d_vars d) rt (d_sels d) = true -> frags_static s (d_vars d) (d_frags d) = true ->
  names_agree s (d_frags d) rt (d_sels d) ->
  coerce_variable_values s (d_vars d) vars = Some cv -> nulls_of (d_vars d) cv = [] ->
  conforms_root s rt root = true ->
  execute_fuel fuel s d vars root = Resp j es cs ->
  es = [] /\ j <> JNull.
Proof.
  intros Hs Hi Hnd Hrt Hobj Hst Hfr Hna Hcv Hnulls Hconf Hex.
  assert (Hty : set_typed s (d_frags d) (d_vars d) (nulls_of (d_vars d) cv) rt (d_sels d)).
  { rewrite Hnulls. apply (static_typed s (d_vars d) (d_frags d) Hfr Hi rt (d_sels d) Hna Hobj).
    apply lstatic_self; assumption. }
  apply conforms_root_inv in Hconf. destruct Hconf as [tn [flds [-> [_ Hoc]]]].
  apply execute_fuel_resp in Hex. destruct Hex as [cv' [tn' [r [Hcv' [Hrt'' [_ [He ->]]]]]]].
  rewrite Hcv in Hcv'. inversion Hcv'; subst cv'. rewrite Hrt in Hrt''. inversion Hrt''; subst tn'.
  pose proof (coerce_vars_ok _ _ _ _ Hnd Hcv) as Hok.
  destruct (exec_sound s (d_frags d) (d_vars d) cv Hs Hok fuel) as [Hsels _].
  destruct (Hsels rt flds (d_sels d) _ Hty Hoc He) as [j' [cs' [Heq Hj]]].
  inversion Heq; subst. split; [reflexivity | exact Hj].
Qed.

(* the merging hypothesis is exactly what the judgment itself contains *)
Lemma set_typed_names_agree s frags vdefs nulls rt sels :
  set_typed s frags vdefs nulls rt sels -> names_agree s frags rt sels.
Proof.
  induction 1 as [rt sels _ H2 _ IH]. constructor; [exact H2|].
  intros k fs f1 fd rt' Ha Hi Hf Hr. eapply IH; eauto.
Qed.
