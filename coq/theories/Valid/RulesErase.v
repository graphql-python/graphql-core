(* Descriptions: every piece of data the rules read from the tree (Valid/Rules.v, extraction
   layer) is unchanged by erase_descriptions; hence so is every rule. *)
From GV Require Import Base.Prelude Base.ListFacts Lang.Ast Valid.Rules Valid.RulesBase.

Notation E := erase_descriptions.

Definition erase_attr (a : attr) : attr :=
  match a with
  | ANode m => ANode (E m)
  | AList l => AList (map E l)
  | _ => a
  end.

Definition is_desc (k : nkind) (i : nat) : bool :=
  match desc_index k with Some j => (i =? j)%nat | None => false end.

Lemma erase_unfold k attrs :
  E (Nd k attrs) = Nd k (mapi (fun i a => if is_desc k i then ANone else erase_attr a) attrs).
Proof.
  cbn [erase_descriptions]. f_equal. unfold is_desc. apply mapi_ext. intros j a _.
  destruct (desc_index k); [destruct (_ =? _)%nat|]; destruct a; reflexivity.
Qed.

Lemma desc_not_key k i : is_desc k i = true -> ~ In i (vkeys k).
Proof.
  unfold is_desc. destruct k; cbn; try discriminate; intro H; apply Nat.eqb_eq in H; subst; cbn;
    intuition discriminate.
Qed.

Lemma kind_of_erase n : kind_of (E n) = kind_of n.
Proof. destruct n. reflexivity. Qed.

Lemma name_str_erase n : name_str (E n) = name_str n.
Proof.
  destruct n as [k attrs]. destruct k; try reflexivity.
  destruct attrs as [|[] attrs]; reflexivity.
Qed.

Lemma arg_name_erase n : arg_name (E n) = arg_name n.
Proof.
  destruct n as [k attrs]. destruct k; try reflexivity;
    (destruct attrs as [|[] attrs]; try reflexivity; cbn; apply name_str_erase).
Qed.

Lemma vardef_name_erase n : vardef_name (E n) = vardef_name n.
Proof.
  destruct n as [k attrs]. destruct k; try reflexivity.
  destruct attrs as [|a0 [|[] attrs]]; try reflexivity.
  cbn. destruct n as [k' attrs']. destruct k'; try reflexivity.
  destruct attrs' as [|[] attrs']; try reflexivity. cbn. apply name_str_erase.
Qed.

Lemma spread_of_erase p n : spread_of p (E n) = spread_of p n.
Proof.
  destruct n as [k attrs]. destruct k; try reflexivity.
  destruct attrs as [|a0 [|[] attrs]]; try reflexivity. cbn. rewrite name_str_erase. reflexivity.
Qed.

Definition erase_sibs (s : list (path * node)) : list (path * node) :=
  map (fun pn => (fst pn, E (snd pn))) s.
Definition erase_item (it : item) : item :=
  It (it_path it) (E (it_node it)) (erase_sibs (it_sibs it)).

Lemma pick_map {A B} (f : list A -> list B) keys ls :
  f [] = [] -> pick keys (map f ls) = map f (pick keys ls).
Proof.
  intro H0. unfold pick. rewrite map_map. apply map_ext. intro i.
  revert i; induction ls as [|x ls IH]; intros [|i]; cbn; auto.
Qed.

Lemma pick_ext {A} keys (l1 l2 : list (list A)) :
  (forall i, In i keys -> nth i l1 [] = nth i l2 []) -> pick keys l1 = pick keys l2.
Proof. intro H. unfold pick. apply map_ext_in. exact H. Qed.

Lemma sibs_erase (q : nat -> path) pre :
  mapi (fun j' m' => (q j', m')) (map E pre) = erase_sibs (mapi (fun j' m' => (q j', m')) pre).
Proof. unfold erase_sibs. rewrite mapi_map, map_mapi. reflexivity. Qed.

Section WalkErase.
  Variable stop : nkind -> bool.
  Let P (n : node) : Prop := forall p sibs,
    walk stop p (erase_sibs sibs) (E n) = map erase_item (walk stop p sibs n).

  Lemma walk_list_erase (p : path) (i : nat) l : (forall m, In m l -> P m) -> forall j pre,
    mapi_pre (fun j pre m => walk stop (p ++ [(i, j)]) (mapi (fun j' m' => (p ++ [(i, j')], m')) pre) m)
             j (map E pre) (map E l) =
    map (map erase_item)
      (mapi_pre (fun j pre m => walk stop (p ++ [(i, j)]) (mapi (fun j' m' => (p ++ [(i, j')], m')) pre) m)
                j pre l).
  Proof.
    induction l as [|m l IH]; intros Hl j pre; cbn [mapi_pre map]; [reflexivity|].
    f_equal.
    - rewrite (sibs_erase (fun j' => p ++ [(i, j')])). apply Hl. left. reflexivity.
    - specialize (IH (fun m' H => Hl m' (or_intror H)) (S j) (pre ++ [m])). rewrite map_app in IH. exact IH.
  Qed.

  Lemma walk_erase n : P n.
  Proof.
    induction n as [k attrs IHn IHl] using node_children_ind. intros p sibs.
    rewrite erase_unfold. cbn [walk map]. f_equal.
    { unfold erase_item. cbn [it_path it_node it_sibs]. rewrite erase_unfold. reflexivity. }
    destruct (stop k); [reflexivity|].
    rewrite concat_map. f_equal.
    rewrite <- pick_map by reflexivity.
    apply pick_ext. intros i Hi.
    rewrite map_mapi, !nth_mapi, nth_error_mapi.
    destruct (nth_error attrs i) as [a|] eqn:Ea; cbn [option_map]; [|reflexivity].
    assert (Hd : is_desc k i = false).
    { destruct (is_desc k i) eqn:Hd; [|reflexivity]. exfalso. exact (desc_not_key k i Hd Hi). }
    rewrite Hd.
    destruct a as [|m|l| | |]; cbn [erase_attr]; try reflexivity.
    - apply (IHn i m Ea (p ++ [(i, O)]) []).
    - rewrite concat_map. f_equal. apply (walk_list_erase p i l (IHl i l Ea) O []).
  Qed.
End WalkErase.

Lemma flat_map_erase_items {B} (f : item -> list B) its :
  (forall it, f (erase_item it) = f it) ->
  flat_map f (map erase_item its) = flat_map f its.
Proof. intro H. rewrite flat_map_map. apply flat_map_ext_in. intros; apply H. Qed.

Lemma doc_items_erase d : doc_items (E d) = map erase_item (doc_items d).
Proof. apply (walk_erase no_stop d [] []). Qed.

Definition sel_part (p : path) (j : nat) (sel : node) : list spread * list spread :=
  match sel with
  | Nd KFragmentSpread _ => ([spread_of (p ++ [(0, j)]) sel], [])
  | Nd KField (_ :: _ :: _ :: _ :: ANode s' :: _) => ([], set_spreads (p ++ [(0, j); (4, O)]) s')
  | Nd KInlineFragment (_ :: ANode s' :: _) => ([], set_spreads (p ++ [(0, j); (1, O)]) s')
  | _ => ([], [])
  end%nat.

Lemma set_spreads_unfold p sels r :
  set_spreads p (Nd KSelectionSet (AList sels :: r)) =
  concat (map fst (mapi (sel_part p) sels)) ++ concat (rev (map snd (mapi (sel_part p) sels))).
Proof. reflexivity. Qed.

Lemma set_spreads_erase s :
  (forall p, set_spreads p (E s) = set_spreads p s) /\
  (forall p j, sel_part p j (E s) = sel_part p j s).
Proof.
  induction s as [k attrs IHn IHl] using node_children_ind. split.
  - intro p. destruct k; try reflexivity.
    destruct attrs as [|[| |sels| | |] r]; try reflexivity.
    rewrite erase_unfold. cbn [mapi mapi_from is_desc desc_index erase_attr].
    rewrite !set_spreads_unfold, mapi_map.
    rewrite (mapi_ext _ (sel_part p)); [reflexivity|].
    intros j a Hj. apply (IHl O sels eq_refl a (nth_error_In _ _ Hj)).
  - intros p j. destruct k; try reflexivity.
    + (* Field *)
      destruct attrs as [|a0 [|a1 [|a2 [|a3 [|[| s'| | | |] r]]]]]; try reflexivity.
      rewrite erase_unfold. cbn [mapi mapi_from is_desc desc_index erase_attr sel_part].
      f_equal. apply (IHn 4%nat s' eq_refl).
    + (* FragmentSpread *)
      cbn [sel_part]. rewrite erase_unfold at 1. cbn [sel_part].
      f_equal. f_equal. rewrite <- erase_unfold. apply spread_of_erase.
    + (* InlineFragment *)
      destruct attrs as [|a0 [|[| s'| | | |] r]]; try reflexivity.
      rewrite erase_unfold. cbn [mapi mapi_from is_desc desc_index erase_attr sel_part].
      f_equal. apply (IHn 1%nat s' eq_refl).
Qed.

Lemma sel_spreads_erase p a : sel_spreads p (erase_attr a) = sel_spreads p a.
Proof. destruct a; try reflexivity. cbn. apply set_spreads_erase. Qed.

Lemma vdefs_of_erase p a : vdefs_of p (erase_attr a) = vdefs_of p a.
Proof.
  destruct a; try reflexivity. cbn. rewrite mapi_map.
  apply mapi_ext. intros. rewrite vardef_name_erase. reflexivity.
Qed.

Lemma usages_of_erase p n : usages_of p (E n) = usages_of p n.
Proof.
  unfold usages_of.
  replace (walk stop_vardef p [] (E n)) with (map erase_item (walk stop_vardef p [] n))
    by (symmetry; apply (walk_erase stop_vardef n p [])).
  apply flat_map_erase_items. intros [q m sb]. cbn [erase_item it_node it_path].
  destruct m as [k attrs]. destruct k; try reflexivity.
  destruct attrs as [|[] attrs]; try reflexivity. cbn. rewrite name_str_erase. reflexivity.
Qed.

Lemma opt_name_erase (nm : attr) :
  match erase_attr nm with ANode m => Some (name_str m) | _ => None end =
  match nm with ANode m => Some (name_str m) | _ => None end.
Proof. destruct nm; try reflexivity. cbn. rewrite name_str_erase. reflexivity. Qed.

Lemma def_name_erase (nm : attr) :
  match erase_attr nm with ANode m => name_str m | _ => [] end =
  match nm with ANode m => name_str m | _ => [] end.
Proof. destruct nm; try reflexivity. cbn. rewrite name_str_erase. reflexivity. Qed.

Lemma xdef_of_erase p n : xdef_of p (E n) = xdef_of p n.
Proof.
  destruct n as [k attrs]. destruct k; try reflexivity.
  - (* fragment definition *)
    destruct attrs as [|s [|dsc [|nm [|vs r]]]]; try reflexivity.
    pose proof (usages_of_erase p (Nd KFragmentDefinition (s :: dsc :: nm :: vs :: r))) as Hu.
    rewrite erase_unfold in *. cbn [mapi mapi_from is_desc desc_index Nat.eqb xdef_of] in *.
    rewrite def_name_erase, vdefs_of_erase, sel_spreads_erase, Hu. reflexivity.
  - (* operation definition *)
    destruct attrs as [|s [|dsc [|nm [|vs r]]]]; try reflexivity.
    pose proof (usages_of_erase p (Nd KOperationDefinition (s :: dsc :: nm :: vs :: r))) as Hu.
    rewrite erase_unfold in *. cbn [mapi mapi_from is_desc desc_index Nat.eqb xdef_of] in *.
    rewrite opt_name_erase, vdefs_of_erase, sel_spreads_erase, Hu. reflexivity.
Qed.

Theorem xdefs_erase d : xdefs (E d) = xdefs d.
Proof.
  destruct d as [k attrs]. destruct k; try reflexivity.
  destruct attrs as [|[| |l| | |] r]; try reflexivity.
  rewrite erase_unfold. cbn [mapi mapi_from is_desc desc_index erase_attr xdefs].
  rewrite mapi_map. apply mapi_ext. intros. apply xdef_of_erase.
Qed.

Theorem all_spreads_erase d : all_spreads (E d) = all_spreads d.
Proof.
  unfold all_spreads. rewrite doc_items_erase. apply flat_map_erase_items.
  intros [q m sb]. cbn [erase_item it_node it_path].
  pose proof (spread_of_erase q m) as Hs. destruct m as [k attrs].
  destruct k; try reflexivity. rewrite erase_unfold in *. cbn. cbn in Hs. rewrite Hs. reflexivity.
Qed.

Lemma named_args_erase p i a : named_args p i (erase_attr a) = named_args p i a.
Proof.
  destruct a; try reflexivity. cbn. rewrite mapi_map.
  apply mapi_ext. intros. rewrite arg_name_erase. reflexivity.
Qed.

Theorem arg_lists_erase d : arg_lists (E d) = arg_lists d.
Proof.
  unfold arg_lists. rewrite doc_items_erase. apply flat_map_erase_items.
  intros [q m sb]. cbn [erase_item it_node it_path].
  destruct m as [k attrs]. destruct k; try reflexivity.
  - destruct attrs as [|a0 [|a1 r]]; try reflexivity.
    rewrite erase_unfold. cbn [mapi mapi_from is_desc desc_index].
    rewrite named_args_erase. reflexivity.
  - destruct attrs as [|a0 [|a1 [|a2 [|a3 r]]]]; try reflexivity.
    rewrite erase_unfold. cbn [mapi mapi_from is_desc desc_index].
    rewrite named_args_erase. reflexivity.
Qed.

Theorem object_fields_erase d : object_fields (E d) = object_fields d.
Proof.
  unfold object_fields. rewrite doc_items_erase. apply flat_map_erase_items.
  intros [q m sb]. cbn [erase_item it_node it_path it_sibs].
  pose proof (arg_name_erase m) as Hm.
  destruct m as [k attrs]. destruct k; try reflexivity.
  rewrite erase_unfold in *. cbn [mapi mapi_from is_desc desc_index] in *.
  cbn [arg_name] in *. f_equal. f_equal.
  - unfold erase_sibs. rewrite map_map. apply map_ext. intros [q' m']. cbn [fst snd].
    rewrite arg_name_erase. reflexivity.
  - f_equal. exact Hm.
Qed.
