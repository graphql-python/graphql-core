(* The converse of OverlapMemoSound: every conflict the memoised algorithm reports is a conflict of
   the specification (documents with named, possibly cyclic, fragments included).  Every pair of
   fields the algorithm compares co-occurs in a merged set of the specification under the same
   flag; a conflict of such a pair yields a conflict of some selection set of the document. *)
From GV Require Import Base.Prelude Valid.Overlap Valid.OverlapProps Valid.PairSet Valid.OverlapOpt
  Valid.OverlapOptCalls Valid.OverlapAdequacy Valid.OverlapEquiv Valid.OverlapMemoSound Valid.OverlapCollect.

Section Sym.
  Variable s : schema.
  Variable d : document.
  Notation frags := (d_frags d).

  Hypothesis Hargs : forall x, EntryOk s d x -> args_nodup x.
  (* the sub-selection of a field occurrence is one of the selection sets of the document *)
  Hypothesis Hdocset : forall x t, EntryOk s d x -> ft s x = Some t -> has_sub (e_sub x) = true ->
    In (named t, e_sub x) (doc_sets s d).

  (* a conflict of (x, y) is a conflict of (y, x), or already shows a conflict of the document;
     a "conflict of a field with itself" always shows one *)
  Lemma conf_sym_or_doc : forall e x y, Conf s d e x y -> EntryOk s d x -> EntryOk s d y ->
    (Conf s d e y x \/ DocConf s d) /\ (x = y -> DocConf s d).
  Proof.
    induction 1 as [e x y tx ty Hx Hy Hd|e x y tx ty l u v Hx Hy Hd Hm Hb Hr Hc IH]; intros Ox Oy.
    - split.
      + left. apply (Conf_direct s d e y x ty tx Hy Hx). rewrite <- (direct_sym s e x y tx ty); auto.
      + intros ->. rewrite Hx in Hy. inversion Hy; subst ty.
        rewrite (direct_refl s e y tx (Hargs y Oy)) in Hd. discriminate.
    - pose proof (merged_entries s d x y tx ty l Ox Oy Hx Hy Hm) as Hl. rewrite Forall_forall in Hl.
      destruct (before_in _ _ _ Hb) as [Hu Hv].
      destruct (IH (Hl u Hu) (Hl v Hv)) as [IHs IHt].
      pose proof (merged_exp d x y tx ty l u Hm Hu) as Eu. pose proof (merged_exp d x y tx ty l v Hm Hv) as Ev.
      split.
      + destruct (merged_total d y x ty tx) as [l' [Hm' [Hy' Hx']]].
        assert (Hu' : In u l') by (destruct Eu; auto). assert (Hv' : In v l') by (destruct Ev; auto).
        assert (Hd' : direct s e y x ty tx = false) by (rewrite <- (direct_sym s e x y tx ty); auto).
        destruct (before_tricho u v l' Hu' Hv') as [He|[Hb'|Hb']].
        * right. apply IHt. exact He.
        * left. apply (Conf_nested s d e y x ty tx l' u v Hy Hx Hd' Hm' Hb' Hr). rewrite (excl_of_sym s e y x). exact Hc.
        * destruct IHs as [Hvu|Hdoc]; [|right; exact Hdoc].
          left. apply (Conf_nested s d e y x ty tx l' v u Hy Hx Hd' Hm' Hb').
          -- rewrite same_rname_sym. exact Hr.
          -- rewrite (excl_of_sym s e y x). exact Hvu.
      + intros ->. rewrite Hx in Hy. inversion Hy; subst ty.
        assert (Eu' : Exp frags (named tx) (e_sub y) u) by tauto.
        assert (Ev' : Exp frags (named tx) (e_sub y) v) by tauto.
        destruct (collect_set frags (named tx) (e_sub y)) as [stc [Ec Hcc]].
        pose proof (Hdocset y tx Oy Hx (has_sub_exp d _ _ _ Eu')) as Hset.
        destruct (before_tricho u v (snd stc) (Hcc u Eu') (Hcc v Ev')) as [He|[Hb'|Hb']].
        * apply IHt. exact He.
        * exists (named tx), (e_sub y). split; auto. exists stc, u, v. repeat split; auto.
          eapply Conf_mono. exact Hc.
        * destruct IHs as [Hvu|Hdoc]; [|exact Hdoc].
          exists (named tx), (e_sub y). split; auto. exists stc, v, u. repeat split; auto.
          -- rewrite same_rname_sym. exact Hr.
          -- eapply Conf_mono. exact Hvu.
  Qed.
End Sym.

Lemma bind_conf_inv r f m' : bind r f = RConflict m' ->
  r = RConflict m' \/ exists m1, r = ROk m1 /\ f m1 = RConflict m'.
Proof. destruct r as [|m0|m0]; cbn; intro H; try discriminate; [left; exact H | right; eauto]. Qed.

Lemma for_each_conf_inv {A} (f : A -> memo -> result) l : forall m m',
  for_each f l m = RConflict m' -> exists x m0, In x l /\ f x m0 = RConflict m'.
Proof.
  induction l as [|x r IH]; intros m m' H; cbn [for_each] in H; [discriminate|].
  apply bind_conf_inv in H as [H|[m1 [_ H]]].
  - exists x, m. split; [left; reflexivity | exact H].
  - destruct (IH _ _ H) as [y [m0 [Hy Hf]]]. exists y, m0. split; [right; exact Hy | exact Hf].
Qed.

Section ExecSound.
  Variable s : schema.
  Variable d : document.
  Notation frags := (d_frags d).

  Hypothesis Hargs : forall x, EntryOk s d x -> args_nodup x.
  Hypothesis Hdocset : forall x t, EntryOk s d x -> ft s x = Some t -> has_sub (e_sub x) = true ->
    In (named t, e_sub x) (doc_sets s d).
  Hypothesis Htyped : forall x, EntryOk s d x -> exists t, ft s x = Some t.

  (* a conflict of this pair shows a conflict of the document *)
  Definition Justified (e : bool) (u v : entry) : Prop := Conf s d e u v -> DocConf s d.
  Definition JustifiedSets (e : bool) (A B : entry -> Prop) : Prop :=
    forall u v, A u -> B v -> same_rname u v = true -> Justified e u v.

  (* the fields of a fragment and of the fragments it reaches *)
  Definition ExpF (F : N) (u : entry) : Prop :=
    exists G gd, RS frags F G /\ find_frag frags G = Some gd /\ In u (body_flat gd).

  Lemma flat_entryok : forall ss p, InDoc s d p ss -> forall u, In u (flat p ss) -> EntryOk s d u.
  Proof.
    induction ss as [|f sub IHsub rest IHrest|iid tc sub IHsub rest IHrest|n rest IHrest];
      intros p Hin u Hu; cbn [flat] in Hu.
    - contradiction.
    - destruct Hu as [<-|Hu]; [exists rest; exact Hin|].
      eapply IHrest; [eapply ID_field_rest; eauto | exact Hu].
    - apply in_app_or in Hu as [Hu|Hu].
      + eapply IHsub; [eapply ID_inline_sub; eauto | exact Hu].
      + eapply IHrest; [eapply ID_inline_rest; eauto | exact Hu].
    - eapply IHrest; [eapply ID_spread_rest; eauto | exact Hu].
  Qed.

  Lemma body_entryok F fd u : find_frag frags F = Some fd -> In u (body_flat fd) -> EntryOk s d u.
  Proof.
    intros Hf Hu. apply find_frag_some in Hf as [Hin _].
    eapply flat_entryok; [apply ID_frag; exact Hin | exact Hu].
  Qed.

  Lemma exp_entryok p ss u : InDoc s d p ss -> Exp frags p ss u -> EntryOk s d u.
  Proof.
    intros Hin [Hu|[F [fd [_ [Hf Hu]]]]]; [eapply flat_entryok; eauto | eapply body_entryok; eauto].
  Qed.

  Lemma expf_entryok F u : ExpF F u -> EntryOk s d u.
  Proof. intros [G [gd [_ [Hf Hu]]]]. eapply body_entryok; eauto. Qed.

  Lemma expf_in_exp p t sp u : In sp (sprs t) -> ExpF sp u -> Exp frags p t u.
  Proof.
    intros Hs [G [gd [Hr [Hf Hu]]]]. right. exists G, gd. split; auto. exists sp. auto.
  Qed.

  Lemma expf_refl F fd u : find_frag frags F = Some fd -> In u (body_flat fd) -> ExpF F u.
  Proof. intros Hf Hu. exists F, fd. split; [apply RS_refl | auto]. Qed.

  Lemma expf_step F fd sp u : find_frag frags F = Some fd -> In sp (sprs (fr_body fd)) -> ExpF sp u -> ExpF F u.
  Proof.
    intros Hf Hs [G [gd [Hr [Hg Hu]]]]. exists G, gd. split; auto. eapply RS_step; eauto.
  Qed.

  Lemma Justified_sym e u v : EntryOk s d u -> EntryOk s d v -> Justified e u v -> Justified e v u.
  Proof.
    intros Ou Ov H Hc.
    destruct (conf_sym_or_doc s d Hargs Hdocset e v u Hc Ov Ou) as [[Hs|Hd] _]; auto.
  Qed.

  (* pairs of the merged set of a justified pair are justified *)
  Lemma child_justified e x y tx ty : EntryOk s d x -> EntryOk s d y -> ft s x = Some tx -> ft s y = Some ty ->
    Justified e x y ->
    JustifiedSets (excl_of s e x y) (Exp frags (named tx) (e_sub x)) (Exp frags (named ty) (e_sub y)).
  Proof.
    intros Ox Oy Hx Hy Hg u v Hu Hv Hr Hc.
    destruct (direct s e x y tx ty) eqn:Hd; [apply Hg; eapply Conf_direct; eauto|].
    destruct (merged_total d x y tx ty) as [l [Hm [Hallx Hally]]].
    pose proof (Hallx u Hu) as Iu. pose proof (Hally v Hv) as Iv.
    pose proof (merged_entries s d x y tx ty l Ox Oy Hx Hy Hm) as Hl. rewrite Forall_forall in Hl.
    destruct (conf_sym_or_doc s d Hargs Hdocset _ u v Hc (Hl u Iu) (Hl v Iv)) as [Hsym Hself].
    destruct (before_tricho u v l Iu Iv) as [He|[Hb|Hb]].
    - apply Hself. exact He.
    - apply Hg. eapply Conf_nested; eauto.
    - destruct Hsym as [Hs|Hdoc]; [|exact Hdoc].
      apply Hg. apply (Conf_nested s d e x y tx ty l v u Hx Hy Hd Hm Hb); [|exact Hs].
      rewrite same_rname_sym. exact Hr.
  Qed.

  (* all pairs of the expansion of a selection set of the document are justified *)
  Lemma within_justified q t : In (q, t) (doc_sets s d) -> JustifiedSets false (Exp frags q t) (Exp frags q t).
  Proof.
    intros Hset u v Hu Hv Hr Hc.
    pose proof (doc_sets_indoc s d q t Hset) as Hin.
    destruct (collect_set frags q t) as [stc [Ec Hcc]].
    destruct (conf_sym_or_doc s d Hargs Hdocset _ u v Hc (exp_entryok q t u Hin Hu) (exp_entryok q t v Hin Hv))
      as [Hsym Hself].
    destruct (before_tricho u v (snd stc) (Hcc u Hu) (Hcc v Hv)) as [He|[Hb|Hb]].
    - apply Hself. exact He.
    - exists q, t. split; auto. exists stc, u, v. auto.
    - destruct Hsym as [Hs|Hdoc]; [|exact Hdoc].
      exists q, t. split; auto. exists stc, v, u. repeat split; auto.
      rewrite same_rname_sym. exact Hr.
  Qed.

  Definition cjust (c : call) : Prop :=
    match c with
    | CFindConflict e x y => EntryOk s d x /\ EntryOk s d y /\ Justified e x y
    | CBetweenSubs e p1 _ ss1 p2 _ ss2 =>
      InDoc s d p1 ss1 /\ InDoc s d p2 ss2 /\ JustifiedSets e (Exp frags p1 ss1) (Exp frags p2 ss2)
    | CFieldsFrag e _ fm F => (forall u, In u fm -> EntryOk s d u) /\ JustifiedSets e (fun u => In u fm) (ExpF F)
    | CFragFrag e F G => JustifiedSets e (ExpF F) (ExpF G)
    end.

  Lemma cross_calls_just e fm1 fm2 c : (forall u, In u fm1 -> EntryOk s d u) -> (forall v, In v fm2 -> EntryOk s d v) ->
    JustifiedSets e (fun u => In u fm1) (fun v => In v fm2) -> In c (cross_calls e fm1 fm2) -> cjust c.
  Proof.
    intros O1 O2 Hg Hc. apply in_cross_calls in Hc as [x [y [-> [Hx [Hy Hr]]]]]. cbn [cjust]. auto.
  Qed.

  Lemma sub_calls_just c c' : cjust c -> In c' (sub_calls s frags c) -> cjust c'.
  Proof.
    intros Hj Hin.
    destruct c as [pexcl a b|e p1 id1 ss1 p2 id2 ss2|e id fm frag|e f1 f2]; cbn [sub_calls cjust] in *.
    - (* find_conflict: the sub-selections of a justified pair *)
      destruct Hj as [Oa [Ob Hg]]. destruct (has_sub (e_sub a) && has_sub (e_sub b)); [|contradiction].
      destruct Hin as [<-|[]]. cbn [cjust].
      destruct (Htyped a Oa) as [ta Hta]. destruct (Htyped b Ob) as [tb Htb].
      rewrite (sub_parent_named s a ta Hta), (sub_parent_named s b tb Htb).
      pose proof (child_justified pexcl a b ta tb Oa Ob Hta Htb Hg) as Hch.
      destruct Oa as [ra Ha]. destruct Ob as [rb Hb].
      split; [eapply ID_field_sub; eauto|]. split; [eapply ID_field_sub; eauto | exact Hch].
    - (* between two sub-selection sets *)
      destruct Hj as [I1 [I2 Hg]]. rewrite !D_flat in Hin.
      assert (X1 : forall u, In u (flat p1 ss1) -> Exp frags p1 ss1 u) by (intros; left; assumption).
      assert (X2 : forall u, In u (flat p2 ss2) -> Exp frags p2 ss2 u) by (intros; left; assumption).
      apply in_between_calls in Hin as [Hin|[[sp [-> Hs]]|[[sp [-> Hs]]|[s1 [s2 [-> [Hs1 Hs2]]]]]]].
      + eapply cross_calls_just; [apply (flat_entryok ss1 p1 I1) | apply (flat_entryok ss2 p2 I2) | | exact Hin].
        intros u v Hu Hv Hr. apply Hg; auto.
      + cbn [cjust]. split; [exact (flat_entryok ss1 p1 I1)|].
        intros u v Hu Hv Hr. apply Hg; auto. eapply expf_in_exp; [exact (proj1 (S_sprs _ _ _) Hs) | exact Hv].
      + cbn [cjust]. split; [exact (flat_entryok ss2 p2 I2)|]. intros u v Hu Hv Hr.
        apply Justified_sym; [eapply expf_entryok; eauto | exact (flat_entryok ss2 p2 I2 u Hu)|].
        apply Hg; auto; [eapply expf_in_exp; [exact (proj1 (S_sprs _ _ _) Hs) | exact Hv]|].
        rewrite same_rname_sym. exact Hr.
      + cbn [cjust]. intros u v Hu Hv Hr. apply Hg; auto.
        * eapply expf_in_exp; [exact (proj1 (S_sprs _ _ _) Hs1) | exact Hu].
        * eapply expf_in_exp; [exact (proj1 (S_sprs _ _ _) Hs2) | exact Hv].
    - (* fields vs fragment *)
      destruct Hj as [Ofm Hg]. destruct (find_frag frags frag) as [fd|] eqn:Ef; [|contradiction].
      destruct (setid_code id =? setid_code (IdFrag frag)); [contradiction|].
      unfold Dfrag, Sfrag in Hin. rewrite D_flat in Hin. fold (body_flat fd) in Hin.
      apply in_app_or in Hin as [Hin|Hin].
      + eapply cross_calls_just; [exact Ofm | intros v Hv; exact (body_entryok frag fd v Ef Hv) | | exact Hin].
        intros u v Hu Hv Hr. apply Hg; auto. exact (expf_refl frag fd v Ef Hv).
      + apply in_map_iff in Hin as [sp [<- Hs]]. cbn [cjust]. split; [exact Ofm|].
        intros u v Hu Hv Hr. apply Hg; auto. eapply expf_step; [exact Ef | exact (proj1 (S_sprs _ _ _) Hs) | exact Hv].
    - (* fragment vs fragment *)
      destruct (find_frag frags f1) as [d1|] eqn:Ef1; [|contradiction].
      destruct (find_frag frags f2) as [d2|] eqn:Ef2; [|contradiction].
      unfold Dfrag, Sfrag in Hin. rewrite !D_flat in Hin. fold (body_flat d1) (body_flat d2) in Hin.
      apply in_app_or in Hin as [Hin|Hin]; [|apply in_app_or in Hin as [Hin|Hin]].
      + eapply cross_calls_just; [intros u Hu; exact (body_entryok f1 d1 u Ef1 Hu) | intros v Hv; exact (body_entryok f2 d2 v Ef2 Hv) | | exact Hin].
        intros u v Hu Hv Hr. apply Hj; auto; [exact (expf_refl f1 d1 u Ef1 Hu) | exact (expf_refl f2 d2 v Ef2 Hv)].
      + apply in_map_iff in Hin as [sp [<- Hs]]. cbn [cjust]. intros u v Hu Hv Hr. apply Hj; auto.
        eapply expf_step; [exact Ef2 | exact (proj1 (S_sprs _ _ _) Hs) | exact Hv].
      + apply in_map_iff in Hin as [sp [<- Hs]]. cbn [cjust]. intros u v Hu Hv Hr. apply Hj; auto.
        eapply expf_step; [exact Ef1 | exact (proj1 (S_sprs _ _ _) Hs) | exact Hu].
  Qed.

  Lemma decide_sound c m m' : cjust c -> decide s c m = Done (RConflict m') -> DocConf s d.
  Proof.
    intros Hj Hd. destruct c as [pexcl a b|e p1 id1 ss1 p2 id2 ss2|e id fm frag|e f1 f2]; cbn [decide cjust] in *.
    - destruct Hj as [Oa [Ob Hg]]. destruct (Htyped a Oa) as [ta Hta]. destruct (Htyped b Ob) as [tb Htb].
      rewrite (fc_direct_direct s pexcl a b ta tb Hta Htb) in Hd.
      destruct (direct s pexcl a b ta tb) eqn:Ed; [|discriminate]. apply Hg. eapply Conf_direct; eauto.
    - discriminate.
    - destruct (ops_has _ _ _ _); discriminate.
    - destruct (f1 =? f2); [discriminate|]. destruct (ps_has _ _ _ _); discriminate.
  Qed.

  Lemma exec_sound fuel : forall c m m', cjust c -> exec s frags fuel c m = RConflict m' -> DocConf s d.
  Proof.
    induction fuel as [|f IH]; intros c m m' Hj H; cbn [exec] in H; [discriminate|].
    rewrite exec_step_eq in H. destruct (decide s c m) as [r|m1] eqn:Ed.
    - subst r. eapply decide_sound; eauto.
    - apply for_each_conf_inv in H as [c' [m0 [Hc' H]]]. eapply IH; [eapply sub_calls_just; eauto | exact H].
  Qed.
End ExecSound.

Section RunSound.
  Variable s : schema.
  Variable d : document.
  Notation frags := (d_frags d).

  (* the document can be typed: composite root and fragment types, every field and type condition *)
  Hypothesis Hops_t : forall o, In o (d_ops d) -> is_composite s (fst o) = true /\ typed_sels s (fst o) (snd o).
  Hypothesis Hfr_t : forall fd, In fd frags -> is_composite s (fr_type fd) = true /\ typed_sels s (fr_type fd) (fr_body fd).
  Hypothesis Hargs_ops : forall o, In o (d_ops d) -> args_ok (snd o).
  Hypothesis Hargs_frags : forall fd, In fd frags -> args_ok (fr_body fd).

  Lemma indoc_checked p ss : InDoc s d p ss -> incl (checked_sets s p ss) (doc_sets s d).
  Proof.
    induction 1 as [o Ho|fd Hf|p f sub rest Hd IH|p f sub rest t Hd IH Ht|p i tc sub rest Hd IH
                   |p i tc sub rest Hd IH|p n rest Hd IH]; intros z Hz.
    - unfold doc_sets. apply in_or_app. left. apply in_flat_map. exists o. split; auto.
      unfold root_sets. rewrite (proj1 (Hops_t o Ho)). right. exact Hz.
    - unfold doc_sets. apply in_or_app. right. apply in_flat_map. exists fd. split; auto.
      unfold root_sets. rewrite (proj1 (Hfr_t fd Hf)). right. exact Hz.
    - apply IH. cbn [checked_sets]. apply in_or_app. right. exact Hz.
    - apply IH. cbn [checked_sets]. rewrite Ht. apply in_or_app. left.
      destruct sub; [destruct Hz| | |]; right; exact Hz.
    - apply IH. cbn [checked_sets]. apply in_or_app. right. exact Hz.
    - apply IH. cbn [checked_sets]. apply in_or_app. left.
      pose proof (indoc_typed s d Hops_t Hfr_t _ _ Hd) as Ht. cbn [typed_sels] in Ht. rewrite (proj1 Ht). right. exact Hz.
    - apply IH. exact Hz.
  Qed.

  Lemma entry_docset x t : EntryOk s d x -> ft s x = Some t -> has_sub (e_sub x) = true ->
    In (named t, e_sub x) (doc_sets s d).
  Proof.
    intros [rest Hr] Ht Hs. apply (indoc_checked _ _ Hr). cbn [checked_sets].
    unfold ft in Ht. rewrite Ht. apply in_or_app. left.
    destruct (e_sub x); [discriminate| | |]; left; reflexivity.
  Qed.

  Notation Hargs := (entry_args s d Hargs_ops Hargs_frags).

  Lemma set_calls_just q id t c : In (q, t) (doc_sets s d) -> In c (set_calls (q, id, t)) ->
    cjust s d c.
  Proof.
    intros Hset Hin. pose proof (doc_sets_indoc s d q t Hset) as Hi.
    pose proof (within_justified s d Hargs entry_docset q t Hset) as Hg.
    assert (X : forall u, In u (flat q t) -> Exp frags q t u) by (intros; left; assumption).
    apply in_set_calls in Hin as [[x [y [-> [Hb Hr]]]]|[[sp [-> Hs]]|[s1 [s2 [-> Hb]]]]];
      rewrite ?D_flat in *; cbn [cjust].
    - destruct (before_in _ _ _ Hb) as [Hx Hy].
      split; [exact (flat_entryok s d t q Hi x Hx)|]. split; [exact (flat_entryok s d t q Hi y Hy)|]. apply Hg; auto.
    - split; [exact (flat_entryok s d t q Hi)|].
      intros u v Hu Hv Hr. apply Hg; auto. eapply expf_in_exp; [exact (proj1 (S_sprs _ _ _) Hs) | exact Hv].
    - destruct (before_in _ _ _ Hb) as [H1 H2]. intros u v Hu Hv Hr. apply Hg; auto.
      + eapply expf_in_exp; [exact (proj1 (S_sprs _ _ _) H1) | exact Hu].
      + eapply expf_in_exp; [exact (proj1 (S_sprs _ _ _) H2) | exact Hv].
  Qed.

  (* every conflict the memoised algorithm reports is a conflict of the specification's reading *)
  Theorem memo_sound_doc ord fuel m : opt_run s d ord fuel = RConflict m -> DocConf s d.
  Proof.
    rewrite opt_run_eq. intro H. apply for_each_conf_inv in H as [c [m0 [Hc H]]].
    apply in_flat_map in Hc as [[[q id] t] [Hx Hc]].
    eapply (exec_sound s d Hargs entry_docset (entry_typed s d Hops_t Hfr_t)); [|exact H].
    eapply set_calls_just; [|exact Hc]. exact (run_sets_doc s d ord _ Hops_t Hfr_t Hx).
  Qed.
End RunSound.

Section Equiv.
  Variable s : schema.
  Variable d : document.
  Hypothesis Hops_t : forall o, In o (d_ops d) -> is_composite s (fst o) = true /\ typed_sels s (fst o) (snd o).
  Hypothesis Hfr_t : forall fd, In fd (d_frags d) ->
    is_composite s (fr_type fd) = true /\ typed_sels s (fr_type fd) (fr_body fd).
  Hypothesis Hargs_ops : forall o, In o (d_ops d) -> args_ok (snd o).
  Hypothesis Hargs_frags : forall fd, In fd (d_frags d) -> args_ok (fr_body fd).
  Hypothesis Hfids : nodupb (doc_fids d) = true.

  (* a conflict reported by the memoised algorithm is a conflict of the specification function *)
  Theorem memo_sound ord fuel : opt_conflicts s d ord fuel = Some true -> spec_conflicts s d = true.
  Proof.
    unfold opt_conflicts. destruct (opt_run s d ord fuel) as [|m|m] eqn:Er; try discriminate. intros _.
    apply spec_complete.
    - apply unique_ids_identify. exact Hfids.
    - eapply memo_sound_doc; eauto.
    - apply typed_not_untyped; auto.
  Qed.
End Equiv.
