(* The memoised algorithm with a trace of everything it compares (for the proof that the memo
   never hides a conflict).  [texec] is [OverlapOpt.exec] on the same memo, with an additional log
   of: every evaluated field pair, every started fields-vs-fragment comparison (with its field
   map) and every started fragment-vs-fragment comparison.  Both compute the same verdict. *)
From GV Require Import Base.Prelude Valid.Overlap Valid.PairSet Valid.OverlapOpt Valid.OverlapOptCalls.

Inductive tev :=
| TvCmp (excl : bool) (a b : entry)                       (* find_conflict evaluated on (a, b) *)
| TvFp (id : N) (fm : list entry) (frag : N) (flag : bool) (* fields of set [id] vs fragment: started *)
| TvGg (f1 f2 : N) (flag : bool).                          (* fragment vs fragment: started *)

Definition tstate : Type := (memo * list tev)%type.
Definition t_log (st : tstate) : list tev := snd st.

Inductive tresult := TFuel | TConflict | TOk (st : tstate).

Definition tbind (r : tresult) (f : tstate -> tresult) : tresult :=
  match r with TOk st => f st | _ => r end.

Fixpoint tfor_each {A} (f : A -> tstate -> tresult) (l : list A) (st : tstate) : tresult :=
  match l with
  | [] => TOk st
  | x :: r => tbind (f x st) (tfor_each f r)
  end.

Definition cmp_ev (c : call) : list tev :=
  match c with CFindConflict e a b => [TvCmp e a b] | _ => [] end.

(* logged when the call goes on after a memo miss *)
Definition start_ev (c : call) : list tev :=
  match c with
  | CFieldsFrag e id fm frag => [TvFp (setid_code id) fm frag e]
  | CFragFrag e f1 f2 => [TvGg f1 f2 e]
  | _ => []
  end.

Section ExecT.
  Variable s : schema.
  Variable frags : list fragdef.

  Definition texec_step (rec : call -> tstate -> tresult) (c : call) (st : tstate) : tresult :=
    match decide s c (fst st) with
    | Done RFuel => TFuel
    | Done (RConflict _) => TConflict
    | Done (ROk m') => TOk (m', cmp_ev c ++ snd st)
    | Go m1 => tfor_each rec (sub_calls s frags c) (m1, start_ev c ++ cmp_ev c ++ snd st)
    end.

  Fixpoint texec (fuel : nat) : call -> tstate -> tresult :=
    match fuel with
    | O => fun _ _ => TFuel
    | S f => texec_step (texec f)
    end.
End ExecT.

Definition topt_run (s : schema) (d : document) (ord : list (bool * nat)) (fuel : nat) : tresult :=
  tfor_each (texec s (d_frags d) fuel) (calls_of (run_sets s d ord)) (mkMemo [] [] [], []).

Definition rsim (rt : tresult) (r : result) : Prop :=
  match rt, r with
  | TFuel, RFuel => True
  | TConflict, RConflict _ => True
  | TOk st, ROk m => fst st = m
  | _, _ => False
  end.

Lemma for_each_sim {A} (ft : A -> tstate -> tresult) (f : A -> memo -> result) l :
  (forall x st, rsim (ft x st) (f x (fst st))) ->
  forall st, rsim (tfor_each ft l st) (for_each f l (fst st)).
Proof.
  intro H. induction l as [|x r IH]; intro st; cbn [tfor_each for_each]; [reflexivity|].
  pose proof (H x st) as Hx.
  destruct (ft x st) as [| |st1], (f x (fst st)) as [|m1|m1]; cbn in Hx |- *; try contradiction; auto.
  subst m1. apply IH.
Qed.

Lemma exec_sim s frags fuel : forall c st, rsim (texec s frags fuel c st) (exec s frags fuel c (fst st)).
Proof.
  induction fuel as [|f IH]; intros c st; cbn [texec exec]; [exact I|].
  rewrite exec_step_eq. unfold texec_step. destruct (decide s c (fst st)) as [[|m'|m']|m1]; try reflexivity.
  apply (for_each_sim _ _ _ IH (m1, _)).
Qed.

(* the traced run and the memoised model give the same verdict *)
Theorem opt_run_sim s d order fuel : rsim (topt_run s d order fuel) (opt_run s d order fuel).
Proof.
  rewrite opt_run_eq. apply (for_each_sim _ _ _ (exec_sim s (d_frags d) fuel) (_, [])).
Qed.
