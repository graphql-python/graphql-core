(* Proofs about the memo tables of the overlapping-fields rule. *)
From GV Require Import Base.Prelude Valid.PairSet.

Section DictLaws.
  Context {K V : Type} (eqb : K -> K -> bool).
  Hypothesis eqb_spec : forall a b, eqb a b = true <-> a = b.

  Lemma eqb_refl' k : eqb k k = true.
  Proof. apply eqb_spec. reflexivity. Qed.

  Lemma eqb_neq a b : a <> b -> eqb a b = false.
  Proof. intro H. destruct (eqb a b) eqn:E; auto. apply eqb_spec in E. contradiction. Qed.

  Lemma dget_dset_same k (v : V) d : dget eqb k (dset eqb k v d) = Some v.
  Proof.
    induction d as [|[k' v'] r IH]; cbn.
    - rewrite eqb_refl'. reflexivity.
    - destruct (eqb k' k) eqn:E; cbn; rewrite E; auto.
  Qed.

  Lemma dget_dset_other k k1 (v : V) d : k <> k1 -> dget eqb k1 (dset eqb k v d) = dget eqb k1 d.
  Proof.
    intro Hn. induction d as [|[k' v'] r IH]; cbn.
    - rewrite (eqb_neq k k1 Hn). reflexivity.
    - destruct (eqb k' k) eqn:E; cbn.
      + apply eqb_spec in E. subst k'. rewrite (eqb_neq k k1 Hn). reflexivity.
      + destruct (eqb k' k1); auto.
  Qed.
End DictLaws.

Definition teq_spec := nat_list_eqb_eq.
Definition neq_spec := N.eqb_eq.

Lemma text_ltb_asym a : forall b, text_ltb a b = true -> text_ltb b a = false.
Proof.
  induction a as [|x a IH]; intros [|y b] H; cbn in *; try discriminate; auto.
  destruct (x <? y) eqn:E1; destruct (y <? x) eqn:E2; auto; try discriminate.
  apply N.ltb_lt in E1. apply N.ltb_lt in E2. lia.
Qed.

Lemma text_ltb_total a : forall b, text_ltb a b = false -> text_ltb b a = false -> a = b.
Proof.
  induction a as [|x a IH]; intros [|y b] H1 H2; cbn in *; try discriminate; auto.
  destruct (x <? y) eqn:E1; destruct (y <? x) eqn:E2; try discriminate.
  apply N.ltb_ge in E1. apply N.ltb_ge in E2. assert (x = y) by lia. subst.
  f_equal. apply IH; assumption.
Qed.

Lemma order_sym a b : order a b = order b a.
Proof.
  unfold order. destruct (text_ltb a b) eqn:E1.
  - rewrite (text_ltb_asym _ _ E1). reflexivity.
  - destruct (text_ltb b a) eqn:E2; auto.
    rewrite (text_ltb_total _ _ E1 E2). reflexivity.
Qed.

Lemma order_dec (x y u v : text) : order x y = order u v \/ order x y <> order u v.
Proof.
  destruct (order x y) as [x1 x2], (order u v) as [y1 y2].
  destruct (nat_list_eqb x1 y1) eqn:E1; destruct (nat_list_eqb x2 y2) eqn:E2.
  - apply teq_spec in E1. apply teq_spec in E2. subst. left. reflexivity.
  - right. intro Hc. inversion Hc. subst. rewrite (proj2 (teq_spec y2 y2) eq_refl) in E2. discriminate.
  - right. intro Hc. inversion Hc. subst. rewrite (proj2 (teq_spec y1 y1) eq_refl) in E1. discriminate.
  - right. intro Hc. inversion Hc. subst. rewrite (proj2 (teq_spec y1 y1) eq_refl) in E1. discriminate.
Qed.

Lemma ps_get_order s a b c d : order a b = order c d -> ps_get s a b = ps_get s c d.
Proof. unfold ps_get. intros ->. reflexivity. Qed.

Lemma ps_get_add_same s a b e : ps_get (ps_add s a b e) a b = Some e.
Proof.
  unfold ps_get, ps_add. destruct (order a b) as [k1 k2].
  destruct (dget nat_list_eqb k1 s) as [m|] eqn:E.
  - rewrite (dget_dset_same _ teq_spec). apply (dget_dset_same _ teq_spec).
  - rewrite (dget_dset_same _ teq_spec). cbn.
    rewrite (proj2 (teq_spec k2 k2) eq_refl). reflexivity.
Qed.

Lemma ps_get_add_other s a b e c d :
  order c d <> order a b -> ps_get (ps_add s a b e) c d = ps_get s c d.
Proof.
  unfold ps_get, ps_add. destruct (order a b) as [k1 k2]. destruct (order c d) as [j1 j2].
  intro Hn.
  destruct (nat_list_eqb k1 j1) eqn:E1.
  - apply teq_spec in E1. subst j1.
    assert (Hk : k2 <> j2) by (intro; subst; apply Hn; reflexivity).
    destruct (dget nat_list_eqb k1 s) as [m|] eqn:E.
    + rewrite (dget_dset_same _ teq_spec). apply (dget_dset_other _ teq_spec). exact Hk.
    + rewrite (dget_dset_same _ teq_spec). cbn.
      destruct (nat_list_eqb k2 j2) eqn:E2; auto. apply teq_spec in E2. contradiction.
  - assert (Hk : k1 <> j1) by (intro; subst; rewrite (proj2 (teq_spec j1 j1) eq_refl) in E1; discriminate).
    destruct (dget nat_list_eqb k1 s) as [m|] eqn:E;
      rewrite (dget_dset_other _ teq_spec) by exact Hk; reflexivity.
Qed.

(* used as in the rule (has, then add): an entry never disappears and only moves from
   exclusive (true) to non-exclusive (false) *)
Theorem ps_record_monotone s c d e a b r :
  ps_get s a b = Some r ->
  exists r', ps_get (ps_record s c d e) a b = Some r' /\ (r = false -> r' = false).
Proof.
  intro H. unfold ps_record. destruct (ps_has s c d e) eqn:Eh.
  - exists r. auto.
  - destruct (order_dec a b c d) as [Ho|Ho].
    + rewrite (ps_get_order _ _ _ _ _ Ho). rewrite ps_get_add_same.
      exists e. split; auto. intro Hr. subst r.
      unfold ps_has in Eh. rewrite <- (ps_get_order _ _ _ _ _ Ho), H in Eh.
      destruct e; cbn in Eh; congruence.
    + rewrite ps_get_add_other by exact Ho. exists r. auto.
Qed.

Theorem ps_record_keeps_answers s c d e a b q :
  ps_has s a b q = true -> ps_has (ps_record s c d e) a b q = true.
Proof.
  unfold ps_has at 1. destruct (ps_get s a b) as [r|] eqn:E; [|discriminate].
  intro H. destruct (ps_record_monotone s c d e a b r E) as [r' [H1 H2]].
  unfold ps_has. rewrite H1. destruct q; cbn in *; auto.
  destruct r; cbn in H; try discriminate. rewrite H2; auto.
Qed.

Lemma ops_get_add_same s a b e : ops_get (ops_add s a b e) a b = Some e.
Proof.
  unfold ops_get, ops_add.
  destruct (dget N.eqb a s) as [m|] eqn:E.
  - rewrite (dget_dset_same _ neq_spec). apply (dget_dset_same _ teq_spec).
  - rewrite (dget_dset_same _ neq_spec). cbn.
    rewrite (proj2 (teq_spec b b) eq_refl). reflexivity.
Qed.

Lemma ops_get_add_other s a b e c d :
  (c, d) <> (a, b) -> ops_get (ops_add s a b e) c d = ops_get s c d.
Proof.
  unfold ops_get, ops_add. intro Hn.
  destruct (a =? c) eqn:E1.
  - apply N.eqb_eq in E1. subst c.
    assert (Hk : b <> d) by (intro; subst; apply Hn; reflexivity).
    destruct (dget N.eqb a s) as [m|] eqn:E.
    + rewrite (dget_dset_same _ neq_spec). apply (dget_dset_other _ teq_spec). exact Hk.
    + rewrite (dget_dset_same _ neq_spec). cbn.
      destruct (nat_list_eqb b d) eqn:E2; auto. apply teq_spec in E2. contradiction.
  - apply N.eqb_neq in E1.
    destruct (dget N.eqb a s) as [m|] eqn:E;
      rewrite (dget_dset_other _ neq_spec) by exact E1; reflexivity.
Qed.

Lemma ops_get_add s a b e c d :
  ops_get (ops_add s a b e) c d = if (c =? a) && nat_list_eqb d b then Some e else ops_get s c d.
Proof.
  destruct (c =? a) eqn:E1; [destruct (nat_list_eqb d b) eqn:E2|]; cbn [andb].
  - apply N.eqb_eq in E1. apply teq_spec in E2. subst. apply ops_get_add_same.
  - apply ops_get_add_other. intro Hc. inversion Hc. subst. rewrite (proj2 (teq_spec b b) eq_refl) in E2. discriminate.
  - apply ops_get_add_other. intro Hc. inversion Hc. subst. rewrite N.eqb_refl in E1. discriminate.
Qed.

Theorem ops_record_monotone s c d e a b r :
  ops_get s a b = Some r ->
  exists r', ops_get (ops_record s c d e) a b = Some r' /\ (r = false -> r' = false).
Proof.
  intro H. unfold ops_record. destruct (ops_has s c d e) eqn:Eh.
  - exists r. auto.
  - rewrite ops_get_add. destruct ((a =? c) && nat_list_eqb b d) eqn:E; [|exists r; auto].
    apply andb_true_iff in E as [E1 E2]. apply N.eqb_eq in E1. apply teq_spec in E2. subst c d.
    exists e. split; auto. intro Hr. subst r.
    unfold ops_has in Eh. rewrite H in Eh. destruct e; cbn in Eh; congruence.
Qed.
