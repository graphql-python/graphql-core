(* ASTValidationContext.get_fragment_spreads as the code runs it - a stack of selection sets,
   popped from the end - against the structural formulation Rules.set_spreads used by the rules:
   equal results, and the loop ends within (number of selection sets below the node) + 1 steps. *)
From GV Require Import Base.Prelude Lang.Ast Valid.Rules Valid.RulesBase Valid.RulesErase.

(* the spread standing directly at position j of the set at path p / the set nested there *)
Definition sel_direct (p : path) (j : nat) (sel : node) : list spread :=
  match sel with
  | Nd KFragmentSpread _ => [spread_of (p ++ [(0, j)]%nat) sel]
  | _ => []
  end.

Definition sel_nested (p : path) (j : nat) (sel : node) : option (path * node) :=
  match sel with
  | Nd KField (_ :: _ :: _ :: _ :: ANode s' :: _) => Some (p ++ [(0, j); (4, O)]%nat, s')
  | Nd KInlineFragment (_ :: ANode s' :: _) => Some (p ++ [(0, j); (1, O)]%nat, s')
  | _ => None
  end.

Definition selections (s : node) : list node :=
  match s with Nd KSelectionSet (AList sels :: _) => sels | _ => [] end.

Definition opt_list {A} (o : option A) : list A := match o with Some x => [x] | None => [] end.

(* one iteration: `for selection in visited_set.selections` *)
Definition scan (p : path) (s : node) : list spread * list (path * node) :=
  (concat (mapi (sel_direct p) (selections s)),
   flat_map opt_list (mapi (sel_nested p) (selections s))).

(* the loop; the top of the stack is the head.  None = out of fuel *)
Fixpoint spreads_loop (fuel : nat) (stack : list (path * node)) (acc : list spread)
  : option (list spread) :=
  match fuel with
  | O => None
  | S fuel' =>
    match stack with
    | [] => Some acc
    | (p, s) :: rest =>
      spreads_loop fuel' (rev (snd (scan p s)) ++ rest) (acc ++ fst (scan p s))
    end
  end.

(* number of selection sets at and below a selection set *)
Fixpoint nsets (s : node) {struct s} : nat :=
  match s with
  | Nd KSelectionSet (AList sels :: _) =>
    S (list_sum (map (fun sel =>
         match sel with
         | Nd KField (_ :: _ :: _ :: _ :: ANode s' :: _) => nsets s'
         | Nd KInlineFragment (_ :: ANode s' :: _) => nsets s'
         | _ => O
         end) sels))
  | _ => 1%nat
  end.

Definition ss (ps : path * node) : list spread := set_spreads (fst ps) (snd ps).

Lemma sel_part_fst p j sel : fst (sel_part p j sel) = sel_direct p j sel.
Proof.
  destruct sel as [k' a']. destruct k'; try reflexivity.
  - destruct a' as [|? [|? [|? [|? [|[] ?]]]]]; reflexivity.
  - destruct a' as [|? [|[] ?]]; reflexivity.
Qed.

Lemma sel_part_snd p j sel :
  snd (sel_part p j sel) = match sel_nested p j sel with Some ps => ss ps | None => [] end.
Proof.
  destruct sel as [k' a']. destruct k'; try reflexivity.
  - destruct a' as [|? [|? [|? [|? [|[] ?]]]]]; reflexivity.
  - destruct a' as [|? [|[] ?]]; reflexivity.
Qed.

Lemma parts_nested p sels : forall i,
  concat (rev (map snd (mapi_from (sel_part p) i sels))) =
  concat (rev (map ss (flat_map opt_list (mapi_from (sel_nested p) i sels)))).
Proof.
  induction sels as [|sel sels IH]; intro i; [reflexivity|].
  cbn [mapi_from map flat_map rev]. rewrite map_app, rev_app_distr, !concat_app, IH. f_equal.
  rewrite sel_part_snd. destruct (sel_nested p i sel); cbn; rewrite ?app_nil_r; reflexivity.
Qed.

Lemma set_spreads_scan p s :
  set_spreads p s = fst (scan p s) ++ concat (rev (map ss (snd (scan p s)))).
Proof.
  unfold scan, selections. destruct s as [k attrs]. destruct k; try reflexivity.
  destruct attrs as [|[| |sels| | |] r]; try reflexivity.
  cbn [fst snd]. rewrite set_spreads_unfold. cbv zeta. unfold mapi. f_equal.
  - f_equal. rewrite map_mapi_from. apply mapi_from_ext. intros. apply sel_part_fst.
  - apply parts_nested.
Qed.

Lemma list_sum_cons a l : list_sum (a :: l) = (a + list_sum l)%nat.
Proof. reflexivity. Qed.

Lemma nested_sizes p sels : forall i,
  list_sum (map (fun sel =>
     match sel with
     | Nd KField (_ :: _ :: _ :: _ :: ANode s' :: _) => nsets s'
     | Nd KInlineFragment (_ :: ANode s' :: _) => nsets s'
     | _ => O
     end) sels) =
  list_sum (map (fun ps => nsets (snd ps)) (flat_map opt_list (mapi_from (sel_nested p) i sels))).
Proof.
  induction sels as [|sel sels IH]; intro i; [reflexivity|].
  cbn [mapi_from map flat_map]. rewrite map_app, list_sum_app, list_sum_cons, <- IH. f_equal.
  destruct sel as [k' a']. destruct k'; try reflexivity.
  - destruct a' as [|? [|? [|? [|? [|[] ?]]]]]; try reflexivity.
    cbn [sel_nested opt_list map snd]. rewrite list_sum_cons. cbn [list_sum fold_right]. lia.
  - destruct a' as [|? [|[] ?]]; try reflexivity.
    cbn [sel_nested opt_list map snd]. rewrite list_sum_cons. cbn [list_sum fold_right]. lia.
Qed.

Lemma nsets_scan p s : nsets s = S (list_sum (map (fun ps => nsets (snd ps)) (snd (scan p s)))).
Proof.
  unfold scan, selections. destruct s as [k attrs]. destruct k; try reflexivity.
  destruct attrs as [|[| |sels| | |] r]; try reflexivity.
  cbn [fst snd nsets]. f_equal. apply nested_sizes.
Qed.

Definition stack_size (stack : list (path * node)) : nat :=
  list_sum (map (fun ps => nsets (snd ps)) stack).

Lemma spreads_loop_spec fuel : forall stack acc, (stack_size stack < fuel)%nat ->
  spreads_loop fuel stack acc = Some (acc ++ flat_map ss stack).
Proof.
  induction fuel as [|fuel IH]; intros stack acc H; [lia|].
  cbn [spreads_loop]. destruct stack as [|[p s] rest]; [cbn; rewrite app_nil_r; reflexivity|].
  rewrite IH.
  - f_equal. rewrite flat_map_app, <- app_assoc. f_equal. cbn [flat_map]. rewrite app_assoc. f_equal.
    change (ss (p, s)) with (set_spreads p s). rewrite (set_spreads_scan p s). f_equal.
    rewrite flat_map_concat_map, map_rev. reflexivity.
  - unfold stack_size in *. cbn [map snd] in H. rewrite list_sum_cons, (nsets_scan p s) in H.
    rewrite map_app, list_sum_app, map_rev.
    assert (E : forall l, list_sum (rev l) = list_sum l).
    { induction l as [|a l IHl]; [reflexivity|]. cbn [rev].
      rewrite list_sum_app, IHl, !list_sum_cons. cbn [list_sum fold_right]. lia. }
    rewrite E. lia.
Qed.

(* get_fragment_spreads(node) *)
Definition get_fragment_spreads (p : path) (s : node) : option (list spread) :=
  spreads_loop (S (nsets s)) [(p, s)] [].

