(* C13 / the schema-dependent validation rules imply the typing judgment execution relies on.
   The variable definitions of the translated operation are accepted (vars_ok); constants carry
   no variable usages; rules13 split into its parts.  Assembly in Properties/C13rules.v. *)
From Coq Require Import Relations.
From GV Require Import Base.Prelude Base.ListFacts Lang.Ast Exec.Value Exec.Schema Exec.Spec Exec.Typing Valid.StaticTyping
  Valid.Rules Valid.RulesBase Valid.RulesSpec Valid.Rules13 Valid.ToExec Valid.RulesLit Valid.RulesTyping
  Valid.RulesTypingDoc Valid.RulesTypingGlue.

Section NoVars.
  Variable s : schema.
  Variable fl : list N -> Z * N.

  (* what no_var_uses proves of a value node: translated to a constant, it yields no usage event *)
  Definition nv_goal (n : node) : Prop := forall p it dflt oneof xv,
    val_of fl n = Some xv -> has_var xv = false -> uses_of (val_evs s n p it dflt oneof) = [].

  Theorem no_var_uses n : nv_goal n.
  Proof.
    enough (H : nv_goal n /\ (forall a0 vn r, n = Nd KObjectField (a0 :: ANode vn :: r) -> nv_goal vn)) by apply H.
    induction n as [k attrs IHn IHl] using node_children_ind. split.
    - intros p it dflt oneof xv Hv Hh. destruct k; try reflexivity.
      + (* list *)
        destruct attrs as [|[| |items| | |] r]; try reflexivity. cbn [val_of] in Hv.
        destruct (all_some (map (val_of fl) items)) as [vs|] eqn:Ea; [|discriminate]. cbn in Hv. inversion Hv; subst xv.
        cbn [has_var] in Hh. cbn [val_evs]. rewrite uses_of_concat, map_mapi. apply concat_mapi_nil. intros j m Hj.
        destruct (Forall2_nth_l _ _ _ (all_some_Forall2 _ _ _ Ea) j m Hj) as (xm & Hxm & Hvm).
        apply (proj1 (IHl O items eq_refl m (nth_error_In _ _ Hj))) with xm; [exact Hvm|].
        destruct (has_var xm) eqn:E; [|reflexivity]. exfalso.
        assert (existsb (has_var) vs = true) by (apply existsb_exists; exists xm; split; [eapply nth_error_In; eauto | exact E]).
        congruence.
      + (* object *)
        destruct attrs as [|[| |flds| | |] r]; try reflexivity. cbn [val_of] in Hv.
        assert (Hv' : option_map VObj (all_some (map (field_kv fl) flds)) = Some xv) by exact Hv.
        destruct (all_some (map (field_kv fl) flds)) as [kvs|] eqn:Ea; [|discriminate]. cbn in Hv'. inversion Hv'; subst xv.
        cbn [has_var] in Hh. cbn [val_evs]. cbv zeta. rewrite uses_of_concat, map_mapi. apply concat_mapi_nil. intros j f Hj.
        destruct (Forall2_nth_l _ _ _ (all_some_Forall2 _ _ _ Ea) j f Hj) as ([kf xf] & Hxf & Hkv).
        apply field_kv_inv in Hkv as (nm & vn & r' & -> & _ & Hvn).
        cbv beta iota. rewrite uses_of_app.
        assert (Hdup : forall o : option npath, uses_of (match o with
                         | Some p0 => [EErr (VE R_UINF [p0; p ++ [(O, j); (O, O)]])]
                         | None => [] end) = []) by (intros [|]; reflexivity).
        rewrite Hdup. cbn [app].
        pose proof (proj2 (IHl O flds eq_refl _ (nth_error_In _ _ Hj)) (ANode nm) vn r' eq_refl) as Hg.
        assert (Hxf' : has_var xf = false).
        { destruct (has_var xf) eqn:E; [|reflexivity]. exfalso.
          assert (existsb (fun kv : Value.str * value => has_var (snd kv)) kvs = true).
          { apply existsb_exists. exists (kf, xf). split; [eapply nth_error_In; eauto | exact E]. }
          congruence. }
        destruct (match it with
                  | Some t => match lookup_type s (named_of t) with Some (TInput defs one) => Some (defs, one) | _ => None end
                  | None => None end) as [[defs one]|];
          [destruct (find_arg _ defs)|]; apply Hg with xf; assumption.
      + (* variable *)
        destruct attrs as [|[|nm| | | |] r]; try reflexivity. cbn in Hv. inversion Hv; subst. discriminate.
    - intros a0 vn r Heq. inversion Heq; subst. apply (IHn 1%nat vn eq_refl).
  Qed.
End NoVars.

Lemma errs_of_filter l : errs_of (filter is_err l) = errs_of l.
Proof. induction l as [|[e|u] l IH]; cbn; [reflexivity | f_equal; exact IH | exact IH]. Qed.

Section Final.
  Variable vs : vschema.
  Let s := vs_s vs.
  Variable fl : list N -> Z * N.
  Hypothesis Hinputs : schema_inputs_ok s = true.
  Hypothesis Hsok : schema_ok s = true.
  Variable d : node.
  Variable x : document.
  Hypothesis Hx : to_exec fl None d = Some x.
  Hypothesis Hlocal : local_errs vs d = [].
  Hypothesis Huvar : rule_unique_variable_names d = [].

  Lemma vars_ok_rules : vars_ok s (d_vars x) = true.
  Proof.
    destruct (to_exec_inv _ _ _ Hx) as (jo & ss & a1 & a2 & vds & a4 & o & r & Hfilt & Ejo & _ & Evars & _ & _).
    cbv zeta in Hfilt, Ejo.
    set (opn := Nd KOperationDefinition (ANode ss :: a1 :: a2 :: vds :: a4 :: AEnum o :: r)) in *.
    unfold vars_ok. apply andb_true_iff. split.
    - (* distinct names *)
      apply nodup_names_NoDup. rewrite (vardef_names fl _ _ Evars).
      destruct (op_of_def d jo _ _ _ _ _ Ejo) as (op & Hop & _ & Hovdefs & _).
      apply (op_var_names_NoDup d op _ vds Huvar Hop Hovdefs).
    - (* input types, defaults *)
      apply forallb_forall. intros vd Hvd. apply In_nth_error in Hvd as [i Hi].
      destruct (Forall2_nth_r _ _ _ (all_some_Forall2 _ _ _ Evars) i vd Hi) as (n & Hn & Hvo).
      apply vardef_of_inv in Hvo as (b0 & b1 & t & dv & b4 & r' & -> & _ & Ht & Hwf & Hd).
      pose proof (defs_errs vs d Hlocal jo opn Ejo) as He. unfold opn in He. cbn [def_evs def_evs_gen] in He.
      rewrite errs_of_app in He. apply app_eq_nil in He as [He _]. unfold vardef_evs in He.
      pose proof (mapi_nth_errs _ _ _ _ He Hn) as He'. cbv beta iota zeta in He'.
      rewrite !errs_of_app in He'. apply app_eq_nil in He' as [HA He']. apply app_eq_nil in He' as [HB He'].
      apply app_eq_nil in He' as [HC _].
      unfold tfa in HA, HB, HC. fold s in HA, HB, HC.
      destruct (in_map vs (named_of (ty_of t))); [|cbn in HA; discriminate].
      destruct (is_input_type s (ty_of t)) eqn:Ei; [|cbn in HA; discriminate].
      rewrite Ht, Ei. cbn [andb].
      destruct dv as [|v| | | |]; try (rewrite Hd; reflexivity).
      destruct Hd as (xv & Hv & Hnv & ->).
      unfold as_input in HB, HC. fold s in HB, HC. rewrite Ei in HB, HC.
      rewrite errs_of_err1 in HB. apply map_eq_nil in HB. rewrite errs_of_filter in HC.
      apply (lit_sound s fl [] Hinputs Hsok v _ _ false false xv Ei Hwf Hv HB HC).
      intros u Hu. rewrite (no_var_uses s fl v _ _ _ _ xv Hv Hnv) in Hu. destruct Hu.
  Qed.

End Final.

(* rules13 silent, split into its parts *)
Lemma rules13_silent vs d : rules13 vs d = Some [] ->
  local_errs vs d = [] /\ rule_variables_in_allowed_position vs d = Some [] /\ rule_undefined13 vs d = Some [].
Proof.
  unfold rules13. destruct (rule_variables_in_allowed_position vs d) as [a|]; [|discriminate].
  destruct (rule_undefined13 vs d) as [b|]; [|discriminate]. intro H. injection H as H0.
  apply app_eq_nil in H0 as [H1 H2]. apply app_eq_nil in H2 as [H2 H3]. subst a b.
  repeat split. exact H1.
Qed.
