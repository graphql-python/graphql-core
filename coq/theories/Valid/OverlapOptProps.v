(* Proofs about the memoised algorithm model (Valid/OverlapOpt.v): every comparison skipped by a
   memo hit was started earlier under a flag at least as strong. *)
From GV Require Import Base.Prelude Valid.Overlap Valid.PairSet Valid.PairSetProps Valid.OverlapOpt
  Valid.OverlapOptCalls.

Definition same_key (t : tbl) (a b a' b' : N) : Prop :=
  match t with
  | TFp => a = a' /\ b = b'
  | TFf => (a = a' /\ b = b') \/ (a = b' /\ b = a')
  end.

(* a recorded flag that subsumes the query: non-exclusive (false) subsumes both, exclusive only itself *)
Definition covers (r q : bool) : Prop := r = false \/ r = q.

(* the log is latest-first: "earlier" events are further down the list *)
Definition log_ok (log : list ev) : Prop :=
  forall l1 t a b q l2, log = l1 ++ EvSkip t a b q :: l2 ->
    exists a' b' r, In (EvStart t a' b' r) l2 /\ same_key t a b a' b' /\ covers r q.

Definition Inv (m : memo) : Prop :=
  log_ok (m_log m) /\
  (forall a b r, ops_get (m_fp m) a (fkey b) = Some r -> In (EvStart TFp a b r) (m_log m)) /\
  (forall a b r, ps_get (m_ff m) (fkey a) (fkey b) = Some r ->
     exists a' b', In (EvStart TFf a' b' r) (m_log m) /\ same_key TFf a b a' b').

Lemma log_ok_start t a b q l : log_ok l -> log_ok (EvStart t a b q :: l).
Proof.
  intros H l1 t' a' b' q' l2 E. destruct l1 as [|e l1]; cbn in E; [discriminate|].
  inversion E; subst. eapply H. reflexivity.
Qed.

Lemma log_ok_skip t a b q l :
  log_ok l -> (exists a' b' r, In (EvStart t a' b' r) l /\ same_key t a b a' b' /\ covers r q) ->
  log_ok (EvSkip t a b q :: l).
Proof.
  intros H Hs l1 t' a' b' q' l2 E. destruct l1 as [|e l1]; cbn in E.
  - inversion E; subst. exact Hs.
  - inversion E; subst. eapply H. reflexivity.
Qed.

Lemma flag_covers q r : flag_answers q r = true -> covers r q.
Proof. unfold flag_answers, covers. destruct q, r; cbn; auto; discriminate. Qed.

Lemma order_single a b c d :
  order (fkey a) (fkey b) = order (fkey c) (fkey d) -> (a = c /\ b = d) \/ (a = d /\ b = c).
Proof.
  unfold order, fkey. cbn [text_ltb].
  destruct (a <? b), (b <? a), (c <? d), (d <? c); intro H; inversion H; auto.
Qed.

Lemma inv_fp_skip m a b q :
  Inv m -> ops_has (m_fp m) a (fkey b) q = true ->
  Inv (mkMemo (m_fp m) (m_ff m) (EvSkip TFp a b q :: m_log m)).
Proof.
  intros [H1 [H2 H3]] Hh. unfold ops_has in Hh.
  destruct (ops_get (m_fp m) a (fkey b)) as [r|] eqn:Eg; [|discriminate].
  repeat split; cbn [m_log m_fp m_ff].
  - apply log_ok_skip; auto. exists a, b, r. repeat split; auto. apply flag_covers. exact Hh.
  - intros a' b' r' Hg. right. apply H2. exact Hg.
  - intros a' b' r' Hg. destruct (H3 a' b' r' Hg) as [x [y [Hi Hk]]]. exists x, y. split; auto. right. exact Hi.
Qed.

Lemma inv_fp_start m a b q :
  Inv m -> Inv (mkMemo (ops_add (m_fp m) a (fkey b) q) (m_ff m) (EvStart TFp a b q :: m_log m)).
Proof.
  intros [H1 [H2 H3]]. repeat split; cbn [m_log m_fp m_ff].
  - apply log_ok_start. exact H1.
  - intros a' b' r' Hg. rewrite ops_get_add in Hg.
    destruct ((a' =? a) && nat_list_eqb (fkey b') (fkey b)) eqn:E; [|right; apply H2; exact Hg].
    apply andb_true_iff in E as [E1 E2]. apply N.eqb_eq in E1. apply nat_list_eqb_eq in E2.
    inversion E2. inversion Hg. subst. left. reflexivity.
  - intros a' b' r' Hg. destruct (H3 a' b' r' Hg) as [x [y [Hi Hk]]]. exists x, y. split; auto. right. exact Hi.
Qed.

Lemma inv_ff_skip m a b q :
  Inv m -> ps_has (m_ff m) (fkey a) (fkey b) q = true ->
  Inv (mkMemo (m_fp m) (m_ff m) (EvSkip TFf a b q :: m_log m)).
Proof.
  intros [H1 [H2 H3]] Hh. unfold ps_has in Hh.
  destruct (ps_get (m_ff m) (fkey a) (fkey b)) as [r|] eqn:Eg; [|discriminate].
  repeat split; cbn [m_log m_fp m_ff].
  - apply log_ok_skip; auto. destruct (H3 a b r Eg) as [x [y [Hi Hk]]].
    exists x, y, r. repeat split; auto. apply flag_covers. exact Hh.
  - intros a' b' r' Hg. right. apply H2. exact Hg.
  - intros a' b' r' Hg. destruct (H3 a' b' r' Hg) as [x [y [Hi Hk]]]. exists x, y. split; auto. right. exact Hi.
Qed.

Lemma inv_ff_start m a b q :
  Inv m -> Inv (mkMemo (m_fp m) (ps_add (m_ff m) (fkey a) (fkey b) q) (EvStart TFf a b q :: m_log m)).
Proof.
  intros [H1 [H2 H3]]. repeat split; cbn [m_log m_fp m_ff].
  - apply log_ok_start. exact H1.
  - intros a' b' r' Hg. right. apply H2. exact Hg.
  - intros a' b' r' Hg.
    destruct (order_dec (fkey a') (fkey b') (fkey a) (fkey b)) as [Ho|Ho].
    + rewrite (ps_get_order _ _ _ _ _ Ho), ps_get_add_same in Hg. inversion Hg. subst r'.
      exists a, b. split; [left; reflexivity|]. cbn. apply order_single in Ho. exact Ho.
    + rewrite ps_get_add_other in Hg by exact Ho.
      destruct (H3 a' b' r' Hg) as [x [y [Hi Hk]]]. exists x, y. split; auto. right. exact Hi.
Qed.

Definition res_inv (r : result) : Prop :=
  match r with RFuel => True | RConflict m => Inv m | ROk m => Inv m end.
Definition pres (f : memo -> result) : Prop := forall m, Inv m -> res_inv (f m).

Lemma bind_pres r f : res_inv r -> pres f -> res_inv (bind r f).
Proof. destruct r; cbn; auto. Qed.

Lemma for_each_pres {A} (f : A -> memo -> result) l :
  (forall x, pres (f x)) -> pres (for_each f l).
Proof.
  intro H. induction l as [|x r IH]; intros m Hm; cbn [for_each].
  - exact Hm.
  - apply bind_pres; [apply H; exact Hm | exact IH].
Qed.

Lemma decide_inv s c m : Inv m -> match decide s c m with Done r => res_inv r | Go m1 => Inv m1 end.
Proof.
  intro Hm. destruct c as [pexcl a b|excl p1 id1 ss1 p2 id2 ss2|excl id fm frag|excl f1 f2]; cbn [decide].
  - destruct (fc_direct s pexcl a b); exact Hm.
  - exact Hm.
  - destruct (ops_has (m_fp m) (setid_code id) (fkey frag) excl) eqn:Eh;
      [apply inv_fp_skip | apply inv_fp_start]; assumption.
  - destruct (f1 =? f2); [exact Hm|].
    destruct (ps_has (m_ff m) (fkey f1) (fkey f2) excl) eqn:Eh;
      [apply inv_ff_skip | apply inv_ff_start]; assumption.
Qed.

Lemma exec_pres s frags fuel : forall c, pres (exec s frags fuel c).
Proof.
  induction fuel as [|f IH]; intros c m Hm; cbn [exec]; [exact I|].
  rewrite exec_step_eq. pose proof (decide_inv s c m Hm) as Hd.
  destruct (decide s c m) as [r|m1]; [exact Hd|]. apply for_each_pres; auto.
Qed.

Lemma inv_init : Inv (mkMemo [] [] []).
Proof.
  repeat split; cbn.
  - intros l1 t a b q l2 E. destruct l1; discriminate.
  - intros a b r H. discriminate.
  - intros a b r H. unfold ps_get in H. destruct (order (fkey a) (fkey b)). discriminate.
Qed.

Theorem opt_run_inv s d order fuel : res_inv (opt_run s d order fuel).
Proof. rewrite opt_run_eq. apply for_each_pres; [apply exec_pres | exact inv_init]. Qed.
