(* When the traced memoised algorithm (Valid/OverlapOptTrace.v) completes without reporting a
   conflict, its final log is closed: every logged comparison has been carried out completely
   (its own sub-comparisons are in the log, possibly under a subsuming flag). *)
From GV Require Import Base.Prelude Valid.Overlap Valid.OverlapProps Valid.PairSet Valid.PairSetProps
  Valid.OverlapOpt Valid.OverlapOptCalls Valid.OverlapOptProps Valid.OverlapOptTrace Valid.OverlapAdequacy.

Section Closure.
  Variable s : schema.
  Variable frags : list fragdef.

  (* the field map of a selection set identity *)
  Variable FM : N -> list entry -> Prop.
  Hypothesis FM_fun : forall id fm fm', FM id fm -> FM id fm' -> fm = fm'.

  (* (only entries with a sub-selection own a field map) *)
  Definition ewf (e : entry) : Prop :=
    has_sub (e_sub e) = true -> FM (setid_code (IdField (f_id (e_fld e)))) (Dsub s e).
  Hypothesis FM_closed : forall id fm x, FM id fm -> In x fm -> ewf x.
  Hypothesis frag_closed : forall fd x, In fd frags -> In x (Dfrag fd) -> ewf x.

  Definition Cmp (L : list tev) (e : bool) (x y : entry) : Prop := In (TvCmp e x y) L.
  Definition covFF (L : list tev) (e : bool) (id : N) (fm : list entry) (F : N) : Prop :=
    exists r, OverlapOptProps.covers r e /\ In (TvFp id fm F r) L.
  Definition covGG (L : list tev) (e : bool) (F G : N) : Prop :=
    F = G \/ exists r, OverlapOptProps.covers r e /\ (In (TvGg F G r) L \/ In (TvGg G F r) L).
  Definition crossCmp (L : list tev) (e : bool) (fm1 fm2 : list entry) : Prop :=
    forall u v, In u fm1 -> In v fm2 -> same_rname u v = true -> Cmp L e u v.

  Definition OblBetween (L : list tev) (e : bool) (id1 : N) (fm1 : list entry) (sp1 : list N)
             (id2 : N) (fm2 : list entry) (sp2 : list N) : Prop :=
    crossCmp L e fm1 fm2 /\
    (forall sp, In sp sp2 -> covFF L e id1 fm1 sp) /\
    (forall sp, In sp sp1 -> covFF L e id2 fm2 sp) /\
    (forall s1 s2, In s1 sp1 -> In s2 sp2 -> covGG L e s1 s2).

  (* the obligation a log entry carries *)
  Definition OblEv (L : list tev) (ev : tev) : Prop :=
    match ev with
    | TvCmp e a b =>
      fc_direct s e a b = false /\
      (has_sub (e_sub a) && has_sub (e_sub b) = true ->
       OblBetween L (excl_of s e a b)
                  (setid_code (IdField (f_id (e_fld a)))) (Dsub s a) (Ssub s a)
                  (setid_code (IdField (f_id (e_fld b)))) (Dsub s b) (Ssub s b))
    | TvFp id fm F e =>
      forall fd, find_frag frags F = Some fd -> (id =? setid_code (IdFrag F)) = false ->
        crossCmp L e fm (Dfrag fd) /\ forall sp, In sp (Sfrag fd) -> covFF L e id fm sp
    | TvGg F G e =>
      forall d1 d2, find_frag frags F = Some d1 -> find_frag frags G = Some d2 ->
        crossCmp L e (Dfrag d1) (Dfrag d2) /\
        (forall sp, In sp (Sfrag d2) -> covGG L e F sp) /\
        (forall sp, In sp (Sfrag d1) -> covGG L e sp G)
    end.

  Definition mono (Q : list tev -> Prop) : Prop := forall L D, Q L -> Q (D ++ L).

  Lemma Cmp_mono e x y : mono (fun L => Cmp L e x y).
  Proof. intros L D H. unfold Cmp in *. apply in_or_app. right. exact H. Qed.
  Lemma covFF_mono e id fm F : mono (fun L => covFF L e id fm F).
  Proof. intros L D [r [H1 H2]]. exists r. split; auto. apply in_or_app. right. exact H2. Qed.
  Lemma covGG_mono e F G : mono (fun L => covGG L e F G).
  Proof.
    intros L D [H|[r [H1 [H2|H2]]]]; [left; exact H| |]; right; exists r; split; auto;
      [left|right]; apply in_or_app; right; exact H2.
  Qed.
  Lemma crossCmp_mono e fm1 fm2 : mono (fun L => crossCmp L e fm1 fm2).
  Proof. intros L D H u v Hu Hv Hr. apply Cmp_mono. apply H; assumption. Qed.
  Lemma OblBetween_mono e id1 fm1 sp1 id2 fm2 sp2 :
    mono (fun L => OblBetween L e id1 fm1 sp1 id2 fm2 sp2).
  Proof.
    intros L D [H1 [H2 [H3 H4]]]. repeat split.
    - apply crossCmp_mono. exact H1.
    - intros sp Hs. apply covFF_mono. auto.
    - intros sp Hs. apply covFF_mono. auto.
    - intros s1 s2 Hs1 Hs2. apply covGG_mono. auto.
  Qed.
  Lemma OblEv_mono ev : mono (fun L => OblEv L ev).
  Proof.
    intros L D H. destruct ev as [e a b|id fm F e|F G e]; cbn [OblEv] in *.
    - destruct H as [H1 H2]. split; auto. intro Hs. apply OblBetween_mono. auto.
    - intros fd Hf Hn. destruct (H fd Hf Hn) as [H1 H2]. split.
      + apply crossCmp_mono. exact H1.
      + intros sp Hs. apply covFF_mono. auto.
    - intros d1 d2 Hf1 Hf2. destruct (H d1 d2 Hf1 Hf2) as [H1 [H2 H3]]. repeat split.
      + apply crossCmp_mono. exact H1.
      + intros sp Hs. apply covGG_mono. auto.
      + intros sp Hs. apply covGG_mono. auto.
  Qed.

  Definition InvT (st : tstate) : Prop :=
    (forall id F r, ops_get (m_fp (fst st)) id (fkey F) = Some r -> exists fm, In (TvFp id fm F r) (t_log st)) /\
    (forall F G r, ps_get (m_ff (fst st)) (fkey F) (fkey G) = Some r ->
                   In (TvGg F G r) (t_log st) \/ In (TvGg G F r) (t_log st)) /\
    (forall id fm F r, In (TvFp id fm F r) (t_log st) -> FM id fm).

  (* st' extends st; the obligations of all new entries hold in the log of st' *)
  Definition extends (st st' : tstate) : Prop :=
    exists D, t_log st' = D ++ t_log st /\ forall ev, In ev D -> OblEv (t_log st') ev.

  Lemma extends_refl st : extends st st.
  Proof. exists []. split; [reflexivity | intros ev []]. Qed.

  Lemma extends_trans st st1 st2 : extends st st1 -> extends st1 st2 -> extends st st2.
  Proof.
    intros [D1 [E1 O1]] [D2 [E2 O2]]. exists (D2 ++ D1). split.
    - rewrite E2, E1, app_assoc. reflexivity.
    - intros ev Hev. apply in_app_or in Hev as [Hev|Hev]; auto.
      rewrite E2. apply OblEv_mono. auto.
  Qed.

  (* Hoare-style triple for computations that return TOk *)
  Definition triple (f : tstate -> tresult) (Q : list tev -> Prop) : Prop :=
    forall st st', InvT st -> f st = TOk st' -> extends st st' /\ InvT st' /\ Q (t_log st').

  Lemma triple_for_each {A} (f : A -> tstate -> tresult) (Q : A -> list tev -> Prop) l :
    (forall x, mono (Q x)) -> (forall x, In x l -> triple (f x) (Q x)) ->
    triple (tfor_each f l) (fun L => forall x, In x l -> Q x L).
  Proof.
    induction l as [|x r IH]; intros HM Hf st st' Hi H; cbn [tfor_each] in H.
    - inversion H; subst. split; [apply extends_refl|]. split; auto. intros ? [].
    - destruct (f x st) as [| |st1] eqn:E; cbn [tbind] in H; try discriminate.
      destruct (Hf x (or_introl eq_refl) st st1 Hi E) as [X1 [I1 P1]].
      destruct (IH HM (fun y Hy => Hf y (or_intror Hy)) st1 st' I1 H)
        as [X2 [I2 P2]].
      split; [eapply extends_trans; eauto|]. split; auto.
      intros y [<-|Hy]; [|apply P2; exact Hy].
      destruct X2 as [D [-> _]]. apply (HM x). exact P1.
  Qed.

  Definition cwf (c : call) : Prop :=
    match c with
    | CFindConflict _ a b => ewf a /\ ewf b
    | CBetweenSubs _ p1 id1 ss1 p2 id2 ss2 =>
      FM (setid_code id1) (fst (fields_and_spreads p1 ss1 ([], []))) /\
      FM (setid_code id2) (fst (fields_and_spreads p2 ss2 ([], [])))
    | CFieldsFrag _ id fm _ => FM (setid_code id) fm
    | CFragFrag _ _ _ => True
    end.

  Definition post (c : call) (L : list tev) : Prop :=
    match c with
    | CFindConflict e a b => Cmp L e a b
    | CBetweenSubs e p1 id1 ss1 p2 id2 ss2 =>
      OblBetween L e (setid_code id1) (fst (fields_and_spreads p1 ss1 ([], []))) (snd (fields_and_spreads p1 ss1 ([], [])))
                 (setid_code id2) (fst (fields_and_spreads p2 ss2 ([], []))) (snd (fields_and_spreads p2 ss2 ([], [])))
    | CFieldsFrag e id fm F => covFF L e (setid_code id) fm F
    | CFragFrag e F G => covGG L e F G
    end.

  Lemma post_mono c : mono (post c).
  Proof.
    destruct c; cbn [post].
    - apply Cmp_mono. - apply OblBetween_mono. - apply covFF_mono. - apply covGG_mono.
  Qed.

  Lemma cross_calls_cwf e fm1 fm2 c : (forall x, In x fm1 -> ewf x) -> (forall y, In y fm2 -> ewf y) ->
    In c (cross_calls e fm1 fm2) -> cwf c.
  Proof. intros H1 H2 Hc. apply in_cross_calls in Hc as [x [y [-> [Hx [Hy _]]]]]. split; auto. Qed.

  Lemma cross_calls_post L e fm1 fm2 : (forall c, In c (cross_calls e fm1 fm2) -> post c L) -> crossCmp L e fm1 fm2.
  Proof. intros H u v Hu Hv Hr. apply (H (CFindConflict e u v)). apply in_cross_calls. eauto 6. Qed.

  Lemma sub_calls_cwf c c' : cwf c -> In c' (sub_calls s frags c) -> cwf c'.
  Proof.
    intros Hc Hin. destruct c as [pexcl a b|e p1 id1 ss1 p2 id2 ss2|e id fm frag|e f1 f2]; cbn [sub_calls cwf] in *.
    - destruct (has_sub (e_sub a) && has_sub (e_sub b)) eqn:E; [|contradiction]. destruct Hin as [<-|[]].
      apply andb_true_iff in E as [Ea Eb]. exact (conj (proj1 Hc Ea) (proj2 Hc Eb)).
    - destruct Hc as [W1 W2].
      apply in_between_calls in Hin as [Hin|[[sp [-> _]]|[[sp [-> _]]|[s1 [s2 [-> _]]]]]];
        [|exact W1|exact W2|exact I].
      eapply cross_calls_cwf; [intros x Hx; exact (FM_closed _ _ x W1 Hx) | intros x Hx; exact (FM_closed _ _ x W2 Hx) | exact Hin].
    - destruct (find_frag frags frag) as [fd|] eqn:Ef; [|contradiction].
      destruct (setid_code id =? setid_code (IdFrag frag)); [contradiction|].
      apply find_frag_some in Ef as [Hfd _]. apply in_app_or in Hin as [Hin|Hin].
      + eapply cross_calls_cwf; [intros x Hx; exact (FM_closed _ _ x Hc Hx) | intros x Hx; exact (frag_closed fd x Hfd Hx) | exact Hin].
      + apply in_map_iff in Hin as [sp [<- _]]. exact Hc.
    - destruct (find_frag frags f1) as [d1|] eqn:Ef1; [|contradiction].
      destruct (find_frag frags f2) as [d2|] eqn:Ef2; [|contradiction].
      apply find_frag_some in Ef1 as [Hd1 _]. apply find_frag_some in Ef2 as [Hd2 _].
      apply in_app_or in Hin as [Hin|Hin]; [|apply in_app_or in Hin as [Hin|Hin]].
      + eapply cross_calls_cwf; [intros x Hx; exact (frag_closed d1 x Hd1 Hx) | intros x Hx; exact (frag_closed d2 x Hd2 Hx) | exact Hin].
      + apply in_map_iff in Hin as [sp [<- _]]. exact I.
      + apply in_map_iff in Hin as [sp [<- _]]. exact I.
  Qed.

  (* a call that goes on: once all its sub-calls are done, its log entry is closed and it is done *)
  Lemma go_closed c m m1 L : decide s c m = Go m1 ->
    (forall c', In c' (sub_calls s frags c) -> post c' L) -> incl (start_ev c ++ cmp_ev c) L ->
    (forall ev, In ev (start_ev c ++ cmp_ev c) -> OblEv L ev) /\ post c L.
  Proof.
    intros Hd Hsub Hlog.
    destruct c as [pexcl a b|e p1 id1 ss1 p2 id2 ss2|e id fm frag|e f1 f2];
      cbn [decide sub_calls start_ev cmp_ev post app] in *.
    - destruct (fc_direct s pexcl a b) eqn:Ed; [discriminate|]. split; [|apply Hlog; left; reflexivity].
      intros ev [<-|[]]. split; [exact Ed|]. intro Hs. rewrite Hs in Hsub.
      exact (Hsub _ (or_introl eq_refl)).
    - split; [intros ev []|]. rewrite !fas_nil_eq. cbn [fst snd].
      assert (Hb : forall c', In c' (between_calls e id1 (fm_of p1 ss1) (sp_of p1 ss1) id2 (fm_of p2 ss2) (sp_of p2 ss2)) ->
                   post c' L) by exact Hsub.
      repeat split.
      + apply cross_calls_post. intros c' Hc'. apply Hb, in_between_calls. auto.
      + intros sp Hs. apply (Hb (CFieldsFrag e id1 (fm_of p1 ss1) sp)), in_between_calls. eauto 6.
      + intros sp Hs. apply (Hb (CFieldsFrag e id2 (fm_of p2 ss2) sp)), in_between_calls. eauto 6.
      + intros s1 s2 H1 H2. apply (Hb (CFragFrag e s1 s2)), in_between_calls. eauto 8.
    - split; [|exists e; split; [right; reflexivity | apply Hlog; left; reflexivity]].
      intros ev [<-|[]] fd Hf Hn. rewrite Hf, Hn in Hsub. split.
      + apply cross_calls_post. intros c' Hc'. apply Hsub, in_or_app. auto.
      + intros sp Hs. apply (Hsub (CFieldsFrag e id fm sp)), in_or_app. right. apply in_map. exact Hs.
    - split; [|right; exists e; split; [right; reflexivity | left; apply Hlog; left; reflexivity]].
      intros ev [<-|[]] d1 d2 Hf1 Hf2. rewrite Hf1, Hf2 in Hsub. repeat split.
      + apply cross_calls_post. intros c' Hc'. apply Hsub, in_or_app. auto.
      + intros sp Hs. apply (Hsub (CFragFrag e f1 sp)), in_or_app. right. apply in_or_app. left. apply in_map. exact Hs.
      + intros sp Hs. apply (Hsub (CFragFrag e sp f2)), in_or_app. right. apply in_or_app. right.
        apply (in_map (fun sp => CFragFrag e sp f2)). exact Hs.
  Qed.

  Lemma InvT_intro m L :
    (forall id F r, ops_get (m_fp m) id (fkey F) = Some r -> exists fm, In (TvFp id fm F r) L) ->
    (forall F G r, ps_get (m_ff m) (fkey F) (fkey G) = Some r -> In (TvGg F G r) L \/ In (TvGg G F r) L) ->
    (forall id fm F r, In (TvFp id fm F r) L -> FM id fm) ->
    InvT (m, L).
  Proof. intros H1 H2 H3. exact (conj H1 (conj H2 H3)). Qed.

  Lemma InvT_more st D : InvT st -> (forall id fm F r, In (TvFp id fm F r) D -> FM id fm) ->
    InvT (fst st, D ++ t_log st).
  Proof.
    intros [H1 [H2 H3]] HD. destruct st as [m L]. unfold t_log in *. cbn [fst snd] in *. apply InvT_intro.
    - intros id F r Hg. destruct (H1 id F r Hg) as [fm Hi]. exists fm. apply in_or_app. right. exact Hi.
    - intros F G r Hg. destruct (H2 F G r Hg) as [Hi|Hi]; [left|right]; apply in_or_app; right; exact Hi.
    - intros id fm F r Hi. apply in_app_or in Hi as [Hi|Hi]; eauto.
  Qed.

  Lemma InvT_go c st m1 : cwf c -> decide s c (fst st) = Go m1 -> InvT st ->
    InvT (m1, start_ev c ++ cmp_ev c ++ t_log st).
  Proof.
    intros Hc Hd Hi.
    destruct c as [pexcl a b|e p1 id1 ss1 p2 id2 ss2|e id fm frag|e f1 f2]; cbn [decide start_ev cmp_ev app cwf] in *.
    - destruct (fc_direct s pexcl a b); [discriminate|]. inversion Hd; subst m1.
      apply (InvT_more st [TvCmp pexcl a b] Hi). intros id fm F r [Hx|[]]. discriminate.
    - inversion Hd; subst m1. destruct st; exact Hi.
    - destruct (ops_has (m_fp (fst st)) (setid_code id) (fkey frag) e); [discriminate|]. inversion Hd; subst m1.
      destruct Hi as [H1 [H2 H3]]. unfold t_log in *. apply InvT_intro; cbn [m_fp m_ff].
      + intros id' F' r Hg. rewrite ops_get_add in Hg.
        destruct ((id' =? setid_code id) && nat_list_eqb (fkey F') (fkey frag)) eqn:E.
        * apply andb_true_iff in E as [E1 E2]. apply N.eqb_eq in E1. apply nat_list_eqb_eq in E2.
          inversion E2. inversion Hg. subst. exists fm. left. reflexivity.
        * destruct (H1 _ _ _ Hg) as [fm' Hin]. exists fm'. right. exact Hin.
      + intros F' G r Hg. destruct (H2 F' G r Hg) as [Hin|Hin]; [left|right]; right; exact Hin.
      + intros id' fm' F' r [Hx|Hin]; [inversion Hx; subst; exact Hc | eauto].
    - destruct (f1 =? f2); [discriminate|].
      destruct (ps_has (m_ff (fst st)) (fkey f1) (fkey f2) e); [discriminate|]. inversion Hd; subst m1.
      destruct Hi as [H1 [H2 H3]]. unfold t_log in *. apply InvT_intro; cbn [m_fp m_ff].
      + intros id F' r Hg. destruct (H1 id F' r Hg) as [fm Hin]. exists fm. right. exact Hin.
      + intros F' G' r Hg.
        destruct (order_dec (fkey F') (fkey G') (fkey f1) (fkey f2)) as [Ho|Ho].
        * rewrite (ps_get_order _ _ _ _ _ Ho), ps_get_add_same in Hg. inversion Hg; subst.
          apply order_single in Ho as [[-> ->]|[-> ->]]; [left|right]; left; reflexivity.
        * rewrite ps_get_add_other in Hg by exact Ho.
          destruct (H2 F' G' r Hg) as [Hin|Hin]; [left|right]; right; exact Hin.
      + intros id fm F' r [Hx|Hin]; [discriminate | eauto].
  Qed.

  (* a memo hit: the comparison was started before under a subsuming flag *)
  Lemma done_post c st m' : cwf c -> decide s c (fst st) = Done (ROk m') -> InvT st ->
    InvT (m', cmp_ev c ++ t_log st) /\ post c (cmp_ev c ++ t_log st).
  Proof.
    intros Hc Hd Hi.
    destruct c as [pexcl a b|e p1 id1 ss1 p2 id2 ss2|e id fm frag|e f1 f2]; cbn [decide cmp_ev app cwf post] in *.
    - destruct (fc_direct s pexcl a b); discriminate.
    - discriminate.
    - destruct (ops_has (m_fp (fst st)) (setid_code id) (fkey frag) e) eqn:Eh; [|discriminate].
      inversion Hd; subst m'. split; [exact Hi|]. unfold ops_has in Eh.
      destruct (ops_get (m_fp (fst st)) (setid_code id) (fkey frag)) as [r|] eqn:Eg; [|discriminate].
      destruct Hi as [H1 [H2 H3]]. destruct (H1 _ _ _ Eg) as [fm' Hin].
      rewrite (FM_fun _ _ _ Hc (H3 _ _ _ _ Hin)). exists r. split; [apply flag_covers; exact Eh | exact Hin].
    - destruct (f1 =? f2) eqn:E12.
      { inversion Hd; subst m'. apply N.eqb_eq in E12. split; [destruct st; exact Hi | left; exact E12]. }
      destruct (ps_has (m_ff (fst st)) (fkey f1) (fkey f2) e) eqn:Eh; [|discriminate].
      inversion Hd; subst m'. split; [exact Hi|]. unfold ps_has in Eh.
      destruct (ps_get (m_ff (fst st)) (fkey f1) (fkey f2)) as [r|] eqn:Eg; [|discriminate].
      destruct Hi as [H1 [H2 H3]]. right. exists r. split; [apply flag_covers; exact Eh | exact (H2 _ _ _ Eg)].
  Qed.

  Definition rec_ok (rec : call -> tstate -> tresult) : Prop :=
    forall c, cwf c -> triple (rec c) (post c).

  Lemma texec_step_ok rec : rec_ok rec -> rec_ok (texec_step s frags rec).
  Proof.
    intros Hrec c Hc st st' Hi H. unfold texec_step in H.
    destruct (decide s c (fst st)) as [[|m'|m']|m1] eqn:Ed; try discriminate.
    - inversion H; subst st'. destruct (done_post c st m' Hc Ed Hi) as [Hi' Hp].
      assert (Hnil : cmp_ev c = []) by (destruct c; cbn in Ed |- *; auto; destruct (fc_direct s excl a b); discriminate).
      rewrite Hnil in *. split; [exact (extends_refl (m', t_log st))|]. split; assumption.
    - pose proof (InvT_go c st m1 Hc Ed Hi) as Hi1.
      destruct (triple_for_each rec post (sub_calls s frags c) post_mono
                  (fun c' Hc' => Hrec c' (sub_calls_cwf c c' Hc Hc')) _ st' Hi1 H) as [[D [E O]] [Hi' Hp]].
      cbn [t_log snd] in E.
      destruct (go_closed c (fst st) m1 (t_log st') Ed Hp) as [Hob Hpost].
      { rewrite E. intros ev Hev. apply in_or_app. right. rewrite app_assoc. apply in_or_app. left. exact Hev. }
      split; [|split; assumption]. exists (D ++ start_ev c ++ cmp_ev c). split.
      + rewrite E, <- !app_assoc. reflexivity.
      + intros ev Hev. apply in_app_or in Hev as [Hev|Hev]; auto.
  Qed.

  Lemma texec_ok fuel : rec_ok (texec s frags fuel).
  Proof.
    induction fuel as [|f IH]; cbn [texec].
    - intros c _ st st' _ H. discriminate.
    - apply texec_step_ok. exact IH.
  Qed.

  (* what visiting one selection set establishes (steps A, B, C) *)
  Definition WithinPost (L : list tev) (id : N) (fm : list entry) (sps : list N) : Prop :=
    (forall x y, before x y fm -> same_rname x y = true -> Cmp L false x y) /\
    (forall sp, In sp sps -> covFF L false id fm sp) /\
    (forall s1 s2, before s1 s2 sps -> covGG L false s1 s2).

  Definition set_wf (x : N * setid * sels) : Prop := FM (setid_code (snd (fst x))) (fm_of (fst (fst x)) (snd x)).
  Definition set_post (L : list tev) (x : N * setid * sels) : Prop :=
    WithinPost L (setid_code (snd (fst x))) (fm_of (fst (fst x)) (snd x)) (sp_of (fst (fst x)) (snd x)).

  Lemma set_calls_cwf x c : set_wf x -> In c (set_calls x) -> cwf c.
  Proof.
    destruct x as [[q id] t]. unfold set_wf. cbn [fst snd]. intros Hw Hin.
    apply in_set_calls in Hin as [[x [y [-> [Hb _]]]]|[[sp [-> _]]|[s1 [s2 [-> _]]]]]; [|exact Hw|exact I].
    destruct (before_in _ _ _ Hb) as [Hx Hy]. split; eapply FM_closed; eauto.
  Qed.

  Lemma set_calls_post x L : (forall c, In c (set_calls x) -> post c L) -> set_post L x.
  Proof.
    destruct x as [[q id] t]. intro H. unfold set_post, WithinPost. cbn [fst snd]. repeat split.
    - intros x y Hb Hr. apply (H (CFindConflict false x y)), in_set_calls. eauto 6.
    - intros sp Hs. apply (H (CFieldsFrag false id (fm_of q t) sp)), in_set_calls. eauto 6.
    - intros s1 s2 Hb. apply (H (CFragFrag false s1 s2)), in_set_calls. eauto 8.
  Qed.
End Closure.

Section Run.
  Variable s : schema.
  Variable d : document.
  Variable FM : N -> list entry -> Prop.
  Hypothesis FM_fun : forall id fm fm', FM id fm -> FM id fm' -> fm = fm'.
  Hypothesis FM_closed : forall id fm x, FM id fm -> In x fm -> ewf s FM x.
  Hypothesis frag_closed : forall fd x, In fd (d_frags d) -> In x (Dfrag fd) -> ewf s FM x.

  Theorem topt_run_closed ord fuel st :
    (forall x, In x (run_sets s d ord) -> set_wf FM x) ->
    topt_run s d ord fuel = TOk st ->
    (forall ev, In ev (t_log st) -> OblEv s (d_frags d) (t_log st) ev) /\
    (forall x, In x (run_sets s d ord) -> set_post (t_log st) x).
  Proof.
    intros Hwf H. unfold topt_run in H.
    assert (Hinit : InvT FM (mkMemo [] [] [], [])).
    { apply InvT_intro; cbn.
      - intros id F r Hg. discriminate.
      - intros F G r Hg. unfold ps_get in Hg. destruct (PairSet.order (fkey F) (fkey G)). discriminate.
      - intros id fm F r []. }
    assert (Hall : forall c, In c (calls_of (run_sets s d ord)) ->
              triple s (d_frags d) FM (texec s (d_frags d) fuel c) (post c)).
    { intros c Hc. apply in_flat_map in Hc as [x [Hx Hc]].
      apply (texec_ok s (d_frags d) FM FM_fun FM_closed frag_closed fuel c). eapply set_calls_cwf; eauto. }
    destruct (triple_for_each s (d_frags d) FM _ post _ post_mono Hall _ st Hinit H)
      as [[D [E O]] [_ P]].
    cbn [t_log snd] in E. rewrite app_nil_r in E. split.
    - intros ev Hev. apply O. rewrite <- E. exact Hev.
    - intros x Hx. apply set_calls_post. intros c Hc. apply P. apply in_flat_map. eauto.
  Qed.
End Run.
