(* Paths identify nodes: every visited node is found at its path, and the traversal visits
   pairwise different paths (so an error's node list identifies AST nodes, and the reported
   lists of the node-by-node rules have no repetitions). *)
From GV Require Import Base.Prelude Base.ListFacts Lang.Ast Valid.Rules Valid.RulesBase.

Definition attrs_of (n : node) : list attr := match n with Nd _ a => a end.

(* the node at a path *)
Fixpoint get (n : node) (p : path) : option node :=
  match p with
  | [] => Some n
  | (i, j) :: r =>
    match nth i (attrs_of n) ANone with
    | ANode m => if (j =? 0)%nat then get m r else None
    | AList l => match nth_error l j with Some m => get m r | None => None end
    | _ => None
    end
  end.

Lemma get_app n : forall p q,
  get n (p ++ q) = match get n p with Some m => get m q | None => None end.
Proof.
  intro p. revert n. induction p as [|[i j] r IH]; intros n q; cbn [app get]; [reflexivity|].
  destruct (nth i (attrs_of n) ANone) as [|m|l| | |]; try reflexivity.
  - destruct (j =? 0)%nat; [apply IH | reflexivity].
  - destruct (nth_error l j) as [m|]; [apply IH | reflexivity].
Qed.

Lemma In_mapi_pre {A B} (f : nat -> list A -> A -> B) l : forall j0 pre b,
  In b (mapi_pre f j0 pre l) ->
  exists j m, nth_error l j = Some m /\ b = f (j0 + j)%nat (pre ++ firstn j l) m.
Proof.
  induction l as [|a l IH]; intros j0 pre b H; cbn in H; [destruct H|].
  destruct H as [<-|H].
  - exists O, a. cbn. rewrite Nat.add_0_r, app_nil_r. auto.
  - apply IH in H as (j & m & H1 & H2). exists (S j), m. cbn. split; [exact H1|].
    rewrite H2, <- app_assoc. cbn. f_equal. lia.
Qed.

Section Walk.
  Variable stop : nkind -> bool.

  (* what a child contributes *)
  Definition child_items (p : path) (i : nat) (a : attr) : list item :=
    match a with
    | ANode m => walk stop (p ++ [(i, O)]) [] m
    | AList l =>
      concat (mapi_pre (fun j pre m =>
                walk stop (p ++ [(i, j)]) (mapi (fun j' m' => (p ++ [(i, j')], m')) pre) m) O [] l)
    | _ => []
    end.

  Lemma walk_unfold p sibs k attrs :
    walk stop p sibs (Nd k attrs) =
    It p (Nd k attrs) sibs ::
    (if stop k then [] else concat (pick (vkeys k) (mapi (child_items p) attrs))).
  Proof. reflexivity. Qed.

  Lemma In_pick {A} (x : A) keys ls :
    In x (concat (pick keys ls)) <-> exists i, In i keys /\ In x (nth i ls []).
  Proof.
    unfold pick. rewrite in_concat. split.
    - intros (l & Hl & Hx). apply in_map_iff in Hl as (i & <- & Hi). eauto.
    - intros (i & Hi & Hx). exists (nth i ls []). split; [exact (in_map (fun i => nth i ls []) keys i Hi) | exact Hx].
  Qed.

  Lemma nth_child_items p attrs i :
    nth i (mapi (child_items p) attrs) [] =
    match nth_error attrs i with Some a => child_items p i a | None => [] end.
  Proof. apply nth_mapi. Qed.

  (* every visited node sits at its path, below the start *)
  Theorem walk_get n : forall p sibs it, In it (walk stop p sibs n) ->
    exists r, it_path it = p ++ r /\ get n r = Some (it_node it).
  Proof.
    induction n as [k attrs IHn IHl] using node_children_ind. intros p sibs it H.
    rewrite walk_unfold in H. destruct H as [<-|H].
    { exists []. cbn. rewrite app_nil_r. auto. }
    destruct (stop k); [destruct H|].
    apply In_pick in H as (i & Hi & H). rewrite nth_child_items in H.
    destruct (nth_error attrs i) as [a|] eqn:Ea; [|destruct H].
    pose proof (nth_error_nth _ _ ANone Ea) as En.
    destruct a as [|m|l| | |]; cbn [child_items] in H; try destruct H.
    - apply (IHn i m Ea) in H as (r & H1 & H2). exists ((i, O) :: r). rewrite H1, <- app_assoc. split; [reflexivity|].
      cbn [get attrs_of]. rewrite En. cbn. exact H2.
    - apply in_concat in H as (its & Hits & H). apply In_mapi_pre in Hits as (j & m & Hj & ->).
      apply (IHl i l Ea m (nth_error_In _ _ Hj)) in H as (r & H1 & H2).
      exists ((i, j) :: r). cbn [plus] in H1. rewrite H1, <- app_assoc. split; [reflexivity|].
      cbn [get attrs_of]. rewrite En, Hj. exact H2.
  Qed.

  Lemma app_cons_neq {A} (p : list A) x r : p <> p ++ x :: r.
  Proof.
    intro H. apply (f_equal (@length A)) in H. rewrite app_length in H. cbn in H. lia.
  Qed.

  Lemma NoDup_concat_map {A} (g : nat -> list A) keys :
    NoDup keys -> (forall i, In i keys -> NoDup (g i)) ->
    (forall i i' x, In i keys -> In i' keys -> i <> i' -> In x (g i) -> ~ In x (g i')) ->
    NoDup (concat (map g keys)).
  Proof.
    induction 1 as [|i keys Hi Hk IH]; intros Hn Hd; cbn; [constructor|].
    apply NoDup_app_intro.
    - apply Hn. cbn. auto.
    - apply IH; [intros; apply Hn; cbn; auto | intros a b x Ha Hb Hab Hx; apply (Hd a b x); cbn; auto].
    - intros x Hx Hx'. apply in_concat in Hx' as (l & Hl & Hx'). apply in_map_iff in Hl as (i' & <- & Hi').
      apply (Hd i i' x); [cbn; auto | cbn; auto | intro; subst; contradiction | exact Hx | exact Hx'].
  Qed.

  Lemma vkeys_NoDup k : NoDup (vkeys k).
  Proof. destruct k; cbn; repeat constructor; cbn; intuition discriminate. Qed.

  Lemma child_paths p i a it : In it (child_items p i a) -> exists j r, it_path it = p ++ (i, j) :: r.
  Proof.
    destruct a as [|m|l| | |]; cbn [child_items]; intro H; try destruct H.
    - apply walk_get in H as (r & H & _). exists O, r. rewrite H, <- app_assoc. reflexivity.
    - apply in_concat in H as (its & Hits & H). apply In_mapi_pre in Hits as (j & m & _ & ->).
      apply walk_get in H as (r & H & _). exists (0 + j)%nat, r. rewrite H, <- app_assoc. reflexivity.
  Qed.

  Definition PN (n : node) : Prop := forall p sibs, NoDup (map it_path (walk stop p sibs n)).

  Lemma list_items_NoDup p i l : (forall m, In m l -> PN m) -> forall j0 pre,
    NoDup (map it_path (concat (mapi_pre (fun j pre m =>
             walk stop (p ++ [(i, j)]) (mapi (fun j' m' => (p ++ [(i, j')], m')) pre) m) j0 pre l))) /\
    (forall it, In it (concat (mapi_pre (fun j pre m =>
             walk stop (p ++ [(i, j)]) (mapi (fun j' m' => (p ++ [(i, j')], m')) pre) m) j0 pre l)) ->
       exists j r, (j0 <= j)%nat /\ it_path it = p ++ (i, j) :: r).
  Proof.
    induction l as [|m l IH]; intros Hl j0 pre; cbn [mapi_pre concat map]; [split; [constructor | intros it []]|].
    destruct (IH (fun m' H => Hl m' (or_intror H)) (S j0) (pre ++ [m])) as [IH1 IH2]. split.
    - rewrite map_app. apply NoDup_app_intro; [apply Hl; left; reflexivity | exact IH1|].
      intros x Hx Hx'. apply in_map_iff in Hx as (it & <- & Hit). apply in_map_iff in Hx' as (it' & He & Hit').
      apply walk_get in Hit as (r & Hr & _). apply IH2 in Hit' as (j & r' & Hj & Hr').
      rewrite Hr, Hr', <- app_assoc in He. apply app_inv_head in He. inversion He. lia.
    - intros it Hit. apply in_app_iff in Hit as [Hit|Hit].
      + apply walk_get in Hit as (r & Hr & _). exists j0, r. split; [lia|]. rewrite Hr, <- app_assoc. reflexivity.
      + apply IH2 in Hit as (j & r & Hj & Hr). exists j, r. split; [lia | exact Hr].
  Qed.

  Theorem walk_NoDup n : PN n.
  Proof.
    induction n as [k attrs IHn IHl] using node_children_ind. intros p sibs.
    rewrite walk_unfold. cbn [map it_path]. destruct (stop k); [repeat constructor; intros []|].
    assert (Hc : forall i it, In it (nth i (mapi (child_items p) attrs) []) ->
                 exists j r, it_path it = p ++ (i, j) :: r).
    { intros i it H. rewrite nth_child_items in H. destruct (nth_error attrs i); [|destruct H].
      eapply child_paths; eauto. }
    constructor.
    - intro H. apply in_map_iff in H as (it & He & H). apply In_pick in H as (i & _ & H).
      apply Hc in H as (j & r & Hr). rewrite Hr in He. symmetry in He. exact (app_cons_neq _ _ _ He).
    - unfold pick. rewrite concat_map, map_map.
      apply NoDup_concat_map.
      + apply vkeys_NoDup.
      + intros i _. rewrite nth_child_items. destruct (nth_error attrs i) as [a|] eqn:Ea; [|constructor].
        destruct a as [|m|l| | |]; cbn [child_items map]; try constructor.
        * apply (IHn i m Ea).
        * apply (list_items_NoDup p i l (IHl i l Ea) O []).
      + intros i i' x _ _ Hne Hx Hx'.
        apply in_map_iff in Hx as (it & <- & Hit). apply in_map_iff in Hx' as (it' & He & Hit').
        apply Hc in Hit as (j & r & Hr). apply Hc in Hit' as (j' & r' & Hr').
        rewrite Hr, Hr' in He. apply app_inv_head in He. inversion He. congruence.
  Qed.
End Walk.

(* the visited nodes of a document: found at their paths, no path twice *)
Theorem doc_items_get d it : In it (doc_items d) -> get d (it_path it) = Some (it_node it).
Proof.
  intro H. apply walk_get in H as (r & H1 & H2). cbn in H1. rewrite H1. exact H2.
Qed.

Theorem doc_items_NoDup d : NoDup (map it_path (doc_items d)).
Proof. apply walk_NoDup. Qed.

Theorem all_spreads_NoDup d : NoDup (map sp_path (all_spreads d)).
Proof.
  unfold all_spreads. apply (flat_map_key_NoDup _ it_path); [apply doc_items_NoDup|].
  intros [q m sb] b Hb. cbn [it_node it_path] in *. destruct m as [k attrs]. destruct k; try destruct Hb.
  - subst. split; [reflexivity|]. destruct attrs as [|a0 [|[] r]]; reflexivity.
  - destruct H.
Qed.

Theorem object_fields_NoDup d : NoDup (map (fun e => snd (snd e)) (object_fields d)).
Proof.
  apply (NoDup_map_inv (@removelast step)). rewrite map_map. unfold object_fields.
  apply (flat_map_key_NoDup _ it_path); [apply doc_items_NoDup|].
  intros [q m sb] b Hb. cbn [it_node it_path it_sibs] in *. destruct m as [k attrs]. destruct k; try destruct Hb.
  - subst. split; [reflexivity|]. cbn [snd]. apply removelast_last.
  - destruct H.
Qed.

(* the elements of a visited node's tuple are visited, each with the elements in front of it *)
Lemma mapi_pre_In {A B} (f : nat -> list A -> A -> B) l : forall j0 pre j m,
  nth_error l j = Some m -> In (f (j0 + j)%nat (pre ++ firstn j l) m) (mapi_pre f j0 pre l).
Proof.
  induction l as [|a l IH]; intros j0 pre [|j] m H; cbn in H; try discriminate.
  - inversion H; subst. cbn. rewrite Nat.add_0_r, app_nil_r. auto.
  - cbn [mapi_pre firstn]. right. specialize (IH (S j0) (pre ++ [a]) j m H).
    rewrite <- app_assoc in IH. cbn in IH. replace (j0 + S j)%nat with (S j0 + j)%nat by lia. exact IH.
Qed.

Lemma walk_head stop p sibs n : In (It p n sibs) (walk stop p sibs n).
Proof. destruct n. rewrite walk_unfold. cbn. auto. Qed.

Theorem walk_child_list stop n : forall p sibs q k attrs sb i l j m,
  In (It q (Nd k attrs) sb) (walk stop p sibs n) -> stop k = false -> In i (vkeys k) ->
  nth_error attrs i = Some (AList l) -> nth_error l j = Some m ->
  In (It (q ++ [(i, j)]) m (mapi (fun j' m' => (q ++ [(i, j')], m')) (firstn j l))) (walk stop p sibs n).
Proof.
  induction n as [k0 attrs0 IHn IHl] using node_children_ind.
  intros p sibs q k attrs sb i l j m H Hs Hi Ha Hj.
  rewrite walk_unfold in *. destruct H as [H|H].
  - inversion H; subst. right. rewrite Hs. apply In_pick. exists i. split; [exact Hi|].
    rewrite nth_child_items, Ha. cbn [child_items]. apply in_concat.
    eexists. split.
    + apply (mapi_pre_In _ l O [] j m Hj).
    + cbn [plus app]. apply walk_head.
  - right. destruct (stop k0); [destruct H|].
    apply In_pick in H as (i0 & Hi0 & H). apply In_pick. exists i0. split; [exact Hi0|].
    rewrite nth_child_items in *. destruct (nth_error attrs0 i0) as [a0|] eqn:Ea0; [|destruct H].
    destruct a0 as [|m0|l0| | |]; cbn [child_items] in *; try destruct H.
    + eapply (IHn i0 m0 Ea0); eauto.
    + apply in_concat in H as (its & Hits & H). apply in_concat. exists its. split; [exact Hits|].
      apply In_mapi_pre in Hits as (j0 & m0 & Hj0 & ->).
      eapply (IHl i0 l0 Ea0 m0 (nth_error_In _ _ Hj0)); eauto.
Qed.
