(* The memoised algorithm (Valid/OverlapOpt.v) as a work list: every loop of the algorithm is a
   [for_each] over a list of calls.  One call first decides by itself ([decide]: the direct
   conflict of a field pair, or the memo lookup) and then runs its [sub_calls]; a selection set
   contributes [set_calls]; a run executes the calls of all the sets it visits ([run_sets]).
   Every property of the algorithm is then proved from a fact about [decide], a fact about the
   members of these lists, and induction on the fuel. *)
From GV Require Import Base.Prelude Valid.Overlap Valid.PairSet Valid.OverlapOpt Valid.OverlapAdequacy.

Definition rn (e : entry) : N := f_rname (e_fld e).

Lemma group_get_add k e g :
  group_get k (group_add e g) = if rn e =? k then group_get k g ++ [e] else group_get k g.
Proof.
  induction g as [|[k' l] g IH]; cbn [group_add group_get].
  - fold (rn e). destruct (rn e =? k); reflexivity.
  - fold (rn e). destruct (k' =? rn e) eqn:E1; cbn [group_get].
    + apply N.eqb_eq in E1. subst k'. destruct (rn e =? k); reflexivity.
    + destruct (k' =? k) eqn:E2.
      * apply N.eqb_eq in E2. subst k'. rewrite N.eqb_sym, E1. reflexivity.
      * exact IH.
Qed.

Lemma group_get_fold k es : forall g,
  group_get k (fold_left (fun g e => group_add e g) es g) = group_get k g ++ filter (fun e => rn e =? k) es.
Proof.
  induction es as [|e es IH]; intro g; cbn [fold_left filter].
  - rewrite app_nil_r. reflexivity.
  - rewrite IH, group_get_add. destruct (rn e =? k); [rewrite <- app_assoc|]; reflexivity.
Qed.

Lemma group_get_groups k es : group_get k (groups es) = filter (fun e => rn e =? k) es.
Proof. unfold groups. rewrite group_get_fold. reflexivity. Qed.

Lemma group_add_keys e g : forall k, In k (map fst (group_add e g)) <-> k = rn e \/ In k (map fst g).
Proof.
  induction g as [|[k' l] g IH]; intro k; cbn [group_add map fst In].
  - fold (rn e). intuition.
  - fold (rn e). destruct (k' =? rn e) eqn:E1; cbn [map fst In].
    + apply N.eqb_eq in E1. subst k'. intuition.
    + rewrite IH. intuition.
Qed.

Lemma group_add_nodup e g : NoDup (map fst g) -> NoDup (map fst (group_add e g)).
Proof.
  induction g as [|[k' l] g IH]; intro H; cbn [group_add map fst].
  - constructor; [intros [] | constructor].
  - fold (rn e). destruct (k' =? rn e) eqn:E1; cbn [map fst]; [exact H|].
    inversion H as [|? ? Hn Hr]; subst. constructor; auto.
    intro Hc. apply group_add_keys in Hc as [Hc|Hc]; [|contradiction].
    subst k'. rewrite N.eqb_refl in E1. discriminate.
Qed.

Lemma groups_nodup es : NoDup (map fst (groups es)).
Proof.
  unfold groups. assert (H : NoDup (map fst (@nil (N * list entry)))) by constructor.
  revert H. generalize (@nil (N * list entry)). induction es as [|e es IH]; intros g H; cbn [fold_left]; auto.
  apply IH. apply group_add_nodup. exact H.
Qed.

Lemma in_group_get k l g : NoDup (map fst g) -> In (k, l) g -> group_get k g = l.
Proof.
  induction g as [|[k' l'] g IH]; intros Hn Hin; [contradiction|]. cbn [group_get].
  inversion Hn as [|? ? Hni Hr]; subst. destruct Hin as [Hin|Hin].
  - inversion Hin; subst. rewrite N.eqb_refl. reflexivity.
  - destruct (k' =? k) eqn:E.
    + apply N.eqb_eq in E. subst k'. exfalso. apply Hni. apply (in_map fst) in Hin. exact Hin.
    + apply IH; auto.
Qed.

Lemma group_get_key k g : group_get k g <> [] -> exists l, In (k, l) g /\ l = group_get k g.
Proof.
  induction g as [|[k' l'] g IH]; cbn [group_get]; intro H; [congruence|].
  destruct (k' =? k) eqn:E.
  - apply N.eqb_eq in E. subst k'. exists l'. split; [left|]; reflexivity.
  - destruct (IH H) as [l [Hi Hl]]. exists l. split; [right|]; auto.
Qed.

Lemma in_groups_filter es k l : In (k, l) (groups es) -> l = filter (fun e => rn e =? k) es.
Proof.
  intro H. rewrite <- group_get_groups. symmetry. apply in_group_get; [apply groups_nodup | exact H].
Qed.

Lemma groups_cover es x : In x es -> exists l, In (rn x, l) (groups es) /\ In x l.
Proof.
  intro Hx.
  assert (Hin : In x (group_get (rn x) (groups es))).
  { rewrite group_get_groups. apply filter_In. split; [exact Hx | apply N.eqb_refl]. }
  destruct (group_get_key (rn x) (groups es)) as [l [Hi Hl]]; [intro Hc; rewrite Hc in Hin; contradiction|].
  exists l. subst l. auto.
Qed.

Lemma rn_same x y k : rn x =? k = true -> rn y =? k = true -> same_rname x y = true.
Proof. intros Hx Hy. apply N.eqb_eq in Hx, Hy. unfold same_rname. fold (rn x) (rn y). rewrite Hx, Hy. apply N.eqb_refl. Qed.

Lemma bind_ext r f g : (forall m, f m = g m) -> bind r f = bind r g.
Proof. intro H. destruct r; cbn [bind]; auto. Qed.

Lemma for_each_ext {A} (f g : A -> memo -> result) l :
  (forall x m, f x m = g x m) -> forall m, for_each f l m = for_each g l m.
Proof.
  intro H. induction l as [|x r IH]; intro m; cbn [for_each]; [reflexivity|].
  rewrite (H x m). apply bind_ext. exact IH.
Qed.

Lemma for_each_single {A} (f : A -> memo -> result) x m : for_each f [x] m = f x m.
Proof. cbn [for_each]. destruct (f x m); reflexivity. Qed.

Lemma for_each_app {A} (f : A -> memo -> result) l1 l2 : forall m,
  for_each f (l1 ++ l2) m = bind (for_each f l1 m) (for_each f l2).
Proof.
  induction l1 as [|x r IH]; intro m; cbn [app for_each bind]; [reflexivity|].
  destruct (f x m); cbn [bind]; auto.
Qed.

Lemma for_each_map {A B} (h : A -> B) (f : B -> memo -> result) l : forall m,
  for_each f (map h l) m = for_each (fun a => f (h a)) l m.
Proof. induction l as [|a l IH]; intro m; cbn [map for_each]; [reflexivity|]. apply bind_ext. exact IH. Qed.

Lemma for_each_flat_map {A B} (g : A -> list B) (f : B -> memo -> result) l : forall m,
  for_each f (flat_map g l) m = for_each (fun a => for_each f (g a)) l m.
Proof.
  induction l as [|a l IH]; intro m; cbn [flat_map for_each]; [reflexivity|].
  rewrite for_each_app. apply bind_ext. exact IH.
Qed.

Definition cross_calls (e : bool) (fm1 fm2 : list entry) : list call :=
  flat_map (fun grp => flat_map (fun f1 => map (CFindConflict e f1) (group_get (fst grp) (groups fm2))) (snd grp))
           (groups fm1).

Lemma between_eq rec e fm1 fm2 m : between rec e fm1 fm2 m = for_each rec (cross_calls e fm1 fm2) m.
Proof.
  unfold between, cross_calls. rewrite for_each_flat_map. apply for_each_ext. intros grp m1.
  rewrite for_each_flat_map. apply for_each_ext. intros f1 m2. rewrite for_each_map. reflexivity.
Qed.

Lemma in_cross_calls c e fm1 fm2 : In c (cross_calls e fm1 fm2) <->
  exists x y, c = CFindConflict e x y /\ In x fm1 /\ In y fm2 /\ same_rname x y = true.
Proof.
  unfold cross_calls. rewrite in_flat_map. split.
  - intros [[k l] [Hg H]]. cbn [fst snd] in H. apply in_flat_map in H as [x [Hx H]].
    apply in_map_iff in H as [y [<- Hy]]. apply in_groups_filter in Hg. subst l.
    apply filter_In in Hx as [Hx Hkx]. rewrite group_get_groups in Hy. apply filter_In in Hy as [Hy Hky].
    exists x, y. repeat split; auto. eapply rn_same; eauto.
  - intros [x [y [-> [Hx [Hy Hr]]]]]. destruct (groups_cover fm1 x Hx) as [l [Hg Hxl]].
    exists (rn x, l). split; [exact Hg|]. cbn [fst snd]. apply in_flat_map. exists x. split; [exact Hxl|].
    apply in_map. rewrite group_get_groups. apply filter_In. split; [exact Hy|].
    unfold same_rname in Hr. fold (rn x) (rn y) in Hr. rewrite N.eqb_sym. exact Hr.
Qed.

Definition fm_of (p : N) (ss : sels) : list entry := fst (fields_and_spreads p ss ([], [])).
Definition sp_of (p : N) (ss : sels) : list N := snd (fields_and_spreads p ss ([], [])).

Lemma fas_nil_eq p ss : fields_and_spreads p ss ([], []) = (fm_of p ss, sp_of p ss).
Proof. unfold fm_of, sp_of. destruct (fields_and_spreads p ss ([], [])); reflexivity. Qed.

Definition Dfrag (fd : fragdef) : list entry := fm_of (fr_type fd) (fr_body fd).
Definition Sfrag (fd : fragdef) : list N := sp_of (fr_type fd) (fr_body fd).

Inductive step := Done (r : result) | Go (m1 : memo).

Section Calls.
  Variable s : schema.
  Variable frags : list fragdef.

  Definition sub_parent (e : entry) : N :=
    match field_type s (e_parent e) (f_name (e_fld e)) with Some t => named t | None => 0 end.
  Definition Dsub (e : entry) : list entry := fm_of (sub_parent e) (e_sub e).
  Definition Ssub (e : entry) : list N := sp_of (sub_parent e) (e_sub e).

  (* find_conflict reports the pair itself *)
  Definition fc_direct (pexcl : bool) (a b : entry) : bool :=
    (negb (excl_of s pexcl a b)
     && (negb (f_name (e_fld a) =? f_name (e_fld b)) || negb (args_same (f_args (e_fld a)) (f_args (e_fld b)))))
    || match ft s a, ft s b with Some x, Some y => do_types_conflict s x y | _, _ => false end.

  (* what a call does before it descends: report a conflict, answer from the memo, or go on
     (after recording the comparison in the memo) *)
  Definition decide (c : call) (m : memo) : step :=
    match c with
    | CFindConflict pexcl a b => if fc_direct pexcl a b then Done (RConflict m) else Go m
    | CBetweenSubs _ _ _ _ _ _ _ => Go m
    | CFieldsFrag excl id _ frag =>
      if ops_has (m_fp m) (setid_code id) (fkey frag) excl
      then Done (ROk (mkMemo (m_fp m) (m_ff m) (EvSkip TFp (setid_code id) frag excl :: m_log m)))
      else Go (mkMemo (ops_add (m_fp m) (setid_code id) (fkey frag) excl) (m_ff m)
                      (EvStart TFp (setid_code id) frag excl :: m_log m))
    | CFragFrag excl f1 f2 =>
      if f1 =? f2 then Done (ROk m)
      else if ps_has (m_ff m) (fkey f1) (fkey f2) excl
      then Done (ROk (mkMemo (m_fp m) (m_ff m) (EvSkip TFf f1 f2 excl :: m_log m)))
      else Go (mkMemo (m_fp m) (ps_add (m_ff m) (fkey f1) (fkey f2) excl) (EvStart TFf f1 f2 excl :: m_log m))
    end.

  Definition between_calls (e : bool) (id1 : setid) (fm1 : list entry) (sp1 : list N)
             (id2 : setid) (fm2 : list entry) (sp2 : list N) : list call :=
    cross_calls e fm1 fm2 ++ map (CFieldsFrag e id1 fm1) sp2 ++ map (CFieldsFrag e id2 fm2) sp1
    ++ flat_map (fun s1 => map (CFragFrag e s1) sp2) sp1.

  Definition sub_calls (c : call) : list call :=
    match c with
    | CFindConflict pexcl a b =>
      if has_sub (e_sub a) && has_sub (e_sub b)
      then [CBetweenSubs (excl_of s pexcl a b) (sub_parent a) (IdField (f_id (e_fld a))) (e_sub a)
                         (sub_parent b) (IdField (f_id (e_fld b))) (e_sub b)]
      else []
    | CBetweenSubs e p1 id1 ss1 p2 id2 ss2 =>
      between_calls e id1 (fm_of p1 ss1) (sp_of p1 ss1) id2 (fm_of p2 ss2) (sp_of p2 ss2)
    | CFieldsFrag e id fm frag =>
      match find_frag frags frag with
      | Some fd => if setid_code id =? setid_code (IdFrag frag) then []   (* field_map is field_map2 *)
                   else cross_calls e fm (Dfrag fd) ++ map (CFieldsFrag e id fm) (Sfrag fd)
      | None => []
      end
    | CFragFrag e f1 f2 =>
      match find_frag frags f1, find_frag frags f2 with
      | Some d1, Some d2 =>
        cross_calls e (Dfrag d1) (Dfrag d2) ++ map (CFragFrag e f1) (Sfrag d2)
        ++ map (fun sp => CFragFrag e sp f2) (Sfrag d1)
      | _, _ => []
      end
    end.

  Lemma exec_step_eq rec c m :
    exec_step s frags rec c m =
    match decide c m with Done r => r | Go m1 => for_each rec (sub_calls c) m1 end.
  Proof.
    destruct c as [pexcl a b|e p1 id1 ss1 p2 id2 ss2|e id fm frag|e f1 f2]; cbn [exec_step decide sub_calls].
    - unfold fc_direct, excl_of, ft, sub_parent. cbv zeta.
      destruct (negb _ && _); cbn [orb]; [reflexivity|].
      match goal with |- (if ?c then _ else _) = _ => destruct c end; [reflexivity|].
      destruct (has_sub (e_sub a) && has_sub (e_sub b)); [rewrite for_each_single|]; reflexivity.
    - rewrite !fas_nil_eq. unfold between_calls. rewrite for_each_app, between_eq.
      apply bind_ext. intro m1. rewrite for_each_app, for_each_map. apply bind_ext. intro m2.
      rewrite for_each_app, for_each_map. apply bind_ext. intro m3. rewrite for_each_flat_map.
      apply for_each_ext. intros s1 m4. rewrite for_each_map. reflexivity.
    - destruct (ops_has (m_fp m) (setid_code id) (fkey frag) e); [reflexivity|]. cbv zeta.
      destruct (find_frag frags frag) as [fd|]; [|reflexivity].
      destruct (setid_code id =? setid_code (IdFrag frag)); [reflexivity|].
      unfold Dfrag, Sfrag. rewrite fas_nil_eq, for_each_app, between_eq. apply bind_ext. intro m1.
      rewrite for_each_map. reflexivity.
    - destruct (f1 =? f2); [reflexivity|].
      destruct (ps_has (m_ff m) (fkey f1) (fkey f2) e); [reflexivity|]. cbv zeta.
      destruct (find_frag frags f1) as [d1|]; [|reflexivity].
      destruct (find_frag frags f2) as [d2|]; [|reflexivity].
      unfold Dfrag, Sfrag. rewrite !fas_nil_eq, for_each_app, between_eq. apply bind_ext. intro m1.
      rewrite for_each_app, for_each_map. apply bind_ext. intro m2. rewrite for_each_map. reflexivity.
  Qed.

  Lemma in_between_calls c e id1 fm1 sp1 id2 fm2 sp2 : In c (between_calls e id1 fm1 sp1 id2 fm2 sp2) <->
    In c (cross_calls e fm1 fm2) \/
    (exists sp, c = CFieldsFrag e id1 fm1 sp /\ In sp sp2) \/
    (exists sp, c = CFieldsFrag e id2 fm2 sp /\ In sp sp1) \/
    (exists s1 s2, c = CFragFrag e s1 s2 /\ In s1 sp1 /\ In s2 sp2).
  Proof.
    unfold between_calls. rewrite !in_app_iff, !in_map_iff, in_flat_map.
    assert (H4 : (exists s1, In s1 sp1 /\ In c (map (CFragFrag e s1) sp2)) <->
                 exists s1 s2, c = CFragFrag e s1 s2 /\ In s1 sp1 /\ In s2 sp2).
    { split.
      - intros [s1 [H1 H]]. apply in_map_iff in H as [s2 [<- H2]]. eauto.
      - intros [s1 [s2 [-> [H1 H2]]]]. exists s1. split; [exact H1 | apply in_map; exact H2]. }
    rewrite H4. split.
    - intros [H|[[sp [<- H]]|[[sp [<- H]]|H]]]; eauto 6.
    - intros [H|[[sp [-> H]]|[[sp [-> H]]|H]]]; eauto 6.
  Qed.

  Fixpoint pair_calls (l : list entry) : list call :=
    match l with [] => [] | x :: r => map (CFindConflict false x) r ++ pair_calls r end.

  Fixpoint spread_calls (id : setid) (fm : list entry) (sps : list N) : list call :=
    match sps with
    | [] => []
    | sp :: r => CFieldsFrag false id fm sp :: map (CFragFrag false sp) r ++ spread_calls id fm r
    end.

  (* the calls of find_conflicts_within_selection_set on the set [x] = (type, identity, selections) *)
  Definition set_calls (x : N * setid * sels) : list call :=
    flat_map (fun grp => pair_calls (snd grp)) (groups (fm_of (fst (fst x)) (snd x)))
    ++ spread_calls (snd (fst x)) (fm_of (fst (fst x)) (snd x)) (sp_of (fst (fst x)) (snd x)).

  Lemma within_group_eq fuel l : forall m,
    within_group s frags fuel l m = for_each (exec s frags fuel) (pair_calls l) m.
  Proof.
    induction l as [|x r IH]; intro m; cbn [within_group pair_calls]; [reflexivity|].
    rewrite for_each_app, for_each_map. apply bind_ext. exact IH.
  Qed.

  Lemma spreads_bc_eq fuel id fm sps : forall m,
    spreads_bc s frags fuel id fm sps m = for_each (exec s frags fuel) (spread_calls id fm sps) m.
  Proof.
    induction sps as [|sp r IH]; intro m; cbn [spreads_bc spread_calls for_each]; [reflexivity|].
    apply bind_ext. intro m1. rewrite for_each_app, for_each_map. apply bind_ext. exact IH.
  Qed.

  Lemma within_set_eq fuel p id ss m :
    within_set s frags fuel p id ss m = for_each (exec s frags fuel) (set_calls (p, id, ss)) m.
  Proof.
    unfold within_set, set_calls. cbn [fst snd]. rewrite fas_nil_eq, for_each_app, for_each_flat_map.
    rewrite (for_each_ext _ _ _ (fun grp m1 => within_group_eq fuel (snd grp) m1)).
    apply bind_ext. apply spreads_bc_eq.
  Qed.

  Lemma in_pair_calls c l : In c (pair_calls l) <-> exists x y, c = CFindConflict false x y /\ before x y l.
  Proof.
    induction l as [|a l IH]; cbn [pair_calls].
    - split; [intros [] | intros [x [y [_ H]]]; inversion H].
    - rewrite in_app_iff, in_map_iff, IH. split.
      + intros [[y [<- Hy]]|[x [y [-> Hb]]]]; [exists a, y | exists x, y]; split; auto; constructor; assumption.
      + intros [x [y [-> Hb]]]. apply before_cons_inv in Hb as [[-> Hy]|Hb]; [left | right]; eauto.
  Qed.

  Lemma in_spread_calls c id fm sps : In c (spread_calls id fm sps) <->
    (exists sp, c = CFieldsFrag false id fm sp /\ In sp sps) \/
    (exists s1 s2, c = CFragFrag false s1 s2 /\ before s1 s2 sps).
  Proof.
    induction sps as [|a r IH]; cbn [spread_calls].
    - split; [intros [] | intros [[sp [_ []]]|[s1 [s2 [_ H]]]]; inversion H].
    - cbn [In]. rewrite in_app_iff, in_map_iff, IH. split.
      + intros [<-|[[o [<- Ho]]|[[sp [-> Hs]]|[s1 [s2 [-> Hb]]]]]].
        * left. exists a. auto.
        * right. exists a, o. split; auto. constructor. exact Ho.
        * left. exists sp. auto.
        * right. exists s1, s2. split; auto. constructor. exact Hb.
      + intros [[sp [-> [<-|Hs]]]|[s1 [s2 [-> Hb]]]]; [left; reflexivity | right; right; left; eauto |].
        apply before_cons_inv in Hb as [[-> Hy]|Hb]; [right; left | right; right; right]; eauto.
  Qed.

  Lemma in_set_calls c q id t : In c (set_calls (q, id, t)) <->
    (exists x y, c = CFindConflict false x y /\ before x y (fm_of q t) /\ same_rname x y = true) \/
    (exists sp, c = CFieldsFrag false id (fm_of q t) sp /\ In sp (sp_of q t)) \/
    (exists s1 s2, c = CFragFrag false s1 s2 /\ before s1 s2 (sp_of q t)).
  Proof.
    unfold set_calls. cbn [fst snd]. rewrite in_app_iff, in_spread_calls, in_flat_map.
    assert (H1 : (exists grp, In grp (groups (fm_of q t)) /\ In c (pair_calls (snd grp))) <->
                 exists x y, c = CFindConflict false x y /\ before x y (fm_of q t) /\ same_rname x y = true).
    { split.
      - intros [[k l] [Hg H]]. cbn [snd] in H. apply in_pair_calls in H as [x [y [-> Hb]]].
        apply in_groups_filter in Hg. subst l. apply before_filter_inv in Hb as [Hb [Hx Hy]].
        exists x, y. repeat split; auto. eapply rn_same; eauto.
      - intros [x [y [-> [Hb Hr]]]]. destruct (before_in _ _ _ Hb) as [Hx _].
        destruct (groups_cover _ x Hx) as [l [Hg _]]. exists (rn x, l). split; [exact Hg|]. cbn [snd].
        apply in_pair_calls. exists x, y. split; [reflexivity|]. rewrite (in_groups_filter _ _ _ Hg).
        apply before_filter; [exact Hb | apply N.eqb_refl |].
        unfold same_rname in Hr. fold (rn x) (rn y) in Hr. rewrite N.eqb_sym. exact Hr. }
    rewrite H1. reflexivity.
  Qed.

  (* the selection sets below (p, ss) that the walk enters, with their identities *)
  Fixpoint opt_sets (p : N) (ss : sels) : list (N * setid * sels) :=
    match ss with
    | SelNil => []
    | SelField f sub rest =>
      (match sub with
       | SelNil => []
       | _ => let q := match field_type s p (f_name f) with Some t => named t | None => 0 end in
              (q, IdField (f_id f), sub) :: opt_sets q sub
       end) ++ opt_sets p rest
    | SelInline iid tc sub rest =>
      let q := match tc with Some t => t | None => p end in
      ((q, IdInline iid, sub) :: opt_sets q sub) ++ opt_sets p rest
    | SelSpread _ rest => opt_sets p rest
    end.

  Definition calls_of (l : list (N * setid * sels)) : list call := flat_map set_calls l.

  Lemma walk_opt_eq fuel : forall ss p m,
    walk_opt s frags fuel p ss m = for_each (exec s frags fuel) (calls_of (opt_sets p ss)) m.
  Proof.
    unfold calls_of.
    induction ss as [|f sub IHsub rest IHrest|iid tc sub IHsub rest IHrest|n rest IHrest];
      intros p m; cbn [walk_opt opt_sets]; [reflexivity| | |apply IHrest].
    - rewrite flat_map_app, for_each_app.
      set (q := match field_type s p (f_name f) with Some t => named t | None => 0 end).
      assert (Hj : bind (within_set s frags fuel q (IdField (f_id f)) sub m) (walk_opt s frags fuel q sub) =
                   for_each (exec s frags fuel) (flat_map set_calls ((q, IdField (f_id f), sub) :: opt_sets q sub)) m).
      { cbn [flat_map]. rewrite for_each_app, within_set_eq. apply bind_ext. apply IHsub. }
      destruct sub; [| | |]; cbv zeta; fold q; rewrite ?Hj; apply bind_ext; apply IHrest.
    - rewrite flat_map_app, for_each_app. cbn [flat_map]. rewrite for_each_app, within_set_eq.
      rewrite (bind_ext _ _ _ (IHsub _)). apply bind_ext. apply IHrest.
  Qed.

  Lemma visit_set_eq fuel p id ss m :
    visit_set s frags fuel p id ss m = for_each (exec s frags fuel) (calls_of ((p, id, ss) :: opt_sets p ss)) m.
  Proof.
    unfold visit_set, calls_of. cbn [flat_map]. rewrite for_each_app, within_set_eq.
    apply bind_ext. apply walk_opt_eq.
  Qed.
End Calls.

(* every selection set the run visits, with its identity *)
Definition order_sets (s : schema) (d : document) (oi : bool * nat) : list (N * setid * sels) :=
  if fst oi then
    match nth_error (d_ops d) (snd oi) with
    | Some o => (fst o, IdOp (N.of_nat (snd oi)), snd o) :: opt_sets s (fst o) (snd o)
    | None => []
    end
  else
    match nth_error (d_frags d) (snd oi) with
    | Some fd => (fr_type fd, IdFrag (fr_name fd), fr_body fd) :: opt_sets s (fr_type fd) (fr_body fd)
    | None => []
    end.

Definition run_sets (s : schema) (d : document) (ord : list (bool * nat)) : list (N * setid * sels) :=
  flat_map (order_sets s d) ord.

Theorem opt_run_eq s d ord fuel :
  opt_run s d ord fuel =
  for_each (exec s (d_frags d) fuel) (calls_of (run_sets s d ord)) (mkMemo [] [] []).
Proof.
  unfold opt_run, run_sets, calls_of. rewrite !for_each_flat_map. apply for_each_ext.
  intros oi m. unfold order_sets.
  destruct (fst oi); [destruct (nth_error (d_ops d) (snd oi)) | destruct (nth_error (d_frags d) (snd oi))];
    try reflexivity; rewrite visit_set_eq; unfold calls_of; apply for_each_flat_map.
Qed.
