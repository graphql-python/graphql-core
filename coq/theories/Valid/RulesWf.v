(* On the trees the parser returns (Lang/Wf.v) the extraction layer of Valid/Rules.v reads every
   definition as what the grammar says it is. *)
From GV Require Import Base.Prelude Lang.Lexer Lang.Ast Lang.Parser Lang.Wf Valid.Rules Valid.RulesBase.

Section Flags.
  Variables xfa xdd : bool.

  Lemma xdef_of_operation p m : wf_operation xfa m -> exists o, xdef_of p m = XOp o /\ o_path o = p.
  Proof. intros [s dsc n vs ds o Hs Hd Hn Hv Hds Ho]. eexists. split; reflexivity. Qed.

  Lemma xdef_of_fragment p m : wf_fragment_definition xfa m ->
    exists f, xdef_of p m = XFrag f /\ f_path f = p.
  Proof. intros [s dsc n vs ds tc Hs Hd Hn Hv Hds Ht]. eexists. split; reflexivity. Qed.

  Lemma xdef_of_type_system p m : wf_type_system_definition xdd m -> xdef_of p m = XOther p.
  Proof. intros []; reflexivity. Qed.

  Lemma xdef_of_extension p m : wf_extension xdd m -> xdef_of p m = XOther p.
  Proof. intros []; reflexivity. Qed.

  (* every definition of a parsed document is classified: operation, fragment, or not executable *)
  Theorem wf_document_xdefs d : wf_document xfa xdd d ->
    exists l, d = Nd KDocument [AList l] /\ length (xdefs d) = length l /\
      forall j m, nth_error l j = Some m ->
        (wf_operation xfa m /\ exists o, nth_error (xdefs d) j = Some (XOp o) /\ o_path o = [(O, j)]) \/
        (wf_fragment_definition xfa m /\ exists f, nth_error (xdefs d) j = Some (XFrag f) /\ f_path f = [(O, j)]) \/
        ((wf_type_system_definition xdd m \/ wf_extension xdd m) /\
         nth_error (xdefs d) j = Some (XOther [(O, j)])).
  Proof.
    intros [x l Hx Hl]. exists (x :: l). split; [reflexivity|]. cbn [xdefs].
    split; [unfold mapi; apply mapi_from_length|].
    intros j m Hj.
    assert (Hm : wf_definition xfa xdd m).
    { destruct j; cbn in Hj; [inversion Hj; subst; exact Hx|].
      rewrite Forall_forall in Hl. apply Hl. eapply nth_error_In; eauto. }
    assert (Hn : nth_error (mapi (fun j m => xdef_of [(O, j)] m) (x :: l)) j = Some (xdef_of [(O, j)] m)).
    { rewrite nth_error_mapi, Hj. reflexivity. }
    destruct Hm as [m Ho|m Hf|m Ht|m He].
    - left. split; [exact Ho|]. destruct (xdef_of_operation [(O, j)] m Ho) as (o & E & P).
      exists o. rewrite Hn, E. auto.
    - right. left. split; [exact Hf|]. destruct (xdef_of_fragment [(O, j)] m Hf) as (f & E & P).
      exists f. rewrite Hn, E. auto.
    - right. right. split; [auto|]. rewrite Hn, (xdef_of_type_system _ m Ht). reflexivity.
    - right. right. split; [auto|]. rewrite Hn, (xdef_of_extension _ m He). reflexivity.
  Qed.
End Flags.
