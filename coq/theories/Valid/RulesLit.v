(* ValuesOfCorrectType + VariablesInAllowedPosition + NoUndefinedVariables + UniqueInputFieldNames on
   one value  =>  Typing.lit_ok on its translation (Valid/ToExec.val_of). *)
From GV Require Import Base.Prelude Base.ListFacts Lang.Ast Exec.Value Exec.Schema Exec.Spec Exec.ValueFacts Exec.Typing Exec.Soundness Valid.Rules Valid.RulesBase Valid.Rules13 Valid.ToExec.

(* no non-null directly under non-null: what the grammar and a built schema guarantee *)
Fixpoint ty_wf (t : ty) : bool :=
  match t with
  | TNonNull (TNonNull _) => false
  | TNonNull t' => ty_wf t'
  | TList t' => ty_wf t'
  | TNamed _ => true
  end.

Definition arg_types_ok (s : schema) (defs : list arg_def) : bool :=
  forallb (fun ad => is_input_type s (a_type ad) && ty_wf (a_type ad)) defs.

(* argument and input field types are input types *)
Definition schema_inputs_ok (s : schema) : bool :=
  forallb (fun e =>
    match snd e with
    | TObject fs _ | TInterface fs => forallb (fun fd => arg_types_ok s (f_args fd)) fs
    | TInput defs _ => arg_types_ok s defs
    | _ => true
    end) (s_types s).

(* what VariablesInAllowedPosition and NoUndefinedVariables establish for a usage *)
Definition usage_ok (vdefs : list var_def) (u : tusage) : Prop :=
  exists vd, find_var (tu_name u) vdefs = Some vd /\
    forall lt, tu_type u = Some lt ->
      allowed_usage (v_type vd) (v_default vd) lt (tu_default u) = true /\
      (tu_oneof u = true -> is_nonnull (v_type vd) = true).

Lemma errs_of_app a b : errs_of (a ++ b) = errs_of a ++ errs_of b.
Proof. unfold errs_of. apply flat_map_app. Qed.
Lemma uses_of_app a b : uses_of (a ++ b) = uses_of a ++ uses_of b.
Proof. unfold uses_of. apply flat_map_app. Qed.

Lemma errs_of_concat ls : errs_of (concat ls) = concat (map errs_of ls).
Proof. induction ls as [|a r IH]; cbn; [reflexivity | rewrite errs_of_app, IH; reflexivity]. Qed.
Lemma uses_of_concat ls : uses_of (concat ls) = concat (map uses_of ls).
Proof. induction ls as [|a r IH]; cbn; [reflexivity | rewrite uses_of_app, IH; reflexivity]. Qed.

Lemma errs_of_flat_map {A} (g : A -> list ev) l : errs_of (flat_map g l) = flat_map (fun a => errs_of (g a)) l.
Proof. rewrite flat_map_concat_map, errs_of_concat, map_map, <- flat_map_concat_map. reflexivity. Qed.

Lemma all_some_Forall2 {A B} (f : A -> option B) l out :
  all_some (map f l) = Some out -> Forall2 (fun a b => f a = Some b) l out.
Proof.
  revert out. induction l as [|a l IH]; intros out H; cbn in H.
  - inversion H. constructor.
  - destruct (f a) as [b|] eqn:Ef; [|discriminate].
    destruct (all_some (map f l)) as [r|] eqn:Er; [|discriminate]. cbn in H. inversion H; subst.
    constructor; [exact Ef | apply IH; reflexivity].
Qed.

Lemma all_some_In {A B} (f : A -> option B) l out b :
  all_some (map f l) = Some out -> In b out -> exists a, In a l /\ f a = Some b.
Proof.
  intros H Hb. apply all_some_Forall2 in H. apply In_nth_error in Hb as [j Hj].
  destruct (Forall2_nth_r _ _ _ H j b Hj) as (a & Ha & E). exists a. split; [eapply nth_error_In; eauto | exact E].
Qed.

Section Lit.
  Variable s : schema.
  Variable fl : list N -> Z * N.
  Variable vdefs : list var_def.

  (* vlit by the form of the type; at a named type [cbn [vlit]] exposes the body once the node is
     a constructor application *)
  Lemma vlit_nonnull n p t :
    vlit s n p (TNonNull t) = if is_var_node n then [] else if is_null_node n then [p] else vlit s n p t.
  Proof. destruct n. reflexivity. Qed.

  Lemma vlit_list n p t :
    vlit s n p (TList t) =
    if is_var_node n then [] else if is_null_node n then [] else
    match n with
    | Nd KListValue (AList items :: _) => concat (mapi (fun j m => vlit s m (p ++ [(O, j)]) t) items)
    | _ => vlit s n p t
    end.
  Proof. destruct n. reflexivity. Qed.

  Definition fields_lit_ok (defs : list arg_def) (flds : list (str * value)) : bool :=
    forallb (fun kx => match find_arg (fst kx) defs with
                       | Some ad => lit_ok s vdefs [] (snd kx) (a_type ad) (has_default ad)
                       | None => false
                       end) flds.

  Lemma lit_ok_fields defs flds :
    (fix all (l : list (Value.str * value)) : bool :=
       match l with
       | [] => true
       | (k, x) :: r => match find_arg k defs with
                        | Some ad => lit_ok s vdefs [] x (a_type ad) (has_default ad)
                        | None => false
                        end && all r
       end) flds = fields_lit_ok defs flds.
  Proof.
    unfold fields_lit_ok. induction flds as [|[k x] r IH]; [reflexivity|].
    cbn [forallb fst snd]. rewrite <- IH. reflexivity.
  Qed.

  Lemma unwrap_named_of t : snd (unwrap_named t) = named_of t.
  Proof.
    induction t as [n|t IH|t IH]; cbn; [reflexivity | | exact IH].
    destruct (unwrap_named t). cbn in *. exact IH.
  Qed.

  Lemma is_input_type_named t : is_input_type s t = is_input_type s (TNamed (named_of t)).
  Proof. reflexivity. Qed.

  Definition scalar_node (n : node) : bool :=
    match n with
    | Nd KIntValue _ | Nd KFloatValue _ | Nd KStringValue _ | Nd KBooleanValue _ | Nd KEnumValue _ => true
    | _ => false
    end.

  Lemma scalar_not_special n : scalar_node n = true ->
    is_var_node n = false /\ is_null_node n = false /\
    (forall items r, n <> Nd KListValue (AList items :: r)) /\
    (forall flds r, n <> Nd KObjectValue (AList flds :: r)).
  Proof. destruct n as [k attrs]. destruct k; cbn; try discriminate; intros _; repeat split; discriminate. Qed.

  Lemma scalar_lit n v : scalar_node n = true -> val_of fl n = Some v ->
    forall t p, is_input_type s t = true -> vlit s n p t = [] ->
    exists c, coerce_scalar_lit s v t = Some c.
  Proof.
    intros Hsc Hv. destruct (scalar_not_special n Hsc) as (Hnv & Hnn & Hnl & Hno).
    induction t as [nm|it IH|t' IH]; intros p Hit Hl.
    - destruct n as [k attrs]. cbn [vlit] in Hl. rewrite Hnv, Hnn in Hl.
      cbn [coerce_scalar_lit]. unfold coerce_leaf_lit.
      unfold is_input_type in Hit. cbn [named_of] in Hit.
      destruct (lookup_type s nm) as [td|]; [|discriminate].
      destruct td as [sc|vals| | | |defs oo]; try discriminate.
      + (* scalar *)
        cbn [is_leaf_def] in Hl. destruct (leaf_ok (TScalar sc) (Nd k attrs)) eqn:El; [|discriminate].
        (* the pairs (literal kind, scalar type) that leaf_ok accepts *)
        destruct k; try discriminate Hsc; destruct sc;
          destruct attrs as [|[|m|l|t|b|c] attrs]; cbn in Hv, El; try discriminate.
        (* only an Int literal needs its text read *)
        all: try (inversion Hv; subst v; eexists; reflexivity).
        all: destruct (int_of_text t) as [z|]; [|discriminate]; cbn in Hv, El; inversion Hv; subst v.
        * (* Int at Int: in range by leaf_ok *) rewrite El. eauto.
        * (* Int at Float *) eauto.
        * (* Int at ID *) eauto.
      + (* enum *)
        cbn [is_leaf_def] in Hl. destruct (leaf_ok (TEnum vals) (Nd k attrs)) eqn:El; [|discriminate].
        destruct k; try discriminate.
        destruct attrs as [|[|m|l|t|b|c] attrs]; cbn in Hv, El; try discriminate. inversion Hv; subst v. rewrite El. eauto.
      + (* input object: a scalar is no object *)
        exfalso. destruct k; try discriminate Hsc; discriminate Hl.
    - rewrite vlit_list, Hnv, Hnn in Hl. cbn [coerce_scalar_lit].
      assert (Hl' : vlit s n p it = []).
      { destruct n as [k attrs]. destruct k; try discriminate Hsc; exact Hl. }
      destruct (IH p Hit Hl') as [c ->]. cbn. eauto.
    - rewrite vlit_nonnull, Hnv, Hnn in Hl. cbn [coerce_scalar_lit]. apply (IH p Hit Hl).
  Qed.

  Ltac val_cases :=
    repeat match goal with
           | |- context [all_some ?x] => destruct (all_some x)
           | |- context [int_of_text ?x] => destruct (int_of_text x)
           end; cbn; try discriminate.

  Lemma val_of_null n : val_of fl n = Some VNull -> is_null_node n = true.
  Proof.
    destruct n as [k attrs]. destruct k; cbn; try discriminate; try reflexivity;
      destruct attrs as [|[] attrs]; cbn; try discriminate; val_cases.
  Qed.

  Lemma val_of_var n y : val_of fl n = Some (VVar y) ->
    exists nm r, n = Nd KVariable (ANode nm :: r) /\ y = name_str nm.
  Proof.
    destruct n as [k attrs]. destruct k; cbn; try discriminate;
      destruct attrs as [|[] attrs]; cbn; try discriminate; val_cases.
    intro H. inversion H. eauto.
  Qed.

  Lemma in_subtype_strip m at_ : is_nonnull at_ = false ->
    in_subtype (TNonNull m) at_ = true -> in_subtype m at_ = true.
  Proof.
    destruct at_ as [sn|st|]; cbn; try discriminate; intros _.
    - destruct m as [mn|mt|mt]; cbn; try discriminate; auto.
    - destruct m as [mn|mt|mt]; cbn; try discriminate; auto.
  Qed.

  Lemma nodup_names_NoDup l : NoDup l -> nodup_names l = true.
  Proof.
    induction 1 as [|x l Hx Hl IH]; cbn; [reflexivity|]. rewrite IH, andb_true_r.
    apply negb_true_iff. apply ValueFacts.mem_not_In. exact Hx.
  Qed.

  Lemma first_named_None nm p i l : first_named nm p i l = None -> ~ In nm (map arg_name l).
  Proof.
    revert i. induction l as [|f r IH]; intros i H; cbn in *; [tauto|].
    destruct (str_eqb (arg_name f) nm) eqn:E; [discriminate|].
    intros [Hx|Hx]; [subst; rewrite str_eqb_refl in E; discriminate | exact (IH _ H Hx)].
  Qed.

  Lemma has_key_mem {A} k (l : list (Value.str * A)) : has_key k l = Value.mem k (map fst l).
  Proof.
    unfold has_key, Value.mem. induction l as [|[k' v] r IH]; cbn; [reflexivity|].
    destruct (str_eqb k k'); [reflexivity | exact IH].
  Qed.

  Hypothesis Hinputs : schema_inputs_ok s = true.
  Hypothesis Hsok : schema_ok s = true.

  Lemma input_fields_ok nm defs oo : lookup_type s nm = Some (TInput defs oo) ->
    arg_types_ok s defs = true.
  Proof.
    intro Hl. unfold lookup_type in Hl. destruct (scalar_of_name nm); [discriminate|].
    apply lookup_In in Hl. unfold schema_inputs_ok in Hinputs. rewrite forallb_forall in Hinputs.
    exact (Hinputs _ Hl).
  Qed.

  (* what lit_sound proves of a value node n, for every input type t: ValuesOfCorrectType (vlit)
     and the rules reporting below a value (val_evs) silent on n, the variables used in it accepted
     => Typing.lit_ok of its translation *)
  Definition lit_goal (n : node) : Prop := forall p t ld oneof v,
    is_input_type s t = true -> ty_wf t = true -> val_of fl n = Some v ->
    vlit s n p t = [] ->
    errs_of (val_evs s n p (Some t) ld oneof) = [] ->
    (forall u, In u (uses_of (val_evs s n p (Some t) ld oneof)) -> usage_ok vdefs u) ->
    lit_ok s vdefs [] v t ld = true.

  Lemma lit_ok_scalar v t ld :
    match v with VInt _ | VFloat _ _ | VStr _ | VBool _ | VEnum _ => True | _ => False end ->
    lit_ok s vdefs [] v t ld = match coerce_scalar_lit s v t with Some _ => true | None => false end.
  Proof. destruct v; cbn; tauto. Qed.

  Lemma scalar_goal n : scalar_node n = true -> lit_goal n.
  Proof.
    intros Hsc p t ld oneof v Hit Hwf Hv Hl _ _.
    destruct (scalar_lit n v Hsc Hv t p Hit Hl) as [c Hc].
    rewrite lit_ok_scalar, Hc; [reflexivity|].
    destruct n as [k attrs]. destruct k; try discriminate Hsc;
      destruct attrs as [|[|m|l|txt|b|e] attrs]; cbn in Hv; try discriminate.
    all: try (inversion Hv; exact I).
    (* an Int literal *)
    destruct (int_of_text txt); [|discriminate]. cbn in Hv. inversion Hv. exact I.
  Qed.

  Lemma list_type_inv items r p t :
    is_input_type s t = true -> ty_wf t = true ->
    vlit s (Nd KListValue (AList items :: r)) p t = [] ->
    exists it, list_item_type t = Some it /\ nullable_of t = TList it /\
               concat (mapi (fun j m => vlit s m (p ++ [(O, j)]) it) items) = [].
  Proof.
    intros Hit Hwf Hl.
    assert (Hnamed : forall nm, is_input_type s (TNamed nm) = true ->
                     vlit s (Nd KListValue (AList items :: r)) p (TNamed nm) = [] -> False).
    { intros nm Hi H. cbn [vlit is_var_node is_null_node] in H.
      unfold is_input_type in Hi. cbn [named_of] in Hi.
      destruct (lookup_type s nm) as [[[]| | | | |]|]; try discriminate; cbn in H; discriminate. }
    destruct t as [nm|it|t'].
    - exfalso. eapply Hnamed; eauto.
    - rewrite vlit_list in Hl. cbn [is_var_node is_null_node] in Hl. exists it. auto.
    - rewrite vlit_nonnull in Hl. cbn [is_var_node is_null_node] in Hl.
      destruct t' as [nm|it|t''].
      + exfalso. eapply Hnamed; eauto.
      + rewrite vlit_list in Hl. cbn [is_var_node is_null_node] in Hl. exists it. auto.
      + discriminate.
  Qed.

  Lemma mapi_nth_errs {A} (g : nat -> A -> list ev) l j a :
    errs_of (concat (mapi g l)) = [] -> nth_error l j = Some a -> errs_of (g j a) = [].
  Proof.
    intros H Hj. rewrite errs_of_concat, concat_nil_Forall, Forall_forall in H. apply H.
    apply (List.in_map errs_of). apply In_mapi. eauto.
  Qed.

  Lemma mapi_nth_uses {A} (g : nat -> A -> list ev) l j a u :
    nth_error l j = Some a -> In u (uses_of (g j a)) -> In u (uses_of (concat (mapi g l))).
  Proof.
    intros Hj Hu. rewrite uses_of_concat. apply in_concat. exists (uses_of (g j a)). split; [|exact Hu].
    apply (List.in_map uses_of). apply In_mapi. eauto.
  Qed.

  Lemma list_goal items r : (forall m, In m items -> lit_goal m) -> lit_goal (Nd KListValue (AList items :: r)).
  Proof.
    intros HF p t ld oneof v Hit Hwf Hv Hl He Hu.
    cbn [val_of] in Hv. destruct (all_some (map (val_of fl) items)) as [vs|] eqn:Ea; [|discriminate].
    cbn in Hv. inversion Hv; subst v. clear Hv.
    destruct (list_type_inv _ _ _ _ Hit Hwf Hl) as (it & Eli & Enu & Hc).
    cbn [lit_ok]. rewrite Eli.
    assert (Hit' : is_input_type s it = true).
    { destruct t as [|t0|[|t0|]]; cbn in Eli; inversion Eli; subst; exact Hit. }
    assert (Hwf' : ty_wf it = true).
    { destruct t as [|t0|[|t0|]]; cbn in Eli; inversion Eli; subst; exact Hwf. }
    cbn [val_evs] in He, Hu. rewrite Enu in He, Hu. unfold as_input in He, Hu. rewrite Hit' in He, Hu.
    apply (proj2 (forallb_forall (fun x => lit_ok s vdefs [] x it false) vs)).
    intros x Hx. apply In_nth_error in Hx as [j Hj].
    destruct (Forall2_nth_r _ _ _ (all_some_Forall2 _ _ _ Ea) j x Hj) as (m & Em & Hm).
    apply (HF m (nth_error_In _ _ Em) (p ++ [(O, j)]) it false false x Hit' Hwf' Hm).
    - apply (proj1 (concat_mapi_nil _ _) Hc j m Em).
    - apply (mapi_nth_errs _ _ _ _ He Em).
    - intros u Hin. apply Hu. apply (mapi_nth_uses _ _ _ _ _ Em Hin).
  Qed.

  Lemma forallb_filter_id {A} (f : A -> bool) l : forallb f l = true -> filter f l = l.
  Proof.
    induction l as [|a l IH]; cbn; [reflexivity|]. intro H. apply andb_true_iff in H as [H1 H2].
    rewrite H1, IH; auto.
  Qed.

  Definition field_kv (f : node) : option (Value.str * value) :=
    match f with
    | Nd KObjectField (ANode nm :: ANode v :: _) => option_map (pair (name_str nm)) (val_of fl v)
    | _ => None
    end.

  Lemma field_kv_inv f k x : field_kv f = Some (k, x) ->
    exists nm vn r, f = Nd KObjectField (ANode nm :: ANode vn :: r) /\ k = arg_name f /\ val_of fl vn = Some x.
  Proof.
    destruct f as [kd attrs]. destruct kd; cbn; try discriminate.
    destruct attrs as [|[| nm| | | |] [|[| vn| | | |] r]]; cbn; try discriminate.
    destruct (val_of fl vn) as [x'|] eqn:E; cbn; [|discriminate]. intro H. inversion H; subst.
    exists nm, vn, r. auto.
  Qed.

  Definition fgoal (f : node) : Prop :=
    forall a0 vn r, f = Nd KObjectField (a0 :: ANode vn :: r) -> lit_goal vn.

  Lemma obj_vlit_named flds r p t :
    vlit s (Nd KObjectValue (AList flds :: r)) p t = vlit s (Nd KObjectValue (AList flds :: r)) p (TNamed (named_of t)).
  Proof.
    induction t as [nm|it IH|t' IH]; [reflexivity | rewrite vlit_list | rewrite vlit_nonnull];
      cbn [is_var_node is_null_node named_of]; exact IH.
  Qed.

  Lemma obj_goal flds r : (forall f, In f flds -> fgoal f) -> lit_goal (Nd KObjectValue (AList flds :: r)).
  Proof.
    intros HF p t ld oneof v Hit Hwf Hv Hl He Hu.
    cbn [val_of] in Hv.
    assert (Hv' : option_map VObj (all_some (map field_kv flds)) = Some v) by exact Hv.
    clear Hv. rename Hv' into Hv.
    destruct (all_some (map field_kv flds)) as [kvs|] eqn:Ea; [|discriminate].
    cbn in Hv. inversion Hv; subst v. clear Hv.
    pose proof (all_some_Forall2 _ _ _ Ea) as H2.
    rewrite obj_vlit_named in Hl. cbn [vlit is_var_node is_null_node] in Hl.
    cbn [lit_ok]. pose proof (unwrap_named_of t) as En. destruct (unwrap_named t) as [dp n].
    cbn [snd] in En. subst n.
    unfold is_input_type in Hit.
    destruct (lookup_type s (named_of t)) as [td|] eqn:Etd; [|discriminate].
    destruct td as [[]|vals| | | |defs oo]; try discriminate; try (cbn in Hl; discriminate).
    apply app_eq_nil in Hl as [HA Hl]. apply app_eq_nil in Hl as [HB HC].
    pose proof (input_fields_ok _ _ _ Etd) as Hdefs. unfold arg_types_ok in Hdefs. rewrite forallb_forall in Hdefs.
    cbn [val_evs] in He, Hu. cbv zeta in He, Hu. rewrite Etd in He, Hu. cbv beta iota in He, Hu.
    (* the translated fields carry the names of the field nodes *)
    assert (Hnames : map fst kvs = field_names flds).
    { clear -H2. induction H2 as [|f [k x] l1 l2 Hf H IH]; [reflexivity|]. cbn [map fst field_names].
      apply field_kv_inv in Hf as (nm & vn & r' & -> & -> & _). unfold field_names in IH. rewrite IH. reflexivity. }
    (* no R_UINF event below the object (He): no field's name occurs in front of it *)
    assert (Hnd : NoDup (field_names flds)).
    { apply NoDup_by_prefix. intros j nmj Hj Hin. unfold field_names in Hj. rewrite nth_error_map in Hj.
      destruct (nth_error flds j) as [f|] eqn:Ef; [|discriminate]. cbn in Hj. inversion Hj; subst nmj.
      destruct (Forall2_nth_l _ _ _ H2 j f Ef) as ([k x] & _ & Hkv).
      apply field_kv_inv in Hkv as (nm & vn & r' & -> & _ & _).
      pose proof (mapi_nth_errs _ _ _ _ He Ef) as He'. cbv beta iota in He'.
      rewrite errs_of_app in He'. apply app_eq_nil in He' as [He' _].
      destruct (first_named (arg_name (Nd KObjectField (ANode nm :: ANode vn :: r'))) p O (firstn j flds)) eqn:Ef1;
        [discriminate|].
      apply first_named_None in Ef1. apply Ef1. unfold field_names in Hin. rewrite firstn_map in Hin. exact Hin. }
    (* no name twice, so every field is the last of its name - the one whose value vlit checks (HB):
       it is defined, and the induction hypothesis accepts its value *)
    assert (Hfields : forall j f k x, nth_error flds j = Some f -> field_kv f = Some (k, x) ->
              exists ad, find_arg k defs = Some ad /\
                         lit_ok s vdefs [] x (a_type ad) (has_default ad) = true).
    { intros j f k x Ef Hkv. pose proof Hkv as Hkv0.
      apply field_kv_inv in Hkv as (nm & vn & r' & -> & -> & Hx).
      pose proof (proj1 (concat_mapi_nil _ _) HB j _ Ef) as Hb. cbn beta iota in Hb.
      set (f := Nd KObjectField (ANode nm :: ANode vn :: r')) in *.
      destruct (find_arg (arg_name f) defs) as [ad|] eqn:Ead; [|discriminate].
      exists ad. split; [reflexivity|].
      assert (Hlast : Value.mem (arg_name f) (field_names (skipn (S j) flds)) = false).
      { apply ValueFacts.mem_not_In. intro Hin.
        assert (Hsplit : flds = firstn j flds ++ f :: skipn (S j) flds).
        { clear -Ef. revert j Ef. induction flds as [|a l IHl]; intros [|j] Ef; cbn in *; try discriminate.
          - inversion Ef. reflexivity.
          - f_equal. apply IHl. exact Ef. }
        unfold field_names in Hnd. rewrite Hsplit, map_app in Hnd. cbn [map] in Hnd.
        apply NoDup_remove_2 in Hnd. apply Hnd. apply in_app_iff. right. exact Hin. }
      rewrite Hlast in Hb.
      pose proof (find_arg_In _ _ _ Ead) as [Hadin _]. specialize (Hdefs _ Hadin).
      apply andb_true_iff in Hdefs as [Hi1 Hi2].
      pose proof (HF f (nth_error_In _ _ Ef) (ANode nm) vn r' eq_refl) as Hg.
      unfold f in *. clear f.
      pose proof (mapi_nth_errs _ _ _ _ He Ef) as He'. cbv beta iota in He'.
      rewrite errs_of_app in He'. apply app_eq_nil in He' as [_ He'].
      rewrite Ead in He'. unfold as_input in He'. rewrite Hi1 in He'.
      apply (Hg _ _ _ oo x Hi1 Hi2 Hx Hb He').
      intros u Hin. apply Hu. apply (mapi_nth_uses _ _ _ _ _ Ef). cbv beta iota.
      rewrite uses_of_app. apply in_app_iff. right. rewrite Ead. unfold as_input. rewrite Hi1. exact Hin. }
    rewrite lit_ok_fields. repeat (apply andb_true_iff; split).
    - rewrite Hnames. apply nodup_names_NoDup. exact Hnd.
    - unfold fields_lit_ok. apply forallb_forall. intros [k x] Hin. cbn [fst snd].
      apply In_nth_error in Hin as [j Hj]. destruct (Forall2_nth_r _ _ _ H2 j _ Hj) as (f & Ef & Hkv).
      destruct (Hfields j f k x Ef Hkv) as (ad & -> & Hok). exact Hok.
    - apply forallb_forall. intros ad Had. rewrite has_key_mem, Hnames.
      pose proof (proj1 (flat_map_nil _ _) HA ad Had) as Hr. cbv beta in Hr.
      destruct (required_arg ad); [|apply orb_true_r].
      destruct (Value.mem (a_name ad) (field_names flds)); [reflexivity | discriminate].
    - destruct oo; [|reflexivity]. cbn [negb orb].
      (* OneOf: every field is defined, so the filter keeps them all *)
      assert (Hall : filter (fun f => match find_arg (arg_name f) defs with Some _ => true | None => false end) flds = flds).
      { apply forallb_filter_id. apply forallb_forall. intros f Hf. apply In_nth_error in Hf as [j Ef].
        destruct (Forall2_nth_l _ _ _ H2 j f Ef) as ([k x] & _ & Hkv).
        destruct (Hfields j f k x Ef Hkv) as (ad & Hfa & _).
        apply field_kv_inv in Hkv as (_ & _ & _ & _ & -> & _). rewrite Hfa. reflexivity. }
      rewrite Hall in HC.
      destruct flds as [|f0 [|f1 rest]]; try discriminate HC.
      inversion H2 as [|? [k x] ? l2 Hkv H2' ]; subst. inversion H2'; subst.
      pose proof Hkv as Hkv0. apply field_kv_inv in Hkv as (nm & vn & r' & -> & -> & Hx).
      cbn [objfield_value] in HC.
      assert (Hnn : is_vnull x = false).
      { destruct x; try reflexivity. apply val_of_null in Hx. rewrite Hx in HC. discriminate. }
      rewrite Hnn. cbn [negb andb].
      destruct x as [| | | | | |y| |]; try reflexivity.
      destruct (Hfields O _ _ _ eq_refl Hkv0) as (ad & Hfa & _). rewrite Hfa.
      apply val_of_var in Hx as (vnm & vr & -> & ->).
      pose proof (find_arg_In _ _ _ Hfa) as [Hadin _]. specialize (Hdefs _ Hadin).
      apply andb_true_iff in Hdefs as [Hi1 _].
      destruct (Hu (TU (name_str vnm) (p ++ [(O, O); (1, O)]%nat) (Some (a_type ad)) (has_default ad) true))
        as (vd & Hfv & Hall').
      { apply (mapi_nth_uses _ [_] O _ _ eq_refl). cbv beta iota. rewrite uses_of_app. apply in_app_iff. right.
        rewrite Hfa. unfold as_input. rewrite Hi1. cbn. auto. }
      cbn [tu_name] in Hfv. rewrite Hfv.
      destruct (Hall' (a_type ad) eq_refl) as [Hallow Hnn']. cbn [tu_default tu_oneof] in *.
      specialize (Hnn' eq_refl).
      destruct (schema_input _ _ _ _ Hsok Etd) as (_ & _ & Hone). destruct (Hone eq_refl ad Hadin) as [Hnull _].
      (* the variable's type is non-null (the OneOf clause of VariablesInAllowedPosition), the field's
         type nullable (schema_ok): allowed at the field's type, it is allowed at that type made non-null *)
      rewrite andb_true_r. unfold allowed_usage in *. rewrite Hnn'.
      destruct (v_type vd) as [|?|m]; try discriminate Hnn'.
      destruct (a_type ad) as [an|al|an] eqn:Eat; try discriminate Hnull; cbn [in_subtype].
      + apply in_subtype_strip in Hallow; [exact Hallow | reflexivity].
      + apply in_subtype_strip in Hallow; [exact Hallow | reflexivity].
  Qed.

  Lemma null_goal attrs : lit_goal (Nd KNullValue attrs).
  Proof.
    intros p t ld oneof v _ _ Hv Hl _ _. cbn in Hv. inversion Hv; subst. cbn [lit_ok].
    destruct t; try reflexivity. rewrite vlit_nonnull in Hl. discriminate Hl.
  Qed.

  Lemma var_goal nm r : lit_goal (Nd KVariable (ANode nm :: r)).
  Proof.
    intros p t ld oneof v _ _ Hv _ _ Hu. cbn in Hv. inversion Hv; subst. cbn [lit_ok].
    destruct (Hu (TU (name_str nm) p (Some t) ld oneof)) as (vd & Hf & Ha); [cbn; auto|].
    cbn [tu_name] in Hf. rewrite Hf. destruct (Ha t eq_refl) as [Hal _]. cbn [tu_default] in Hal.
    rewrite Hal. cbn. rewrite andb_false_r. reflexivity.
  Qed.

  Theorem lit_sound n : lit_goal n.
  Proof.
    enough (H : lit_goal n /\ fgoal n) by apply H.
    induction n as [k attrs IHn IHl] using node_children_ind. split.
    - destruct k; try (intros p t ld oneof v _ _ Hv; cbn in Hv; discriminate Hv);
        try (apply scalar_goal; reflexivity).
      + (* list *)
        destruct attrs as [|[| |items| | |] r]; try (intros p t ld oneof v _ _ Hv; cbn in Hv; discriminate Hv).
        apply list_goal. intros m Hm. apply (IHl O items eq_refl m Hm).
      + apply null_goal.
      + (* object *)
        destruct attrs as [|[| |flds| | |] r]; try (intros p t ld oneof v _ _ Hv; cbn in Hv; discriminate Hv).
        apply obj_goal. intros m Hm. apply (IHl O flds eq_refl m Hm).
      + (* variable *)
        destruct attrs as [|[|nm| | | |] r]; try (intros p t ld oneof v _ _ Hv; cbn in Hv; discriminate Hv).
        apply var_goal.
    - intros a0 vn r Heq. inversion Heq; subst. apply (IHn 1%nat vn eq_refl).
  Qed.
End Lit.
