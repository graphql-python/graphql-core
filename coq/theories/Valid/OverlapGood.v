(* Consequences of "no selection set of the document has a conflict" (the verdict VNo of the
   field-merge specification function) for pairs of collected fields: two fields with one response
   name that are not on different object types have one field name, and the same holds again for
   every pair of fields their sub-selections contribute. *)
From GV Require Import Base.Prelude Valid.Overlap Valid.OverlapProps Valid.OverlapAdequacy
  Valid.OverlapCollect.

Section Good.
  Variable s : schema.
  Variable d : document.
  Notation frags := (d_frags d).
  Notation cf := (length (d_frags d)).

  Definition Good (x y : entry) : Prop := x = y \/ ~ Conf s d false x y \/ ~ Conf s d false y x.

  Lemma Good_sym x y : Good x y -> Good y x.
  Proof. intros [->|[H|H]]; [left; reflexivity | right; right; exact H | right; left; exact H]. Qed.

  (* the fields of a checked set *)
  Theorem set_good p ss : ~ SetConf s d p ss ->
    forall u v, Exp frags p ss u -> Exp frags p ss v -> same_rname u v = true -> Good u v.
  Proof.
    intros Hno u v Hu Hv Hr. destruct (collect_set frags p ss) as [st [Hc He]].
    destruct (before_tricho u v (snd st) (He u Hu) (He v Hv)) as [->|[Hb|Hb]]; [left; reflexivity| |].
    - right. left. intro Hconf. apply Hno. exists st, u, v. auto.
    - right. right. intro Hconf. apply Hno. exists st, v, u. rewrite same_rname_sym. auto.
  Qed.

  (* the fields below two mergeable fields *)
  Theorem children_good x y ta tb :
    ~ Conf s d false x y -> ft s x = Some ta -> ft s y = Some tb -> excl_of s false x y = false ->
    forall u v, Exp frags (named ta) (e_sub x) u -> Exp frags (named tb) (e_sub y) v ->
                same_rname u v = true -> Good u v.
  Proof.
    intros Hn Ha Hb He u v Hu Hv Hr.
    destruct (direct s false x y ta tb) eqn:Ed; [exfalso; apply Hn; eapply Conf_direct; eauto|].
    destruct (merged_total d x y ta tb) as (l & Hm & H1 & H2).
    destruct (before_tricho u v l (H1 u Hu) (H2 v Hv)) as [->|[Hbf|Hbf]]; [left; reflexivity| |].
    - right. left. intro Hc. apply Hn. apply (Conf_nested s d false x y ta tb l u v Ha Hb Ed Hm Hbf Hr). rewrite He. exact Hc.
    - right. right. intro Hc. apply Hn. apply (Conf_nested s d false x y ta tb l v u Ha Hb Ed Hm Hbf); [|rewrite He; exact Hc].
      rewrite same_rname_sym. exact Hr.
  Qed.

  (* mergeable fields that are not exclusive have one field name *)
  Theorem good_names x y ta tb :
    ~ Conf s d false x y -> ft s x = Some ta -> ft s y = Some tb -> excl_of s false x y = false ->
    f_name (e_fld x) = f_name (e_fld y).
  Proof.
    intros Hn Ha Hb He.
    destruct (direct s false x y ta tb) eqn:Ed; [exfalso; apply Hn; eapply Conf_direct; eauto|].
    unfold direct in Ed. rewrite He in Ed. cbn [negb andb] in Ed.
    apply orb_false_iff in Ed as [Ed _]. apply orb_false_iff in Ed as [Ed _].
    apply negb_false_iff in Ed. apply N.eqb_eq in Ed. exact Ed.
  Qed.
End Good.
