(* Proofs about Valid/RulesStream.v (27 StreamDirectiveOnListField): the reported paths are exactly
   the directive occurrences, with the TypeInfo context they are entered with, that fail the test. *)
From GV Require Import Base.Prelude Lang.Ast Exec.Value Exec.Schema Exec.Spec Exec.Typing Exec.ValueFacts Valid.Rules Valid.RulesBase Valid.RulesPaths Valid.Rules13 Valid.RulesStream.

Lemma violb_spec fd pt dn :
  violb fd pt dn = true <->
  exists nm rest f t, dn = Nd KDirective (ANode nm :: rest) /\ fd = Some f /\ pt = Some t /\
                      name_str nm = n_stream /\ listish (f_type f) = false.
Proof.
  split.
  - destruct dn as [k attrs]. destruct k; cbn; try discriminate.
    destruct attrs as [|[| nm | | | |] rest]; try discriminate.
    destruct fd as [f|]; [|discriminate]. destruct pt as [t|]; [|discriminate].
    intro H. apply andb_true_iff in H. destruct H as [H1 H2].
    apply str_eqb_eq in H1. apply negb_true_iff in H2.
    exists nm, rest, f, t. auto.
  - intros (nm & rest & f & t & -> & -> & -> & Hn & Hl). cbn.
    rewrite Hn, Hl. rewrite str_eqb_refl. reflexivity.
Qed.

Lemma stream_dirs_In p i ds fd pt q :
  In q (stream_dirs p i ds fd pt) <->
  exists j dn, nth_error ds j = Some dn /\ violb fd pt dn = true /\ q = p ++ [(i, j)].
Proof.
  unfold stream_dirs. rewrite In_concat_mapi. split.
  - intros (j & dn & Hn & Hq). destruct (violb fd pt dn) eqn:E; [|contradiction].
    destruct Hq as [<-|[]]. exists j, dn. auto.
  - intros (j & dn & Hn & Hv & ->). exists j, dn. rewrite Hv. cbn. auto.
Qed.

Section Occ.
  Variable vs : vschema.

  (* Occ p ss ct fd q dn fd' pt': in the selection set ss at p, entered with type-stack top ct and
     field-stack top fd, the directive node dn sits at path q and is entered with
     get_field_def() = fd' and get_parent_type() = pt' *)
  Inductive Occ : npath -> node -> option Value.str -> option field_def ->
                  npath -> node -> option field_def -> option Value.str -> Prop :=
  | Occ_sel p sels r ct fd j sel q dn fd' pt' :
      nth_error sels j = Some sel -> Occ1 (p ++ [(O, j)]) sel ct fd q dn fd' pt' ->
      Occ p (Nd KSelectionSet (AList sels :: r)) ct fd q dn fd' pt'
  with Occ1 : npath -> node -> option Value.str -> option field_def ->
              npath -> node -> option field_def -> option Value.str -> Prop :=
  | Occ1_field_dir sp d nm a3 a4 sset rest ct fd i dn :
      nth_error (attr_list d) i = Some dn ->
      Occ1 sp (Nd KField (d :: ANode nm :: a3 :: a4 :: sset :: rest)) ct fd
           (sp ++ [(O, i)]) dn (fdef_at vs ct nm) (composite_of (vs_s vs) ct)
  | Occ1_field_sub sp d nm a3 a4 s' rest ct fd q dn fd' pt' :
      Occ (sp ++ [(4, O)]%nat) s' (sub_ct vs (fdef_at vs ct nm)) (fdef_at vs ct nm) q dn fd' pt' ->
      Occ1 sp (Nd KField (d :: ANode nm :: a3 :: a4 :: ANode s' :: rest)) ct fd q dn fd' pt'
  | Occ1_spread_dir sp d nm rest ct fd i dn :
      nth_error (attr_list d) i = Some dn ->
      Occ1 sp (Nd KFragmentSpread (d :: ANode nm :: rest)) ct fd
           (sp ++ [(O, i)]) dn fd (composite_of (vs_s vs) ct)
  | Occ1_inline_dir sp d s' tc rest ct fd i dn :
      nth_error (attr_list d) i = Some dn ->
      Occ1 sp (Nd KInlineFragment (d :: ANode s' :: tc :: rest)) ct fd
           (sp ++ [(O, i)]) dn fd (composite_of (vs_s vs) ct)
  | Occ1_inline_sub sp d s' tc rest ct fd q dn fd' pt' :
      Occ (sp ++ [(1, O)]%nat) s' (inline_ct vs tc ct) fd q dn fd' pt' ->
      Occ1 sp (Nd KInlineFragment (d :: ANode s' :: tc :: rest)) ct fd q dn fd' pt'.

  Scheme Occ_mut := Minimality for Occ Sort Prop
    with Occ1_mut := Minimality for Occ1 Sort Prop.
  Combined Scheme Occ_both from Occ_mut, Occ1_mut.

  Lemma stream_sel_unfold p sels r ct fd :
    stream_sel vs p (Nd KSelectionSet (AList sels :: r)) ct fd =
    concat (mapi (fun j sel => stream_sel1 vs (p ++ [(O, j)]) sel ct fd) sels).
  Proof. reflexivity. Qed.

  Definition Viol q (o : npath -> node -> option field_def -> option Value.str -> Prop) : Prop :=
    exists dn fd' pt', o q dn fd' pt' /\ violb fd' pt' dn = true.

  (* reported => a failing occurrence *)
  Lemma stream_sound n :
    (forall p ct fd q, In q (stream_sel vs p n ct fd) -> Viol q (Occ p n ct fd)) /\
    (forall sp ct fd q, In q (stream_sel1 vs sp n ct fd) -> Viol q (Occ1 sp n ct fd)).
  Proof.
    induction n as [k attrs IHn IHl] using node_children_ind. split.
    - intros p ct fd q H.
      destruct k; try contradiction.
      destruct attrs as [|[| | sels | | |] r]; try contradiction.
      rewrite stream_sel_unfold in H. apply In_concat_mapi in H as (j & sel & Hn & Hq).
      destruct (proj2 (IHl O sels eq_refl sel (nth_error_In _ _ Hn)) _ _ _ _ Hq) as (dn & fd' & pt' & Ho & Hv).
      exists dn, fd', pt'. split; [|exact Hv]. eapply Occ_sel; eauto.
    - intros sp ct fd q H.
      destruct k; try contradiction.
      + (* field *)
        destruct attrs as [|d [|[| nm | | | |] [|a3 [|a4 [|sset rest]]]]]; try contradiction.
        cbn [stream_sel1] in H. apply in_app_iff in H. destruct H as [H|H].
        * apply stream_dirs_In in H. destruct H as (i & dn & Hn & Hv & ->).
          exists dn, (fdef_at vs ct nm), (composite_of (vs_s vs) ct). split; [|exact Hv].
          apply Occ1_field_dir. exact Hn.
        * destruct sset as [| s' | | | |]; try contradiction.
          destruct (proj1 (IHn 4%nat s' eq_refl) _ _ _ _ H) as (dn & fd' & pt' & Ho & Hv).
          exists dn, fd', pt'. split; [|exact Hv]. apply Occ1_field_sub. exact Ho.
      + (* fragment spread *)
        destruct attrs as [|d [|[| nm | | | |] rest]]; try contradiction.
        cbn [stream_sel1] in H. apply stream_dirs_In in H. destruct H as (i & dn & Hn & Hv & ->).
        exists dn, fd, (composite_of (vs_s vs) ct). split; [|exact Hv].
        apply Occ1_spread_dir. exact Hn.
      + (* inline fragment *)
        destruct attrs as [|d [|[| s' | | | |] [|tc rest]]]; try contradiction.
        cbn [stream_sel1] in H. apply in_app_iff in H. destruct H as [H|H].
        * apply stream_dirs_In in H. destruct H as (i & dn & Hn & Hv & ->).
          exists dn, fd, (composite_of (vs_s vs) ct). split; [|exact Hv].
          apply Occ1_inline_dir. exact Hn.
        * destruct (proj1 (IHn 1%nat s' eq_refl) _ _ _ _ H) as (dn & fd' & pt' & Ho & Hv).
          exists dn, fd', pt'. split; [|exact Hv]. apply Occ1_inline_sub. exact Ho.
  Qed.

  (* a failing occurrence => reported *)
  Lemma stream_complete_mut :
    (forall p n ct fd q dn fd' pt', Occ p n ct fd q dn fd' pt' ->
       violb fd' pt' dn = true -> In q (stream_sel vs p n ct fd)) /\
    (forall sp n ct fd q dn fd' pt', Occ1 sp n ct fd q dn fd' pt' ->
       violb fd' pt' dn = true -> In q (stream_sel1 vs sp n ct fd)).
  Proof.
    apply Occ_both.
    - intros p sels r ct fd j sel q dn fd' pt' Hn _ IH Hv.
      rewrite stream_sel_unfold. apply In_concat_mapi. exists j, sel. auto.
    - intros sp d nm a3 a4 sset rest ct fd i dn Hn Hv. cbn [stream_sel1].
      apply in_app_iff. left. apply stream_dirs_In. exists i, dn. auto.
    - intros sp d nm a3 a4 s' rest ct fd q dn fd' pt' _ IH Hv. cbn [stream_sel1].
      apply in_app_iff. right. auto.
    - intros sp d nm rest ct fd i dn Hn Hv. cbn [stream_sel1].
      apply stream_dirs_In. exists i, dn. auto.
    - intros sp d s' tc rest ct fd i dn Hn Hv. cbn [stream_sel1].
      apply in_app_iff. left. apply stream_dirs_In. exists i, dn. auto.
    - intros sp d s' tc rest ct fd q dn fd' pt' _ IH Hv. cbn [stream_sel1].
      apply in_app_iff. right. auto.
  Qed.

  Theorem stream_sel_In p n ct fd q :
    In q (stream_sel vs p n ct fd) <-> Viol q (Occ p n ct fd).
  Proof.
    split.
    - apply (proj1 (stream_sound n)).
    - intros (dn & fd' & pt' & Ho & Hv). eapply (proj1 stream_complete_mut); eauto.
  Qed.

  (* the occurrence relation names real nodes: q extends p by a path that leads, inside the
     selection set, to the directive node *)
  Lemma occ_get_mut :
    (forall p n ct fd q dn fd' pt', Occ p n ct fd q dn fd' pt' ->
       exists tail, q = p ++ tail /\ get n tail = Some dn) /\
    (forall sp n ct fd q dn fd' pt', Occ1 sp n ct fd q dn fd' pt' ->
       exists tail, q = sp ++ tail /\ get n tail = Some dn).
  Proof.
    assert (Hd : forall d i dn, nth_error (attr_list d) i = Some dn ->
                 forall k rest, get (Nd k (d :: rest)) [(O, i)] = Some dn).
    { intros d i dn Hn k rest. destruct d; cbn in Hn; try (destruct i; discriminate).
      cbn. rewrite Hn. reflexivity. }
    apply Occ_both.
    - intros p sels r ct fd j sel q dn fd' pt' Hn _ (tail & -> & Hg).
      exists ((O, j) :: tail). split; [rewrite <- app_assoc; reflexivity|].
      cbn. rewrite Hn. exact Hg.
    - intros sp d nm a3 a4 sset rest ct fd i dn Hn. exists [(O, i)]. split; [reflexivity|]. apply Hd, Hn.
    - intros sp d nm a3 a4 s' rest ct fd q dn fd' pt' _ (tail & -> & Hg).
      exists ((4, O)%nat :: tail). split; [rewrite <- app_assoc; reflexivity|]. cbn. exact Hg.
    - intros sp d nm rest ct fd i dn Hn. exists [(O, i)]. split; [reflexivity|]. apply Hd, Hn.
    - intros sp d s' tc rest ct fd i dn Hn. exists [(O, i)]. split; [reflexivity|]. apply Hd, Hn.
    - intros sp d s' tc rest ct fd q dn fd' pt' _ (tail & -> & Hg).
      exists ((1, O)%nat :: tail). split; [rewrite <- app_assoc; reflexivity|]. cbn. exact Hg.
  Qed.

  (* the selection set of a definition with the context TypeInfo enters it with *)
  Definition def_sel (n : node) : option (node * option Value.str) :=
    match n with
    | Nd KOperationDefinition (ANode ss :: _ :: _ :: _ :: _ :: o :: _) => Some (ss, op_root (vs_s vs) o)
    | Nd KFragmentDefinition (ANode ss :: _ :: _ :: _ :: _ :: ANode tc :: _) => Some (ss, cond_type vs tc)
    | _ => None
    end.

  Lemma stream_def_eq p n :
    stream_def vs p n =
    match def_sel n with Some (ss, ct) => stream_sel vs (p ++ [(O, O)]) ss ct None | None => [] end.
  Proof.
    destruct n as [k attrs]. destruct k; try reflexivity.
    - destruct attrs as [|[| ss | | | |] [|? [|? [|? [|? [|[| tc | | | |] ?]]]]]]; reflexivity.
    - destruct attrs as [|[| ss | | | |] [|? [|? [|? [|? [|[| tc | | | |] ?]]]]]]; reflexivity.
  Qed.

  Theorem stream_rule_In d e :
    In e (rule_stream_on_list_field vs d) <->
    exists j n ss ct q, nth_error (doc_defs d) j = Some n /\ def_sel n = Some (ss, ct) /\
                        Viol q (Occ [(O, j); (O, O)] ss ct None) /\ e = VE R_STREAM [q].
  Proof.
    unfold rule_stream_on_list_field, stream_paths. rewrite in_map_iff. split.
    - intros (q & <- & H). apply In_concat_mapi in H as (j & n & Hn & Hq).
      rewrite stream_def_eq in Hq. destruct (def_sel n) as [[ss ct]|] eqn:E; [|contradiction].
      apply stream_sel_In in Hq. exists j, n, ss, ct, q. auto.
    - intros (j & n & ss & ct & q & Hn & Hd & Hv & ->). exists q. split; [reflexivity|].
      apply In_concat_mapi. exists j, n. split; [exact Hn|].
      rewrite stream_def_eq, Hd. apply stream_sel_In. exact Hv.
  Qed.

  (* every error points at a directive node of the document that is named `stream` *)
  Theorem stream_rule_points_at_stream d e :
    In e (rule_stream_on_list_field vs d) ->
    exists q nm rest, e = VE R_STREAM [q] /\ get d q = Some (Nd KDirective (ANode nm :: rest)) /\
                      name_str nm = n_stream.
  Proof.
    intro H. apply stream_rule_In in H.
    destruct H as (j & n & ss & ct & q & Hn & Hd & (dn & fd' & pt' & Ho & Hv) & ->).
    apply violb_spec in Hv. destruct Hv as (nm & rest & f & t & -> & _ & _ & Hnm & _).
    exists q, nm, rest. split; [reflexivity|]. split; [|exact Hnm].
    destruct (proj1 occ_get_mut _ _ _ _ _ _ _ _ Ho) as (tail & -> & Hg).
    destruct d as [k attrs]. unfold doc_defs in Hn.
    destruct k; try (destruct j; discriminate).
    destruct attrs as [|[| | defs | | |] r]; try (destruct j; discriminate).
    cbn. rewrite Hn.
    destruct n as [kn an]. unfold def_sel in Hd. destruct kn; try discriminate.
    - destruct an as [|[| ss0 | | | |] [|? [|? [|? [|? [|[| tc | | | |] ?]]]]]]; try discriminate;
        inversion Hd; subst; cbn; exact Hg.
    - destruct an as [|[| ss0 | | | |] [|? [|? [|? [|? [|[| tc | | | |] ?]]]]]]; try discriminate;
        inversion Hd; subst; cbn; exact Hg.
  Qed.
End Occ.
