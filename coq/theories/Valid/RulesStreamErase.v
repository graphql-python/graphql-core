(* 27 StreamDirectiveOnListField does not depend on descriptions: the paths reported below a
   definition of erase_descriptions d are those below the definition of d (every tree, every
   schema); the rule itself: Properties/C12stream.v. *)
From GV Require Import Base.Prelude Lang.Ast Exec.Value Exec.Schema Exec.Spec Exec.Typing
  Valid.Rules Valid.RulesBase Valid.RulesErase Valid.Rules13 Valid.RulesStream Valid.RulesStreamProps.

Lemma ty_of_erase n : ty_of (E n) = ty_of n.
Proof.
  induction n as [k attrs IHn _] using node_children_ind.
  destruct k; try reflexivity;
    (destruct attrs as [|[| t | | | |] r]; try reflexivity;
     rewrite erase_unfold; cbn [mapi mapi_from is_desc desc_index erase_attr ty_of];
     try (rewrite name_str_erase; reflexivity);
     rewrite (IHn O t eq_refl); reflexivity).
Qed.

Lemma cond_type_erase vs t : cond_type vs (E t) = cond_type vs t.
Proof. unfold cond_type, tfa. rewrite ty_of_erase. reflexivity. Qed.

Lemma violb_erase fd pt dn : violb fd pt (E dn) = violb fd pt dn.
Proof.
  destruct dn as [k attrs]. destruct k; try reflexivity.
  destruct attrs as [|[| nm | | | |] r]; try reflexivity.
  rewrite erase_unfold. cbn [mapi mapi_from is_desc desc_index erase_attr violb].
  rewrite name_str_erase. reflexivity.
Qed.

Lemma stream_dirs_erase p i a fd pt :
  stream_dirs p i (attr_list (erase_attr a)) fd pt = stream_dirs p i (attr_list a) fd pt.
Proof.
  destruct a; try reflexivity. cbn [erase_attr attr_list]. unfold stream_dirs.
  rewrite mapi_map. f_equal. apply mapi_ext. intros j dn _.
  rewrite violb_erase. reflexivity.
Qed.

Lemma fdef_at_erase vs ct nm : fdef_at vs ct (E nm) = fdef_at vs ct nm.
Proof. unfold fdef_at. rewrite name_str_erase. reflexivity. Qed.

Lemma inline_ct_erase vs tc ct : inline_ct vs (erase_attr tc) ct = inline_ct vs tc ct.
Proof. destruct tc; try reflexivity. cbn. apply cond_type_erase. Qed.

Lemma stream_sel_erase vs s :
  (forall p ct fd, stream_sel vs p (E s) ct fd = stream_sel vs p s ct fd) /\
  (forall sp ct fd, stream_sel1 vs sp (E s) ct fd = stream_sel1 vs sp s ct fd).
Proof.
  induction s as [k attrs IHn IHl] using node_children_ind. split.
  - intros p ct fd. destruct k; try reflexivity.
    destruct attrs as [|[| |sels| | |] r]; try reflexivity.
    rewrite erase_unfold. cbn [mapi mapi_from is_desc desc_index erase_attr].
    rewrite !stream_sel_unfold, mapi_map.
    f_equal. apply mapi_ext. intros j a Hj. apply (IHl O sels eq_refl a (nth_error_In _ _ Hj)).
  - intros sp ct fd. destruct k; try reflexivity.
    + (* Field *)
      destruct attrs as [|d [|[| nm | | | |] [|a2 [|a3 [|sset r]]]]]; try reflexivity.
      rewrite erase_unfold. cbn [mapi mapi_from is_desc desc_index erase_attr stream_sel1].
      rewrite fdef_at_erase. rewrite (stream_dirs_erase sp 0 d).
      f_equal.
      destruct sset as [| s' | | | |]; try reflexivity.
      cbn [erase_attr]. apply (IHn 4%nat s' eq_refl).
    + (* FragmentSpread *)
      destruct attrs as [|d [|[| nm | | | |] r]]; try reflexivity.
      rewrite erase_unfold. cbn [mapi mapi_from is_desc desc_index erase_attr stream_sel1].
      apply (stream_dirs_erase sp 0 d).
    + (* InlineFragment *)
      destruct attrs as [|d [|[| s' | | | |] [|tc r]]]; try reflexivity.
      rewrite erase_unfold. cbn [mapi mapi_from is_desc desc_index erase_attr stream_sel1].
      rewrite (stream_dirs_erase sp 0 d). rewrite inline_ct_erase. f_equal.
      apply (IHn 1%nat s' eq_refl).
Qed.

Lemma stream_def_erase vs p n : stream_def vs p (E n) = stream_def vs p n.
Proof.
  destruct n as [k attrs]. destruct k; try reflexivity.
  - (* fragment definition *)
    destruct attrs as [|[| ss | | | |] [|a1 [|a2 [|a3 [|a4 [|[| tc | | | |] r]]]]]]; try reflexivity.
    rewrite erase_unfold. cbn [mapi mapi_from is_desc desc_index erase_attr stream_def Nat.eqb].
    rewrite cond_type_erase. apply stream_sel_erase.
  - (* operation definition *)
    destruct attrs as [|[| ss | | | |] [|a1 [|a2 [|a3 [|a4 [|o r]]]]]]; try reflexivity.
    rewrite erase_unfold. cbn [mapi mapi_from is_desc desc_index erase_attr stream_def Nat.eqb].
    destruct o; apply stream_sel_erase.
Qed.

Lemma doc_defs_erase d : doc_defs (E d) = map E (doc_defs d).
Proof.
  destruct d as [k attrs]. destruct k; try reflexivity.
  destruct attrs as [|[| | l | | |] r]; reflexivity.
Qed.

