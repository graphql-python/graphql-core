(* The rules of Valid/Rules.v against their declarative specifications (Valid/RulesSpec.v): the
   lemmas behind Properties/C12rules.v that take more than a few lines or are used by the typing
   chain (RulesTyping*, RulesAcyclic) - reachable fragments and recursive usages, the variable
   rules, fragment cycles, description independence.  Other proof files: RulesBase (lists, tree
   induction), RulesNames (duplicate names), RulesGraph (reachable fragments), RulesCycles
   (fragment cycles), RulesErase (descriptions), RulesPaths and RulesExact (node identity,
   multiplicities), RulesSpreads (work list of get_fragment_spreads), RulesWf (parsed documents). *)
From Coq Require Import Relations.
From GV Require Import Base.Prelude Base.ListFacts Lang.Ast Valid.Rules Valid.RulesBase Valid.RulesSpec
  Valid.RulesNames Valid.RulesGraph Valid.RulesCycles Valid.RulesErase.

Lemma opt_concat_nil {A} (l : list (option (list A))) es :
  opt_concat l = Some es -> (es = [] <-> forall x, In (Some x) l -> x = []).
Proof.
  intro H. rewrite nil_iff_no_In. split.
  - intros Hn x Hx. apply nil_iff_no_In. intros e He. apply (Hn e). apply (opt_concat_In l es e H). eauto.
  - intros Hn e He. apply (opt_concat_In l es e H) in He as (x & Hx & He). rewrite (Hn x Hx) in He. exact He.
Qed.

(* `[] if b else [e]` *)
Lemma In_unless {A} (b : bool) (e e' : A) : In e' (if b then [] else [e]) <-> b = false /\ e' = e.
Proof. destruct b; cbn; split; [tauto | intros [? _]; discriminate | intros [<-|[]]; auto | intros [_ ->]; auto]. Qed.

Lemma In_ops xs o : In o (ops_of xs) <-> In (XOp o) xs.
Proof.
  unfold ops_of. rewrite in_flat_map. split.
  - intros (x & Hx & Ho). destruct x; cbn in Ho; try tauto. destruct Ho as [<-|[]]. exact Hx.
  - intro H. exists (XOp o). cbn. auto.
Qed.

Lemma In_frags xs f : In f (frags_of xs) <-> In (XFrag f) xs.
Proof.
  unfold frags_of. rewrite in_flat_map. split.
  - intros (x & Hx & Ho). destruct x; cbn in Ho; try tauto. destruct Ho as [<-|[]]. exact Hx.
  - intro H. exists (XFrag f). cbn. auto.
Qed.

Lemma op_usages_total fs o : exists us, op_usages fs o = Some us.
Proof. unfold op_usages. destruct (refs_total fs (o_spreads o)) as [r ->]. eauto. Qed.

Lemma op_usages_spec fs o us : op_usages fs o = Some us -> forall u, In u us <-> InScope fs o u.
Proof.
  unfold op_usages, InScope. destruct (refs fs (o_spreads o)) as [rf|] eqn:Er; [|discriminate].
  intro H. inversion H; subst. clear H. destruct (refs_spec fs _ _ Er) as [Hr _]. intro u.
  rewrite in_app_iff, in_flat_map. split.
  - intros [Hu|(f & Hf & Hu)]; [auto|]. apply filter_In in Hu as [Hu Hl].
    right. exists f. split; [apply Hr; exact Hf|]. split; [exact Hu|].
    apply negb_true_iff in Hl. exact Hl.
  - intros [Hu|(f & Hf & Hu & Hl)]; [auto|]. right. exists f. split; [apply Hr; exact Hf|].
    apply filter_In. split; [exact Hu | rewrite Hl; reflexivity].
Qed.

Section Document.
  Variable d : node.
  Let xs := xdefs d.
  Let fs := frags_of xs.
  Let os := ops_of xs.

  Lemma named_frags_names : map fst (named_frags xs) = map f_name fs.
  Proof. unfold named_frags. rewrite map_map. reflexivity. Qed.

  Lemma unique_fragment_names_NoDup : rule_unique_fragment_names d = [] <-> NoDup (map f_name fs).
  Proof. rewrite <- named_frags_names. apply dup_rule_nil. Qed.

  Lemma used_names_total l : exists u, used_names fs l = Some u.
  Proof.
    induction l as [|o l [u IH]]; cbn [used_names]; [eauto|].
    destruct (refs_total fs (o_spreads o)) as [r ->]. rewrite IH. eauto.
  Qed.

  Lemma used_names_spec l : forall u, used_names fs l = Some u -> forall n, In n u <-> Used fs l n.
  Proof.
    induction l as [|o l IH]; intros u H n; cbn [used_names] in H.
    - inversion H; subst. split; [intros [] | intros (o & f & [] & _)].
    - destruct (refs fs (o_spreads o)) as [rf|] eqn:Er; [|discriminate].
      destruct (used_names fs l) as [u'|] eqn:Eu; [|discriminate]. inversion H; subst.
      destruct (refs_spec fs _ _ Er) as [Hr _].
      rewrite in_app_iff, in_map_iff, (IH u' eq_refl n). split.
      + intros [(f & Hn & Hf)|(o' & f & Ho & Hf & Hn)].
        * exists o, f. split; [cbn; auto|]. split; [apply Hr; exact Hf | exact Hn].
        * exists o', f. split; [cbn; auto | auto].
      + intros (o' & f & [<-|Ho] & Hf & Hn).
        * left. exists f. split; [exact Hn | apply Hr; exact Hf].
        * right. exists o', f. auto.
  Qed.

  Theorem no_unused_fragments_In es e : rule_no_unused_fragments d = Some es ->
    (In e es <-> exists f, In f fs /\ ~ Used fs os (f_name f) /\ e = VE R_UNUSEDF [f_path f]).
  Proof.
    unfold rule_no_unused_fragments. fold xs. fold fs. fold os.
    destruct (used_names fs os) as [u|] eqn:Eu; [|discriminate]. intro H. inversion H; subst. clear H.
    pose proof (used_names_spec os u Eu) as Hu. rewrite in_flat_map. split.
    - intros (f & Hf & He). apply In_unless in He as [Em ->]. apply mem_false in Em.
      exists f. rewrite <- Hu. auto.
    - intros (f & Hf & Hn & ->). exists f. split; [exact Hf|]. apply In_unless. split; [|reflexivity].
      apply mem_false. rewrite Hu. exact Hn.
  Qed.

  Theorem no_unused_fragments_nil es : rule_no_unused_fragments d = Some es ->
    (es = [] <-> forall f, In f fs -> Used fs os (f_name f)).
  Proof.
    intro H. rewrite nil_iff_no_In. split.
    - intros Hn f Hf. destruct (used_names_total os) as [u Eu].
      apply (used_names_spec os u Eu). apply mem_In. destruct (mem (f_name f) u) eqn:Em; [reflexivity|].
      destruct (Hn (VE R_UNUSEDF [f_path f])). apply (no_unused_fragments_In es _ H).
      exists f. split; [exact Hf|]. split; [|reflexivity]. rewrite <- (used_names_spec os u Eu). apply mem_false, Em.
    - intros Hall e He. apply (no_unused_fragments_In es e H) in He as (f & Hf & Hn & _). exact (Hn (Hall f Hf)).
  Qed.

  (* every error points at a closed chain of fragment spreads *)
  Theorem no_fragment_cycles_sound es e : rule_no_fragment_cycles d = Some es -> In e es ->
    exists c, IsCycle fs c /\ e = VE R_CYCLES (map sp_path c).
  Proof.
    unfold rule_no_fragment_cycles. fold xs. fold fs.
    destruct (detect_all (cycles_fuel fs) fs fs ([], [])) as [st|] eqn:Ed; [|discriminate].
    intro H. inversion H; subst. clear H. rewrite in_map_iff. intros (c & <- & Hc).
    exists c. split; [|reflexivity].
    apply (detect_all_sound fs fs _ _ Ed (incl_refl _)); [intros c' [] | exact Hc].
  Qed.

  (* with unique fragment names: silent iff no fragment spreads itself, directly or indirectly *)
  Theorem no_fragment_cycles_nil es : NoDup (map f_name fs) -> rule_no_fragment_cycles d = Some es ->
    (es = [] <-> forall a, ~ Cyclic fs a).
  Proof.
    intros Hu H. split.
    - intros ->. unfold rule_no_fragment_cycles in H. fold xs in H. fold fs in H.
      destruct (detect_all (cycles_fuel fs) fs fs ([], [])) as [st|] eqn:Ed; [|discriminate].
      inversion H as [Hm]. apply map_eq_nil in Hm. apply (no_error_acyclic fs Hu st Ed Hm).
    - intro Hac. apply nil_iff_no_In. intros e He.
      destruct (no_fragment_cycles_sound _ e H He) as (c & Hc & _).
      destruct (IsCycle_cyclic fs c Hc) as [a Ha]. apply (Hac a Ha).
  Qed.

  Definition var_names (o : opinfo) : list (str * path) :=
    map (fun v => (vd_name v, vd_name_path v)) (o_vdefs o).

  Theorem unique_variable_names_nil :
    rule_unique_variable_names d = [] <-> forall o, In o os -> UniqueNames (var_names o).
  Proof. apply (dup_groups_rule_nil R_UVAR var_names). Qed.

  Theorem no_undefined_variables_In es e : rule_no_undefined_variables d = Some es ->
    (In e es <-> exists o u, In o os /\ UndefinedUse fs o u /\ e = VE R_UNDEFV [us_path u; o_path o]).
  Proof.
    unfold rule_no_undefined_variables. fold xs. fold fs. fold os. intro H.
    apply opt_concat_map in H as [_ ->]. rewrite in_flat_map. unfold undefined_in, UndefinedUse, DefinesVar.
    split.
    - intros (o & Ho & He). destruct (op_usages fs o) as [us|] eqn:Eu; [|destruct He].
      apply in_flat_map in He as (u & Hu & He). apply In_unless in He as [Em ->]. apply mem_false in Em.
      apply (op_usages_spec fs o us Eu) in Hu. exists o, u. auto.
    - intros (o & u & Ho & [Hs Hn] & ->). exists o. split; [exact Ho|].
      destruct (op_usages_total fs o) as [us Eu]. rewrite Eu. apply in_flat_map.
      exists u. split; [apply (op_usages_spec fs o us Eu); exact Hs|].
      apply In_unless. split; [apply mem_false; exact Hn | reflexivity].
  Qed.

  (* a definition is reported iff no usage in [us] carries its name *)
  Lemma unused_In (us : list usage) (P : usage -> Prop) vds e :
    (forall u, In u us <-> P u) ->
    (In e (flat_map (fun v => if mem (vd_name v) (map us_name us) then [] else [VE R_UNUSEDV [vd_path v]]) vds) <->
     exists v, (In v vds /\ ~ exists u, P u /\ us_name u = vd_name v) /\ e = VE R_UNUSEDV [vd_path v]).
  Proof.
    intro HP. rewrite in_flat_map. split.
    - intros (v & Hv & He). apply In_unless in He as [Em ->]. apply mem_false in Em. exists v.
      split; [|reflexivity]. split; [exact Hv|]. intros (u & Hu & Hn). apply Em. rewrite <- Hn.
      apply in_map, HP, Hu.
    - intros (v & [Hv Hn] & ->). exists v. split; [exact Hv|]. apply In_unless. split; [|reflexivity].
      apply mem_false. intro Hin. apply in_map_iff in Hin as (u & Hu1 & Hu2). apply Hn. exists u.
      split; [apply HP; exact Hu2 | exact Hu1].
  Qed.

  Theorem no_unused_variables_In es e : rule_no_unused_variables d = Some es ->
    (In e es <->
     (exists o v, In o os /\ UnusedVar fs o v /\ e = VE R_UNUSEDV [vd_path v]) \/
     (exists f v, In f fs /\ UnusedFragVar f v /\ e = VE R_UNUSEDV [vd_path v])).
  Proof.
    unfold rule_no_unused_variables. fold xs. fold fs. intro H.
    apply opt_concat_map in H as [_ ->]. rewrite in_flat_map. unfold UnusedVar, UnusedFragVar. split.
    - intros ([o|f|p] & Hin & He); cbn [unused_in] in He; [| |destruct He].
      + destruct (op_usages fs o) as [us|] eqn:Eu; [|destruct He].
        apply (unused_In us _ _ _ (op_usages_spec fs o us Eu)) in He as (v & Hv & ->).
        left. exists o, v. split; [apply In_ops; exact Hin | auto].
      + apply (unused_In _ (fun u => In u (f_usages f))) in He as (v & Hv & ->); [|tauto].
        right. exists f, v. split; [apply In_frags; exact Hin | auto].
    - intros [(o & v & Ho & Hv & ->)|(f & v & Hf & Hv & ->)].
      + exists (XOp o). split; [apply In_ops; exact Ho|]. cbn [unused_in].
        destruct (op_usages_total fs o) as [us Eu]. rewrite Eu.
        apply (unused_In us _ _ _ (op_usages_spec fs o us Eu)). eauto.
      + exists (XFrag f). split; [apply In_frags; exact Hf|]. cbn [unused_in].
        apply (unused_In _ (fun u => In u (f_usages f))); [tauto | eauto].
  Qed.

  Theorem unique_input_field_names_nil :
    rule_unique_input_field_names d = [] <->
    forall before s p, In (before, (s, p)) (object_fields d) -> ~ In s (map fst before).
  Proof.
    unfold rule_unique_input_field_names. rewrite flat_map_nil. split.
    - intros H before s p Hin. specialize (H _ Hin). cbn [fst snd] in H.
      apply lookup_None. destruct (lookup s before); [discriminate | reflexivity].
    - intros H [before [s p]] Hin. cbn [fst snd]. apply H in Hin. apply lookup_None in Hin.
      rewrite Hin. reflexivity.
  Qed.

End Document.

(* the rules read nothing but the four extracted tables *)
Lemma all_rules_of_data d d' :
  xdefs d = xdefs d' -> all_spreads d = all_spreads d' -> arg_lists d = arg_lists d' ->
  object_fields d = object_fields d' -> all_rules d = all_rules d'.
Proof.
  intros H1 H2 H3 H4.
  unfold all_rules, rule_executable_definitions, rule_unique_operation_names,
    rule_lone_anonymous_operation, rule_known_fragment_names, rule_unique_fragment_names,
    rule_no_unused_fragments, rule_no_fragment_cycles, rule_unique_variable_names,
    rule_no_undefined_variables, rule_no_unused_variables, rule_unique_argument_names,
    rule_unique_input_field_names.
  rewrite H1, H2, H3, H4. reflexivity.
Qed.

Section Erase.
  Variable d : node.
  Notation E := erase_descriptions.

  Theorem erase_all_rules : all_rules (E d) = all_rules d.
  Proof.
    apply all_rules_of_data; [apply xdefs_erase | apply all_spreads_erase | apply arg_lists_erase | apply object_fields_erase].
  Qed.
End Erase.
