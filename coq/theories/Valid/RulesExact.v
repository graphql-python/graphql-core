(* Multiplicities: the lists reported by the node-by-node rules have no repetitions (so the
   membership characterisations of Properties/C12rules.v determine them as multisets); rule 12 in
   the words of the specification. *)
From GV Require Import Base.Prelude Lang.Ast Valid.Rules Valid.RulesBase Valid.RulesSpec Valid.RulesPaths
  Valid.RulesProps.

Definition xdef_path (x : xdef) : path :=
  match x with XOp o => o_path o | XFrag f => f_path f | XOther p => p end.

Lemma xdef_of_path p n : xdef_path (xdef_of p n) = p.
Proof.
  destruct n as [k attrs]. destruct k; try reflexivity;
    destruct attrs as [|s [|dsc [|nm [|vs r]]]]; reflexivity.
Qed.

Lemma def_paths_NoDup {A} (l : list A) : forall i,
  NoDup (mapi_from (fun j (_ : A) => [(O, j)]) i l).
Proof.
  induction l as [|a l IH]; intro i; cbn; constructor; [|apply IH].
  intro H. apply In_mapi_from in H as (j & _ & _ & He). inversion He. lia.
Qed.

Theorem xdefs_paths_NoDup d : NoDup (map xdef_path (xdefs d)).
Proof.
  destruct d as [k attrs]. destruct k; try constructor.
  destruct attrs as [|[| |l| | |] r]; try constructor.
  cbn [xdefs]. rewrite map_mapi, (mapi_ext _ (fun j (_ : node) => [(O, j)])); [apply def_paths_NoDup|].
  intros. apply xdef_of_path.
Qed.

Theorem ops_paths_NoDup d : NoDup (map o_path (ops_of (xdefs d))).
Proof.
  unfold ops_of. apply (flat_map_key_NoDup _ xdef_path); [apply xdefs_paths_NoDup|].
  intros [o|f|p] b Hb; cbn in Hb; try destruct Hb; try tauto. subst. auto.
Qed.

Theorem frags_paths_NoDup d : NoDup (map f_path (frags_of (xdefs d))).
Proof.
  unfold frags_of. apply (flat_map_key_NoDup _ xdef_path); [apply xdefs_paths_NoDup|].
  intros [o|f|p] b Hb; cbn in Hb; try destruct Hb; try tauto. subst. auto.
Qed.

Definition first_node (e : verr) : path := hd [] (ve_nodes e).
Definition last_node (e : verr) : path := last (ve_nodes e) [].

Theorem executable_definitions_NoDup d : NoDup (rule_executable_definitions d).
Proof.
  apply (NoDup_map_inv first_node). unfold rule_executable_definitions.
  apply (flat_map_key_NoDup _ xdef_path); [apply xdefs_paths_NoDup|].
  intros [o|f|p] b Hb; cbn in Hb; try destruct Hb; try tauto. subst. auto.
Qed.

Theorem lone_anonymous_NoDup d : NoDup (rule_lone_anonymous_operation d).
Proof.
  apply (NoDup_map_inv first_node). unfold rule_lone_anonymous_operation.
  apply (flat_map_key_NoDup _ o_path); [apply ops_paths_NoDup|].
  intros o b Hb. destruct (o_name o); [destruct Hb|].
  destruct (1 <? length (ops_of (xdefs d)))%nat; [|destruct Hb]. destruct Hb as [<-|[]]. auto.
Qed.

Lemma app_inj_tail_path (p q : path) x : p ++ x = q ++ x -> p = q.
Proof. apply app_inv_tail. Qed.

Theorem known_fragment_names_NoDup d : NoDup (rule_known_fragment_names d).
Proof.
  apply (NoDup_map_inv (fun e => removelast (first_node e))). unfold rule_known_fragment_names.
  apply (flat_map_key_NoDup _ sp_path); [apply all_spreads_NoDup|].
  intros s b Hb. destruct (get_fragment _ (sp_name s)); [destruct Hb|]. destruct Hb as [<-|[]].
  split; [reflexivity|]. unfold first_node, name_step. cbn [ve_nodes hd]. apply removelast_last.
Qed.

Theorem no_unused_fragments_NoDup d es : rule_no_unused_fragments d = Some es -> NoDup es.
Proof.
  unfold rule_no_unused_fragments. destruct (used_names _ _) as [u|]; [|discriminate].
  intro H. inversion H; subst. clear H. apply (NoDup_map_inv first_node).
  apply (flat_map_key_NoDup _ f_path); [apply frags_paths_NoDup|].
  intros f b Hb. destruct (mem (f_name f) u); [destruct Hb|]. destruct Hb as [<-|[]]. auto.
Qed.

Theorem unique_input_field_names_NoDup d : NoDup (rule_unique_input_field_names d).
Proof.
  apply (NoDup_map_inv last_node). unfold rule_unique_input_field_names.
  apply (flat_map_key_NoDup _ (fun e => snd (snd e))); [apply object_fields_NoDup|].
  intros [before [s p]] b Hb. cbn [fst snd] in *. destruct (lookup s before); [|destruct Hb].
  destruct Hb as [<-|[]]. auto.
Qed.

(* the variable usages an operation answers for, as the list the implementation builds: its own,
   then those of each transitively spread fragment - every fragment exactly once - without the
   usages bound by the fragment's own variable definitions *)
Definition scope (fs : list fraginfo) (o : opinfo) : list usage :=
  match op_usages fs o with Some us => us | None => [] end.

(* rule 12 in the words of the specification: when nothing is reported, every input object
   value of the document has pairwise different field names *)
Definition is_object_field (n : node) : bool :=
  match n with Nd KObjectField _ => true | _ => false end.

Theorem input_object_fields_unique d : rule_unique_input_field_names d = [] ->
  forall it fl r, In it (doc_items d) -> it_node it = Nd KObjectValue (AList fl :: r) ->
    forallb is_object_field fl = true -> NoDup (map arg_name fl).
Proof.
  intros Hsil [q n sb] fl r Hit Hn Hall. cbn [it_node] in Hn. subst n.
  pose proof (proj1 (unique_input_field_names_nil d) Hsil) as Hs.
  apply NoDup_by_prefix. intros j s Hj Hin.
  rewrite nth_error_map in Hj. destruct (nth_error fl j) as [m|] eqn:Em; [|discriminate].
  cbn in Hj. inversion Hj; subst s. clear Hj.
  pose proof (walk_child_list no_stop d [] [] q KObjectValue (AList fl :: r) sb O fl j m Hit eq_refl
                (or_introl eq_refl) eq_refl Em) as Hc.
  assert (Hof : is_object_field m = true).
  { rewrite forallb_forall in Hall. apply Hall. eapply nth_error_In; eauto. }
  destruct m as [k attrs]. destruct k; try discriminate.
  apply (Hs (map (fun pn => (arg_name (snd pn), fst pn ++ [(O, O)]))
                 (mapi (fun j' m' => (q ++ [(O, j')], m')) (firstn j fl)))
            (arg_name (Nd KObjectField attrs)) ((q ++ [(O, j)]) ++ [(O, O)])).
  - unfold object_fields. apply in_flat_map. eexists. split; [exact Hc|]. cbn. auto.
  - rewrite map_map. cbn [fst]. unfold mapi. rewrite map_mapi_from. cbn [snd].
    rewrite mapi_from_const. rewrite firstn_map in Hin. exact Hin.
Qed.
