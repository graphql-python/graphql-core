(* From the rules' verdicts on the whole document to the per-definition facts of RulesTypingDoc:
   no error in any definition, and every variable usage of the operation and of every fragment
   accepted (VariablesInAllowedPosition + NoUndefinedVariables over get_recursive_variable_usages;
   NoUnusedFragments + UniqueFragmentNames make every fragment one of the operation's). *)
From Coq Require Import Relations.
From GV Require Import Base.Prelude Base.ListFacts Lang.Ast Exec.Value Exec.Schema Exec.Spec Exec.ValueFacts
  Exec.Typing Valid.StaticTyping Valid.Rules Valid.RulesBase Valid.RulesSpec Valid.RulesGraph
  Valid.RulesCycles Valid.RulesProps Valid.Rules13 Valid.ToExec Valid.RulesLit Valid.RulesTyping
  Valid.RulesTypingDoc.

Lemma path_eqb_single a b : path_eqb [(O, a)] [(O, b)] = (a =? b)%nat.
Proof. cbn. rewrite andb_true_r. reflexivity. Qed.

Lemma evs_at_from (E : nat -> node -> list ev) l : forall i j n,
  nth_error l j = Some n ->
  evs_at (mapi_from (fun k m => ([(O, k)], E k m)) i l) [(O, (i + j)%nat)] = E (i + j)%nat n.
Proof.
  unfold evs_at. induction l as [|m l IH]; intros i [|j] n H; cbn in H; try discriminate.
  - inversion H; subst. cbn [mapi_from find fst]. rewrite path_eqb_single, Nat.add_0_r, Nat.eqb_refl. reflexivity.
  - cbn [mapi_from find fst]. rewrite path_eqb_single.
    replace (i =? i + S j)%nat with false by (symmetry; apply Nat.eqb_neq; lia).
    replace (i + S j)%nat with (S i + j)%nat by lia. apply IH. exact H.
Qed.

Lemma evs_at_nth (E : nat -> node -> list ev) l j n :
  nth_error l j = Some n -> evs_at (mapi (fun k m => ([(O, k)], E k m)) l) [(O, j)] = E j n.
Proof. intro H. apply (evs_at_from E l O j n H). Qed.

Lemma filter_single_index {A} (f : A -> bool) l a : filter f l = [a] ->
  forall i b i' b', nth_error l i = Some b -> f b = true -> nth_error l i' = Some b' -> f b' = true -> i = i'.
Proof.
  revert a. induction l as [|x l IH]; intros a Hf i b i' b' Hi Hb Hi' Hb'; [destruct i; discriminate|].
  cbn in Hf. destruct (f x) eqn:Ex.
  - inversion Hf as [[Ha Hr]].
    assert (Hnone : forall k c, nth_error l k = Some c -> f c = false).
    { intros k c Hk. destruct (f c) eqn:Ec; [|reflexivity]. exfalso.
      assert (Hin : In c (filter f l)) by (apply filter_In; split; [eapply nth_error_In; eauto | exact Ec]).
      rewrite Hr in Hin. destruct Hin. }
    destruct i as [|i], i' as [|i']; cbn in Hi, Hi'; try reflexivity.
    + rewrite (Hnone _ _ Hi') in Hb'. discriminate.
    + rewrite (Hnone _ _ Hi) in Hb. discriminate.
    + rewrite (Hnone _ _ Hi) in Hb. discriminate.
  - destruct i as [|i], i' as [|i']; cbn in Hi, Hi'.
    + reflexivity.
    + inversion Hi; subst. congruence.
    + inversion Hi'; subst. congruence.
    + f_equal. eapply IH; eauto.
Qed.

(* variable definitions: the rules' table (vdinfos) against the translation (vardef_of) *)
Definition vd_rel (vi : vdinfo) (vd : var_def) : Prop :=
  v_name vd = vi_name vi /\ v_type vd = ty_of (vi_type vi) /\
  has_nonnull_default (v_default vd) = vi_nonnull_default vi.

Section Vars.
  Variable fl : list N -> Z * N.

  Lemma ty_norm_wf t : ty_norm t = ty_wf t.
  Proof. induction t as [n|t IH|t IH]; cbn; [reflexivity | exact IH|]. destruct t; auto. Qed.

  (* what a translated variable definition looks like *)
  Lemma vardef_of_inv n vd : vardef_of fl n = Some vd ->
    exists a0 a1 t dv a4 r, n = Nd KVariableDefinition (a0 :: a1 :: ANode t :: dv :: a4 :: r) /\
      v_name vd = vardef_name n /\ v_type vd = ty_of t /\ ty_wf (ty_of t) = true /\
      match dv with
      | ANode v => exists xv, val_of fl v = Some xv /\ has_var xv = false /\ v_default vd = Some xv
      | _ => v_default vd = None
      end.
  Proof.
    destruct n as [k attrs]. destruct k; try discriminate.
    destruct attrs as [|a0 [|a1 [|[|t| | | |] [|dv [|a4 r]]]]]; try discriminate. cbn [vardef_of].
    destruct (ty_norm (ty_of t)) eqn:En; [|discriminate]. rewrite ty_norm_wf in En. intro H.
    exists a0, a1, t, dv, a4, r. split; [reflexivity|].
    destruct dv as [|v| | | |]; try (inversion H; subst; cbn; auto).
    destruct (val_of fl v) as [xv|] eqn:Ev; [|discriminate]. destruct (has_var xv) eqn:Eh; [discriminate|].
    inversion H; subst. cbn. repeat split; auto. exists xv. auto.
  Qed.

  Lemma vardef_rel p nodes vars :
    all_some (map (vardef_of fl) nodes) = Some vars -> Forall2 vd_rel (vdinfos p nodes) vars.
  Proof.
    (* generalise the start index of mapi (the first O is inside the attribute index 3) *)
    unfold vdinfos, mapi. set (i := O) at 2. clearbody i. revert vars i.
    induction nodes as [|n nodes IH]; intros vars i H; cbn in H.
    - inversion H; subst. constructor.
    - destruct (vardef_of fl n) as [vd|] eqn:Evd; [|discriminate].
      destruct (all_some (map (vardef_of fl) nodes)) as [rest|] eqn:Er; [|discriminate].
      cbn in H. inversion H; subst vars.
      apply vardef_of_inv in Evd as (a0 & a1 & t & dv & a4 & r & -> & Hn & Ht & _ & Hd).
      cbn [mapi_from concat app]. constructor; [|apply (IH rest (S i) eq_refl)].
      unfold vd_rel. cbn [vi_name vi_type vi_nonnull_default]. split; [exact Hn|]. split; [exact Ht|].
      destruct dv as [|v| | | |]; try (rewrite Hd; reflexivity).
      destruct Hd as (xv & Hv & _ & ->). cbn [has_nonnull_default].
      destruct xv; cbn; try (destruct (is_null_node v) eqn:En; [|reflexivity]; exfalso;
        destruct v as [kv av]; destruct kv; try discriminate En; cbn in Hv; discriminate Hv).
      apply (val_of_null fl) in Hv. rewrite Hv. reflexivity.
  Qed.

End Vars.

Lemma find_vd_none x infos : ~ In x (map vi_name infos) -> find_vd x infos = None.
Proof.
  induction infos as [|v r IH]; cbn; [reflexivity|]. intro H.
  rewrite IH by tauto. destruct (str_eqb x (vi_name v)) eqn:E; [|reflexivity].
  apply str_eqb_eq in E. exfalso. apply H. auto.
Qed.

Lemma find_vd_In x infos vi : find_vd x infos = Some vi -> In vi infos.
Proof.
  induction infos as [|v0 r0 IH]; [discriminate|]. cbn.
  destruct (find_vd x r0) eqn:E; [intro H; inversion H; subst; right; apply IH; reflexivity|].
  destruct (str_eqb x (vi_name v0)); [intro H; inversion H; left; reflexivity | discriminate].
Qed.

Lemma find_rel infos vars : Forall2 vd_rel infos vars -> NoDup (map vi_name infos) ->
  forall x vi, find_vd x infos = Some vi -> exists vd, find_var x vars = Some vd /\ vd_rel vi vd.
Proof.
  induction 1 as [|vi0 vd0 infos vars Hr H IH]; intros Hnd x vi Hf; [discriminate|].
  cbn in Hnd. inversion Hnd as [|? ? Hn Hnd']; subst. cbn in Hf. cbn [find_var].
  destruct Hr as (Hname & Hrest). rewrite Hname.
  destruct (str_eqb x (vi_name vi0)) eqn:E.
  - apply str_eqb_eq in E. subst x. rewrite find_vd_none in Hf by exact Hn. inversion Hf; subst.
    exists vd0. split; [reflexivity|]. split; assumption.
  - destruct (find_vd x infos) as [w|] eqn:Ew; [|discriminate]. inversion Hf; subst w.
    apply (IH Hnd' x vi Ew).
Qed.

Lemma xdefs_doc d : xdefs d = mapi (fun j m => xdef_of [(O, j)] m) (doc_defs d).
Proof.
  destruct d as [k attrs]. destruct k; try reflexivity. destruct attrs as [|[| |l| | |] r]; reflexivity.
Qed.

(* the operation definition at index jo, as the rules of Valid/Rules.v see it *)
Lemma op_of_def d jo ss a1 a2 vds r :
  let opn := Nd KOperationDefinition (ss :: a1 :: a2 :: vds :: r) in
  nth_error (doc_defs d) jo = Some opn ->
  exists op, In op (ops_of (xdefs d)) /\ o_path op = [(O, jo)] /\ o_vdefs op = vdefs_of [(O, jo)] vds /\
             xdef_of [(O, jo)] opn = XOp op.
Proof.
  intros opn Ej. eexists. split.
  - apply In_ops. rewrite xdefs_doc. apply In_mapi. exists jo, opn. split; [exact Ej | reflexivity].
  - repeat split.
Qed.

(* UniqueVariableNames silent: the variable definitions of an operation have different names *)
Lemma op_var_names_NoDup d op p vds : rule_unique_variable_names d = [] ->
  In op (ops_of (xdefs d)) -> o_vdefs op = vdefs_of p vds -> NoDup (map vardef_name (attr_list vds)).
Proof.
  intros Hu Hop Hv. pose proof (proj1 (unique_variable_names_nil d) Hu op Hop) as H.
  unfold UniqueNames, var_names in H. rewrite map_map, Hv in H. cbn [fst] in H.
  destruct vds as [| |nodes| | |]; try constructor. cbn [vdefs_of attr_list] in *.
  rewrite map_mapi in H. cbn [vd_name] in H. unfold mapi in H. rewrite mapi_from_const in H. exact H.
Qed.

Lemma opt_concat_each {A B} (f : A -> option (list B)) l :
  opt_concat (map f l) = Some [] -> forall a, In a l -> f a = Some [].
Proof.
  induction l as [|a0 l IH]; intros H a Ha; [destruct Ha|]. cbn in H.
  destruct (f a0) as [y|] eqn:E0; [|discriminate]. destruct (opt_concat (map f l)) as [z|] eqn:Ez; [|discriminate].
  inversion H as [Hyz]. apply app_eq_nil in Hyz as [-> ->].
  destruct Ha as [<-|Ha]; [exact E0 | apply IH; [reflexivity | exact Ha]].
Qed.

Lemma rel_names infos vars : Forall2 vd_rel infos vars -> map vi_name infos = map v_name vars.
Proof. induction 1 as [|vi vd i v Hr H IH]; [reflexivity|]. cbn. destruct Hr as [Hn _]. rewrite Hn, IH. reflexivity. Qed.

Lemma vardef_names fl nodes vars : all_some (map (vardef_of fl) nodes) = Some vars ->
  map v_name vars = map vardef_name nodes.
Proof.
  intro H. apply all_some_Forall2 in H. induction H as [|n vd ns vs0 Hn H IH]; [reflexivity|].
  cbn. apply vardef_of_inv in Hn as (? & ? & ? & ? & ? & ? & _ & Hname & _). rewrite Hname, IH. reflexivity.
Qed.

Lemma allowed13_eq vt vdflt lt ld :
  allowed13 vt (has_nonnull_default vdflt) lt ld = allowed_usage vt vdflt lt ld.
Proof. reflexivity. Qed.

Lemma reach_in fs start f : Reach fs start f -> In f fs.
Proof. intros [s0 f0 _ Hr | g s0 f0 _ _ Hr]; apply get_fragment_Some in Hr; tauto. Qed.

Section Glue.
  Variable vs : vschema.
  Variable fl : list N -> Z * N.
  Variable d : node.
  Variable x : document.
  Hypothesis Hx : to_exec fl None d = Some x.
  Hypothesis Hlocal : local_errs vs d = [].
  Hypothesis Hvarpos : rule_variables_in_allowed_position vs d = Some [].
  Hypothesis Hundef : rule_undefined13 vs d = Some [].
  Hypothesis Hufrag : rule_unique_fragment_names d = [].
  Hypothesis Hunused : rule_no_unused_fragments d = Some [].
  Hypothesis Huvar : rule_unique_variable_names d = [].

  Lemma defs_errs j n : nth_error (doc_defs d) j = Some n ->
    errs_of (def_evs vs (frag_conds d) [(O, j)] n) = [].
  Proof.
    intro Hj. unfold local_errs, all_def_evs, all_def_evs_gen in Hlocal.
    apply (proj1 (flat_map_nil _ _) Hlocal ([(O, j)], def_evs vs (frag_conds d) [(O, j)] n)).
    apply In_mapi. exists j, n. auto.
  Qed.

  Lemma tbl_at j n : nth_error (doc_defs d) j = Some n ->
    evs_at (all_def_evs vs d) [(O, j)] = def_evs vs (frag_conds d) [(O, j)] n.
  Proof.
    intro Hj. unfold all_def_evs, all_def_evs_gen.
    apply (evs_at_nth (fun k m => def_evs_gen false vs (frag_conds d) [(O, k)] m) _ _ _ Hj).
  Qed.

  Theorem defs_ok j n : nth_error (doc_defs d) j = Some n ->
    errs_of (def_evs vs (frag_conds d) [(O, j)] n) = [] /\
    uses_ok (d_vars x) (def_evs vs (frag_conds d) [(O, j)] n).
  Proof.
    intro Hj. split; [apply defs_errs; exact Hj|].
    destruct (to_exec_inv _ _ _ Hx) as (jo & ss & a1 & a2 & vds & a4 & o & r & Hfilt & Ejo & _ & Evars & _ & _).
    cbv zeta in Hfilt, Ejo.
    set (opn := Nd KOperationDefinition (ANode ss :: a1 :: a2 :: vds :: a4 :: AEnum o :: r)) in *.
    set (xs := xdefs d). set (fs := frags_of xs).
    destruct (op_of_def d jo _ _ _ _ _ Ejo) as (op & Hop & Hopath & Hovdefs & Exo). fold opn in Exo.
    (* VariablesInAllowedPosition and NoUndefinedVariables silent on op: no error for any usage in us,
       its own and those of the fragments rf it reaches *)
    pose proof (opt_concat_each _ _ Hvarpos op Hop) as Hvp.
    pose proof (opt_concat_each _ _ Hundef op Hop) as Hud.
    unfold varpos_op in Hvp. unfold undef_op in Hud. fold xs in Hvp, Hud. fold fs in Hvp, Hud.
    destruct (refs fs (o_spreads op)) as [rf|] eqn:Erf; [|discriminate].
    inversion Hvp as [Hvp']. inversion Hud as [Hud']. clear Hvp Hud.
    rewrite Hopath in Hvp', Hud'.
    set (us := uses_of (evs_at (all_def_evs vs d) [(O, jo)]) ++
               flat_map (fun f => uses_of (evs_at (all_def_evs vs d) (f_path f))) rf) in *.
    assert (Hinfos : op_vdinfos d [(O, jo)] = vdinfos [(O, jo)] (attr_list vds)).
    { unfold op_vdinfos. rewrite Ejo. reflexivity. }
    rewrite Hinfos in Hvp', Hud'.
    pose proof (vardef_rel fl [(O, jo)] (attr_list vds) (d_vars x) Evars) as Hrel.
    set (infos := vdinfos [(O, jo)] (attr_list vds)) in *.
    (* UniqueVariableNames: find_vd and find_var pick corresponding definitions (find_rel needs it) *)
    assert (Hnames : map vi_name infos = map vardef_name (attr_list vds)).
    { rewrite (rel_names _ _ Hrel). apply (vardef_names fl). exact Evars. }
    assert (Hnd : NoDup (map vi_name infos)).
    { rewrite Hnames. apply (op_var_names_NoDup d op _ vds Huvar Hop Hovdefs). }
    (* KnownTypeNames silent on the variable definitions: type_from_ast succeeds on each *)
    assert (Htfa : forall vi, In vi infos -> tfa vs (vi_type vi) = Some (ty_of (vi_type vi))).
    { intros vi Hvi. apply (In_concat_mapi _ (attr_list vds)) in Hvi as (i & n0 & Hi & Hvi).
      destruct (Forall2_nth_l _ _ _ (all_some_Forall2 _ _ _ Evars) i n0 Hi) as (vd & _ & Hvd).
      apply vardef_of_inv in Hvd as (b0 & b1 & t & dv & b4 & r' & -> & _).
      cbn in Hvi. destruct Hvi as [<-|[]]. cbn [vi_type].
      pose proof (defs_errs jo opn Ejo) as He. unfold opn in He. cbn [def_evs def_evs_gen] in He.
      rewrite errs_of_app in He. apply app_eq_nil in He as [He _]. unfold vardef_evs in He.
      pose proof (mapi_nth_errs _ _ _ _ He Hi) as He'. cbv beta iota in He'.
      unfold tfa in *. destruct (in_map vs (named_of (ty_of t))); [reflexivity|]. cbn in He'. discriminate. }
    (* hence no error of the two rules on a usage means usage_ok against the translated definitions *)
    assert (Hus : forall u, In u us -> usage_ok (d_vars x) u).
    { intros u Hu.
      pose proof (proj1 (flat_map_nil _ _) Hud' u Hu) as Hd. cbv beta in Hd.
      destruct (find_vd (tu_name u) infos) as [vi|] eqn:Efv; [|discriminate].
      destruct (find_rel _ _ Hrel Hnd _ _ Efv) as (vd & Hfind & Hn & Ht & Hdf).
      exists vd. split; [exact Hfind|]. intros lt Hlt.
      pose proof (proj1 (flat_map_nil _ _) Hvp' u Hu) as Hp. unfold usage_errs in Hp.
      rewrite Efv, Hlt in Hp.
      pose proof (find_vd_In _ _ _ Efv) as Hvi.
      rewrite (Htfa vi Hvi), <- Ht, <- Hdf, allowed13_eq in Hp.
      apply app_eq_nil in Hp as [Hp1 Hp2].
      destruct (allowed_usage (v_type vd) (v_default vd) lt (tu_default u)); [|discriminate]. split; [reflexivity|].
      intro Ho. rewrite Ho in Hp2. cbn [andb] in Hp2. destruct (is_nonnull (v_type vd)); [reflexivity | discriminate]. }
    (* the definition at hand is the operation, or - NoUnusedFragments, one operation - one of rf *)
    intros u Hu. apply Hus. unfold us.
    destruct (Nat.eq_dec j jo) as [->|Hne].
    - rewrite Ejo in Hj. inversion Hj; subst n. apply in_app_iff. left. rewrite (tbl_at _ _ Ejo). exact Hu.
    - (* not the operation: a fragment definition, used by the operation *)
      apply in_app_iff. right.
      destruct n as [k attrs]. destruct k; try (cbn in Hu; destruct Hu).
      + (* fragment definition *)
        destruct attrs as [|[|fss| | | |] [|b1 [|b2 [|b3 [|ds [|[|tc| | | |] r']]]]]]; try (cbn in Hu; destruct Hu).
        set (fn := Nd KFragmentDefinition (ANode fss :: b1 :: b2 :: b3 :: ds :: ANode tc :: r')) in *.
        destruct (xdef_of [(O, j)] fn) as [|f|] eqn:Exf; try discriminate Exf.
        assert (Hfpath : f_path f = [(O, j)]) by (cbn in Exf; inversion Exf; reflexivity).
        assert (Hxf : In (XFrag f) xs).
        { unfold xs. rewrite xdefs_doc. apply In_mapi. exists j, fn. split; [exact Hj|].
          symmetry. exact Exf. }
        assert (Hf : In f fs) by (apply In_frags; exact Hxf).
        destruct (proj1 (no_unused_fragments_nil d [] Hunused) eq_refl f Hf) as (o' & f' & Ho' & Hreach & Hname).
        (* the operation that reaches f is op: to_exec selected exactly one *)
        assert (o' = op).
        { apply In_ops in Ho'. fold xs in Ho'. unfold xs in Ho'. rewrite xdefs_doc in Ho'.
          apply In_mapi in Ho' as (j' & n' & Hj' & Hxo').
          assert (Hsel : op_selected None n' = true).
          { destruct n' as [k' at']. destruct k'; try discriminate Hxo'.
            - destruct at' as [|? [|? [|? [|? ?]]]]; discriminate Hxo'.
            - destruct at' as [|? [|? [|? ?]]]; try discriminate Hxo'. reflexivity. }
          assert (j' = jo).
          { eapply (filter_single_index _ _ _ Hfilt); eauto. }
          subst j'. rewrite Ejo in Hj'. inversion Hj'; subst n'. rewrite Exo in Hxo'. inversion Hxo'. reflexivity. }
        subst o'.
        assert (Hndf : NoDup (map f_name fs)).
        { apply unique_fragment_names_NoDup. exact Hufrag. }
        assert (f' = f) by (apply (name_inj fs Hndf); [eapply reach_in; eauto | exact Hf | exact Hname]).
        subst f'. destruct (refs_spec fs _ _ Erf) as [Hrs _]. apply Hrs in Hreach.
        apply in_flat_map. exists f. split; [exact Hreach|]. rewrite Hfpath, (tbl_at _ _ Hj). exact Hu.
      + (* another operation definition cannot exist *)
        exfalso. destruct attrs as [|[|oss| | | |] [|c1 [|c2 [|c3 [|c4 [|c5 r']]]]]]; try (cbn in Hu; destruct Hu).
        apply Hne. eapply (filter_single_index _ _ _ Hfilt); eauto.
  Qed.
End Glue.
