(* Valid/RulesRoot.v (28 DeferStreamDirectiveOnRootField): with the number of unvisited defined
   fragments below the fuel the walk succeeds (cyclic and undefined fragment spreads included), the
   visited set only grows, errors are only appended (rf_good); Properties/C12root.v reads the
   theorems off it. *)
From GV Require Import Base.Prelude Lang.Ast Valid.Rules Valid.RulesBase Valid.RulesDir Valid.RulesRoot.

(* names of defined fragments not yet visited *)
Definition unc (fr : list (str * (path * node))) (col : list str) : nat :=
  length (filter (fun n => negb (mem n col)) (map fst fr)).

Lemma unc_le fr x col : (unc fr (x :: col) <= unc fr col)%nat.
Proof. apply fresh_le. Qed.

Lemma unc_lt fr x col : In x (map fst fr) -> mem x col = false -> (unc fr (x :: col) < unc fr col)%nat.
Proof. apply fresh_lt. Qed.

Lemma unc_nil fr : unc fr [] = length fr.
Proof. rewrite <- (map_length fst fr). apply fresh_nil. Qed.

(* what every step preserves: visited fragments stay visited, errors are only appended *)
Definition ext (st st' : rstate) : Prop :=
  (forall x, mem x (fst st) = true -> mem x (fst st') = true) /\ exists l, snd st' = snd st ++ l.

Lemma ext_refl st : ext st st.
Proof. split; [auto | exists []; rewrite app_nil_r; reflexivity]. Qed.

Lemma ext_trans a b c : ext a b -> ext b c -> ext a c.
Proof.
  intros [H1 [l1 E1]] [H2 [l2 E2]]. split; [auto|].
  exists (l1 ++ l2). rewrite E2, E1, app_assoc. reflexivity.
Qed.

Section Meas.
  Variable fr : list (str * (path * node)).
  Let m (st : rstate) : nat := unc fr (fst st).

  (* with measure below the bound the step succeeds, extends the state, does not raise the measure *)
  Definition good (B : nat) (st : rstate) (o : option rstate) : Prop :=
    (m st < B)%nat -> exists st', o = Some st' /\ (m st' <= m st)%nat /\ ext st st'.

  Lemma good_id B st : good B st (Some st).
  Proof. intros _. exists st. split; [reflexivity|]. split; [lia | apply ext_refl]. Qed.

  (* appending errors first *)
  Lemma good_after B st es o : good B (fst st, snd st ++ es) o -> good B st o.
  Proof.
    intros H Hm. destruct (H Hm) as (st' & -> & H1 & [X1 [l X2]]).
    exists st'. split; [reflexivity|]. split; [exact H1|]. split; [exact X1|].
    exists (es ++ l). rewrite X2. cbn [snd]. rewrite app_assoc. reflexivity.
  Qed.

  Lemma good_report B st q o : good B (report q st) o -> good B st o.
  Proof. destruct q; [apply good_after | destruct st; auto]. Qed.

  Lemma foldi_good {A} (f : nat -> A -> rstate -> option rstate) B l :
    (forall j a st, In a l -> good B st (f j a st)) ->
    forall j st, good B st (foldi f j l st).
  Proof.
    induction l as [|a l IH]; intros H j st Hm; cbn [foldi]; [exact (good_id B st Hm)|].
    destruct (H j a st (or_introl eq_refl) Hm) as (st1 & -> & H1 & E1).
    destruct (IH (fun j a st Hin => H j a st (or_intror Hin)) (S j) st1) as (st2 & -> & H2 & E2); [lia|].
    exists st2. split; [reflexivity|]. split; [lia | eapply ext_trans; eauto].
  Qed.

  (* a fragment spread: passed over when its name was seen; otherwise the name is recorded and, when
     the fragment is defined, [k] walks it - which strictly lowers the measure first *)
  Lemma visit_good B name st (k : path * node -> rstate -> option rstate) :
    (forall x st', good B st' (k x st')) ->
    good (S B) st (if mem name (fst st) then Some st else
                   match lookup name fr with
                   | Some x => k x (name :: fst st, snd st)
                   | None => Some (name :: fst st, snd st)
                   end).
  Proof.
    intros Hk Hm. destruct (mem name (fst st)) eqn:Em; [exact (good_id (S B) st Hm)|].
    assert (Hext : ext st (name :: fst st, snd st)).
    { split; [|exists []; rewrite app_nil_r; reflexivity].
      intros x Hx. cbn [fst mem]. rewrite Hx. apply orb_true_r. }
    destruct (lookup name fr) as [x|] eqn:El.
    - assert (Hin : In name (map fst fr)).
      { apply lookup_Some_In in El. apply in_map_iff. exists (name, x). auto. }
      pose proof (unc_lt fr name (fst st) Hin Em) as Hlt.
      destruct (Hk x (name :: fst st, snd st)) as (st1 & E & H1 & E1); [unfold m in *; cbn [fst]; lia|].
      exists st1. split; [exact E|]. split; [unfold m in *; cbn [fst] in H1; lia | eapply ext_trans; eauto].
    - exists (name :: fst st, snd st). split; [reflexivity|]. split; [apply unc_le | exact Hext].
  Qed.

  Section W.
    Variable spread : path -> node -> str -> rstate -> option rstate.
    Variable B : nat.
    Hypothesis Hs : forall sp sel name st, good B st (spread sp sel name st).

    (* one selection at sp (the body of the loop of wsel) *)
    Definition wsel1 (sp : path) (sel : node) (st : rstate) : option rstate :=
      match sel with
      | Nd KField _ => Some (report (first_dir n_stream sp 0 (sel_dirs sel)) st)
      | Nd KFragmentSpread (_ :: ANode nm :: _) => spread sp sel (name_str nm) st
      | Nd KInlineFragment (_ :: ANode s' :: _) =>
        wsel spread (sp ++ [(1, O)]%nat) s' (report (first_dir n_defer sp 0 (sel_dirs sel)) st)
      | _ => Some st
      end.

    Lemma wsel_unfold p sels r st :
      wsel spread p (Nd KSelectionSet (AList sels :: r)) st =
      foldi (fun j sel st => wsel1 (p ++ [(O, j)]) sel st) O sels st.
    Proof. reflexivity. Qed.

    Lemma wsel_good_both n :
      (forall p st, good B st (wsel spread p n st)) /\ (forall sp st, good B st (wsel1 sp n st)).
    Proof.
      induction n as [k attrs IHn IHl] using node_children_ind. split.
      - intros p st.
        destruct k; try apply good_id.
        destruct attrs as [|[| | sels | | |] r]; try apply good_id.
        rewrite wsel_unfold. apply foldi_good. intros j sel st0 Hin. apply (IHl O sels eq_refl sel Hin).
      - intros sp st.
        destruct k; try apply good_id.
        + (* field *) cbn [wsel1]. eapply good_report, good_id.
        + (* spread *)
          destruct attrs as [|a1 [|[| nm | | | |] r1]]; try apply good_id. apply Hs.
        + (* inline fragment *)
          destruct attrs as [|a1 [|[| s' | | | |] r1]]; try apply good_id.
          cbn [wsel1]. eapply good_report, (IHn 1%nat s' eq_refl).
    Qed.

  End W.

  Lemma rf_good fuel : forall p ss st, good fuel st (rf fuel fr p ss st).
  Proof.
    induction fuel as [|f IH]; intros p ss st; [intros Hm; lia|].
    cbn [rf]. apply wsel_good_both. intros sp sel name st0.
    apply (visit_good f name st0
             (fun x st' => let '(fp, fss) := x in rf f fr fp fss (report (first_dir n_defer sp 0 (sel_dirs sel)) st'))).
    intros [fp fss] st'. eapply good_report, IH.
  Qed.
End Meas.

