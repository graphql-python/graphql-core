(* Proofs about the specification function of Valid/Overlap.v: verdicts as a maximum, fragment
   collection is total and keeps invariants of what it collects, one field pair never runs out of
   fuel (the visited set grows inside a finite universe), symmetry of the comparisons. *)
From GV Require Import Base.Prelude Valid.Overlap.

(* vjoin is the maximum for VNo < VConflict < VUntyped < VFuel *)
Lemma vjoin_eq a b v : vjoin a b = v -> a = v \/ b = v.
Proof. destruct a, b; cbn; intros <-; auto. Qed.

Lemma vjoin_no a b : vjoin a b = VNo -> a = VNo /\ b = VNo.
Proof. destruct a, b; cbn; intro H; try discriminate; auto. Qed.

Lemma fold_vjoin_hit {A} (f : A -> verdict) l v : v <> VNo ->
  fold_right (fun x acc => vjoin (f x) acc) VNo l = v -> exists x, In x l /\ f x = v.
Proof.
  intro Hv. induction l as [|a l IH]; cbn; intro H; [congruence|].
  apply vjoin_eq in H as [H|H]; [exists a; auto|].
  destruct (IH H) as [x [Hx Hf]]. exists x. auto.
Qed.

Lemma fold_vjoin_no {A} (f : A -> verdict) l :
  fold_right (fun x acc => vjoin (f x) acc) VNo l = VNo -> forall x, In x l -> f x = VNo.
Proof.
  induction l as [|a l IH]; cbn; intros H x Hx; [contradiction|].
  apply vjoin_no in H as [H1 H2]. destruct Hx as [<-|Hx]; auto.
Qed.

(* an invariant of the threaded state is preserved and no step runs out of fuel *)
Lemma row_inv {A S} (I : S -> Prop) (f : S -> A -> verdict * S) (l : list A) :
  (forall st y, In y l -> I st -> fst (f st y) <> VFuel /\ I (snd (f st y))) ->
  forall st, I st -> fst (row f st l) <> VFuel /\ I (snd (row f st l)).
Proof.
  induction l as [|y r IH]; cbn [row]; intros H st Hst.
  - cbn. split; [discriminate | exact Hst].
  - destruct (H st y (or_introl eq_refl) Hst) as [H1 H2].
    destruct (f st y) as [v1 st1]. cbn [fst snd] in *.
    destruct (IH (fun st y Hy => H st y (or_intror Hy)) st1 H2) as [H3 H4].
    destruct (row f st1 r) as [v2 st2]. cbn [fst snd] in *. split; auto.
    intro Hc. apply vjoin_eq in Hc as [Hc|Hc]; auto.
Qed.

Lemma pairs_inv {A S} (I : S -> Prop) (f : S -> A -> A -> verdict * S) (l : list A) :
  (forall st x y, In x l -> In y l -> I st -> fst (f st x y) <> VFuel /\ I (snd (f st x y))) ->
  forall st, I st -> fst (pairs f st l) <> VFuel /\ I (snd (pairs f st l)).
Proof.
  induction l as [|x r IH]; cbn [pairs]; intros H st Hst.
  - cbn. split; [discriminate | exact Hst].
  - destruct (row_inv I (fun st y => f st x y) r
                (fun st y Hy => H st x y (or_introl eq_refl) (or_intror Hy)) st Hst) as [H1 H2].
    destruct (row (fun st y => f st x y) st r) as [v1 st1]. cbn [fst snd] in *.
    destruct (IH (fun st x y Hx Hy => H st x y (or_intror Hx) (or_intror Hy)) st1 H2) as [H3 H4].
    destruct (pairs f st1 r) as [v2 st2]. cbn [fst snd] in *. split; auto.
    intro Hc. apply vjoin_eq in Hc as [Hc|Hc]; auto.
Qed.

Lemma mem_In n l : mem n l = true <-> In n l.
Proof.
  unfold mem. rewrite existsb_exists. split.
  - intros [x [H1 H2]]. apply N.eqb_eq in H2. subst. exact H1.
  - intro H. exists n. split; auto. apply N.eqb_refl.
Qed.

(* number of fragment definitions whose name has not been visited *)
Fixpoint unvis (frags : list fragdef) (v : list N) : nat :=
  match frags with
  | [] => O
  | fd :: r => ((if mem (fr_name fd) v then 0 else 1) + unvis r v)%nat
  end.

Lemma unvis_nil frags : unvis frags [] = length frags.
Proof. induction frags; cbn; auto. Qed.

Lemma mem_incl n v v' : incl v v' -> mem n v = true -> mem n v' = true.
Proof. intros Hi H. apply mem_In. apply Hi. apply mem_In. exact H. Qed.

Lemma unvis_incl frags v v' : incl v v' -> (unvis frags v' <= unvis frags v)%nat.
Proof.
  intro Hi. induction frags as [|fd r IH]; cbn; auto.
  destruct (mem (fr_name fd) v) eqn:E.
  - rewrite (mem_incl _ _ _ Hi E). lia.
  - destruct (mem (fr_name fd) v'); lia.
Qed.

Lemma unvis_add frags v fd :
  In fd frags -> mem (fr_name fd) v = false ->
  (unvis frags (fr_name fd :: v) < unvis frags v)%nat.
Proof.
  induction frags as [|a r IH]; intros Hin Hm; [contradiction|].
  cbn [unvis].
  pose proof (unvis_incl r v (fr_name fd :: v) (incl_tl _ (incl_refl v))) as Hle.
  destruct Hin as [->|Hin].
  - rewrite Hm. assert (mem (fr_name fd) (fr_name fd :: v) = true) as ->.
    { apply mem_In. left. reflexivity. }
    lia.
  - specialize (IH Hin Hm).
    destruct (mem (fr_name a) v) eqn:E.
    + rewrite (mem_incl _ _ _ (incl_tl _ (incl_refl v)) E). lia.
    + destruct (mem (fr_name a) (fr_name fd :: v)); lia.
Qed.

Lemma find_frag_some frags n fd : find_frag frags n = Some fd -> In fd frags /\ fr_name fd = n.
Proof.
  unfold find_frag. intro H. apply find_some in H as [H1 H2]. apply N.eqb_eq in H2. auto.
Qed.

Lemma unvis_le frags v : (unvis frags v <= length frags)%nat.
Proof. rewrite <- (unvis_nil frags). apply unvis_incl. intros x []. Qed.

Section CollectTotal.
  Variable frags : list fragdef.

  (* the fuel bounds the number of fragment definitions not yet entered *)
  Definition total_fn (B : nat) (c : collect_fn) : Prop :=
    forall p ss st, (unvis frags (fst st) <= B)%nat ->
      exists st', c p ss st = Some st' /\ incl (fst st) (fst st').

  Lemma collect_go_total (B : nat) (rec : collect_fn) :
    (forall p ss st, (S (unvis frags (fst st)) <= B)%nat ->
       exists st', rec p ss st = Some st' /\ incl (fst st) (fst st')) ->
    total_fn B (collect_go frags rec).
  Proof.
    intros Hrec p ss. revert p.
    induction ss as [|f sub IHsub rest IHrest|iid tc sub IHsub rest IHrest|n rest IHrest];
      intros p st HB; cbn [collect_go].
    - exists st. split; [reflexivity | apply incl_refl].
    - destruct (IHrest p (fst st, snd st ++ [mkEntry p f sub])) as [st' [H1 H2]]; cbn [fst]; auto.
      exists st'. auto.
    - destruct (IHsub (match tc with Some t => t | None => p end) st) as [st1 [H1 H2]]; auto.
      rewrite H1. destruct (IHrest p st1) as [st2 [K1 K2]].
      { pose proof (unvis_incl frags _ _ H2). lia. }
      exists st2. split; [exact K1 | eapply incl_tran; eauto].
    - destruct (mem n (fst st)) eqn:Em; [apply IHrest; auto|].
      destruct (find_frag frags n) as [fd|] eqn:Ef.
      + apply find_frag_some in Ef as [Hfd Hname]. subst n.
        pose proof (unvis_add frags (fst st) fd Hfd Em) as Hlt.
        destruct (Hrec (fr_type fd) (fr_body fd) (fr_name fd :: fst st, snd st)) as [st1 [H1 H2]]; cbn [fst]; [lia|].
        cbn [fst] in H2. rewrite H1. destruct (IHrest p st1) as [st2 [K1 K2]].
        { pose proof (unvis_incl frags _ _ H2). lia. }
        exists st2. split; [exact K1|]. intros x Hx. apply K2. apply H2. right. exact Hx.
      + destruct (IHrest p (n :: fst st, snd st)) as [st2 [K1 K2]]; cbn [fst].
        { pose proof (unvis_incl frags (fst st) (n :: fst st) (incl_tl _ (incl_refl _))). lia. }
        exists st2. split; [exact K1|]. intros x Hx. apply K2. right. exact Hx.
  Qed.

  Lemma collect_total fuel : total_fn fuel (collect frags fuel).
  Proof.
    induction fuel as [|f IH]; cbn [collect]; apply collect_go_total.
    - intros p ss st H. lia.
    - intros p ss st H. apply IH. lia.
  Qed.

  (* a property of the fields of a family [R] of selection sets, closed under sub-selections and
     fragment bodies, holds of everything collected from a member of the family *)
  Variable R : N -> sels -> Prop.
  Variable P : entry -> Prop.
  Hypothesis R_field : forall p f sub rest, R p (SelField f sub rest) -> P (mkEntry p f sub) /\ R p rest.
  Hypothesis R_inline : forall p i tc sub rest, R p (SelInline i tc sub rest) ->
    R (match tc with Some t => t | None => p end) sub /\ R p rest.
  Hypothesis R_spread : forall p n rest, R p (SelSpread n rest) -> R p rest.
  Hypothesis R_frag : forall fd, In fd frags -> R (fr_type fd) (fr_body fd).

  Definition keeps (c : collect_fn) : Prop :=
    forall p ss st st', R p ss -> Forall P (snd st) -> c p ss st = Some st' -> Forall P (snd st').

  Lemma collect_go_keeps rec : keeps rec -> keeps (collect_go frags rec).
  Proof.
    intros Hrec p ss. revert p.
    induction ss as [|f sub IHsub rest IHrest|iid tc sub IHsub rest IHrest|n rest IHrest];
      intros p st st' Hin Hok H; cbn [collect_go] in H.
    - inversion H; subst. exact Hok.
    - destruct (R_field _ _ _ _ Hin) as [Hf Hr]. eapply IHrest; [exact Hr| |exact H]. cbn [snd].
      apply Forall_app. split; auto.
    - destruct (R_inline _ _ _ _ _ Hin) as [Hs Hr].
      destruct (collect_go frags rec (match tc with Some t => t | None => p end) sub st) as [st1|] eqn:E1;
        [|discriminate].
      exact (IHrest _ _ _ Hr (IHsub _ _ _ Hs Hok E1) H).
    - pose proof (R_spread _ _ _ Hin) as Hr.
      destruct (mem n (fst st)); [exact (IHrest _ _ _ Hr Hok H)|].
      destruct (find_frag frags n) as [fd|] eqn:Ef; [|exact (IHrest _ (_, _) _ Hr Hok H)].
      destruct (rec (fr_type fd) (fr_body fd) (n :: fst st, snd st)) as [st1|] eqn:E1; [|discriminate].
      apply find_frag_some in Ef as [Hfd _].
      eapply IHrest; [exact Hr| |exact H]. eapply Hrec; [apply R_frag; exact Hfd| |exact E1]. exact Hok.
  Qed.

  Lemma collect_keeps fuel : keeps (collect frags fuel).
  Proof.
    induction fuel as [|f IH]; cbn [collect]; apply collect_go_keeps; [|exact IH].
    intros p ss st st' _ _ H. discriminate.
  Qed.
End CollectTotal.

Section Universe.
  Variable U : list N.                 (* field ids of the document *)
  Variable frags : list fragdef.

  Definition entry_ok (e : entry) : Prop :=
    In (f_id (e_fld e)) U /\ incl (fids_sels (e_sub e)) U.
  Definition frags_ok : Prop := forall fd, In fd frags -> incl (fids_sels (fr_body fd)) U.

  Hypothesis Hfr : frags_ok.

  Lemma collect_good fuel p ss st :
    (unvis frags (fst st) <= fuel)%nat -> incl (fids_sels ss) U -> Forall entry_ok (snd st) ->
    exists st', collect frags fuel p ss st = Some st' /\ incl (fst st) (fst st') /\ Forall entry_ok (snd st').
  Proof.
    intros HB Hin Hok. destruct (collect_total frags fuel p ss st HB) as [st' [H1 H2]].
    exists st'. split; [exact H1|]. split; [exact H2|].
    refine (collect_keeps frags (fun _ ss => incl (fids_sels ss) U) entry_ok _ _ _ Hfr fuel p ss st st' Hin Hok H1);
      cbn [fids_sels].
    - intros q f sub rest H. apply incl_cons_inv in H as [Hf H]. apply incl_app_inv in H as [Hs Hr].
      split; [split; assumption | exact Hr].
    - intros q i tc sub rest H. apply incl_app_inv in H. exact H.
    - intros q n rest H. exact H.
  Qed.

  Definition KU : list pkey := list_prod (list_prod U U) [true; false].

  Lemma key_in a b so : In a U -> In b U -> In (a, b, so) KU.
  Proof.
    intros Ha Hb. unfold KU. apply in_prod. { apply in_prod; assumption. }
    destruct so; cbn; auto.
  Qed.

  Lemma pkey_eqb_eq a b : pkey_eqb a b = true <-> a = b.
  Proof.
    destruct a as [[a1 a2] a3], b as [[b1 b2] b3]. unfold pkey_eqb. cbn [fst snd].
    rewrite !andb_true_iff, !N.eqb_eq, Bool.eqb_true_iff. split.
    - intros [[-> ->] ->]. reflexivity.
    - intro H. inversion H. auto.
  Qed.

  Lemma pkey_mem_In k l : pkey_mem k l = true <-> In k l.
  Proof.
    unfold pkey_mem. rewrite existsb_exists. split.
    - intros [x [H1 H2]]. apply pkey_eqb_eq in H2. subst. exact H1.
    - intro H. exists k. split; auto. apply pkey_eqb_eq. reflexivity.
  Qed.

  Variable s : schema.

  (* invariant of the visited set *)
  Definition vis_ok (vis : list pkey) : Prop := NoDup vis /\ incl vis KU.

  Lemma conf_no_fuel fuel : forall vis so a b,
    vis_ok vis -> (length KU < fuel + length vis)%nat ->
    entry_ok a -> entry_ok b ->
    let r := conf s frags (length frags) fuel vis so a b in
    fst r <> VFuel /\ vis_ok (snd r) /\ (length vis <= length (snd r))%nat.
  Proof.
    induction fuel as [|f IH]; intros vis so a b Hvis Hlen Ha Hb.
    - (* out of fuel only if the duplicate-free visited set were larger than the universe of keys *)
      destruct Hvis as [Hnd Hincl]. pose proof (NoDup_incl_length Hnd Hincl). lia.
    - cbn [conf]. unfold conf_step.
      destruct (pkey_mem (f_id (e_fld a), f_id (e_fld b), so) vis) eqn:Em.
      { cbn. repeat split; try apply Hvis; auto; discriminate. }
      assert (Hk : In (f_id (e_fld a), f_id (e_fld b), so) KU)
        by (apply key_in; [exact (proj1 Ha) | exact (proj1 Hb)]).
      assert (Hv1 : vis_ok ((f_id (e_fld a), f_id (e_fld b), so) :: vis)).
      { destruct Hvis as [Hnd Hincl]. split.
        - constructor; auto. intro Hc. apply pkey_mem_In in Hc. congruence.
        - intros z [<-|Hz]; auto. }
      set (vis1 := (f_id (e_fld a), f_id (e_fld b), so) :: vis) in *.
      assert (Hl1 : (length vis <= length vis1)%nat) by (unfold vis1; simpl; lia).
      destruct (field_type s (e_parent a) (f_name (e_fld a))) as [ta|];
        [|cbn; repeat split; try apply Hv1; auto; discriminate].
      destruct (field_type s (e_parent b) (f_name (e_fld b))) as [tb|];
        [|cbn; repeat split; try apply Hv1; auto; discriminate].
      cbv zeta.
      match goal with |- context [if ?c then (VConflict, vis1) else _] => destruct c end;
        [cbn; repeat split; try apply Hv1; auto; discriminate|].
      destruct (shape_conflict s ta tb);
        [cbn; repeat split; try apply Hv1; auto; discriminate|].
      destruct (collect_good (length frags) (named ta) (e_sub a) ([], []))
        as [st1 [H1 [_ H3]]]; cbn [fst snd]; auto.
      { rewrite unvis_nil. lia. } { exact (proj2 Ha). }
      rewrite H1.
      destruct (collect_good (length frags) (named tb) (e_sub b) st1) as [st2 [K1 [_ K3]]]; auto.
      { pose proof (unvis_incl frags [] (fst st1) (incl_nil_l _)). rewrite unvis_nil in H. lia. }
      { exact (proj2 Hb). }
      rewrite K1.
      rewrite Forall_forall in K3.
      match goal with |- context [pairs ?g vis1 (snd st2)] => set (g0 := g) end.
      destruct (pairs_inv (fun v => vis_ok v /\ (length vis1 <= length v)%nat) g0 (snd st2)) with (st := vis1)
        as [P1 [P2 P3]].
      + (* a nested pair starts from a visited set that holds this pair's key: one key more, one fuel less *)
        intros v x y Hx Hy [Hv Hlv]. unfold g0.
        destruct (same_rname x y).
        * destruct (IH v (so || (negb (e_parent a =? e_parent b) && is_object s (e_parent a) && is_object s (e_parent b))) x y)
            as [Q1 [Q2 Q3]]; auto.
          { unfold vis1 in Hlv. cbn [length] in Hlv. lia. }
          split; auto. split; auto. lia.
        * cbn. split; [discriminate|]. split; auto.
      + split; auto.
      + split; auto. split; auto. lia.
  Qed.

  Lemma check_set_no_fuel p ss :
    incl (fids_sels ss) U -> check_set s frags (length frags) (S (length KU)) p ss <> VFuel.
  Proof.
    intro Hin. unfold check_set.
    destruct (collect_good (length frags) p ss ([], [])) as [st [H1 [_ H3]]]; cbn [fst snd]; auto.
    { rewrite unvis_nil. lia. }
    rewrite H1. rewrite Forall_forall in H3.
    match goal with |- fst (pairs ?g [] (snd st)) <> _ => set (g0 := g) end.
    apply (pairs_inv vis_ok g0 (snd st)).
    - intros v x y Hx Hy Hv. unfold g0. destruct (same_rname x y).
      + destruct (conf_no_fuel (S (length KU)) v false x y) as [Q1 [Q2 Q3]]; auto. lia.
      + cbn. split; [discriminate | exact Hv].
    - split; [constructor | intros z []].
  Qed.

End Universe.

Lemma KU_length U : length (KU U) = (length U * length U * 2)%nat.
Proof. unfold KU. etransitivity; [apply prod_length|]. rewrite prod_length. reflexivity. Qed.

Lemma same_rname_sym x y : same_rname x y = same_rname y x.
Proof. unfold same_rname. apply N.eqb_sym. Qed.

Theorem shape_conflict_sym s a : forall b, shape_conflict s a b = shape_conflict s b a.
Proof.
  induction a as [x|a IH|a IH]; intros [y|b|b]; cbn; auto.
  rewrite (orb_comm (is_leaf s x)), (N.eqb_sym x y). reflexivity.
Qed.

Theorem shape_conflict_refl s a : shape_conflict s a a = false.
Proof.
  induction a as [x|a IH|a IH]; cbn; auto.
  rewrite N.eqb_refl. destruct (is_leaf s x); reflexivity.
Qed.

(* identity of arguments is reflexive and symmetric on argument lists with distinct names *)
Lemma value_eqb_sym : forall a b, value_eqb a b = value_eqb b a.
Proof.
  fix IH 1. intros [x|t x|xs|xs] [y|u y|ys|ys]; cbn [value_eqb]; try reflexivity.
  - apply N.eqb_sym.
  - rewrite N.eqb_sym, nat_list_eqb_sym. reflexivity.
  - revert ys. induction xs as [|x xs IHxs]; intros [|y ys]; try reflexivity.
    rewrite (IH x y), IHxs. reflexivity.
  - revert ys. induction xs as [|[k x] xs IHxs]; intros [|[l y] ys]; try reflexivity.
    rewrite (IH x y), IHxs, (N.eqb_sym k l). reflexivity.
Qed.

Lemma value_eqb_refl : forall a, value_eqb a a = true.
Proof.
  fix IH 1. intros [x|t x|xs|xs]; cbn [value_eqb].
  - apply N.eqb_refl.
  - rewrite N.eqb_refl, nat_list_eqb_refl. reflexivity.
  - induction xs as [|x xs IHxs]; auto. rewrite (IH x), IHxs. reflexivity.
  - induction xs as [|[k x] xs IHxs]; auto. rewrite (IH x), IHxs, N.eqb_refl. reflexivity.
Qed.

Lemma same_value_sym a b : same_value a b = same_value b a.
Proof. unfold same_value. apply value_eqb_sym. Qed.
Lemma same_value_refl a : same_value a a = true.
Proof. unfold same_value. apply value_eqb_refl. Qed.

(* argument lists with distinct names *)
Definition args_nodup (e : entry) : Prop := NoDup (map fst (f_args (e_fld e))).

Lemma in_assoc_nodup {A} k (v : A) l : NoDup (map fst l) -> In (k, v) l -> assoc k l = Some v.
Proof.
  induction l as [|[k' v'] l IH]; intros Hn Hin; [contradiction|]. cbn [assoc].
  inversion Hn as [|? ? Hni Hr]; subst. destruct Hin as [Hin|Hin].
  - inversion Hin; subst. rewrite N.eqb_refl. reflexivity.
  - destruct (k' =? k) eqn:E; [|apply IH; auto].
    apply N.eqb_eq in E. subst k'. exfalso. apply Hni. apply (in_map fst) in Hin. exact Hin.
Qed.

Lemma assoc_some_in {A} k (v : A) l : assoc k l = Some v -> In (k, v) l.
Proof.
  induction l as [|[k' v'] l IH]; cbn [assoc]; intro H; [discriminate|].
  destruct (k' =? k) eqn:E.
  - apply N.eqb_eq in E. inversion H; subst. left. reflexivity.
  - right. apply IH. exact H.
Qed.

Lemma args_same_refl a : NoDup (map fst a) -> args_same a a = true.
Proof.
  intro Hn. unfold args_same. rewrite Nat.eqb_refl. cbn [andb]. apply forallb_forall.
  intros [k v] Hin. cbn [fst snd]. rewrite (in_assoc_nodup k v a Hn Hin). apply same_value_refl.
Qed.

Lemma args_same_sym a b : NoDup (map fst a) -> NoDup (map fst b) ->
  args_same a b = true -> args_same b a = true.
Proof.
  intros Ha Hb H. unfold args_same in *. apply andb_true_iff in H as [Hl Hf].
  apply Nat.eqb_eq in Hl. rewrite forallb_forall in Hf.
  rewrite Hl, Nat.eqb_refl. cbn [andb]. apply forallb_forall. intros [k w] Hin. cbn [fst snd].
  assert (Hincl : incl (map fst a) (map fst b)).
  { intros k' Hk'. apply in_map_iff in Hk' as [[k2 v2] [<- Hin2]]. cbn [fst].
    specialize (Hf (k2, v2) Hin2). cbn [fst snd] in Hf.
    destruct (assoc k2 b) as [w2|] eqn:E; [|discriminate].
    apply assoc_some_in in E. apply (in_map fst) in E. exact E. }
  assert (Hincl' : incl (map fst b) (map fst a)).
  { apply NoDup_length_incl; auto. rewrite !map_length. lia. }
  assert (Hk : In k (map fst a)) by (apply Hincl'; apply (in_map fst) in Hin; exact Hin).
  apply in_map_iff in Hk as [[k2 v] [Hk2 Hin2]]. cbn [fst] in Hk2. subst k2.
  rewrite (in_assoc_nodup k v a Ha Hin2).
  specialize (Hf (k, v) Hin2). cbn [fst snd] in Hf. rewrite (in_assoc_nodup k w b Hb Hin) in Hf.
  rewrite same_value_sym. exact Hf.
Qed.

Lemma args_same_sym_eq a b : NoDup (map fst a) -> NoDup (map fst b) -> args_same a b = args_same b a.
Proof.
  intros Ha Hb. destruct (args_same a b) eqn:E1, (args_same b a) eqn:E2; auto.
  - rewrite (args_same_sym a b Ha Hb E1) in E2. discriminate.
  - rewrite (args_same_sym b a Hb Ha E2) in E1. discriminate.
Qed.

(* a selection set of plain fields with pairwise distinct response names *)
Fixpoint fields_only (ss : sels) : Prop :=
  match ss with
  | SelNil => True
  | SelField _ _ rest => fields_only rest
  | _ => False
  end.
Fixpoint rnames (ss : sels) : list N :=
  match ss with
  | SelField f _ rest => f_rname f :: rnames rest
  | _ => []
  end.
Fixpoint entries_of (p : N) (ss : sels) : list entry :=
  match ss with
  | SelField f sub rest => mkEntry p f sub :: entries_of p rest
  | _ => []
  end.

Lemma collect_go_fields frags rec p ss : forall st, fields_only ss ->
  collect_go frags rec p ss st = Some (fst st, snd st ++ entries_of p ss).
Proof.
  induction ss as [|f sub _ rest IH| |]; intros st H; cbn in *; try contradiction.
  - rewrite app_nil_r. destruct st; reflexivity.
  - rewrite IH by exact H. cbn [fst snd]. rewrite <- app_assoc. reflexivity.
Qed.

Lemma entries_rnames p ss : map (fun e => f_rname (e_fld e)) (entries_of p ss) = rnames ss.
Proof. induction ss; cbn; auto. f_equal. assumption. Qed.

Lemma pairs_distinct {S} (g : S -> entry -> entry -> verdict * S) l (st : S) :
  NoDup (map (fun e => f_rname (e_fld e)) l) ->
  pairs (fun st x y => if same_rname x y then g st x y else (VNo, st)) st l = (VNo, st).
Proof.
  induction l as [|x r IH]; cbn [pairs map]; intro H; auto.
  inversion H as [|? ? Hn Hr]; subst.
  assert (row (fun st y => if same_rname x y then g st x y else (VNo, st)) st r = (VNo, st)) as ->.
  { clear IH H Hr. induction r as [|y r IHr]; cbn [row]; auto.
    unfold same_rname at 1.
    destruct (f_rname (e_fld x) =? f_rname (e_fld y)) eqn:E.
    - apply N.eqb_eq in E. exfalso. apply Hn. cbn. left. symmetry. exact E.
    - rewrite IHr; auto. intro Hc. apply Hn. cbn. right. exact Hc. }
  rewrite (IH Hr). reflexivity.
Qed.
