(* Valid/RulesValidOps.v (29 DeferStreamDirectiveOnValidOperationsRule): the statement of
   RulesRootProps.rf_good for this walk (vf_good); Properties/C12validops.v reads the theorems off it. *)
From GV Require Import Base.Prelude Lang.Ast Valid.Rules Valid.RulesBase Valid.RulesDir Valid.RulesRoot
  Valid.RulesRootProps Valid.RulesValidOps.

Section Meas.
  Variable fr : list (str * (path * node)).

  Section W.
    Variable spread : list path -> path -> node -> str -> rstate -> option rstate.
    Variable B : nat.
    Hypothesis Hs : forall parents sp sel name st, good fr B st (spread parents sp sel name st).

    Definition vsel1 (parents : list path) (sp : path) (sel : node) (st : rstate) : option rstate :=
      if skipped sel then Some st
      else
        let st1 := (fst st, snd st ++ vo_errs parents sp (sel_dirs sel)) in
        match sel with
        | Nd KFragmentSpread (_ :: ANode nm :: _) => spread parents sp sel (name_str nm) st1
        | Nd KField (_ :: _ :: _ :: _ :: ANode s' :: _) => vsel spread parents (sp ++ [(4, O)]%nat) s' st1
        | Nd KInlineFragment (_ :: ANode s' :: _) => vsel spread parents (sp ++ [(1, O)]%nat) s' st1
        | _ => Some st1
        end.

    Lemma vsel_unfold parents p sels r st :
      vsel spread parents p (Nd KSelectionSet (AList sels :: r)) st =
      foldi (fun j sel st => vsel1 parents (p ++ [(O, j)]) sel st) O sels st.
    Proof. reflexivity. Qed.

    Lemma vsel_good_both n :
      (forall parents p st, good fr B st (vsel spread parents p n st)) /\
      (forall parents sp st, good fr B st (vsel1 parents sp n st)).
    Proof.
      induction n as [k attrs IHn IHl] using node_children_ind. split.
      - intros parents p st.
        destruct k; try apply good_id.
        destruct attrs as [|[| | sels | | |] r]; try apply good_id.
        rewrite vsel_unfold. apply foldi_good. intros j sel st0 Hin. apply (IHl O sels eq_refl sel Hin).
      - intros parents sp st. unfold vsel1.
        destruct (skipped (Nd k attrs)); [apply good_id|]. cbv zeta.
        apply good_after with (es := vo_errs parents sp (sel_dirs (Nd k attrs))).
        destruct k; try apply good_id.
        + (* field *)
          destruct attrs as [|a0 [|a1 [|a2 [|a3 [|[| s' | | | |] r]]]]]; try apply good_id.
          apply (IHn 4%nat s' eq_refl).
        + (* spread *)
          destruct attrs as [|a0 [|[| nm | | | |] r]]; try apply good_id. apply Hs.
        + (* inline fragment *)
          destruct attrs as [|a0 [|[| s' | | | |] r]]; try apply good_id.
          apply (IHn 1%nat s' eq_refl).
    Qed.
  End W.

  Lemma vf_good fuel : forall parents p ss st, good fr fuel st (vf fuel fr parents p ss st).
  Proof.
    induction fuel as [|f IH]; intros parents p ss st; [intros Hm; lia|].
    cbn [vf]. apply vsel_good_both. intros parents0 sp sel name st0.
    apply (visit_good fr f name st0 (fun x st' => let '(fp, fss) := x in vf f fr (sp :: parents0) fp fss st')).
    intros [fp fss] st'. apply IH.
  Qed.
End Meas.

