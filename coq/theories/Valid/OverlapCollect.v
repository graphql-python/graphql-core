(* What the field-merge specification function (Valid/Overlap.collect) collects from a selection set:
   exactly what the set contributes ([Exp]) - its own fields and those of all fragments it reaches.
   Soundness is [collect_exp]; completeness holds from a state in which every visited fragment is
   covered (its fields collected, the fragments it spreads visited). *)
From GV Require Import Base.Prelude Valid.Overlap Valid.OverlapProps Valid.OverlapAdequacy
  Valid.OverlapEquiv.

Section Reach.
  Variable frags : list fragdef.

  Definition body_flat (fd : fragdef) : list entry := flat (fr_type fd) (fr_body fd).

  (* F is F0 or reachable from the body of F0 *)
  Inductive RS : N -> N -> Prop :=
  | RS_refl F : RS F F
  | RS_step F0 fd sp F :
      find_frag frags F0 = Some fd -> In sp (sprs (fr_body fd)) -> RS sp F -> RS F0 F.

  (* F is spread, directly or through fragment bodies, by one of the names in the list *)
  Definition Reach (sps : list N) (F : N) : Prop := exists sp, In sp sps /\ RS sp F.

  Lemma Reach_here sps F : In F sps -> Reach sps F.
  Proof. intro H. exists F. split; [exact H | apply RS_refl]. Qed.

  Lemma Reach_step sps G gd F :
    In G sps -> find_frag frags G = Some gd -> Reach (sprs (fr_body gd)) F -> Reach sps F.
  Proof. intros Hin Hf [sp [Hs Hr]]. exists G. split; [exact Hin | eapply RS_step; eauto]. Qed.

  Lemma Reach_incl sps sps' F : incl sps sps' -> Reach sps F -> Reach sps' F.
  Proof. intros Hi [sp [Hs Hr]]. exists sp. auto. Qed.

  (* the fields a selection set contributes to a collected set: its own and those of the
     fragments it reaches *)
  Definition Exp (q : N) (t : sels) (u : entry) : Prop :=
    In u (flat q t) \/
    exists F fd, Reach (sprs t) F /\ find_frag frags F = Some fd /\ In u (body_flat fd).

  (* a set contributes what a part of it contributes *)
  Lemma Exp_incl q' t' q t u :
    incl (flat q' t') (flat q t) -> incl (sprs t') (sprs t) -> Exp q' t' u -> Exp q t u.
  Proof.
    intros Hf Hs [H|[F [fd [H1 H2]]]]; [left; apply Hf; exact H|].
    right. exists F, fd. split; [exact (Reach_incl _ _ F Hs H1) | exact H2].
  Qed.

  Lemma Exp_field q f sub rest u : Exp q rest u -> Exp q (SelField f sub rest) u.
  Proof. apply Exp_incl; cbn; [apply incl_tl, incl_refl | apply incl_refl]. Qed.

  Lemma Exp_inline_sub q iid tc sub rest u :
    Exp (match tc with Some t => t | None => q end) sub u -> Exp q (SelInline iid tc sub rest) u.
  Proof. apply Exp_incl; cbn; apply incl_appl, incl_refl. Qed.

  Lemma Exp_inline_rest q iid tc sub rest u : Exp q rest u -> Exp q (SelInline iid tc sub rest) u.
  Proof. apply Exp_incl; cbn; apply incl_appr, incl_refl. Qed.

  Lemma Exp_spread_rest q n rest u : Exp q rest u -> Exp q (SelSpread n rest) u.
  Proof. apply Exp_incl; cbn; [apply incl_refl | apply incl_tl, incl_refl]. Qed.

  Definition collects_exp (c : collect_fn) : Prop :=
    forall q t st st', c q t st = Some st' -> forall u, In u (snd st') -> In u (snd st) \/ Exp q t u.

  Lemma collect_go_exp rec : collects_exp rec -> collects_exp (collect_go frags rec).
  Proof.
    intros Hrec q t. revert q.
    induction t as [|f sub IHsub rest IHrest|iid tc sub IHsub rest IHrest|n rest IHrest];
      intros q st st' H u Hu; cbn [collect_go] in H.
    - inversion H; subst. left. exact Hu.
    - destruct (IHrest q _ _ H u Hu) as [Hi|He].
      + cbn [snd] in Hi. apply in_app_or in Hi as [Hi|[<-|[]]]; [left; exact Hi|].
        right. left. cbn. left. reflexivity.
      + right. apply Exp_field. exact He.
    - destruct (collect_go frags rec (match tc with Some t0 => t0 | None => q end) sub st) as [st1|] eqn:E1;
        [|discriminate].
      destruct (IHrest q _ _ H u Hu) as [Hi|He].
      + destruct (IHsub _ _ _ E1 u Hi) as [Hj|He]; [left; exact Hj|].
        right. apply Exp_inline_sub. exact He.
      + right. apply Exp_inline_rest. exact He.
    - destruct (mem n (fst st)).
      { destruct (IHrest q _ _ H u Hu) as [Hi|He]; [left; exact Hi | right; apply Exp_spread_rest; exact He]. }
      destruct (find_frag frags n) as [fd|] eqn:Ef.
      + destruct (rec (fr_type fd) (fr_body fd) (n :: fst st, snd st)) as [st1|] eqn:E1; [|discriminate].
        destruct (IHrest q _ _ H u Hu) as [Hi|He]; [|right; apply Exp_spread_rest; exact He].
        destruct (Hrec _ _ _ _ E1 u Hi) as [Hj|[Hf|[F [fd' [H1 [H2 H3]]]]]].
        * left. exact Hj.
        * right. right. exists n, fd. split; [apply Reach_here; left; reflexivity|]. auto.
        * right. right. exists F, fd'. split; auto.
          eapply Reach_step; [left; reflexivity | exact Ef | exact H1].
      + destruct (IHrest q _ _ H u Hu) as [Hi|He]; [left; exact Hi | right; apply Exp_spread_rest; exact He].
  Qed.

  Lemma collect_exp fuel : collects_exp (collect frags fuel).
  Proof.
    induction fuel as [|f IH]; cbn [collect]; apply collect_go_exp.
    - intros q t st st' H. discriminate.
    - exact IH.
  Qed.
End Reach.

Section Complete.
  Variable frags : list fragdef.

  (* fragment F is covered by the state *)
  Definition Cov (st : cstate) (F : N) : Prop :=
    forall fd, find_frag frags F = Some fd ->
      incl (body_flat fd) (snd st) /\ incl (sprs (fr_body fd)) (fst st).

  Definition st_le (a b : cstate) : Prop := incl (fst a) (fst b) /\ incl (snd a) (snd b).

  Lemma st_le_refl a : st_le a a.
  Proof. split; apply incl_refl. Qed.
  Lemma st_le_trans a b c : st_le a b -> st_le b c -> st_le a c.
  Proof. intros [H1 H2] [H3 H4]. split; eapply incl_tran; eauto. Qed.
  Lemma Cov_mono a b F : st_le a b -> Cov a F -> Cov b F.
  Proof.
    intros [H1 H2] H fd Hf. destruct (H fd Hf) as [H3 H4]. split; eapply incl_tran; eauto.
  Qed.

  Definition complete_fn (c : collect_fn) : Prop :=
    forall q t st st', c q t st = Some st' ->
      st_le st st' /\ incl (flat q t) (snd st') /\ incl (sprs t) (fst st') /\
      (forall F, In F (fst st') -> ~ In F (fst st) -> Cov st' F).

  Lemma collect_go_complete rec : complete_fn rec -> complete_fn (collect_go frags rec).
  Proof.
    intros Hrec q t. revert q.
    induction t as [|f sub IHsub rest IHrest|iid tc sub IHsub rest IHrest|n rest IHrest];
      intros q st st' H; cbn [collect_go] in H.
    - inversion H; subst. repeat split; try apply incl_refl; try (intros x []); tauto.
    - destruct (IHrest q _ _ H) as (Hle & Hfl & Hsp & Hcov). cbn [fst snd] in *.
      assert (Hle0 : st_le st (fst st, snd st ++ [mkEntry q f sub])).
      { split; [apply incl_refl | apply incl_appl, incl_refl]. }
      split; [eapply st_le_trans; eauto|]. split; [|split; [exact Hsp | exact Hcov]].
      cbn [flat]. intros x [<-|Hx]; [|apply Hfl; exact Hx].
      apply (proj2 Hle). cbn [snd]. apply in_or_app. right. left. reflexivity.
    - destruct (collect_go frags rec (match tc with Some t0 => t0 | None => q end) sub st) as [st1|] eqn:E1;
        [|discriminate].
      destruct (IHsub _ _ _ E1) as (Hle1 & Hfl1 & Hsp1 & Hcov1).
      destruct (IHrest q _ _ H) as (Hle2 & Hfl2 & Hsp2 & Hcov2).
      split; [eapply st_le_trans; eauto|]. split; [|split].
      + cbn [flat]. apply incl_app; [eapply incl_tran; [exact Hfl1 | apply Hle2] | exact Hfl2].
      + cbn [sprs]. apply incl_app; [eapply incl_tran; [exact Hsp1 | apply Hle2] | exact Hsp2].
      + intros F HF Hn. destruct (in_dec N.eq_dec F (fst st1)) as [Hi|Hi].
        * eapply Cov_mono; [exact Hle2 | apply Hcov1; assumption].
        * apply Hcov2; assumption.
    - destruct (mem n (fst st)) eqn:Em.
      { destruct (IHrest q _ _ H) as (Hle & Hfl & Hsp & Hcov). split; [exact Hle|]. split; [exact Hfl|].
        split; [|exact Hcov]. cbn [sprs]. intros x [<-|Hx]; [|apply Hsp; exact Hx].
        apply (proj1 Hle). apply mem_In. exact Em. }
      destruct (find_frag frags n) as [fd|] eqn:Ef.
      + destruct (rec (fr_type fd) (fr_body fd) (n :: fst st, snd st)) as [st1|] eqn:E1; [|discriminate].
        destruct (Hrec _ _ _ _ E1) as (Hle1 & Hfl1 & Hsp1 & Hcov1). cbn [fst snd] in *.
        destruct (IHrest q _ _ H) as (Hle2 & Hfl2 & Hsp2 & Hcov2).
        assert (Hle0 : st_le st (n :: fst st, snd st)) by (split; [apply incl_tl, incl_refl | apply incl_refl]).
        assert (Hn1 : In n (fst st1)) by (apply (proj1 Hle1); cbn; auto).
        (* the fragment just entered is covered by what its body collected; fragments visited before stay
           covered because the state only grows *)
        assert (Hcn : Cov st1 n).
        { intros fd' Hf'. rewrite Ef in Hf'. inversion Hf'; subst fd'. split; [exact Hfl1 | exact Hsp1]. }
        split; [eapply st_le_trans; [exact Hle0 | eapply st_le_trans; eauto]|]. split; [exact Hfl2|]. split.
        * cbn [sprs]. intros x [<-|Hx]; [apply (proj1 Hle2); exact Hn1 | apply Hsp2; exact Hx].
        * intros F HF Hn. destruct (in_dec N.eq_dec F (fst st1)) as [Hi|Hi]; [|apply Hcov2; assumption].
          eapply Cov_mono; [exact Hle2|]. destruct (N.eq_dec F n) as [->|Hne]; [exact Hcn|].
          apply Hcov1; [exact Hi|]. cbn. intros [Hx|Hx]; [congruence | contradiction].
      + destruct (IHrest q _ _ H) as (Hle2 & Hfl2 & Hsp2 & Hcov2). cbn [fst snd] in *.
        assert (Hle0 : st_le st (n :: fst st, snd st)) by (split; [apply incl_tl, incl_refl | apply incl_refl]).
        split; [eapply st_le_trans; eauto|]. split; [exact Hfl2|]. split.
        * cbn [sprs]. intros x [<-|Hx]; [apply (proj1 Hle2); cbn; auto | apply Hsp2; exact Hx].
        * intros F HF Hn. destruct (in_dec N.eq_dec F (n :: fst st)) as [Hi|Hi]; [|apply Hcov2; assumption].
          destruct Hi as [<-|Hi]; [|contradiction]. intros fd Hf. congruence.
  Qed.

  Lemma collect_complete_fn fuel : complete_fn (collect frags fuel).
  Proof.
    induction fuel as [|f IH]; cbn [collect]; apply collect_go_complete.
    - intros q t st st' H. discriminate.
    - exact IH.
  Qed.

  (* closed states: every visited fragment covered *)
  Definition closed_st (st : cstate) : Prop := forall F, In F (fst st) -> Cov st F.

  Lemma closed_reach st sps F : closed_st st -> incl sps (fst st) -> Reach frags sps F -> In F (fst st).
  Proof.
    intros Hc Hi [sp [Hs Hr]]. apply Hi in Hs. induction Hr as [F|F0 fd sp F Hf Hsp Hr IH]; [exact Hs|].
    apply IH. destruct (Hc F0 Hs fd Hf) as [_ H]. apply H. exact Hsp.
  Qed.

  Theorem collect_complete fuel q t st st' :
    closed_st st -> collect frags fuel q t st = Some st' ->
    closed_st st' /\ st_le st st' /\ forall u, Exp frags q t u -> In u (snd st').
  Proof.
    intros Hc H. destruct (collect_complete_fn fuel q t st st' H) as (Hle & Hfl & Hsp & Hcov).
    assert (Hc' : closed_st st').
    { intros F HF. destruct (in_dec N.eq_dec F (fst st)) as [Hi|Hi]; [eapply Cov_mono; [exact Hle | apply Hc; exact Hi] | apply Hcov; assumption]. }
    split; [exact Hc'|]. split; [exact Hle|].
    intros u [Hu|(F & fd & Hr & Hf & Hu)]; [apply Hfl; exact Hu|].
    pose proof (closed_reach st' _ F Hc' Hsp Hr) as HF. destruct (Hc' F HF fd Hf) as [Hb _]. apply Hb. exact Hu.
  Qed.

  Lemma closed_nil : closed_st ([], []).
  Proof. intros F []. Qed.
End Complete.

(* the collected set of a selection set contains all it contributes *)
Lemma collect_set frags p ss : exists st, collect frags (length frags) p ss ([], []) = Some st /\
  forall u, Exp frags p ss u -> In u (snd st).
Proof.
  destruct (collect_total frags (length frags) p ss ([], [])) as [st [H _]]; [apply unvis_le|].
  exists st. split; [exact H|]. apply (collect_complete frags _ p ss ([], []) st (closed_nil frags) H).
Qed.

Lemma merged_total d x y ta tb : exists l, merged d x y ta tb = Some l /\
  (forall u, Exp (d_frags d) (named ta) (e_sub x) u -> In u l) /\
  (forall v, Exp (d_frags d) (named tb) (e_sub y) v -> In v l).
Proof.
  unfold merged. set (frags := d_frags d).
  destruct (collect_total frags (length frags) (named ta) (e_sub x) ([], [])) as [st1 [H1 _]]; [apply unvis_le|].
  rewrite H1.
  destruct (collect_complete frags _ _ _ _ _ (closed_nil frags) H1) as (Hc1 & _ & He1).
  destruct (collect_total frags (length frags) (named tb) (e_sub y) st1) as [st2 [H2 _]]; [apply unvis_le|].
  rewrite H2. destruct (collect_complete frags _ _ _ _ _ Hc1 H2) as (_ & Hle & He2).
  exists (snd st2). split; [reflexivity|]. split; [intros u Hu; apply (proj2 Hle); apply He1; exact Hu | exact He2].
Qed.
