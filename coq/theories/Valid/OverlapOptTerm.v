(* Termination of the memoised algorithm model (Valid/OverlapOpt.v): with the fuel
   [opt_fuel d] the algorithm never runs out of fuel, whatever the fragment spread graph.
   Argument: every memo miss strictly decreases a potential (2 per absent key, 1 per exclusive
   entry, 0 per non-exclusive entry, over the finite set of possible keys); between two misses
   on a call chain the calls descend into sub-selections of bounded depth. *)
From GV Require Import Base.Prelude Valid.Overlap Valid.OverlapProps Valid.PairSet Valid.PairSetProps
  Valid.OverlapOpt Valid.OverlapAdequacy Valid.OverlapOptCalls Valid.OverlapEquiv.

Definition pot (o : option bool) : nat :=
  match o with None => 2 | Some true => 1 | Some false => 0 end.

Fixpoint sumf {A} (f : A -> nat) (l : list A) : nat :=
  match l with [] => O | a :: r => (f a + sumf f r)%nat end.

Lemma sumf_le {A} (f g : A -> nat) l :
  (forall k, In k l -> (g k <= f k)%nat) -> (sumf g l <= sumf f l)%nat.
Proof.
  induction l as [|a l IH]; cbn [sumf]; intro H; auto.
  pose proof (H a (or_introl eq_refl)). specialize (IH (fun k Hk => H k (or_intror Hk))). lia.
Qed.

Lemma sumf_lt {A} (f g : A -> nat) l k0 :
  (forall k, In k l -> (g k <= f k)%nat) -> In k0 l -> (g k0 < f k0)%nat ->
  (sumf g l < sumf f l)%nat.
Proof.
  induction l as [|a l IH]; cbn [sumf]; intros H Hin Hlt; [contradiction|].
  pose proof (H a (or_introl eq_refl)).
  pose proof (sumf_le f g l (fun k Hk => H k (or_intror Hk))).
  destruct Hin as [->|Hin]; [lia|].
  specialize (IH (fun k Hk => H k (or_intror Hk)) Hin Hlt). lia.
Qed.

Section Term.
  Variable s : schema.
  Variable frags : list fragdef.
  Variable US : list N.      (* codes of selection set identities *)
  Variable UF : list N.      (* fragment names (defined or spread) *)
  Variable D : nat.          (* bound on the nesting depth of every selection set *)

  Definition phi_fp (fp : opairset) : nat :=
    sumf (fun k => pot (ops_get fp (fst k) (fkey (snd k)))) (list_prod US UF).
  Definition phi_ff (ff : pairset) : nat :=
    sumf (fun k => pot (ps_get ff (fkey (fst k)) (fkey (snd k)))) (list_prod UF UF).
  Definition phi (m : memo) : nat := (phi_fp (m_fp m) + phi_ff (m_ff m))%nat.

  Lemma fkey_inj a b : fkey a = fkey b -> a = b.
  Proof. unfold fkey. intro H. inversion H. reflexivity. Qed.

  (* a miss in the fields-vs-fragment table strictly decreases the potential *)
  Lemma phi_fp_add fp a b q : In a US -> In b UF -> ops_has fp a (fkey b) q = false ->
    (phi_fp (ops_add fp a (fkey b) q) < phi_fp fp)%nat.
  Proof.
    intros Ha Hb Hh. unfold phi_fp.
    apply (sumf_lt _ _ _ (a, b)).
    - intros [a' b'] _. cbn [fst snd]. rewrite ops_get_add.
      destruct ((a' =? a) && nat_list_eqb (fkey b') (fkey b)) eqn:E; [|lia].
      apply andb_true_iff in E as [E1 E2]. apply N.eqb_eq in E1. apply nat_list_eqb_eq in E2.
      inversion E2. subst. unfold ops_has in Hh.
      destruct (ops_get fp a (fkey b)) as [[|]|]; destruct q; cbn in *; try discriminate; lia.
    - apply in_prod; assumption.
    - cbn [fst snd]. rewrite ops_get_add_same. unfold ops_has in Hh.
      destruct (ops_get fp a (fkey b)) as [[|]|]; destruct q; cbn in *; try discriminate; lia.
  Qed.

  Lemma order_single' a b c d :
    order (fkey a) (fkey b) = order (fkey c) (fkey d) -> (a = c /\ b = d) \/ (a = d /\ b = c).
  Proof.
    unfold order, fkey. cbn [text_ltb].
    destruct (a <? b), (b <? a), (c <? d), (d <? c); intro H; inversion H; auto.
  Qed.

  Lemma phi_ff_add ff a b q : In a UF -> In b UF -> ps_has ff (fkey a) (fkey b) q = false ->
    (phi_ff (ps_add ff (fkey a) (fkey b) q) < phi_ff ff)%nat.
  Proof.
    intros Ha Hb Hh. unfold phi_ff.
    assert (Hsame : (pot (ps_get (ps_add ff (fkey a) (fkey b) q) (fkey a) (fkey b))
                     < pot (ps_get ff (fkey a) (fkey b)))%nat).
    { rewrite ps_get_add_same. unfold ps_has in Hh.
      destruct (ps_get ff (fkey a) (fkey b)) as [[|]|]; destruct q; cbn in *; try discriminate; lia. }
    apply (sumf_lt _ _ _ (a, b)).
    - intros [a' b'] _. cbn [fst snd].
      destruct (order_dec (fkey a') (fkey b') (fkey a) (fkey b)) as [Ho|Ho].
      + rewrite (ps_get_order _ _ _ _ _ Ho). rewrite (ps_get_order ff _ _ _ _ Ho). lia.
      + rewrite ps_get_add_other by exact Ho. lia.
    - apply in_prod; assumption.
    - exact Hsame.
  Qed.

  Fixpoint sels_ok (ss : sels) : Prop :=
    match ss with
    | SelNil => True
    | SelField f sub rest => In (setid_code (IdField (f_id f))) US /\ sels_ok sub /\ sels_ok rest
    | SelInline iid _ sub rest => In (setid_code (IdInline iid)) US /\ sels_ok sub /\ sels_ok rest
    | SelSpread n rest => In n UF /\ sels_ok rest
    end.

  Definition eok (e : entry) : Prop :=
    In (setid_code (IdField (f_id (e_fld e)))) US /\ sels_ok (e_sub e) /\ (S (dep (e_sub e)) <= D)%nat.

  Definition frags_wf : Prop :=
    forall fd, In fd frags -> sels_ok (fr_body fd) /\ (dep (fr_body fd) <= D)%nat.

  Lemma fas_props : forall ss p acc, sels_ok ss -> (dep ss <= D)%nat ->
    Forall eok (fst acc) -> incl (snd acc) UF ->
    Forall eok (fst (fields_and_spreads p ss acc)) /\ incl (snd (fields_and_spreads p ss acc)) UF /\
    (forall e, In e (fst (fields_and_spreads p ss acc)) -> In e (fst acc) \/ (S (dep (e_sub e)) <= dep ss)%nat).
  Proof.
    induction ss as [|f sub IHsub rest IHrest|iid tc sub IHsub rest IHrest|n rest IHrest];
      intros p acc Hok Hd Ha Hs; cbn [fields_and_spreads sels_ok dep] in *.
    - repeat split; auto.
    - destruct Hok as [H1 [H2 H3]].
      destruct (IHrest p (fst acc ++ [mkEntry p f sub], snd acc) H3 ltac:(lia)) as [A1 [A2 A3]]; cbn [fst snd]; auto.
      { apply Forall_app. split; auto. constructor; auto. repeat split; cbn [e_sub e_fld]; auto. lia. }
      repeat split; auto. intros e He. destruct (A3 e He) as [Hi|Hi]; [|right; lia].
      cbn [fst] in Hi. apply in_app_or in Hi as [Hi|[<-|[]]]; [left; exact Hi|right; cbn [e_sub]; lia].
    - destruct Hok as [_ [H2 H3]].
      destruct (IHsub (match tc with Some t => t | None => p end) acc H2 ltac:(lia) Ha Hs) as [B1 [B2 B3]].
      destruct (IHrest p _ H3 ltac:(lia) B1 B2) as [A1 [A2 A3]].
      repeat split; auto. intros e He. destruct (A3 e He) as [Hi|Hi]; [|right; lia].
      destruct (B3 e Hi) as [Hj|Hj]; [left; exact Hj | right; lia].
    - destruct Hok as [H1 H3].
      destruct (IHrest p (fst acc, if mem n (snd acc) then snd acc else snd acc ++ [n]) H3 Hd) as [A1 [A2 A3]];
        cbn [fst snd]; auto.
      { destruct (mem n (snd acc)); auto. intros x Hx. apply in_app_or in Hx as [Hx|[<-|[]]]; auto. }
  Qed.

  Lemma fas_nil p ss : sels_ok ss -> (dep ss <= D)%nat ->
    Forall eok (fst (fields_and_spreads p ss ([], []))) /\
    incl (snd (fields_and_spreads p ss ([], []))) UF /\
    (forall e, In e (fst (fields_and_spreads p ss ([], []))) -> (S (dep (e_sub e)) <= dep ss)%nat).
  Proof.
    intros H1 H2. destruct (fas_props ss p ([], []) H1 H2) as [A1 [A2 A3]]; cbn; auto; try (intros x []).
    repeat split; auto. intros e He. destruct (A3 e He) as [[]|Hi]. exact Hi.
  Qed.

  Definition W : nat := (2 * D + 3)%nat.

  Definition sz (c : call) : nat :=
    match c with
    | CFindConflict _ a b => (2 * Nat.max (dep (e_sub a)) (dep (e_sub b)) + 3)%nat
    | CBetweenSubs _ _ _ ss1 _ _ ss2 => (2 * Nat.max (dep ss1) (dep ss2) + 2)%nat
    | CFieldsFrag _ _ _ _ => 1%nat
    | CFragFrag _ _ _ => 1%nat
    end.

  Definition call_ok (c : call) : Prop :=
    match c with
    | CFindConflict _ a b => eok a /\ eok b
    | CBetweenSubs _ _ id1 ss1 _ id2 ss2 =>
      In (setid_code id1) US /\ sels_ok ss1 /\ (dep ss1 <= D)%nat /\
      In (setid_code id2) US /\ sels_ok ss2 /\ (dep ss2 <= D)%nat
    | CFieldsFrag _ id fm frag => In (setid_code id) US /\ Forall eok fm /\ In frag UF
    | CFragFrag _ f1 f2 => In f1 UF /\ In f2 UF
    end.

  (* not out of fuel, and the potential did not grow *)
  Definition good_res (m : memo) (r : result) : Prop :=
    match r with
    | RFuel => False
    | ROk m' => (phi m' <= phi m)%nat
    | RConflict m' => (phi m' <= phi m)%nat
    end.

  Lemma good_res_trans m m' r : (phi m' <= phi m)%nat -> good_res m' r -> good_res m r.
  Proof. destruct r; cbn; auto; lia. Qed.

  Lemma bind_good m r f :
    good_res m r -> (forall m', (phi m' <= phi m)%nat -> good_res m' (f m')) -> good_res m (bind r f).
  Proof.
    destruct r as [|m'|m']; cbn [bind good_res]; auto.
    intros H Hf. eapply good_res_trans; [exact H | apply Hf; exact H].
  Qed.

  Lemma for_each_good {A} (f : A -> memo -> result) l : forall m,
    (forall x m', In x l -> (phi m' <= phi m)%nat -> good_res m' (f x m')) ->
    good_res m (for_each f l m).
  Proof.
    induction l as [|x r IH]; intros m H; cbn [for_each].
    - cbn. lia.
    - apply bind_good.
      + apply H; [left; reflexivity | lia].
      + intros m' Hm'. apply IH. intros y m'' Hy Hm''. apply H; [right; exact Hy | lia].
  Qed.

  Hypothesis Hfr : frags_wf.

  Definition rec_ok (rec : call -> memo -> result) (fuel : nat) : Prop :=
    forall c m, call_ok c -> (phi m * W + sz c <= fuel)%nat -> good_res m (rec c m).

  Lemma eok_sz a b so : eok a -> eok b -> (sz (CFindConflict so a b) + 2 <= W)%nat.
  Proof. intros [_ [_ Ha]] [_ [_ Hb]]. unfold sz, W. lia. Qed.

  Lemma mul_le_W a b : (a <= b)%nat -> (a * W <= b * W)%nat.
  Proof. intro H. apply Nat.mul_le_mono_r. exact H. Qed.

  (* calls that consult a memo table: their sub-calls start afresh (any size up to W), paid for by
     the potential; the sub-calls of the others are smaller *)
  Definition memo_call (c : call) : bool :=
    match c with CFieldsFrag _ _ _ _ | CFragFrag _ _ _ => true | _ => false end.

  Lemma cross_calls_ok e fm1 fm2 c : Forall eok fm1 -> Forall eok fm2 -> In c (cross_calls e fm1 fm2) ->
    exists x y, c = CFindConflict e x y /\ In x fm1 /\ In y fm2 /\ call_ok c /\ (sz c + 2 <= W)%nat.
  Proof.
    intros H1 H2 Hc. rewrite Forall_forall in H1, H2.
    apply in_cross_calls in Hc as [x [y [-> [Hx [Hy _]]]]]. exists x, y.
    split; [reflexivity|]. split; [exact Hx|]. split; [exact Hy|]. split; [split; auto | apply eok_sz; auto].
  Qed.

  Lemma frag_fas fd : In fd frags ->
    Forall eok (Dfrag fd) /\ incl (Sfrag fd) UF.
  Proof. intro H. destruct (Hfr fd H) as [Ob Db]. destruct (fas_nil (fr_type fd) (fr_body fd) Ob Db) as [F [S _]]. auto. Qed.

  Lemma sub_calls_ok c c' : call_ok c -> In c' (sub_calls s frags c) ->
    call_ok c' /\ (if memo_call c then sz c' + 2 <= W else S (sz c') <= sz c)%nat.
  Proof.
    intros Hok Hin.
    destruct c as [pexcl a b|excl p1 id1 ss1 p2 id2 ss2|excl id fm frag|excl f1 f2];
      cbn [sub_calls call_ok memo_call] in *.
    - destruct Hok as [[A1 [A2 A3]] [B1 [B2 B3]]].
      destruct (has_sub (e_sub a) && has_sub (e_sub b)); [|contradiction]. destruct Hin as [<-|[]].
      cbn [call_ok sz]. repeat split; auto; lia.
    - destruct Hok as [I1 [O1 [D1 [I2 [O2 D2]]]]].
      destruct (fas_nil p1 ss1 O1 D1) as [F1 [S1 E1]]. destruct (fas_nil p2 ss2 O2 D2) as [F2 [S2 E2]].
      fold (fm_of p1 ss1) (sp_of p1 ss1) in F1, S1, E1. fold (fm_of p2 ss2) (sp_of p2 ss2) in F2, S2, E2.
      apply in_between_calls in Hin as [Hin|[[sp [-> Hs]]|[[sp [-> Hs]]|[s1 [s2 [-> [Hs1 Hs2]]]]]]].
      + destruct (cross_calls_ok _ _ _ _ F1 F2 Hin) as [x [y [-> [Hx [Hy [Hc _]]]]]]. split; [exact Hc|].
        specialize (E1 x Hx). specialize (E2 y Hy). cbn [sz]. lia.
      + cbn [call_ok sz]. repeat split; auto. lia.
      + cbn [call_ok sz]. repeat split; auto. lia.
      + cbn [call_ok sz]. repeat split; auto. lia.
    - destruct Hok as [I1 [Hfm Hfrag]].
      destruct (find_frag frags frag) as [fd|] eqn:Ef; [|contradiction].
      destruct (setid_code id =? setid_code (IdFrag frag)); [contradiction|].
      apply find_frag_some in Ef as [Hfd _]. destruct (frag_fas fd Hfd) as [F2 S2].
      apply in_app_or in Hin as [Hin|Hin].
      + destruct (cross_calls_ok _ _ _ _ Hfm F2 Hin) as [x [y [-> [_ [_ Hc]]]]]. exact Hc.
      + apply in_map_iff in Hin as [sp [<- Hs]]. cbn [call_ok sz]. unfold W. repeat split; auto. lia.
    - destruct Hok as [H1 H2].
      destruct (find_frag frags f1) as [d1|] eqn:Ef1; [|contradiction].
      destruct (find_frag frags f2) as [d2|] eqn:Ef2; [|contradiction].
      apply find_frag_some in Ef1 as [Hd1 _]. apply find_frag_some in Ef2 as [Hd2 _].
      destruct (frag_fas d1 Hd1) as [F1 S1]. destruct (frag_fas d2 Hd2) as [F2 S2].
      apply in_app_or in Hin as [Hin|Hin]; [|apply in_app_or in Hin as [Hin|Hin]].
      + destruct (cross_calls_ok _ _ _ _ F1 F2 Hin) as [x [y [-> [_ [_ Hc]]]]]. exact Hc.
      + apply in_map_iff in Hin as [sp [<- Hs]]. cbn [call_ok sz]. unfold W. repeat split; auto. lia.
      + apply in_map_iff in Hin as [sp [<- Hs]]. cbn [call_ok sz]. unfold W. repeat split; auto. lia.
  Qed.

  Lemma decide_good c m : call_ok c ->
    match decide s c m with
    | Done r => good_res m r
    | Go m1 => (phi m1 <= phi m)%nat /\ (memo_call c = true -> (phi m1 < phi m)%nat)
    end.
  Proof.
    intro Hok. destruct c as [pexcl a b|excl p1 id1 ss1 p2 id2 ss2|excl id fm frag|excl f1 f2];
      cbn [decide call_ok memo_call] in *.
    - destruct (fc_direct s pexcl a b); cbn [good_res]; [lia | split; [lia | discriminate]].
    - split; [lia | discriminate].
    - destruct Hok as [I1 [_ Hfrag]].
      destruct (ops_has (m_fp m) (setid_code id) (fkey frag) excl) eqn:Eh; cbn [good_res]; unfold phi; cbn [m_fp m_ff]; [lia|].
      pose proof (phi_fp_add (m_fp m) _ _ excl I1 Hfrag Eh). split; [|intros _]; lia.
    - destruct Hok as [H1 H2]. destruct (f1 =? f2); [cbn [good_res]; lia|].
      destruct (ps_has (m_ff m) (fkey f1) (fkey f2) excl) eqn:Eh; cbn [good_res]; unfold phi; cbn [m_fp m_ff]; [lia|].
      pose proof (phi_ff_add (m_ff m) _ _ excl H1 H2 Eh). split; [|intros _]; lia.
  Qed.

  Lemma exec_step_ok rec f : rec_ok rec f -> rec_ok (exec_step s frags rec) (S f).
  Proof.
    intros Hrec c m Hok Hfuel. rewrite exec_step_eq. pose proof (decide_good c m Hok) as Hd.
    destruct (decide s c m) as [r|m1]; [exact Hd|]. destruct Hd as [Hle Hlt].
    apply (good_res_trans m m1); [exact Hle|]. apply for_each_good. intros c' m' Hc' Hm'.
    destruct (sub_calls_ok c c' Hok Hc') as [Hok' Hsz]. apply Hrec; [exact Hok'|].
    pose proof (mul_le_W _ _ Hm') as H1. pose proof (mul_le_W _ _ Hle) as H2.
    destruct (memo_call c); [|lia].
    pose proof (mul_le_W (S (phi m1)) (phi m) (Hlt eq_refl)) as H3. cbn [Nat.mul] in H3.
    assert (1 <= sz c)%nat by (destruct c; cbn [sz]; lia). lia.
  Qed.

  Lemma exec_ok_fuel fuel : rec_ok (exec s frags fuel) fuel.
  Proof.
    induction fuel as [|f IH].
    - intros c m _ H. destruct c; cbn [sz] in H; lia.
    - cbn [exec]. apply exec_step_ok. exact IH.
  Qed.

  Definition set_ok (x : N * setid * sels) : Prop :=
    In (setid_code (snd (fst x))) US /\ sels_ok (snd x) /\ (dep (snd x) <= D)%nat.

  Lemma opt_sets_ok : forall ss p x, sels_ok ss -> (dep ss <= D)%nat -> In x (opt_sets s p ss) -> set_ok x.
  Proof.
    induction ss as [|f sub IHsub rest IHrest|iid tc sub IHsub rest IHrest|n rest IHrest];
      intros p x Hok Hd Hin; cbn [opt_sets sels_ok dep] in *.
    - contradiction.
    - destruct Hok as [H1 [H2 H3]]. apply in_app_or in Hin as [Hin|Hin]; [|apply (IHrest p); auto; lia].
      set (q := match field_type s p (f_name f) with Some t => named t | None => 0 end) in *.
      assert (Hc : In x ((q, IdField (f_id f), sub) :: opt_sets s q sub))
        by (destruct sub; [contradiction| | |]; exact Hin).
      destruct Hc as [<-|Hc]; [repeat split; auto; cbn [snd]; lia | apply (IHsub q); auto; lia].
    - destruct Hok as [H1 [H2 H3]]. apply in_app_or in Hin as [[<-|Hin]|Hin].
      + repeat split; auto. cbn [snd]. lia.
      + eapply IHsub; eauto. lia.
      + apply (IHrest p); auto. lia.
    - destruct Hok as [_ H3]. apply (IHrest p); auto.
  Qed.

  Lemma set_calls_ok x c : set_ok x -> In c (set_calls x) -> call_ok c /\ (sz c <= W)%nat.
  Proof.
    destruct x as [[q id] t]. intros [Hid [Hok Hd]] Hin. cbn [fst snd] in *.
    destruct (fas_nil q t Hok Hd) as [F1 [S1 _]]. fold (fm_of q t) (sp_of q t) in F1, S1.
    rewrite Forall_forall in F1.
    apply in_set_calls in Hin as [[x [y [-> [Hb _]]]]|[[sp [-> Hs]]|[s1 [s2 [-> Hb]]]]].
    - destruct (before_in _ _ _ Hb) as [Hx Hy].
      pose proof (eok_sz x y false (F1 x Hx) (F1 y Hy)). split; [split; auto | lia].
    - cbn [call_ok sz]. unfold W. repeat split; auto; [apply Forall_forall; exact F1 | lia].
    - destruct (before_in _ _ _ Hb) as [H1 H2]. cbn [call_ok sz]. unfold W. repeat split; auto. lia.
  Qed.

  Lemma run_good fuel l m : (forall x, In x l -> set_ok x) -> (phi m * W + W <= fuel)%nat ->
    good_res m (for_each (exec s frags fuel) (calls_of l) m).
  Proof.
    intros Hl Hf. apply for_each_good. intros c m' Hc Hm'.
    apply in_flat_map in Hc as [x [Hx Hc]]. destruct (set_calls_ok x c (Hl x Hx) Hc) as [Hok Hsz].
    apply exec_ok_fuel; [exact Hok|]. pose proof (mul_le_W _ _ Hm'). lia.
  Qed.
End Term.

Fixpoint codes_sels (ss : sels) : list N :=
  match ss with
  | SelNil => []
  | SelField f sub rest => setid_code (IdField (f_id f)) :: codes_sels sub ++ codes_sels rest
  | SelInline iid _ sub rest => setid_code (IdInline iid) :: codes_sels sub ++ codes_sels rest
  | SelSpread _ rest => codes_sels rest
  end.

Fixpoint spreads_sels (ss : sels) : list N :=
  match ss with
  | SelNil => []
  | SelField _ sub rest => spreads_sels sub ++ spreads_sels rest
  | SelInline _ _ sub rest => spreads_sels sub ++ spreads_sels rest
  | SelSpread n rest => n :: spreads_sels rest
  end.

Definition doc_US (d : document) : list N :=
  map (fun i => setid_code (IdOp (N.of_nat i))) (seq 0 (length (d_ops d))) ++
  map (fun fd => setid_code (IdFrag (fr_name fd))) (d_frags d) ++
  flat_map (fun o => codes_sels (snd o)) (d_ops d) ++
  flat_map (fun fd => codes_sels (fr_body fd)) (d_frags d).

Definition doc_UF (d : document) : list N :=
  map fr_name (d_frags d) ++
  flat_map (fun o => spreads_sels (snd o)) (d_ops d) ++
  flat_map (fun fd => spreads_sels (fr_body fd)) (d_frags d).

Definition doc_D (d : document) : nat :=
  Nat.max (fold_right (fun o acc => Nat.max (dep (snd o)) acc) 0%nat (d_ops d))
          (fold_right (fun fd acc => Nat.max (dep (fr_body fd)) acc) 0%nat (d_frags d)).

(* (number of possible memo misses + 1) * (longest chain of calls between two misses) *)
Definition opt_fuel (d : document) : nat :=
  let us := length (doc_US d) in
  let uf := length (doc_UF d) in
  ((2 * (us * uf) + 2 * (uf * uf) + 1) * (2 * doc_D d + 3))%nat.

Lemma fold_max_le {A} (f : A -> nat) l x :
  In x l -> (f x <= fold_right (fun a acc => Nat.max (f a) acc) 0%nat l)%nat.
Proof.
  induction l as [|a l IH]; cbn; intro H; [contradiction|].
  destruct H as [->|H]; [lia | specialize (IH H); lia].
Qed.

Lemma sels_ok_incl US UF : forall ss,
  incl (codes_sels ss) US -> incl (spreads_sels ss) UF -> sels_ok US UF ss.
Proof.
  induction ss as [|f sub IHsub rest IHrest|iid tc sub IHsub rest IHrest|n rest IHrest];
    intros Hc Hs; cbn [sels_ok codes_sels spreads_sels] in *.
  - exact I.
  - split; [apply Hc; left; reflexivity|]. split.
    + apply IHsub; intros x Hx; [apply Hc; right | apply Hs]; apply in_or_app; left; exact Hx.
    + apply IHrest; intros x Hx; [apply Hc; right | apply Hs]; apply in_or_app; right; exact Hx.
  - split; [apply Hc; left; reflexivity|]. split.
    + apply IHsub; intros x Hx; [apply Hc; right | apply Hs]; apply in_or_app; left; exact Hx.
    + apply IHrest; intros x Hx; [apply Hc; right | apply Hs]; apply in_or_app; right; exact Hx.
  - split; [apply Hs; left; reflexivity|]. apply IHrest; auto. intros x Hx. apply Hs. right. exact Hx.
Qed.

Lemma sumf_const {A} (l : list A) c : sumf (fun _ => c) l = (c * length l)%nat.
Proof. induction l; cbn [sumf length]; lia. Qed.

Lemma phi_init US UF :
  phi US UF (mkMemo [] [] []) = (2 * length (list_prod US UF) + 2 * length (list_prod UF UF))%nat.
Proof.
  unfold phi, phi_fp, phi_ff. cbn [m_fp m_ff].
  rewrite <- !sumf_const. f_equal.
  induction (list_prod UF UF) as [|k l IH]; cbn [sumf]; auto.
  rewrite IH. f_equal. unfold ps_get. destruct (order (fkey (fst k)) (fkey (snd k))). reflexivity.
Qed.

(* The memoised algorithm terminates on every document, cyclic fragment spreads included:
   with [opt_fuel d] it never runs out of fuel, in whatever order the definitions are visited. *)
Theorem opt_terminates s d order fuel : (opt_fuel d <= fuel)%nat -> opt_run s d order fuel <> RFuel.
Proof.
  intro Hfuel.
  set (US := doc_US d). set (UF := doc_UF d). set (D := doc_D d).
  assert (Hops : forall o, In o (d_ops d) -> sels_ok US UF (snd o) /\ (dep (snd o) <= D)%nat).
  { intros o Ho. split.
    - apply sels_ok_incl; intros x Hx.
      + unfold US, doc_US. apply in_or_app. right. apply in_or_app. right. apply in_or_app. left.
        apply in_flat_map. exists o. auto.
      + unfold UF, doc_UF. apply in_or_app. right. apply in_or_app. left. apply in_flat_map. exists o. auto.
    - unfold D, doc_D. pose proof (fold_max_le (fun o => dep (snd o)) (d_ops d) o Ho). lia. }
  assert (Hfr : frags_wf (d_frags d) US UF D).
  { intros fd Hfd. split.
    - apply sels_ok_incl; intros x Hx.
      + unfold US, doc_US. apply in_or_app. right. apply in_or_app. right. apply in_or_app. right.
        apply in_flat_map. exists fd. auto.
      + unfold UF, doc_UF. apply in_or_app. right. apply in_or_app. right. apply in_flat_map. exists fd. auto.
    - unfold D, doc_D. pose proof (fold_max_le (fun fd => dep (fr_body fd)) (d_frags d) fd Hfd). lia. }
  assert (Hsets : forall x, In x (run_sets s d order) -> set_ok US UF D x).
  { intros x Hx. apply in_flat_map in Hx as [[isop i] [_ Hx]]. unfold order_sets in Hx. cbn [fst snd] in Hx.
    destruct isop.
    - destruct (nth_error (d_ops d) i) as [o|] eqn:En; [|contradiction].
      destruct (Hops o (nth_error_In _ _ En)) as [O1 O2].
      destruct Hx as [<-|Hx]; [|eapply opt_sets_ok; eauto]. split; [|split; assumption].
      unfold US, doc_US. apply in_or_app. left. apply in_map_iff. exists i. split; auto.
      apply in_seq. assert (i < length (d_ops d))%nat by (apply nth_error_Some; congruence). lia.
    - destruct (nth_error (d_frags d) i) as [fd|] eqn:En; [|contradiction].
      pose proof (nth_error_In _ _ En) as Hfd. destruct (Hfr fd Hfd) as [O1 O2].
      destruct Hx as [<-|Hx]; [|eapply opt_sets_ok; eauto]. split; [|split; assumption].
      unfold US, doc_US. apply in_or_app. right. apply in_or_app. left. apply in_map_iff. exists fd. auto. }
  pose proof (run_good s (d_frags d) US UF D Hfr fuel _ (mkMemo [] [] []) Hsets) as Hgood.
  rewrite phi_init, !prod_length in Hgood. rewrite opt_run_eq. intro Hc. rewrite Hc in Hgood. apply Hgood.
  unfold opt_fuel, W in *. fold US UF D in Hfuel. lia.
Qed.
