(* Document level: the rules silent on every definition => the translated document is statically
   typed (operation at its root type, every fragment at its type condition) and its directive
   conditions are accepted. *)
From GV Require Import Base.Prelude Base.ListFacts Lang.Ast Exec.Value Exec.Schema Exec.Spec Exec.Typing Valid.StaticTyping
  Valid.Rules Valid.RulesBase Valid.Rules13 Valid.ToExec Valid.RulesLit Valid.RulesTyping.

Lemma errs_of_no_loc l : errs_of (map no_loc_default l) = errs_of l.
Proof. induction l as [|[e|u] l IH]; cbn; [reflexivity | f_equal; exact IH | exact IH]. Qed.

Lemma allowed_mono vt vd lt : allowed_usage vt vd lt false = true -> forall ld, allowed_usage vt vd lt ld = true.
Proof.
  intros H ld. unfold allowed_usage in *. destruct lt; auto. destruct (is_nonnull vt); auto.
  rewrite orb_false_r in H. apply andb_true_iff in H as [H1 H2]. rewrite H1, H2. reflexivity.
Qed.

Lemma uses_ok_no_loc vdefs l : uses_ok vdefs (map no_loc_default l) -> uses_ok vdefs l.
Proof.
  unfold uses_ok. intros H u Hu.
  assert (Hin : In (TU (tu_name u) (tu_path u) (tu_type u) false (tu_oneof u)) (uses_of (map no_loc_default l))).
  { clear -Hu. induction l as [|[e|u'] l IH]; cbn in *; [destruct Hu | auto|].
    destruct Hu as [<-|Hu]; [left; reflexivity | right; auto]. }
  destruct (H _ Hin) as (vd & Hf & Ha). exists vd. split; [exact Hf|]. cbn [tu_type tu_default tu_oneof] in Ha.
  intros lt Hlt. destruct (Ha lt Hlt) as [H1 H2]. split; [apply allowed_mono; exact H1 | exact H2].
Qed.

Lemma filter_In_nth {A} (f : A -> bool) l a : In a (filter f l) -> exists j, nth_error l j = Some a /\ f a = true.
Proof.
  intro H. apply filter_In in H as [H1 H2]. apply In_nth_error in H1 as [j Hj]. eauto.
Qed.

(* what a translated document looks like: the one selected operation and its parts *)
Lemma to_exec_inv fl d x : to_exec fl None d = Some x ->
  exists jo ss a1 a2 vds a4 o r,
    let opn := Nd KOperationDefinition (ANode ss :: a1 :: a2 :: vds :: a4 :: AEnum o :: r) in
    filter (op_selected None) (doc_defs d) = [opn] /\ nth_error (doc_defs d) jo = Some opn /\
    (if o =? 0 then Some OpQuery else if o =? 1 then Some OpMutation else None) = Some (d_kind x) /\
    all_some (map (vardef_of fl) (attr_list vds)) = Some (d_vars x) /\
    sels_of fl ss = Some (d_sels x) /\
    all_some (map (frag_of fl) (filter is_frag (doc_defs d))) = Some (d_frags x).
Proof.
  unfold to_exec. intro Hx.
  destruct (filter (op_selected None) (doc_defs d)) as [|opn [|n2 l2]] eqn:Ef; try discriminate.
  2:{ exfalso. destruct opn as [ko oattrs]. destruct ko; try discriminate Hx.
      destruct oattrs as [|[|ss| | | |] [|a1 [|a2 [|vds [|a4 [|[| | | | |o] r]]]]]]; discriminate Hx. }
  assert (Hopn : In opn (filter (op_selected None) (doc_defs d))) by (rewrite Ef; cbn; auto).
  apply filter_In_nth in Hopn as (jo & Ej & _).
  destruct opn as [ko oattrs]. destruct ko; try (cbn in Hx; discriminate Hx).
  destruct oattrs as [|[|ss| | | |] [|a1 [|a2 [|vds [|a4 [|[| | | | |o] r]]]]]]; try (cbn in Hx; discriminate Hx).
  destruct (if o =? 0 then Some OpQuery else if o =? 1 then Some OpMutation else None) as [k|] eqn:Ek; [|discriminate].
  destruct (all_some (map (vardef_of fl) (attr_list vds))) as [vars|] eqn:Ev; [|discriminate].
  destruct (sels_of fl ss) as [sels|] eqn:Es; [|discriminate].
  destruct (all_some (map (frag_of fl) (filter is_frag (doc_defs d)))) as [frags|] eqn:Efr; [|discriminate].
  inversion Hx; subst x. exists jo, ss, a1, a2, vds, a4, o, r. cbn. auto 7.
Qed.

(* what a translated fragment definition looks like *)
Lemma frag_of_inv fl n f : frag_of fl n = Some f ->
  exists fss b1 fnm b4 tn rt r sels,
    n = Nd KFragmentDefinition
          (ANode fss :: b1 :: ANode fnm :: AList [] :: b4 :: ANode (Nd KNamedType (ANode tn :: rt)) :: r) /\
    sels_of fl fss = Some sels /\ f = mkFrag (name_str fnm) (name_str tn) sels.
Proof.
  (* one attribute at a time: a single nested pattern makes some thousand cases *)
  destruct n as [k attrs]. destruct k; try discriminate.
  destruct attrs as [|[|fss| | | |] attrs]; try discriminate.
  destruct attrs as [|b1 attrs]; try discriminate.
  destruct attrs as [|[|fnm| | | |] attrs]; try discriminate.
  destruct attrs as [|[| |[|]| | |] attrs]; try discriminate.
  destruct attrs as [|b4 attrs]; try discriminate.
  destruct attrs as [|[|[kt tat]| | | |] r]; try discriminate.
  destruct kt; try discriminate.
  destruct tat as [|[|tn| | | |] rt]; try discriminate. cbn [frag_of].
  destruct (sels_of fl fss) as [sels|] eqn:Es; [|discriminate]. intro H. inversion H.
  exists fss, b1, fnm, b4, tn, rt, r, sels. auto.
Qed.

Section Doc.
  Variable vs : vschema.
  Let s := vs_s vs.
  Variable fl : list N -> Z * N.
  Hypothesis Hinputs : schema_inputs_ok s = true.
  Hypothesis Hsok : schema_ok s = true.
  Hypothesis Hdirs : dirs_std vs = true.
  Hypothesis Himpl : schema_impl_ok s = true.

  Variable d : node.
  Variable x : document.
  Hypothesis Hx : to_exec fl None d = Some x.

  Let fr := frag_conds d.
  (* every definition: no error, every variable usage accepted *)
  Hypothesis Hdefs : forall j n, nth_error (doc_defs d) j = Some n ->
    errs_of (def_evs vs fr [(O, j)] n) = [] /\ uses_ok (d_vars x) (def_evs vs fr [(O, j)] n).

  Lemma is_object_composite rt : is_object s rt = true -> composite_of s (Some rt) = Some rt.
  Proof.
    unfold is_object, composite_of, is_composite. destruct (lookup_type s rt) as [[]|]; try discriminate. reflexivity.
  Qed.

  Theorem doc_static rt :
    root_type s (d_kind x) = Some rt -> is_object s rt = true ->
    sstatic_list s (d_vars x) rt (d_sels x) = true /\
    forallb (sel_dirs_ok s (d_vars x) []) (d_sels x) = true /\
    frags_static s (d_vars x) (d_frags x) = true /\
    forallb (fun f => forallb (sel_dirs_ok s (d_vars x) []) (fr_sels f)) (d_frags x) = true.
  Proof.
    intros Hroot Hobj.
    destruct (to_exec_inv _ _ _ Hx) as (j & ss & a1 & a2 & vds & a4 & o & r & _ & Ej & Ek & _ & Es & Efr).
    cbv zeta in Ej.
    (* the operation: its selection set typed at the root type *)
    destruct (Hdefs j _ Ej) as [He Hu]. cbn [def_evs def_evs_gen] in He, Hu.
    rewrite !errs_of_app in He. apply app_eq_nil in He as [_ He]. apply app_eq_nil in He as [_ He].
    apply uses_ok_app in Hu as [_ Hu]. apply uses_ok_app in Hu as [_ Hu].
    assert (Hr : op_root (vs_s vs) (AEnum o) = Some rt).
    { unfold op_root. fold s.
      destruct (o =? 0) eqn:E0.
      - apply N.eqb_eq in E0. subst o. inversion Ek as [K]. rewrite <- K in Hroot. cbn in Hroot.
        inversion Hroot; subst rt. cbn. rewrite Hobj. reflexivity.
      - destruct (o =? 1) eqn:E1; [|discriminate]. apply N.eqb_eq in E1. subst o. inversion Ek as [K].
        rewrite <- K in Hroot. cbn in Hroot. cbn. rewrite Hroot, Hobj. reflexivity. }
    rewrite Hr in He, Hu.
    destruct (selections_sound vs fl (d_vars x) Hinputs Hsok Hdirs Himpl fr ss) as [HA _].
    destruct (HA _ _ _ rt _ Es (is_object_composite _ Hobj) He Hu) as [H1 H2].
    split; [exact H1|]. split; [exact H2|].
    (* the fragments: each typed at its type condition, which FragmentsOnCompositeTypes makes composite *)
    pose proof (all_some_Forall2 _ _ _ Efr) as H2f.
    assert (Hfrag : forall f, In f (d_frags x) ->
              (match lookup_type s (fr_cond f) with
               | Some td => negb (is_composite_def td) || sstatic_list s (d_vars x) (fr_cond f) (fr_sels f)
               | None => true
               end = true) /\ forallb (sel_dirs_ok s (d_vars x) []) (fr_sels f) = true).
    { intros f Hf. apply In_nth_error in Hf as [i Hi].
      destruct (Forall2_nth_r _ _ _ H2f i _ Hi) as (fn & Efn & Hfo).
      apply nth_error_In in Efn. apply filter_In_nth in Efn as (jf & Ejf & _).
      apply frag_of_inv in Hfo as (fss & b1 & fnm & b4 & tn & rt5 & r5 & fsels & -> & Efs & ->).
      cbn [fr_cond fr_sels].
      destruct (Hdefs jf _ Ejf) as [Hfe Hfu]. cbn [def_evs def_evs_gen] in Hfe, Hfu.
      rewrite errs_of_no_loc in Hfe. apply uses_ok_no_loc in Hfu.
      rewrite !errs_of_app in Hfe. apply app_eq_nil in Hfe as [Hc Hfe]. apply app_eq_nil in Hfe as [_ Hfe].
      apply uses_ok_app in Hfu as [_ Hfu]. apply uses_ok_app in Hfu as [_ Hfu].
      destruct (cond_ok vs _ _ _ Hc) as [Hct Hcc]. rewrite Hct in Hfe, Hfu.
      destruct (selections_sound vs fl (d_vars x) Hinputs Hsok Hdirs Himpl fr fss) as [HAf _].
      destruct (HAf _ _ _ _ fsels Efs Hcc Hfe Hfu) as [G1 G2]. split; [|exact G2].
      destruct (lookup_type s (name_str tn)); [|reflexivity]. unfold sstatic_list. fold s in G1. rewrite G1. apply orb_true_r. }
    split.
    - unfold frags_static. apply forallb_forall. intros f Hf. apply (Hfrag f Hf).
    - apply forallb_forall. intros f Hf. apply (Hfrag f Hf).
  Qed.
End Doc.
