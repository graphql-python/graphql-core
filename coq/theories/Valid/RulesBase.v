(* Generic lemmas for Valid/Rules.v: string equality, mem and lookup, list helpers, the measure
   fresh of the fragment searches, mapi, option lists, induction on trees through the children. *)
From GV Require Import Base.Prelude Base.ListFacts Lang.Ast Valid.Rules.

Lemma streq_eq a b : streq a b = true <-> a = b.
Proof. apply nat_list_eqb_eq. Qed.

Lemma streq_refl a : streq a a = true.
Proof. apply streq_eq. reflexivity. Qed.

Lemma streq_neq a b : streq a b = false <-> a <> b.
Proof. rewrite <- streq_eq. destruct (streq a b); split; congruence. Qed.

Lemma streq_sym a b : streq a b = streq b a.
Proof.
  destruct (streq b a) eqn:E.
  - apply streq_eq. symmetry. apply streq_eq. exact E.
  - apply streq_neq. intro H. apply streq_neq in E. congruence.
Qed.

Lemma mem_In s l : mem s l = true <-> In s l.
Proof.
  induction l as [|x l IH]; cbn; [split; [discriminate | tauto]|].
  rewrite orb_true_iff, IH, streq_eq. split; intros [H|H]; auto.
Qed.

Lemma mem_false s l : mem s l = false <-> ~ In s l.
Proof. rewrite <- mem_In. destruct (mem s l); split; congruence. Qed.

(* lookup finds the first entry of the key *)
Lemma lookup_first {V} s (m : list (str * V)) v :
  lookup s m = Some v <-> exists pre post, m = pre ++ (s, v) :: post /\ ~ In s (map fst pre).
Proof.
  induction m as [|[k v'] m IH]; cbn.
  - split; [discriminate | intros (pre & post & H & _); destruct pre; discriminate].
  - destruct (streq s k) eqn:E.
    + apply streq_eq in E. subst k. split.
      * intro H. inversion H. subst. exists [], m. split; [reflexivity | cbn; tauto].
      * intros (pre & post & H & Hn). destruct pre as [|[k0 v0] pre]; cbn in H; inversion H; subst; [reflexivity|].
        exfalso. apply Hn. cbn. auto.
    + apply streq_neq in E. rewrite IH. split.
      * intros (pre & post & H & Hn). exists ((k, v') :: pre), post. subst. split; [reflexivity|].
        cbn. intros [H|H]; [congruence | auto].
      * intros (pre & post & H & Hn). destruct pre as [|[k0 v0] pre]; cbn in H; inversion H; subst; [congruence|].
        exists pre, post. split; [reflexivity|]. intro H'. apply Hn. cbn. auto.
Qed.

Lemma lookup_Some_In {V} s (m : list (str * V)) v : lookup s m = Some v -> In (s, v) m.
Proof.
  intro H. apply lookup_first in H as (pre & post & -> & _). apply in_app_iff. cbn. auto.
Qed.

Lemma lookup_None {V} s (m : list (str * V)) : lookup s m = None <-> ~ In s (map fst m).
Proof.
  induction m as [|[k v] m IH]; cbn; [tauto|].
  destruct (streq s k) eqn:E.
  - apply streq_eq in E. subst. split; [discriminate | intro H; exfalso; apply H; auto].
  - apply streq_neq in E. rewrite IH. split; intro H; [intros [H'|H']; [congruence | auto] | auto].
Qed.

Lemma nil_iff_no_In {A} (l : list A) : l = [] <-> forall a, ~ In a l.
Proof.
  split; [intros -> a [] | intro H]. destruct l as [|a l]; [reflexivity|]. destruct (H a). cbn. auto.
Qed.

(* a list is duplicate-free when no element occurs in front of itself *)
Lemma NoDup_by_prefix {A} (L : list A) :
  (forall j x, nth_error L j = Some x -> ~ In x (firstn j L)) -> NoDup L.
Proof.
  induction L as [|x L IH] using rev_ind; intro H; [constructor|].
  apply NoDup_snoc.
  - apply IH. intros j y Hj Hin. assert (Hlt : (j < length L)%nat) by (apply nth_error_Some; congruence).
    apply (H j y).
    + rewrite nth_error_app1 by exact Hlt. exact Hj.
    + rewrite firstn_app. apply in_app_iff. left. exact Hin.
  - intro Hin. apply (H (length L) x).
    + rewrite nth_error_app2 by lia. rewrite Nat.sub_diag. reflexivity.
    + rewrite firstn_app, Nat.sub_diag, firstn_all. cbn. rewrite app_nil_r. exact Hin.
Qed.

(* a partial function that keeps a key maps a list with distinct keys to one with distinct keys *)
Lemma flat_map_key_NoDup {A B K} (f : A -> list B) (ka : A -> K) (kb : B -> K) l :
  NoDup (map ka l) ->
  (forall a b, In b (f a) -> f a = [b] /\ kb b = ka a) ->
  NoDup (map kb (flat_map f l)).
Proof.
  induction l as [|a l IH]; intros Hn Hf; cbn; [constructor|].
  inversion Hn as [|? ? Hi Hn']; subst. rewrite map_app. apply NoDup_app_intro.
  - destruct (f a) as [|b r] eqn:Ef; [constructor|].
    destruct (Hf a b) as [E _]; [rewrite Ef; cbn; auto|]. rewrite Ef in E. inversion E; subst.
    repeat constructor. intros [].
  - apply IH; auto.
  - intros x Hx Hx'. apply in_map_iff in Hx as (b & <- & Hb). apply in_map_iff in Hx' as (b' & He & Hb').
    apply in_flat_map in Hb' as (a' & Ha' & Hb'). destruct (Hf a b Hb) as [_ K0]. destruct (Hf a' b' Hb') as [_ K'].
    apply Hi. rewrite <- K0, <- He, K'. apply in_map. exact Ha'.
Qed.

(* the names of a list not yet collected: the measure of the fragment searches *)
Definition fresh (L col : list str) : nat := length (filter (fun n => negb (mem n col)) L).

Lemma fresh_incl L col col' : incl col col' -> (fresh L col' <= fresh L col)%nat.
Proof.
  intro H. unfold fresh. induction L as [|a L IH]; cbn; [lia|].
  destruct (mem a col') eqn:E'; destruct (mem a col) eqn:E; cbn; try lia.
  apply mem_In in E. apply mem_false in E'. destruct (E' (H a E)).
Qed.

Lemma fresh_le L x col : (fresh L (x :: col) <= fresh L col)%nat.
Proof. apply fresh_incl. apply incl_tl, incl_refl. Qed.

Lemma fresh_lt L x col : In x L -> mem x col = false -> (fresh L (x :: col) < fresh L col)%nat.
Proof.
  unfold fresh. induction L as [|a L IH]; [intros []|]. intros Hin Hm.
  pose proof (fresh_le L x col) as Hle. unfold fresh in Hle.
  cbn [filter]. change (mem a (x :: col)) with (streq a x || mem a col).
  destruct (streq a x) eqn:Ea; cbn [orb negb].
  - apply streq_eq in Ea. subst a. rewrite Hm. cbn [negb length]. lia.
  - destruct Hin as [->|Hin]; [rewrite streq_refl in Ea; discriminate|].
    specialize (IH Hin Hm). destruct (mem a col); cbn [negb length]; lia.
Qed.

Lemma fresh_bound L col : (fresh L col <= length L)%nat.
Proof. unfold fresh. induction L as [|a L IH]; cbn; [lia|]. destruct (negb (mem a col)); cbn; lia. Qed.

Lemma fresh_nil L : fresh L [] = length L.
Proof. unfold fresh. induction L; cbn; auto. Qed.

Lemma mapi_from_length {A B} (f : nat -> A -> B) i l : length (mapi_from f i l) = length l.
Proof. revert i; induction l; cbn; auto. Qed.

Lemma nth_error_mapi_from {A B} (f : nat -> A -> B) i l j :
  nth_error (mapi_from f i l) j = option_map (f (i + j)%nat) (nth_error l j).
Proof.
  revert i j; induction l as [|a l IH]; intros i [|j]; cbn; try reflexivity.
  - rewrite Nat.add_0_r. reflexivity.
  - rewrite IH. replace (S i + j)%nat with (i + S j)%nat by lia. reflexivity.
Qed.

Lemma mapi_from_ext {A B} (f g : nat -> A -> B) i l :
  (forall j a, nth_error l j = Some a -> f (i + j)%nat a = g (i + j)%nat a) ->
  mapi_from f i l = mapi_from g i l.
Proof.
  revert i; induction l as [|a l IH]; intros i H; cbn; [reflexivity|].
  f_equal.
  - specialize (H O a eq_refl). rewrite Nat.add_0_r in H. exact H.
  - apply IH. intros j b Hj. specialize (H (S j) b Hj).
    replace (S i + j)%nat with (i + S j)%nat by lia. exact H.
Qed.

Lemma mapi_from_map {A B C} (f : nat -> B -> C) (g : A -> B) i l :
  mapi_from f i (map g l) = mapi_from (fun j a => f j (g a)) i l.
Proof. revert i; induction l; intro i; cbn; [reflexivity | f_equal; auto]. Qed.

Lemma map_mapi_from {A B C} (f : nat -> A -> B) (g : B -> C) i l :
  map g (mapi_from f i l) = mapi_from (fun j a => g (f j a)) i l.
Proof. revert i; induction l; intro i; cbn; [reflexivity | f_equal; auto]. Qed.

Lemma In_mapi_from {A B} (f : nat -> A -> B) i l b :
  In b (mapi_from f i l) <-> exists j a, nth_error l j = Some a /\ b = f (i + j)%nat a.
Proof.
  split.
  - intro H. apply In_nth_error in H as [j Hj]. rewrite nth_error_mapi_from in Hj.
    destruct (nth_error l j) as [a|] eqn:E; [|discriminate]. inversion Hj. eauto.
  - intros (j & a & Hj & ->). apply (nth_error_In _ j). rewrite nth_error_mapi_from, Hj. reflexivity.
Qed.

Lemma nth_error_mapi {A B} (f : nat -> A -> B) l j :
  nth_error (mapi f l) j = option_map (f j) (nth_error l j).
Proof. apply nth_error_mapi_from. Qed.

Lemma In_mapi {A B} (f : nat -> A -> B) l b :
  In b (mapi f l) <-> exists j a, nth_error l j = Some a /\ b = f j a.
Proof. apply In_mapi_from. Qed.

Lemma mapi_ext {A B} (f g : nat -> A -> B) l :
  (forall j a, nth_error l j = Some a -> f j a = g j a) -> mapi f l = mapi g l.
Proof. exact (mapi_from_ext f g O l). Qed.

Lemma mapi_map {A B C} (f : nat -> B -> C) (g : A -> B) l :
  mapi f (map g l) = mapi (fun j a => f j (g a)) l.
Proof. apply mapi_from_map. Qed.

Lemma map_mapi {A B C} (f : nat -> A -> B) (g : B -> C) l :
  map g (mapi f l) = mapi (fun j a => g (f j a)) l.
Proof. apply map_mapi_from. Qed.

Lemma mapi_from_const {A B} (g : A -> B) i l : mapi_from (fun _ a => g a) i l = map g l.
Proof. revert i; induction l; intro i; cbn; [reflexivity | f_equal; auto]. Qed.

Lemma nth_mapi {A B} (f : nat -> A -> list B) l j :
  nth j (mapi f l) [] = match nth_error l j with Some a => f j a | None => [] end.
Proof.
  destruct (nth_error (mapi f l) j) as [x|] eqn:E.
  - rewrite (nth_error_nth _ _ _ E). rewrite nth_error_mapi in E. destruct (nth_error l j); inversion E. reflexivity.
  - rewrite nth_overflow by (apply nth_error_None; exact E).
    rewrite nth_error_mapi in E. destruct (nth_error l j); [discriminate | reflexivity].
Qed.

(* the elements contributed by the members of a list, each with its index *)
Lemma In_concat_mapi {A B} (f : nat -> A -> list B) l b :
  In b (concat (mapi f l)) <-> exists j a, nth_error l j = Some a /\ In b (f j a).
Proof.
  rewrite in_concat. split.
  - intros (x & Hx & Hb). apply In_mapi in Hx as (j & a & Hj & ->). eauto.
  - intros (j & a & Hj & Hb). exists (f j a). split; [apply In_mapi; eauto | exact Hb].
Qed.

Lemma concat_mapi_nil {A B} (f : nat -> A -> list B) l :
  concat (mapi f l) = [] <-> forall j a, nth_error l j = Some a -> f j a = [].
Proof.
  rewrite nil_iff_no_In. split.
  - intros H j a Hj. apply nil_iff_no_In. intros b Hb. apply (H b). apply In_concat_mapi. eauto.
  - intros H b Hb. apply In_concat_mapi in Hb as (j & a & Hj & Hb). rewrite (H j a Hj) in Hb. exact Hb.
Qed.

Lemma opt_concat_total {A} (l : list (option (list A))) :
  (forall o, In o l -> exists x, o = Some x) -> exists es, opt_concat l = Some es.
Proof.
  induction l as [|o l IH]; intro H; cbn; [eauto|].
  destruct (H o (or_introl eq_refl)) as [x ->].
  destruct IH as [es ->]; [intros; apply H; cbn; auto | eauto].
Qed.

Lemma opt_concat_all_nil {A} (l : list (option (list A))) :
  (forall o, In o l -> o = Some []) -> opt_concat l = Some [].
Proof.
  induction l as [|o l IH]; intro H; cbn; [reflexivity|].
  rewrite (H o (or_introl eq_refl)), IH; [reflexivity | intros; apply H; cbn; auto].
Qed.

(* when the concatenation exists every member does, and it is their concatenation *)
Lemma opt_concat_map {A B} (f : A -> option (list B)) l es : opt_concat (map f l) = Some es ->
  (forall a, In a l -> exists x, f a = Some x) /\
  es = flat_map (fun a => match f a with Some x => x | None => [] end) l.
Proof.
  revert es. induction l as [|a l IH]; intros es H; cbn in H.
  - inversion H. split; [intros a [] | reflexivity].
  - destruct (f a) as [y|] eqn:Ef; [|discriminate]. destruct (opt_concat (map f l)) as [z|]; [|discriminate].
    inversion H. destruct (IH z eq_refl) as [Hl ->]. split.
    + intros b [<-|Hb]; eauto.
    + cbn. rewrite Ef. reflexivity.
Qed.

Lemma opt_concat_In {A} (l : list (option (list A))) es e :
  opt_concat l = Some es -> (In e es <-> exists x, In (Some x) l /\ In e x).
Proof.
  intro H. rewrite <- (map_id l) in H. apply opt_concat_map in H as [_ ->]. rewrite in_flat_map. split.
  - intros ([x|] & Hx & He); [eauto | destruct He].
  - intros (x & Hx & He). exists (Some x). auto.
Qed.

Section NodeInd.
  Variable P : node -> Prop.

  Let attr_all (a : attr) : Prop :=
    match a with ANode m => P m | AList l => Forall P l | _ => True end.

  Hypothesis H : forall k attrs,
    (forall i m, nth_error attrs i = Some (ANode m) -> P m) ->
    (forall i l, nth_error attrs i = Some (AList l) -> forall m, In m l -> P m) -> P (Nd k attrs).

  Let step k attrs (F : Forall attr_all attrs) : P (Nd k attrs).
  Proof.
    rewrite Forall_forall in F. apply H.
    - intros i m Hi. exact (F _ (nth_error_In _ _ Hi)).
    - intros i l Hi m Hm. pose proof (F _ (nth_error_In _ _ Hi)) as Fl. cbn in Fl.
      rewrite Forall_forall in Fl. exact (Fl m Hm).
  Qed.

  Fixpoint node_children_ind (n : node) : P n :=
    match n with
    | Nd k attrs =>
      step k attrs
        ((fix go (l : list attr) : Forall attr_all l :=
            match l with
            | [] => Forall_nil _
            | a :: r =>
              Forall_cons a
                (match a as a0 return attr_all a0 with
                 | ANode m => node_children_ind m
                 | AList ms =>
                   (fix gol (ms : list node) : Forall P ms :=
                      match ms with
                      | [] => Forall_nil _
                      | m :: r' => Forall_cons m (node_children_ind m) (gol r')
                      end) ms
                 | _ => I
                 end) (go r)
            end) attrs)
    end.
End NodeInd.
