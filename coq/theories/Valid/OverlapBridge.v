(* From "the field-merge specification function (C14) finds no conflict on the translated
   operation" to the merging clause of C13's typing judgment (StaticTyping.names_agree). *)
From GV Require Import Base.Prelude Exec.Value Exec.Schema Exec.Spec Exec.ValueFacts Exec.Typing
  Valid.StaticTyping Valid.StaticTypingProps Valid.ToOverlap Valid.ToOverlapProps.
From GV Require Valid.Overlap Valid.OverlapProps.
From GV Require Import Valid.OverlapAdequacy Valid.OverlapEquiv Valid.OverlapCollect
  Valid.OverlapGood.

Notation oentry := Overlap.entry.

Section Bridge.
  Variable s : schema.
  Variable vdefs : list var_def.
  Variable frags : list fragment.
  Variable ofr : list Overlap.fragdef.
  Hypothesis Hofr : forall name fr, find_frag name frags = Some fr ->
    exists fd c c', Overlap.find_frag ofr (intern name) = Some fd /\
                    Overlap.fr_type fd = intern (fr_cond fr) /\
                    o_sels c (fr_sels fr) = (Overlap.fr_body fd, c').
  Hypothesis Hfrags : frags_static s vdefs frags = true.

  (* what one selection contributes *)
  Definition HExp (q : N) (h : ohead) (u : oentry) : Prop :=
    match h with
    | HField f sub => u = Overlap.mkEntry q f sub
    | HInline _ tc sub => Exp ofr (match tc with Some t => t | None => q end) sub u
    | HSpread n => exists fd, Overlap.find_frag ofr n = Some fd /\ Exp ofr (Overlap.fr_type fd) (Overlap.fr_body fd) u
    end.

  Lemma hexp_cons q h rest u : HExp q h u -> Exp ofr q (o_cons h rest) u.
  Proof.
    destruct h as [f sub|i tc sub|n]; cbn [HExp o_cons].
    - intros ->. left. cbn. auto.
    - apply Exp_inline_sub.
    - intros (fd & Hf & [Hu|(F & fd' & Hr & Hf' & Hu)]).
      + right. exists n, fd. split; [apply Reach_here; cbn; auto|]. auto.
      + right. exists F, fd'. split; [|auto]. eapply Reach_step; [cbn; left; reflexivity | exact Hf | exact Hr].
  Qed.

  Lemma exp_rest q h rest u : Exp ofr q rest u -> Exp ofr q (o_cons h rest) u.
  Proof.
    destruct h as [f sub|i tc sub|n]; cbn [o_cons];
      [apply Exp_field | apply Exp_inline_rest | apply Exp_spread_rest].
  Qed.

  Lemma exp_member L : forall c O c', o_sels c L = (O, c') -> forall x, In x L ->
    exists cx h cx', o_sel x cx = (h, cx') /\ forall q u, HExp q h u -> Exp ofr q O u.
  Proof.
    induction L as [|y r IH]; intros c O c' H x Hx; [destruct Hx|].
    cbn [o_sels] in H. destruct (o_sel y c) as [h c1] eqn:Ey. destruct (o_sels c1 r) as [orest c2] eqn:Er.
    inversion H; subst. destruct Hx as [<-|Hx].
    - exists c, h, c1. split; [exact Ey|]. intros q u. apply hexp_cons.
    - destruct (IH _ _ _ Er x Hx) as (cx & hx & cx' & Hs & Hl). exists cx, hx, cx'. split; [exact Hs|].
      intros q u Hu. apply exp_rest. apply Hl. exact Hu.
  Qed.

  (* a field reached at run time is a field the specification function collects *)
  Lemma reach_entry rt : is_object s rt = true -> forall L k f, reach s frags rt L k f ->
    forall c O c' pt, o_sels c L = (O, c') -> forallb (sstatic s vdefs pt) L = true ->
      runtime_of_b s pt rt = true ->
    exists u pu al dirs cu cu',
      Exp ofr (intern pt) O u /\ Overlap.e_parent u = intern pu /\ runtime_of_b s pu rt = true /\
      sstatic s vdefs pu (SField al (fs_name f) (fs_args f) dirs (fs_sels f)) = true /\
      Overlap.f_rname (Overlap.e_fld u) = intern k /\ Overlap.f_name (Overlap.e_fld u) = intern (fs_name f) /\
      o_sels cu (fs_sels f) = (Overlap.e_sub u, cu').
  Proof.
    intros Ho L k f H. induction H as [sels al name args dirs sub Hin
                                    | sels tc dirs sub k f Hin Hc Hr IH
                                    | sels name dirs fr k f Hin Hf Hc Hr IH]; intros c O c' pt Hos Hst Hrt.
    - destruct (exp_member _ _ _ _ Hos _ Hin) as (cx & h & cx' & Hs & Hl).
      rewrite o_sel_field in Hs. destruct (o_sels (cx + 1) sub) as [osub c1] eqn:Esub. inversion Hs; subst h cx'.
      rewrite forallb_forall in Hst.
      eexists (Overlap.mkEntry (intern pt) _ osub), pt, al, dirs, (cx + 1), c1.
      split; [apply Hl; cbn; reflexivity|]. cbn [Overlap.e_parent Overlap.e_fld Overlap.e_sub Overlap.f_rname Overlap.f_name fs_name fs_args fs_sels].
      repeat split; auto.
    - destruct (exp_member _ _ _ _ Hos _ Hin) as (cx & h & cx' & Hs & Hl).
      rewrite o_sel_inline in Hs. destruct (o_sels (cx + 1) sub) as [osub c1] eqn:Esub. inversion Hs; subst h cx'.
      rewrite forallb_forall in Hst. pose proof (Hst _ Hin) as Hx. rewrite sstatic_inline in Hx.
      set (pt' := match tc with Some c0 => c0 | None => pt end) in *.
      assert (Hrt' : runtime_of_b s pt' rt = true).
      { unfold pt'. destruct tc as [c0|]; [apply cond_runtime; assumption | exact Hrt]. }
      destruct (IH _ _ _ pt' Esub Hx Hrt') as (u & pu & al & dirs' & cu & cu' & Hu & Hrest).
      exists u, pu, al, dirs', cu, cu'. split; [|exact Hrest].
      apply Hl. cbn [HExp]. unfold pt' in Hu. destruct tc; exact Hu.
    - destruct (exp_member _ _ _ _ Hos _ Hin) as (cx & h & cx' & Hs & Hl).
      rewrite o_sel_spread in Hs. inversion Hs; subst h cx'.
      destruct (Hofr _ _ Hf) as (fd & cf & cf' & Hfind & Hty & Hbody).
      assert (Hin' : In fr frags).
      { clear -Hf. induction frags as [|g r IHr]; cbn in Hf; [discriminate|].
        destruct (str_eqb name (fr_name g)); [inversion Hf; cbn; auto | right; auto]. }
      pose proof (cond_runtime s _ _ Ho Hc) as Hrt'.
      destruct (runtime_composite_def s _ _ Hrt') as (td & Etd & Hcomp).
      pose proof Hfrags as Hfs. unfold frags_static in Hfs. rewrite forallb_forall in Hfs. specialize (Hfs _ Hin').
      rewrite Etd, Hcomp in Hfs. cbn in Hfs.
      destruct (IH _ _ _ (fr_cond fr) Hbody Hfs Hrt') as (u & pu & al & dirs' & cu & cu' & Hu & Hrest).
      exists u, pu, al, dirs', cu, cu'. split; [|exact Hrest].
      apply Hl. cbn [HExp]. exists fd. split; [exact Hfind|]. rewrite Hty. exact Hu.
  Qed.
End Bridge.

Section DSet.
  Variable os : Overlap.schema.
  Variable od : Overlap.document.
  Notation ofr := (Overlap.d_frags od).
  Let chk := Overlap.check_set os ofr (Overlap.collect_fuel od) (Overlap.depth_fuel od).

  Definition DSet (q : N) (t : Overlap.sels) : Prop :=
    InDoc os od q t /\ chk q t = Overlap.VNo /\ Overlap.walk os chk q t = Overlap.VNo.

  Lemma walk_flat : forall t q, InDoc os od q t -> Overlap.walk os chk q t = Overlap.VNo ->
    forall u, In u (flat q t) ->
    exists tu, ft os u = Some tu /\
               (Overlap.e_sub u <> Overlap.SelNil -> DSet (Overlap.named tu) (Overlap.e_sub u)).
  Proof.
    induction t as [|f sub IHsub rest IHrest|iid tc sub IHsub rest IHrest|n rest IHrest];
      intros q Hin Hw u Hu; cbn [flat Overlap.walk] in *.
    - destruct Hu.
    - apply OverlapProps.vjoin_no in Hw as [H1 H2]. destruct Hu as [<-|Hu].
      + unfold ft. cbn [Overlap.e_parent Overlap.e_fld Overlap.e_sub].
        destruct (Overlap.field_type os q (Overlap.f_name f)) as [ty|] eqn:Et; [|discriminate].
        exists ty. split; [reflexivity|].
        intro Hne. split; [eapply ID_field_sub; eauto|].
        destruct sub; [contradiction| | |]; apply OverlapProps.vjoin_no in H1; exact H1.
      + apply (IHrest q); [eapply ID_field_rest; eauto | exact H2 | exact Hu].
    - apply OverlapProps.vjoin_no in Hw as [H1 H2]. apply in_app_or in Hu as [Hu|Hu].
      + destruct (Overlap.is_composite os match tc with Some t0 => t0 | None => q end); [|discriminate].
        apply OverlapProps.vjoin_no in H1 as [_ H1]. apply (IHsub _ (ID_inline_sub _ _ _ _ _ _ _ Hin) H1 u Hu).
      + apply (IHrest q); [eapply ID_inline_rest; eauto | exact H2 | exact Hu].
    - apply (IHrest q); [eapply ID_spread_rest; eauto | exact Hw | exact Hu].
  Qed.

  Hypothesis Hfr : forall fd, In fd ofr -> DSet (Overlap.fr_type fd) (Overlap.fr_body fd).

  Lemma dset_exp q t u : DSet q t -> Exp ofr q t u ->
    exists tu, ft os u = Some tu /\
               (Overlap.e_sub u <> Overlap.SelNil -> DSet (Overlap.named tu) (Overlap.e_sub u)).
  Proof.
    intros (Hi & _ & Hw) [Hu|(F & fd & _ & Hf & Hu)]; [eapply walk_flat; eauto|].
    apply OverlapProps.find_frag_some in Hf as [Hf _]. destruct (Hfr fd Hf) as (Hi' & _ & Hw').
    eapply walk_flat; eauto.
  Qed.

  Hypothesis Hid : forall e e', EntryOk os od e -> EntryOk os od e' ->
    Overlap.f_id (Overlap.e_fld e) = Overlap.f_id (Overlap.e_fld e') -> e = e'.

  Lemma dset_no_conf q t : DSet q t -> ~ SetConf os od q t.
  Proof.
    intros (Hi & Hc & _) Hs. apply (check_set_complete os od Hid q t Hi Hs). exact Hc.
  Qed.
End DSet.

(* the verdict VNo makes every operation and fragment a silent set *)
Lemma verdict_no_sets os od : Overlap.spec_verdict os od = Overlap.VNo ->
  (forall o, In o (Overlap.d_ops od) -> DSet os od (fst o) (snd o)) /\
  (forall fd, In fd (Overlap.d_frags od) -> DSet os od (Overlap.fr_type fd) (Overlap.fr_body fd)).
Proof.
  unfold Overlap.spec_verdict. intro H. apply OverlapProps.vjoin_no in H as [H1 H2].
  set (chk := Overlap.check_set os (Overlap.d_frags od) (Overlap.collect_fuel od) (Overlap.depth_fuel od)) in *.
  split.
  - intros o Ho. pose proof (OverlapProps.fold_vjoin_no (fun o => Overlap.check_root os chk (fst o) (snd o)) _ H1 o Ho) as Hr.
    unfold Overlap.check_root in Hr. destruct (Overlap.is_composite os (fst o)); [|discriminate].
    apply OverlapProps.vjoin_no in Hr as [Ha Hb]. split; [apply ID_op; exact Ho|]. split; assumption.
  - intros fd Hf. pose proof (OverlapProps.fold_vjoin_no (fun fd => Overlap.check_root os chk (Overlap.fr_type fd) (Overlap.fr_body fd)) _ H2 fd Hf) as Hr.
    unfold Overlap.check_root in Hr. destruct (Overlap.is_composite os (Overlap.fr_type fd)); [|discriminate].
    apply OverlapProps.vjoin_no in Hr as [Ha Hb]. split; [apply ID_frag; exact Hf|]. split; assumption.
Qed.

Section Height.
  Variable frags : list fragment.

  Fixpoint hb (n : nat) (L : list selection) : Prop :=
    match n with
    | O => L = []
    | S m => forall x, In x L ->
        match x with
        | SField _ _ _ _ sub => hb m sub
        | SInline _ _ sub => hb m sub
        | SSpread name _ => forall fr, find_frag name frags = Some fr -> hb m (fr_sels fr)
        end
    end.

  Lemma hb_nil n : hb n [].
  Proof. destruct n; cbn; [reflexivity | intros x []]. Qed.

  Lemma hb_mono n : forall L, hb n L -> hb (S n) L.
  Proof.
    induction n as [|m IH]; intros L H.
    - cbn in H. subst L. apply hb_nil.
    - cbn [hb] in *. intros x Hx. specialize (H x Hx).
      destruct x as [al nm args dirs sub|nm dirs|tc dirs sub]; [apply IH; exact H | | apply IH; exact H].
      intros fr Hf. apply IH. apply H. exact Hf.
  Qed.

  Lemma hb_le n m L : (n <= m)%nat -> hb n L -> hb m L.
  Proof. induction 1 as [|m' Hle IH]; [auto | intro Hn; apply hb_mono; auto]. Qed.

  Lemma hb_app n L1 L2 : hb n L1 -> hb n L2 -> hb n (L1 ++ L2).
  Proof.
    destruct n; cbn [hb].
    - intros -> ->. reflexivity.
    - intros H1 H2 x Hx. apply in_app_iff in Hx as [Hx|Hx]; [apply H1; exact Hx | apply H2; exact Hx].
  Qed.

  Lemma hb_concat n Ls : (forall L, In L Ls -> hb n L) -> hb n (concat Ls).
  Proof.
    induction Ls as [|L Ls IH]; intro H; cbn; [apply hb_nil|].
    apply hb_app; [apply H; cbn; auto | apply IH; intros; apply H; cbn; auto].
  Qed.

  Lemma hb_sub n L L' : (forall x, In x L' -> In x L) -> hb n L -> hb n L'.
  Proof.
    destruct n; cbn [hb]; intros Hi H.
    - subst L. destruct L' as [|x r]; [reflexivity | destruct (Hi x (or_introl eq_refl))].
    - intros x Hx. apply H. apply Hi. exact Hx.
  Qed.

  Lemma reach_nil s rt k f : ~ reach s frags rt [] k f.
  Proof. intro H. inversion H; subst; match goal with H0 : In _ [] |- _ => destruct H0 end. Qed.

  Lemma reach_hb s rt L k f : reach s frags rt L k f -> forall m, hb (S m) L -> hb m (fs_sels f).
  Proof.
    induction 1 as [sels al name args dirs sub Hin
                   | sels tc dirs sub k f Hin Hc Hr IH
                   | sels name dirs fr k f Hin Hf Hc Hr IH]; intros m H; cbn [hb] in H.
    - exact (H _ Hin).
    - pose proof (H _ Hin) as Hs. cbn in Hs. destruct m as [|m'].
      + cbn in Hs. subst sub. exfalso. eapply reach_nil; eauto.
      + apply hb_mono. apply IH. exact Hs.
    - pose proof (H _ Hin fr Hf) as Hs. destruct m as [|m'].
      + cbn in Hs. rewrite Hs in Hr. exfalso. eapply reach_nil; eauto.
      + apply hb_mono. apply IH. exact Hs.
  Qed.

  Lemma reach_incl s rt L L' k f : (forall x, In x L -> In x L') -> reach s frags rt L k f -> reach s frags rt L' k f.
  Proof.
    intros Hi H. inversion H; subst.
    - apply r_field with dirs. auto.
    - eapply r_inline; eauto.
    - eapply r_spread; eauto.
  Qed.

  Lemma reach_concat s rt Ls k f : reach s frags rt (concat Ls) k f -> exists L, In L Ls /\ reach s frags rt L k f.
  Proof.
    intro H. inversion H; subst.
    - apply in_concat in H0 as (L & HL & Hx). exists L. split; [exact HL|]. apply r_field with dirs. exact Hx.
    - apply in_concat in H0 as (L & HL & Hx). exists L. split; [exact HL|]. eapply r_inline; eauto.
    - apply in_concat in H0 as (L & HL & Hx). exists L. split; [exact HL|]. eapply r_spread; eauto.
  Qed.
End Height.

Section Names.
  Variable s : schema.
  Variable vdefs : list var_def.
  Variable frags : list fragment.
  Variable od : Overlap.document.
  Notation os := (o_schema s).
  Notation ofr := (Overlap.d_frags od).
  Hypothesis Hofr : forall name fr, find_frag name frags = Some fr ->
    exists fd c c', Overlap.find_frag ofr (intern name) = Some fd /\
                    Overlap.fr_type fd = intern (fr_cond fr) /\
                    o_sels c (fr_sels fr) = (Overlap.fr_body fd, c').
  Hypothesis Hfrags : frags_static s vdefs frags = true.
  Hypothesis Himpl : schema_impl_ok s = true.
  Hypothesis Hfr : forall fd, In fd ofr -> DSet os od (Overlap.fr_type fd) (Overlap.fr_body fd).
  Hypothesis Hid : forall e e', EntryOk os od e -> EntryOk os od e' ->
    Overlap.f_id (Overlap.e_fld e) = Overlap.f_id (Overlap.e_fld e') -> e = e'.

  Record piece := PC { pc_sels : list selection; pc_pt : str; pc_o : Overlap.sels }.

  Definition piece_ok (rt : str) (pc : piece) : Prop :=
    (exists c c', o_sels c (pc_sels pc) = (pc_o pc, c')) /\
    forallb (sstatic s vdefs (pc_pt pc)) (pc_sels pc) = true /\
    runtime_of_b s (pc_pt pc) rt = true /\
    DSet os od (intern (pc_pt pc)) (pc_o pc).

  Definition pc_exp (pc : piece) (u : oentry) : Prop := Exp ofr (intern (pc_pt pc)) (pc_o pc) u.

  Definition pieces_good (P : list piece) : Prop :=
    forall p1 p2 u v, In p1 P -> In p2 P -> pc_exp p1 u -> pc_exp p2 v ->
      Overlap.same_rname u v = true -> Good os od u v.

  (* two static parents with a common runtime type are not different object types *)
  Lemma not_exclusive rt pu pv (u v : oentry) :
    Overlap.e_parent u = intern pu -> Overlap.e_parent v = intern pv ->
    runtime_of_b s pu rt = true -> runtime_of_b s pv rt = true ->
    excl_of os false u v = false.
  Proof.
    intros Hu Hv Ru Rv. unfold excl_of. rewrite Hu, Hv, !is_object_o. cbn [orb].
    destruct (is_object s pu) eqn:Ou; [|rewrite andb_false_r; reflexivity].
    destruct (is_object s pv) eqn:Ov; [|rewrite andb_false_r; reflexivity].
    assert (Hobj : forall p, is_object s p = true -> runtime_of_b s p rt = true -> rt = p).
    { intros p Hp Hr. destruct (runtime_cases s _ _ Hr) as [[_ E]|[_ Hposs]]; [exact E|].
      exfalso. unfold possible, is_object in *. destruct (lookup_type s p) as [[]|]; discriminate. }
    rewrite <- (Hobj pu Ou Ru), <- (Hobj pv Ov Rv), N.eqb_refl. reflexivity.
  Qed.

  (* what a reached field is on the other side *)
  Lemma reached rt pc k f : is_object s rt = true -> piece_ok rt pc -> reach s frags rt (pc_sels pc) k f ->
    exists u pu al dirs cu cu' tu,
      pc_exp pc u /\ Overlap.e_parent u = intern pu /\ runtime_of_b s pu rt = true /\
      sstatic s vdefs pu (SField al (fs_name f) (fs_args f) dirs (fs_sels f)) = true /\
      Overlap.f_rname (Overlap.e_fld u) = intern k /\ Overlap.f_name (Overlap.e_fld u) = intern (fs_name f) /\
      o_sels cu (fs_sels f) = (Overlap.e_sub u, cu') /\
      ft os u = Some tu /\
      (Overlap.e_sub u <> Overlap.SelNil -> DSet os od (Overlap.named tu) (Overlap.e_sub u)).
  Proof.
    intros Ho ((c & c' & Hos) & Hst & Hrt & Hds) Hr.
    destruct (reach_entry s vdefs frags ofr Hofr Hfrags rt Ho _ _ _ Hr _ _ _ _ Hos Hst Hrt)
      as (u & pu & al & dirs & cu & cu' & Hu & Hp & Hrp & Hss & Hrn & Hn & Hsub).
    destruct (dset_exp os od Hfr _ _ u Hds Hu) as (tu & Htu & Hd).
    exists u, pu, al, dirs, cu, cu', tu. unfold pc_exp. repeat (split; [assumption|]). exact Hd.
  Qed.

  Lemma reached_same_name rt k pc1 pc2 f1 f2 :
    is_object s rt = true -> piece_ok rt pc1 -> piece_ok rt pc2 ->
    (forall u v, pc_exp pc1 u -> pc_exp pc2 v -> Overlap.same_rname u v = true -> Good os od u v) ->
    reach s frags rt (pc_sels pc1) k f1 -> reach s frags rt (pc_sels pc2) k f2 ->
    fs_name f1 = fs_name f2.
  Proof.
    intros Ho Ok1 Ok2 Hgood R1 R2.
    destruct (reached rt pc1 k f1 Ho Ok1 R1) as (u & pu & al1 & d1 & cu & cu' & tu & Eu & Pu & Ru & _ & Nu & Fu & _ & Tu & _).
    destruct (reached rt pc2 k f2 Ho Ok2 R2) as (v & pv & al2 & d2 & cv & cv' & tv & Ev & Pv & Rv & _ & Nv & Fv & _ & Tv & _).
    assert (Hrn : Overlap.same_rname u v = true) by (unfold Overlap.same_rname; rewrite Nu, Nv; apply N.eqb_refl).
    assert (Hex : excl_of os false u v = false) by (eapply not_exclusive; eauto).
    assert (Hex' : excl_of os false v u = false) by (eapply not_exclusive; eauto).
    apply intern_inj. rewrite <- Fu, <- Fv.
    destruct (Hgood u v Eu Ev Hrn) as [->|[Hc|Hc]]; [reflexivity| |].
    - eapply good_names; eauto.
    - symmetry. eapply good_names; eauto.
  Qed.

  Lemma o_sels_nonnil c L O c' : o_sels c L = (O, c') -> L <> [] -> O <> Overlap.SelNil.
  Proof.
    destruct L as [|y r]; [contradiction|]. intros H _. cbn [o_sels] in H.
    destruct (o_sel y c) as [h c1]. destruct (o_sels c1 r) as [orest c2]. inversion H.
    destruct h; discriminate.
  Qed.

  Theorem names_from_pieces n : forall rt P, is_object s rt = true ->
    (forall pc, In pc P -> piece_ok rt pc) -> pieces_good P ->
    hb frags n (concat (map pc_sels P)) ->
    names_agree s frags rt (concat (map pc_sels P)).
  Proof.
    induction n as [|n IH]; intros rt P Ho Hok Hgood Hh.
    { cbn in Hh. rewrite Hh. constructor.
      - intros k f1 f2 H. exfalso. eapply reach_nil; eauto.
      - intros k fs f1 fd rt' Hall Hin. exfalso. eapply reach_nil. apply (Hall _ Hin). }
    (* every reached field, as seen by the specification function *)
    assert (Hreach : forall k f, reach s frags rt (concat (map pc_sels P)) k f ->
              exists pc, In pc P /\ reach s frags rt (pc_sels pc) k f).
    { intros k f H. apply reach_concat in H as (L & HL & H). apply in_map_iff in HL as (pc & <- & Hpc). eauto. }
    constructor.
    - (* one response key, one field name *)
      intros k f1 f2 H1 H2.
      destruct (Hreach _ _ H1) as (p1 & Hp1 & R1). destruct (Hreach _ _ H2) as (p2 & Hp2 & R2).
      exact (reached_same_name rt k p1 p2 f1 f2 Ho (Hok _ Hp1) (Hok _ Hp2) (fun u v => Hgood p1 p2 u v Hp1 Hp2) R1 R2).
    - (* the merged sub-selections *)
      intros k fs f1 fd rt' Hall Hin1 Hfd Hrt'.
      assert (Ho' : is_object s rt' = true) by (eapply runtime_object; eauto).
      (* a piece for every field with a sub-selection *)
      assert (Hpieces : forall f, In f fs -> fs_sels f <> [] ->
                exists pc u, pc_sels pc = fs_sels f /\ piece_ok rt' pc /\ hb frags n (pc_sels pc) /\
                  (exists p0, In p0 P /\ pc_exp p0 u) /\ Overlap.f_rname (Overlap.e_fld u) = intern k /\
                  (exists pu, Overlap.e_parent u = intern pu /\ runtime_of_b s pu rt = true) /\
                  (exists tu, ft os u = Some tu /\ intern (pc_pt pc) = Overlap.named tu) /\
                  pc_o pc = Overlap.e_sub u).
      { intros f Hf Hne. destruct (Hreach _ _ (Hall _ Hf)) as (p0 & Hp0 & R0).
        destruct (reached rt p0 k f Ho (Hok _ Hp0) R0)
          as (u & pu & al & dirs & cu & cu' & tu & Eu & Pu & Ru & Su & Nu & Fu & Osub & Tu & Du).
        destruct f as [name args sub]. cbn [fs_name fs_args fs_sels] in *.
        destruct (field_transfer s vdefs Himpl _ _ _ _ _ _ _ Ru Su) as [_ Hex].
        assert (Ht : str_eqb name n_typename = false).
        { destruct (str_eqb name n_typename) eqn:Et; [|reflexivity]. exfalso.
          rewrite sstatic_field, Et in Su. apply andb_true_iff in Su as [_ Su]. apply is_nil_true in Su. contradiction. }
        destruct (Hex Ht) as (fi & fo & Ei & Eo & Hout & Hsub).
        (* all fields of the group have f1's name, so fo is the field of rt' *)
        assert (Hname : name = fs_name f1).
        { destruct (Hreach _ _ (Hall _ Hin1)) as (p1 & Hp1 & R1).
          exact (reached_same_name rt k p0 p1 (mkFS name args sub) f1 Ho (Hok _ Hp0) (Hok _ Hp1) (fun u v => Hgood p0 p1 u v Hp0 Hp1) R0 R1). }
        rewrite Hname, Hfd in Eo. inversion Eo; subst fo.
        assert (Htu : tu = o_ty (f_type fi)).
        { unfold ft in Tu. rewrite Pu, Fu, field_type_o, Ht, Ei in Tu. cbn in Tu. congruence. }
        assert (Hon : Overlap.e_sub u <> Overlap.SelNil) by (eapply o_sels_nonnil; eauto).
        exists (PC sub (named_of (f_type fi)) (Overlap.e_sub u)), u. cbn [pc_sels pc_pt pc_o].
        split; [reflexivity|]. split.
        { unfold piece_ok. cbn [pc_sels pc_pt pc_o].
          split; [eauto|]. split; [apply Hsub; exact Hne|]. split; [eapply out_compat_runtime; eauto|].
          rewrite <- named_o_ty, <- Htu. apply Du. exact Hon. }
        assert (Hhp : hb frags (S n) (pc_sels p0)).
        { apply (hb_sub frags (S n) (concat (map pc_sels P))); [|exact Hh].
          intros x0 Hx0. apply in_concat. exists (pc_sels p0). split; [apply in_map; exact Hp0 | exact Hx0]. }
        split; [exact (reach_hb frags s rt _ k (mkFS name args sub) R0 n Hhp)|].
        split; [eauto|]. split; [exact Nu|]. split; [eauto|]. split; [|reflexivity].
        exists tu. split; [exact Tu|]. rewrite Htu, named_o_ty. reflexivity. }
      set (Q := fun pc : piece => exists u,
                  piece_ok rt' pc /\ hb frags n (pc_sels pc) /\
                  (exists p0, In p0 P /\ pc_exp p0 u) /\ Overlap.f_rname (Overlap.e_fld u) = intern k /\
                  (exists pu, Overlap.e_parent u = intern pu /\ runtime_of_b s pu rt = true) /\
                  (exists tu, ft os u = Some tu /\ intern (pc_pt pc) = Overlap.named tu) /\
                  pc_o pc = Overlap.e_sub u).
      assert (HP : forall l, incl l fs -> exists P', concat (map pc_sels P') = flat_map fs_sels l /\ Forall Q P').
      { induction l as [|f l IHl]; intro Hi; [exists []; split; [reflexivity | constructor]|].
        destruct IHl as (P' & Hc & HQ); [intros z Hz; apply Hi; right; exact Hz|].
        cbn [flat_map]. destruct (fs_sels f) as [|y0 r0] eqn:Ef.
        - exists P'. split; [exact Hc | exact HQ].
        - destruct (Hpieces f (Hi f (or_introl eq_refl))) as (pc & u & Hs & Hrest); [rewrite Ef; discriminate|].
          exists (pc :: P'). split; [cbn; rewrite Hs, Ef, Hc; reflexivity|]. constructor; [|exact HQ].
          exists u. rewrite Hs in Hrest. rewrite Hs. exact Hrest. }
      destruct (HP fs (incl_refl _)) as (P' & Hconcat & HQ). rewrite Forall_forall in HQ.
      unfold merged_sels. rewrite <- Hconcat. apply IH; [exact Ho'| | |].
      + intros pc Hpc. destruct (HQ pc Hpc) as (u & Hk & _). exact Hk.
      + intros pc1 pc2 x y H1 H2 Hx Hy Hr.
        destruct (HQ pc1 H1) as (u1 & Ok1 & _ & (p01 & Hp01 & E1) & N1 & (pu1 & Pu1 & Ru1) & (tu1 & T1 & I1) & O1).
        destruct (HQ pc2 H2) as (u2 & Ok2 & _ & (p02 & Hp02 & E2) & N2 & (pu2 & Pu2 & Ru2) & (tu2 & T2 & I2) & O2).
        unfold pc_exp in Hx, Hy. rewrite I1, O1 in Hx. rewrite I2, O2 in Hy.
        assert (Hrn : Overlap.same_rname u1 u2 = true) by (unfold Overlap.same_rname; rewrite N1, N2; apply N.eqb_refl).
        assert (Hx1 : excl_of os false u1 u2 = false) by (eapply not_exclusive; eauto).
        assert (Hx2 : excl_of os false u2 u1 = false) by (eapply not_exclusive; eauto).
        destruct (Hgood p01 p02 u1 u2 Hp01 Hp02 E1 E2 Hrn) as [Heq|[Hc|Hc]].
        * subst u2. rewrite T1 in T2. inversion T2; subst tu2.
          destruct Ok1 as (_ & _ & _ & Hd). rewrite I1, O1 in Hd.
          apply (set_good os od _ _ (dset_no_conf os od Hid _ _ Hd) x y Hx Hy Hr).
        * exact (children_good os od u1 u2 tu1 tu2 Hc T1 T2 Hx1 x y Hx Hy Hr).
        * apply Good_sym. apply (children_good os od u2 u1 tu2 tu1 Hc T2 T1 Hx2 y x Hy Hx).
          rewrite OverlapProps.same_rname_sym. exact Hr.
      + apply hb_concat. intros L HL. apply in_map_iff in HL as (pc & <- & Hpc).
        destruct (HQ pc Hpc) as (u & _ & Hh' & _). exact Hh'.
  Qed.
End Names.

Lemma o_frags_find l : forall c ofr c' name fr,
  o_frags c l = (ofr, c') -> find_frag name l = Some fr ->
  exists fd cb cb', Overlap.find_frag ofr (intern name) = Some fd /\
                    Overlap.fr_type fd = intern (fr_cond fr) /\
                    o_sels cb (fr_sels fr) = (Overlap.fr_body fd, cb').
Proof.
  induction l as [|f l IH]; intros c ofr c' name fr H Hf; [discriminate|].
  cbn [o_frags] in H. destruct (o_sels c (fr_sels f)) as [body c1] eqn:Eb.
  destruct (o_frags c1 l) as [rest c2] eqn:Er. inversion H; subst. cbn [find_frag] in Hf.
  unfold Overlap.find_frag. cbn [find Overlap.fr_name]. rewrite intern_eqb, (str_eqb_sym (fr_name f) name).
  destruct (str_eqb name (fr_name f)).
  - inversion Hf; subst. eexists _, c, c1. split; [reflexivity|]. split; [reflexivity | exact Eb].
  - apply (IH _ _ _ _ _ Er Hf).
Qed.

(* no conflict found by the specification function on the translated operation => the merging
   clause of the typing judgment *)
Theorem overlap_names_agree s (x : document) rt n :
  schema_impl_ok s = true ->
  frags_static s (d_vars x) (d_frags x) = true -> sstatic_list s (d_vars x) rt (d_sels x) = true ->
  is_object s rt = true ->
  overlap_verdict s rt x = Overlap.VNo ->
  Overlap.nodupb (Overlap.doc_fids (o_doc rt x)) = true ->
  hb (d_frags x) n (d_sels x) ->
  names_agree s (d_frags x) rt (d_sels x).
Proof.
  intros Himpl Hfr Hst Ho Hv Hids Hh. unfold overlap_verdict in Hv.
  unfold o_doc in *. destruct (o_sels 1 (d_sels x)) as [osels c1] eqn:Es.
  destruct (o_frags c1 (d_frags x)) as [ofr c2] eqn:Ef.
  set (od := Overlap.mkDoc [(intern rt, osels)] ofr) in *.
  destruct (verdict_no_sets _ _ Hv) as [Hops Hfrs].
  pose proof (unique_ids_identify (o_schema s) od Hids) as Hid.
  assert (Hofr : forall name fr, find_frag name (d_frags x) = Some fr ->
            exists fd c c', Overlap.find_frag (Overlap.d_frags od) (intern name) = Some fd /\
                            Overlap.fr_type fd = intern (fr_cond fr) /\
                            o_sels c (fr_sels fr) = (Overlap.fr_body fd, c')).
  { intros name fr H. apply (o_frags_find _ _ _ _ _ _ Ef H). }
  set (root := PC (d_sels x) rt osels).
  assert (Hroot : piece_ok s (d_vars x) od rt root).
  { unfold piece_ok, root. cbn [pc_sels pc_pt pc_o]. split; [eauto|]. split; [exact Hst|]. split.
    - unfold runtime_of_b. rewrite Ho, str_eqb_refl. reflexivity.
    - apply (Hops (intern rt, osels)). cbn. auto. }
  pose proof (names_from_pieces s (d_vars x) (d_frags x) od Hofr Hfr Himpl Hfrs Hid n rt [root] Ho) as H.
  cbn [map concat pc_sels root] in H. rewrite app_nil_r in H. apply H.
  - intros pc [<-|[]]. exact Hroot.
  - intros p1 p2 u v [<-|[]] [<-|[]] Hu Hv' Hr.
    destruct Hroot as (_ & _ & _ & Hd).
    apply (set_good (o_schema s) od _ _ (dset_no_conf _ od Hid _ _ Hd) u v Hu Hv' Hr).
  - exact Hh.
Qed.
