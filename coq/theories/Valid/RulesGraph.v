(* Fragment table and the work list of get_recursively_referenced_fragments (Valid/Rules.refs):
   fuel is always sufficient; the result is exactly the set of fragments reachable through
   fragment spreads (RulesSpec.Reach), each once. *)
From GV Require Import Base.Prelude Base.ListFacts Lang.Ast Valid.Rules Valid.RulesBase Valid.RulesSpec.

Lemma get_fragment_Some fs s f : get_fragment fs s = Some f -> In f fs /\ f_name f = s.
Proof.
  induction fs as [|g fs IH]; cbn; [discriminate|].
  destruct (get_fragment fs s) as [h|] eqn:E.
  - intro H. inversion H; subst. destruct (IH eq_refl). auto.
  - destruct (streq s (f_name g)) eqn:Es; [|discriminate].
    intro H. inversion H; subst. apply streq_eq in Es. auto.
Qed.

Lemma get_fragment_None fs s : get_fragment fs s = None <-> ~ Defined fs s.
Proof.
  unfold Defined. induction fs as [|g fs IH]; cbn.
  - split; [intros _ (f & [] & _) | reflexivity].
  - destruct (get_fragment fs s) as [h|] eqn:E.
    + split; [discriminate|]. intro H. exfalso. apply H. apply get_fragment_Some in E as [E1 E2].
      exists h. auto.
    + destruct (streq s (f_name g)) eqn:Es.
      * apply streq_eq in Es. split; [discriminate|]. intro H. exfalso. apply H. exists g. auto.
      * apply streq_neq in Es. split; [|reflexivity]. intros _ (f & [<-|Hf] & Hn); [congruence|].
        apply (proj1 IH eq_refl). exists f. auto.
Qed.

Lemma get_fragment_defined fs s : Defined fs s -> exists f, get_fragment fs s = Some f.
Proof.
  intro H. destruct (get_fragment fs s) eqn:E; [eauto|]. apply get_fragment_None in E. contradiction.
Qed.

(* with unique fragment names a name resolves to THE definition of that name *)
Lemma resolves_unique fs s f : NoDup (map f_name fs) ->
  (Resolves fs s f <-> In f fs /\ f_name f = s).
Proof.
  unfold Resolves. intro Hnd. split; [apply get_fragment_Some|]. intros [Hin Hn].
  induction fs as [|g fs IH]; [destruct Hin|]. cbn in *. inversion Hnd as [|? ? Hg Hnd']; subst.
  destruct Hin as [<-|Hin].
  - destruct (get_fragment fs (f_name g)) eqn:E.
    + apply get_fragment_Some in E as [E1 E2]. exfalso. apply Hg. rewrite <- E2. apply in_map. exact E1.
    + rewrite streq_refl. reflexivity.
  - rewrite (IH Hnd' Hin). reflexivity.
Qed.

Lemma refs_step_measure fs sps : forall col acc push col' acc' push',
  refs_step fs sps (col, acc, push) = (col', acc', push') ->
  (length push' + fresh (map f_name fs) col' <= length push + fresh (map f_name fs) col)%nat.
Proof.
  induction sps as [|s r IH]; intros col acc push col' acc' push' H; cbn in H.
  - inversion H; subst. lia.
  - destruct (mem (sp_name s) col) eqn:Em; [eapply IH; eauto|].
    destruct (get_fragment fs (sp_name s)) as [f|] eqn:Eg.
    + apply IH in H. rewrite app_length in H. cbn in H.
      apply get_fragment_Some in Eg as [Hin Hn].
      assert (Hdef : In (sp_name s) (map f_name fs)) by (rewrite <- Hn; apply in_map; exact Hin).
      pose proof (fresh_lt (map f_name fs) (sp_name s) col Hdef Em). lia.
    + apply IH in H. pose proof (fresh_le (map f_name fs) (sp_name s) col). lia.
Qed.

Lemma refs_loop_total fuel fs : forall stack col acc,
  (length stack + fresh (map f_name fs) col < fuel)%nat ->
  exists r, refs_loop fuel fs stack col acc = Some r.
Proof.
  induction fuel as [|fuel IH]; intros stack col acc H; [lia|].
  cbn. destruct stack as [|sps stack]; [eauto|].
  destruct (refs_step fs sps (col, acc, [])) as [[col' acc'] push] eqn:Es.
  apply IH. apply refs_step_measure in Es. rewrite app_length, rev_length. cbn in *. lia.
Qed.

Theorem refs_total fs start : exists r, refs fs start = Some r.
Proof.
  unfold refs, refs_fuel. apply refs_loop_total. rewrite fresh_nil, map_length. cbn. lia.
Qed.

Section Reach.
  Variable fs : list fraginfo.
  Variable start : list spread.

  Definition origin (s : spread) : Prop :=
    In s start \/ exists g, Reach fs start g /\ In s (f_spreads g).

  Lemma origin_reach s f : origin s -> Resolves fs (sp_name s) f -> Reach fs start f.
  Proof.
    intros [Hs|(g & Hg & Hs)] Hr; [eapply Reach_start; eauto | eapply Reach_step; eauto].
  Qed.

  (* pend: the spreads still to be looked at (the popped set's remainder and the stack's sets) *)
  Record Inv (pend : list spread) (col : list str) (acc : list fraginfo) : Prop := {
    inv_sound : forall f, In f acc -> Reach fs start f;
    inv_pend : forall s, In s pend -> origin s;
    inv_col : forall s f, In s col -> Resolves fs s f -> In f acc;
    inv_todo : forall s, (In s start \/ exists g, In g acc /\ In s (f_spreads g)) ->
                         In s pend \/ In (sp_name s) col;
    inv_names : forall f, In f acc -> In (f_name f) col;
    inv_nodup : NoDup (map f_name acc)
  }.

  Lemma Inv_equiv P P' col acc : (forall x, In x P <-> In x P') -> Inv P col acc -> Inv P' col acc.
  Proof.
    intros He [Hsound Hpend Hcol Htodo Hnames Hnodup]. constructor; auto.
    - intros s Hs. apply Hpend, He, Hs.
    - intros s Hs. destruct (Htodo s Hs) as [Ha|Hc]; [left; apply He, Ha | auto].
  Qed.

  (* the three things that happen to the spread at the head: its name was collected before *)
  Lemma Inv_seen s P col acc : In (sp_name s) col -> Inv (s :: P) col acc -> Inv P col acc.
  Proof.
    intros Hc [Hsound Hpend Hcol Htodo Hnames Hnodup]. constructor; auto.
    - intros s' Hs'. apply Hpend. right. exact Hs'.
    - intros s' Hs'. destruct (Htodo s' Hs') as [[<-|Ha]|Hd]; auto.
  Qed.

  (* ... it names no fragment: the name is collected *)
  Lemma Inv_undefined s P col acc : get_fragment fs (sp_name s) = None ->
    Inv (s :: P) col acc -> Inv P (sp_name s :: col) acc.
  Proof.
    intros Hg [Hsound Hpend Hcol Htodo Hnames Hnodup]. constructor; auto.
    - intros s' Hs'. apply Hpend. right. exact Hs'.
    - intros n f [<-|Hn] Hr; [unfold Resolves in Hr; congruence | eauto].
    - intros s' Hs'. destruct (Htodo s' Hs') as [[<-|Ha]|Hd]; cbn; auto.
    - intros f Hf. right. auto.
  Qed.

  (* ... it resolves to f and is new: f is recorded, its spreads become pending *)
  Lemma Inv_found s f P col acc : ~ In (sp_name s) col -> get_fragment fs (sp_name s) = Some f ->
    Inv (s :: P) col acc -> Inv (P ++ f_spreads f) (sp_name s :: col) (acc ++ [f]).
  Proof.
    intros Hn Hg HI.
    assert (Hrf : Reach fs start f) by (apply (origin_reach s); [apply (inv_pend _ _ _ HI); left; reflexivity | exact Hg]).
    pose proof (get_fragment_Some _ _ _ Hg) as [_ Hfn].
    destruct HI as [Hsound Hpend Hcol Htodo Hnames Hnodup]. constructor.
    - intros f' Hf'. apply in_app_iff in Hf' as [Hf'|[<-|[]]]; auto.
    - intros s' Hs'. apply in_app_iff in Hs' as [Hs'|Hs']; [apply Hpend; right; exact Hs' | right; exists f; auto].
    - intros n f' [<-|Hn'] Hr; apply in_app_iff.
      + right. unfold Resolves in Hr. rewrite Hg in Hr. inversion Hr. left. reflexivity.
      + left. eauto.
    - intros s' Hs'. rewrite in_app_iff.
      assert (Hold : (In s' start \/ exists g, In g acc /\ In s' (f_spreads g)) \/ In s' (f_spreads f)).
      { destruct Hs' as [Hs'|(g & Hg' & Hs')]; [auto|].
        apply in_app_iff in Hg' as [Hg'|[<-|[]]]; [left; right; eauto | auto]. }
      destruct Hold as [Hold|Hnew]; [|auto].
      destruct (Htodo s' Hold) as [[<-|Ha]|Hd]; cbn; auto.
    - intros f' Hf'. apply in_app_iff in Hf' as [Hf'|[<-|[]]]; cbn; auto.
    - rewrite map_app. cbn [map]. apply NoDup_snoc; [exact Hnodup|].
      intro Hin. apply Hn. rewrite <- Hfn. apply in_map_iff in Hin as (g & Hg1 & Hg2).
      rewrite <- Hg1. apply Hnames. exact Hg2.
  Qed.

  (* Q: the spreads of the sets below on the stack *)
  Lemma refs_step_inv sps : forall col acc push Q col' acc' push',
    refs_step fs sps (col, acc, push) = (col', acc', push') ->
    Inv (sps ++ concat push ++ Q) col acc -> Inv (concat push' ++ Q) col' acc'.
  Proof.
    induction sps as [|s r IH]; intros col acc push Q col' acc' push' H HI; cbn in H.
    - inversion H; subst. exact HI.
    - destruct (mem (sp_name s) col) eqn:Em.
      + apply (IH _ _ _ Q _ _ _ H). apply (Inv_seen s); [apply mem_In; exact Em | exact HI].
      + apply mem_false in Em.
        destruct (get_fragment fs (sp_name s)) as [f|] eqn:Eg; apply (IH _ _ _ Q _ _ _ H).
        * apply (Inv_equiv ((r ++ concat push ++ Q) ++ f_spreads f)); [|apply Inv_found; assumption].
          intro x. rewrite concat_app, !in_app_iff. cbn. rewrite app_nil_r. tauto.
        * apply Inv_undefined; assumption.
  Qed.

  Lemma refs_loop_inv fuel : forall stack col acc r,
    refs_loop fuel fs stack col acc = Some r -> Inv (concat stack) col acc -> exists col', Inv [] col' r.
  Proof.
    induction fuel as [|fuel IH]; intros stack col acc r H HI; [discriminate|].
    cbn in H. destruct stack as [|sps stack]; [inversion H; subst; eauto|].
    destruct (refs_step fs sps (col, acc, [])) as [[col' acc'] push] eqn:Es.
    apply (IH _ _ _ _ H). apply (refs_step_inv sps col acc [] (concat stack) col' acc' push Es) in HI.
    eapply Inv_equiv; [|exact HI]. intro x. rewrite concat_app, !in_app_iff, !in_concat.
    apply or_iff_compat_r. split; intros (l & Hl & Hx); exists l; (split; [|exact Hx]); apply in_rev;
      [rewrite rev_involutive|]; exact Hl.
  Qed.

  Lemma Inv_init : Inv (concat [start]) [] [].
  Proof.
    cbn. rewrite app_nil_r. constructor; try (intros; cbn in *; tauto).
    - intros s Hs. left. exact Hs.
    - intros s [Hs|(g & [] & _)]. left. exact Hs.
    - constructor.
  Qed.

  Theorem refs_spec r : refs fs start = Some r ->
    (forall f, In f r <-> Reach fs start f) /\ NoDup (map f_name r).
  Proof.
    intro H. destruct (refs_loop_inv _ _ _ _ _ H Inv_init) as (col & [Hsound Hpend Hcol Htodo Hnames Hnodup]).
    split; [|exact Hnodup]. intro f. split; [apply Hsound|].
    induction 1 as [s f Hs Hr | g s f Hg IH Hs Hr].
    - destruct (Htodo s (or_introl Hs)) as [[]|Hc]. eapply Hcol; eauto.
    - destruct (Htodo s (or_intror (ex_intro _ g (conj IH Hs)))) as [[]|Hc]. eapply Hcol; eauto.
  Qed.
End Reach.
