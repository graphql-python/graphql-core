(* Rules silent on a selection set => static typing (Valid/StaticTyping.sstatic) and directive
   conditions (Typing.sel_dirs_ok) of its translation. *)
From GV Require Import Base.Prelude Base.ListFacts Lang.Ast Exec.Value Exec.Schema Exec.Spec Exec.ValueFacts Exec.Typing Exec.Soundness Valid.StaticTyping Valid.StaticTypingProps Valid.Rules Valid.RulesBase Valid.Rules13 Valid.ToExec Valid.RulesLit.

(* the specified @skip / @include in the directive table *)
Definition if_def : arg_def := mkArg n_if (TNonNull (TNamed n_Boolean)) None.
Definition dirs_std (vs : vschema) : bool :=
  match Value.lookup n_skip (vs_dirs vs), Value.lookup n_include (vs_dirs vs) with
  | Some [a], Some [b] =>
    str_eqb (a_name a) n_if && ty_eqb (a_type a) (TNonNull (TNamed n_Boolean)) && negb (has_default a) &&
    str_eqb (a_name b) n_if && ty_eqb (a_type b) (TNonNull (TNamed n_Boolean)) && negb (has_default b)
  | _, _ => false
  end.

(* the body of the loop of Rules13.sel_evs (the lambda under `concat (mapi ...)` there has no name);
   sel_evs_unfold is the equation *)
Definition sel1_evs (vs : vschema) (fr : list (str * node)) (sp : npath) (sel : node)
           (ct : option str) (fd : option field_def) : list ev :=
  let s := vs_s vs in
  let pt := composite_of s ct in
  match sel with
  | Nd KField (d :: ANode nm :: _ :: a :: sset :: _) =>
    let fdef := match pt with Some t => get_field s t (name_str nm) | None => None end in
    let ftype := match fdef with
                 | Some f => if is_output_named s (named_of (f_type f)) then Some (f_type f) else None
                 | None => None
                 end in
    let args := attr_list a in
    (match pt, fdef with Some _, None => [err1 R_FIELDS sp] | _, _ => [] end)
    ++ (match ftype with
        | Some t =>
          if is_leaf s (named_of t)
          then match sset with ANode _ => [err1 R_LEAFS (sp ++ [(4, O)]%nat)] | _ => [] end
          else match sset with
               | ANode (Nd KSelectionSet (AList [] :: _)) => [err1 R_LEAFS sp]
               | ANode _ => []
               | _ => [err1 R_LEAFS sp]
               end
        | None => []
        end)
    ++ arg_evs s sp 3 args (option_map f_args fdef) (match fdef with Some _ => true | None => false end)
    ++ dir_evs vs sp 0 (attr_list d) fdef
    ++ (match sset with
        | ANode s' => sel_evs vs fr (sp ++ [(4, O)]%nat) s' (option_map named_of ftype) fdef
        | _ => []
        end)
    ++ (match fdef with Some f => req_evs sp (f_args f) args | None => [] end)
  | Nd KFragmentSpread (d :: ANode nm :: _) =>
    spread_evs s sp (match Rules.lookup (name_str nm) fr with Some tc => cond_type vs tc | None => None end) pt
    ++ dir_evs vs sp 0 (attr_list d) fd
  | Nd KInlineFragment (d :: ANode s' :: tc :: _) =>
    let ct' := match tc with ANode t => cond_type vs t | _ => ct end in
    (match tc with ANode t => cond_evs vs (sp ++ [(2, O)]%nat) t | _ => [] end)
    ++ spread_evs s sp ct' pt
    ++ dir_evs vs sp 0 (attr_list d) fd
    ++ sel_evs vs fr (sp ++ [(1, O)]%nat) s' ct' fd
  | _ => []
  end.

Lemma sel_evs_unfold vs fr p sels r ct fd :
  sel_evs vs fr p (Nd KSelectionSet (AList sels :: r)) ct fd =
  concat (mapi (fun j sel => sel1_evs vs fr (p ++ [(O, j)]) sel ct fd) sels).
Proof. reflexivity. Qed.

Section One.
  Variable fl : list N -> Z * N.

  (* likewise the body of the loop of ToExec.sels_of; sels_of_unfold is the equation *)
  Definition sel1_of (sel : node) : option selection :=
    match sel with
    | Nd KField (d :: ANode nm :: al :: a :: sset :: _) =>
      match args_of fl a, dirs_of fl d,
            match sset with ANode s' => sels_of fl s' | _ => Some [] end with
      | Some args, Some dirs, Some sub => Some (SField (opt_name al) (name_str nm) args dirs sub)
      | _, _, _ => None
      end
    | Nd KFragmentSpread (d :: ANode nm :: ANone :: _) =>
      option_map (SSpread (name_str nm)) (dirs_of fl d)
    | Nd KInlineFragment (d :: ANode s' :: tc :: _) =>
      match dirs_of fl d, sels_of fl s',
            match tc with
            | ANode (Nd KNamedType (ANode nm :: _)) => Some (Some (name_str nm))
            | ANode _ => None
            | _ => Some None
            end with
      | Some dirs, Some sub, Some c => Some (SInline c dirs sub)
      | _, _, _ => None
      end
    | _ => None
    end.

  Lemma sels_of_unfold sels r :
    sels_of fl (Nd KSelectionSet (AList sels :: r)) = all_some (map sel1_of sels).
  Proof. reflexivity. Qed.
End One.

Lemma errs_of_err1 r l : errs_of (map (err1 r) l) = map (fun p => VE r [p]) l.
Proof. induction l as [|a l IH]; cbn; [reflexivity | rewrite <- IH; reflexivity]. Qed.
Lemma uses_of_err1 r l : uses_of (map (err1 r) l) = [].
Proof. induction l as [|a l IH]; cbn; [reflexivity | exact IH]. Qed.

Lemma lookup_mem_none {A} k (l : list (Value.str * A)) : Value.lookup k l = None <-> Value.mem k (map fst l) = false.
Proof.
  unfold Value.mem. induction l as [|[k' v] r IH]; cbn; [tauto|].
  destruct (str_eqb k k'); [split; discriminate | exact IH].
Qed.

Section Sound.
  Variable vs : vschema.
  Let s := vs_s vs.
  Variable fl : list N -> Z * N.
  Variable vdefs : list var_def.
  Hypothesis Hinputs : schema_inputs_ok s = true.
  Hypothesis Hsok : schema_ok s = true.

  Definition arg_kv (a : node) : option (Value.str * value) :=
    match a with
    | Nd KArgument (ANode nm :: ANode v :: _) => option_map (pair (name_str nm)) (val_of fl v)
    | _ => None
    end.

  Lemma arg_kv_inv a k x : arg_kv a = Some (k, x) ->
    exists nm vn r, a = Nd KArgument (ANode nm :: ANode vn :: r) /\ k = arg_name a /\ val_of fl vn = Some x.
  Proof.
    destruct a as [kd attrs]. destruct kd; cbn; try discriminate.
    destruct attrs as [|[| nm| | | |] [|[| vn| | | |] r]]; cbn; try discriminate.
    destruct (val_of fl vn) as [x'|] eqn:E; cbn; [|discriminate]. intro H. inversion H; subst.
    exists nm, vn, r. auto.
  Qed.

  Lemma args_of_kv a : args_of fl a = all_some (map arg_kv (attr_list a)).
  Proof. reflexivity. Qed.

  Lemma arg_names args kvs : Forall2 (fun a kv => arg_kv a = Some kv) args kvs ->
    map fst kvs = map arg_name args.
  Proof.
    induction 1 as [|a [k x] l1 l2 Ha H IH]; [reflexivity|]. cbn [map fst].
    apply arg_kv_inv in Ha as (nm & vn & r & -> & -> & _). rewrite IH. reflexivity.
  Qed.

  (* the arguments of a field or directive with known definitions *)
  Lemma args_sound p i args defs kvs :
    nodup_names (map a_name defs) = true -> arg_types_ok s defs = true ->
    all_some (map arg_kv args) = Some kvs ->
    errs_of (arg_evs s p i args (Some defs) true) = [] ->
    errs_of (req_evs p defs args) = [] ->
    (forall u, In u (uses_of (arg_evs s p i args (Some defs) true)) -> usage_ok vdefs u) ->
    args_ok s vdefs [] defs kvs = true.
  Proof.
    intros Hnd Htypes Ha He Hr Hu.
    pose proof (all_some_Forall2 _ _ _ Ha) as H2. pose proof (arg_names _ _ H2) as Hnames.
    unfold arg_types_ok in Htypes. rewrite forallb_forall in Htypes.
    unfold arg_evs in He, Hu.
    assert (Harg : forall j a k x, nth_error args j = Some a -> arg_kv a = Some (k, x) ->
              exists ad, find_arg k defs = Some ad /\ lit_ok s vdefs [] x (a_type ad) (has_default ad) = true).
    { intros j a k x Ej Hkv. apply arg_kv_inv in Hkv as (nm & vn & r & -> & -> & Hx).
      pose proof (mapi_nth_errs _ _ _ _ He Ej) as He'. cbv beta iota in He'.
      destruct (find_arg (arg_name (Nd KArgument (ANode nm :: ANode vn :: r))) defs) as [ad|] eqn:Ead.
      2:{ cbn in He'. discriminate. }
      exists ad. split; [reflexivity|].
      pose proof (find_arg_In _ _ _ Ead) as [Hadin _]. specialize (Htypes _ Hadin).
      apply andb_true_iff in Htypes as [Hi1 Hi2].
      unfold as_input in He'. rewrite Hi1 in He'. cbn [app] in He'.
      rewrite errs_of_app, errs_of_err1 in He'. apply app_eq_nil in He' as [Hv He'].
      apply map_eq_nil in Hv.
      apply (lit_sound s fl vdefs Hinputs Hsok vn _ _ _ false x Hi1 Hi2 Hx Hv He').
      intros u Hin. apply Hu. apply (mapi_nth_uses _ _ _ _ _ Ej). cbv beta iota.
      rewrite Ead. unfold as_input. rewrite Hi1. cbn [app]. rewrite uses_of_app, uses_of_err1. exact Hin. }
    unfold args_ok. apply andb_true_iff. split; apply forallb_forall.
    - intros [k x] Hin. cbn [fst]. apply In_nth_error in Hin as [j Hj].
      destruct (Forall2_nth_r _ _ _ H2 j _ Hj) as (a & Ea & Hkv).
      destruct (Harg j a k x Ea Hkv) as (ad & -> & _). reflexivity.
    - intros ad Had. destruct (Value.lookup (a_name ad) kvs) as [v|] eqn:El.
      + pose proof (lookup_In _ _ _ El) as Hin. apply In_nth_error in Hin as [j Hj].
        destruct (Forall2_nth_r _ _ _ H2 j _ Hj) as (a & Ea & Hkv).
        destruct (Harg j a _ v Ea Hkv) as (ad' & Hf & Hok).
        rewrite (find_arg_self _ _ Hnd Had) in Hf. inversion Hf; subst ad'. exact Hok.
      + apply lookup_mem_none in El. rewrite Hnames in El.
        unfold req_evs in Hr. rewrite errs_of_flat_map in Hr.
        pose proof (proj1 (flat_map_nil _ _) Hr ad Had) as Hr0. cbv beta in Hr0.
        unfold has_arg in Hr0. rewrite El, andb_true_r in Hr0.
        destruct (required_arg ad); [discriminate | reflexivity].
  Qed.

  Hypothesis Hdirs : dirs_std vs = true.

  Definition dir_kv (x : node) : option directive :=
    match x with
    | Nd KDirective (ANode nm :: ar :: _) => option_map (pair (name_str nm)) (args_of fl ar)
    | _ => None
    end.

  Lemma dirs_of_kv a : dirs_of fl a = all_some (map dir_kv (attr_list a)).
  Proof. reflexivity. Qed.

  Lemma std_dir name : str_eqb name n_skip || str_eqb name n_include = true ->
    exists a, Value.lookup name (vs_dirs vs) = Some [a] /\ a_name a = n_if /\
              a_type a = TNonNull (TNamed n_Boolean) /\ has_default a = false.
  Proof.
    intro H. unfold dirs_std in Hdirs.
    destruct (Value.lookup n_skip (vs_dirs vs)) as [[|a [|]]|] eqn:Es; try discriminate.
    destruct (Value.lookup n_include (vs_dirs vs)) as [[|b [|]]|] eqn:Ei; try discriminate.
    repeat (apply andb_true_iff in Hdirs as [Hdirs ?]).
    apply orb_true_iff in H as [H|H]; apply str_eqb_eq in H; subst name.
    - exists a. rewrite Es. repeat split.
      + apply str_eqb_eq. assumption.
      + apply ty_eqb_eq. assumption.
      + apply negb_true_iff. assumption.
    - exists b. rewrite Ei. repeat split.
      + apply str_eqb_eq. assumption.
      + apply ty_eqb_eq. assumption.
      + apply negb_true_iff. assumption.
  Qed.

  Lemma dirs_sound p i ds fd dl :
    all_some (map dir_kv ds) = Some dl ->
    errs_of (dir_evs vs p i ds fd) = [] ->
    (forall u, In u (uses_of (dir_evs vs p i ds fd)) -> usage_ok vdefs u) ->
    dirs_ok s vdefs [] dl = true.
  Proof.
    intros Ha He Hu. pose proof (all_some_Forall2 _ _ _ Ha) as H2.
    unfold dirs_ok. apply forallb_forall. intros [name kvs] Hin. cbn [fst snd].
    destruct (str_eqb name n_skip || str_eqb name n_include) eqn:Estd; [|reflexivity].
    apply In_nth_error in Hin as [j Hj]. destruct (Forall2_nth_r _ _ _ H2 j _ Hj) as (dn & Ej & Hkv).
    destruct dn as [kd attrs]. destruct kd; try discriminate Hkv.
    destruct attrs as [|[| nm| | | |] [|ar r]]; try discriminate Hkv. cbn [dir_kv] in Hkv.
    rewrite args_of_kv in Hkv.
    destruct (all_some (map arg_kv (attr_list ar))) as [kvs'|] eqn:Eargs; [|discriminate]. cbn in Hkv.
    inversion Hkv; subst. clear Hkv.
    destruct (std_dir _ Estd) as (a & Hl & Hn & Ht & Hd).
    unfold dir_evs in He, Hu.
    pose proof (mapi_nth_errs _ _ _ _ He Ej) as He'. cbv beta iota in He'. rewrite Hl in He'.
    rewrite errs_of_app in He'. apply app_eq_nil in He' as [He1 He2].
    assert (Hok : args_ok s vdefs [] [a] kvs = true).
    { apply (args_sound (p ++ [(i, j)]) 1 (attr_list ar) [a] kvs); auto.
      - unfold arg_types_ok. cbn [forallb]. rewrite Ht. reflexivity.
      - intros u Hin. apply Hu. apply (mapi_nth_uses _ _ _ _ _ Ej). cbv beta iota. rewrite Hl.
        rewrite uses_of_app. apply in_app_iff. left. exact Hin. }
    unfold args_ok in Hok. apply andb_true_iff in Hok as [_ Hok]. cbn [forallb] in Hok.
    rewrite andb_true_r, Hn in Hok.
    destruct (Value.lookup n_if kvs) as [v|].
    - rewrite Ht, Hd in Hok. exact Hok.
    - unfold required_arg in Hok. rewrite Ht in Hok. unfold has_default in Hd.
      destruct (a_default a); [discriminate Hd | discriminate Hok].
  Qed.

  Hypothesis Himpl : schema_impl_ok s = true.
  Variable fr : list (str * node).

  Lemma field_facts pt name fd' : lookup_field s pt name = Some fd' ->
    nodup_names (map a_name (f_args fd')) = true /\ arg_types_ok s (f_args fd') = true /\
    exists td, lookup_type s (named_of (f_type fd')) = Some td /\
               (is_leaf_def td || is_composite_def td) = true.
  Proof.
    intro Hl. unfold lookup_field in Hl.
    destruct (lookup_type s pt) as [td0|] eqn:Ept; [|discriminate].
    assert (Hin : In (pt, td0) (s_types s)).
    { unfold lookup_type in Ept. destruct (scalar_of_name pt); [inversion Ept; subst; discriminate Hl|].
      apply lookup_In. exact Ept. }
    pose proof Himpl as Hi. unfold schema_impl_ok in Hi. rewrite forallb_forall in Hi. specialize (Hi _ Hin).
    pose proof Hinputs as Hp. unfold schema_inputs_ok in Hp. rewrite forallb_forall in Hp. specialize (Hp _ Hin).
    cbn [snd] in Hi, Hp.
    assert (Hgen : forall fs, fields_wf s fs = true ->
                   forallb (fun fd => arg_types_ok s (f_args fd)) fs = true ->
                   find_field name fs = Some fd' ->
                   nodup_names (map a_name (f_args fd')) = true /\ arg_types_ok s (f_args fd') = true /\
                   exists td, lookup_type s (named_of (f_type fd')) = Some td /\
                              (is_leaf_def td || is_composite_def td) = true).
    { intros fs Hwf Hat Hf. apply find_field_In in Hf as [Hf _].
      unfold fields_wf in Hwf. rewrite forallb_forall in Hwf, Hat. specialize (Hwf _ Hf). specialize (Hat _ Hf).
      apply andb_true_iff in Hwf as [H1 H2]. split; [exact H1|]. split; [exact Hat|].
      destruct (lookup_type s (named_of (f_type fd'))) as [td|]; [|discriminate]. eauto. }
    destruct td0 as [| |fs ifs|fs| |]; try discriminate.
    - apply andb_true_iff in Hi as [Hi _]. apply (Hgen fs Hi Hp Hl).
    - apply (Hgen fs Hi Hp Hl).
  Qed.

  Definition uses_ok (evs : list ev) : Prop := forall u, In u (uses_of evs) -> usage_ok vdefs u.

  Lemma uses_ok_app a b : uses_ok (a ++ b) -> uses_ok a /\ uses_ok b.
  Proof.
    unfold uses_ok. intro H. split; intros u Hu; apply H; rewrite uses_of_app; apply in_app_iff; auto.
  Qed.

  (* what selections_sound proves: of a selection set n with a composite parent type pt - the
     rules silent on it and its variable usages accepted => its translation statically typed at
     pt, directive conditions accepted (sgoalA); of one selection n the same (sgoalB) *)
  Definition sgoalA (n : node) : Prop := forall p ct fd pt sels,
    sels_of fl n = Some sels -> composite_of s ct = Some pt ->
    errs_of (sel_evs vs fr p n ct fd) = [] -> uses_ok (sel_evs vs fr p n ct fd) ->
    forallb (sstatic s vdefs pt) sels = true /\ forallb (sel_dirs_ok s vdefs []) sels = true.

  Definition sgoalB (n : node) : Prop := forall sp ct fd pt x,
    sel1_of fl n = Some x -> composite_of s ct = Some pt ->
    errs_of (sel1_evs vs fr sp n ct fd) = [] -> uses_ok (sel1_evs vs fr sp n ct fd) ->
    sstatic s vdefs pt x = true /\ sel_dirs_ok s vdefs [] x = true.

  Lemma set_from_selections sels r : (forall sel, In sel sels -> sgoalB sel) -> sgoalA (Nd KSelectionSet (AList sels :: r)).
  Proof.
    intros HF p ct fd pt xs Hx Hpt He Hu. rewrite sels_of_unfold in Hx. rewrite sel_evs_unfold in He, Hu.
    pose proof (all_some_Forall2 _ _ _ Hx) as H2.
    assert (Hall : forall x, In x xs -> sstatic s vdefs pt x = true /\ sel_dirs_ok s vdefs [] x = true).
    { intros x Hin. apply In_nth_error in Hin as [j Hj]. destruct (Forall2_nth_r _ _ _ H2 j _ Hj) as (sel & Ej & Hs).
      apply (HF sel (nth_error_In _ _ Ej) (p ++ [(O, j)]) ct fd pt x Hs Hpt).
      - apply (mapi_nth_errs _ _ _ _ He Ej).
      - intros u Hin. apply Hu. apply (mapi_nth_uses _ _ _ _ _ Ej). exact Hin. }
    split; apply forallb_forall; intros x Hin; apply Hall; exact Hin.
  Qed.

  Lemma no_args_kvs p i args kvs :
    all_some (map arg_kv args) = Some kvs -> errs_of (arg_evs s p i args (Some []) true) = [] -> kvs = [].
  Proof.
    intros Ha He. destruct args as [|a0 rest]; [cbn in Ha; inversion Ha; reflexivity|]. exfalso.
    cbn [map all_some] in Ha. destruct (arg_kv a0) as [[k x]|] eqn:Ek; [|discriminate].
    apply arg_kv_inv in Ek as (nm & vn & r & -> & _ & _).
    unfold arg_evs in He. pose proof (mapi_nth_errs _ _ O _ He eq_refl) as He'. cbn in He'. discriminate.
  Qed.

  Lemma sel_dirs_field al name args dirs sub :
    sel_dirs_ok s vdefs [] (SField al name args dirs sub) =
    dirs_ok s vdefs [] dirs && forallb (sel_dirs_ok s vdefs []) sub.
  Proof. reflexivity. Qed.
  Lemma sel_dirs_inline tc dirs sub :
    sel_dirs_ok s vdefs [] (SInline tc dirs sub) =
    dirs_ok s vdefs [] dirs && forallb (sel_dirs_ok s vdefs []) sub.
  Proof. reflexivity. Qed.

  Lemma field_sound d nm al a sset r :
    (forall s', sset = ANode s' -> sgoalA s') ->
    sgoalB (Nd KField (d :: ANode nm :: al :: a :: sset :: r)).
  Proof.
    intros HA sp ct fd pt x Hx Hpt He Hu.
    cbn [sel1_of] in Hx. rewrite args_of_kv, dirs_of_kv in Hx.
    destruct (all_some (map arg_kv (attr_list a))) as [kvs|] eqn:Eargs; [|discriminate].
    destruct (all_some (map dir_kv (attr_list d))) as [dl|] eqn:Edirs; [|discriminate].
    destruct (match sset with ANode s' => sels_of fl s' | _ => Some [] end) as [sub|] eqn:Esub; [|discriminate].
    inversion Hx; subst x. clear Hx.
    unfold sel1_evs in He, Hu. cbv zeta in He, Hu. fold s in He, Hu. rewrite Hpt in He, Hu.
    rewrite sstatic_field, sel_dirs_field.
    destruct (get_field s pt (name_str nm)) as [f|] eqn:Eg; [|cbn in He; discriminate].
    cbn [app] in He, Hu.
    rewrite !errs_of_app in He.
    apply app_eq_nil in He as [Hleaf He]. apply app_eq_nil in He as [Hargs He].
    apply app_eq_nil in He as [Hdir He]. apply app_eq_nil in He as [Hsub Hreq].
    apply uses_ok_app in Hu as [_ Hu]. apply uses_ok_app in Hu as [Huargs Hu].
    apply uses_ok_app in Hu as [Hudir Hu]. apply uses_ok_app in Hu as [Husub _].
    assert (Hdirs_ok : dirs_ok s vdefs [] dl = true) by (eapply dirs_sound; eauto).
    unfold get_field in Eg. destruct (str_eqb (name_str nm) n_typename) eqn:Etn.
    - (* __typename *)
      inversion Eg; subst f. clear Eg. cbn [typename_def f_args f_type option_map] in *.
      assert (kvs = []) by (eapply no_args_kvs; eauto). subst kvs.
      assert (sub = []).
      { destruct sset as [|s'| | | |]; try (inversion Esub; reflexivity). exfalso.
        revert Hleaf. unfold is_output_named, is_leaf. cbn. discriminate. }
      subst sub. split; [reflexivity|]. rewrite Hdirs_ok. reflexivity.
    - (* a field of the parent type *)
      destruct (field_facts _ _ _ Eg) as (Hnd & Htypes & td & Etd & Hlc).
      assert (Hout : is_output_named s (named_of (f_type f)) = true).
      { unfold is_output_named. rewrite Etd. destruct td; cbn in Hlc; try discriminate; reflexivity. }
      rewrite Hout in *. cbn [option_map] in *.
      rewrite Eg, Etd.
      assert (Hargs_ok : args_ok s vdefs [] (f_args f) kvs = true) by (eapply args_sound; eauto).
      rewrite Hargs_ok. cbn [andb].
      unfold is_leaf in Hleaf. rewrite Etd in Hleaf.
      destruct (is_leaf_def td) eqn:Eleaf.
      + (* leaf: no sub-selection *)
        assert (sub = []).
        { destruct sset as [|s'| | | |]; try (inversion Esub; reflexivity). cbn in Hleaf. discriminate. }
        subst sub. split; [reflexivity|]. rewrite Hdirs_ok. reflexivity.
      + (* composite: a non-empty sub-selection typed at the field's type *)
        cbn [orb] in Hlc. rewrite Hlc. cbn [andb].
        destruct sset as [|s'| | | |]; try (cbn in Hleaf; discriminate).
        assert (Hcomp : composite_of s (Some (named_of (f_type f))) = Some (named_of (f_type f))).
        { unfold composite_of, is_composite. rewrite Etd, Hlc. reflexivity. }
        destruct (HA s' eq_refl _ _ _ _ sub Esub Hcomp Hsub Husub) as [H1 H2].
        assert (Hne : is_nil sub = false).
        { destruct s' as [k' at']. destruct k'; try discriminate Esub.
          destruct at' as [|[| |sl| | |] r']; try discriminate Esub.
          destruct sl as [|x0 l]; [cbn in Hleaf; discriminate|].
          rewrite sels_of_unfold in Esub. apply all_some_Forall2 in Esub. inversion Esub. reflexivity. }
        rewrite Hne, H1, H2, Hdirs_ok. split; reflexivity.
  Qed.

  Lemma spread_sound attrs : sgoalB (Nd KFragmentSpread attrs).
  Proof.
    intros sp ct fd pt x Hx Hpt He Hu.
    destruct attrs as [|d [|[|nm| | | |] [|[] r]]]; try discriminate Hx. cbn [sel1_of] in Hx.
    rewrite dirs_of_kv in Hx. destruct (all_some (map dir_kv (attr_list d))) as [dl|] eqn:Edirs; [|discriminate].
    inversion Hx; subst x. clear Hx. split; [reflexivity|].
    unfold sel1_evs in He, Hu. cbv zeta in He, Hu. rewrite errs_of_app in He. apply app_eq_nil in He as [_ He].
    apply uses_ok_app in Hu as [_ Hu]. cbn [sel_dirs_ok]. eapply dirs_sound; eauto.
  Qed.

  Lemma composite_output n : is_composite s n = true -> is_output_named s n = true.
  Proof.
    unfold is_composite, is_output_named. destruct (lookup_type s n) as [[]|]; cbn; congruence.
  Qed.

  (* FragmentsOnCompositeTypes / KnownTypeNames silent on a named type condition *)
  Lemma cond_ok p tn rt : errs_of (cond_evs vs p (Nd KNamedType (ANode tn :: rt))) = [] ->
    cond_type vs (Nd KNamedType (ANode tn :: rt)) = Some (name_str tn) /\
    composite_of s (Some (name_str tn)) = Some (name_str tn).
  Proof.
    unfold cond_evs, cond_type, tfa, composite_of. cbn [ty_of named_of]. fold s.
    destruct (in_map vs (name_str tn)); [|discriminate]. cbn [named_of].
    destruct (is_composite s (name_str tn)) eqn:Ec; [|discriminate].
    rewrite (composite_output _ Ec). auto.
  Qed.

  Lemma inline_sound d s' tc r : sgoalA s' -> sgoalB (Nd KInlineFragment (d :: ANode s' :: tc :: r)).
  Proof.
    intros HA sp ct fd pt x Hx Hpt He Hu.
    cbn [sel1_of] in Hx. rewrite dirs_of_kv in Hx.
    destruct (all_some (map dir_kv (attr_list d))) as [dl|] eqn:Edirs; [|discriminate].
    destruct (sels_of fl s') as [sub|] eqn:Esub; [|discriminate].
    unfold sel1_evs in He, Hu. cbv zeta in He, Hu. fold s in He, Hu.
    rewrite !errs_of_app in He.
    apply app_eq_nil in He as [Hcond He]. apply app_eq_nil in He as [_ He].
    apply app_eq_nil in He as [Hdir Hsub].
    apply uses_ok_app in Hu as [_ Hu]. apply uses_ok_app in Hu as [_ Hu]. apply uses_ok_app in Hu as [Hudir Husub].
    assert (Hdirs_ok : dirs_ok s vdefs [] dl = true) by (eapply dirs_sound; eauto).
    destruct tc as [|t| | | |];
      (* no type condition: the parent type *)
      try (inversion Hx; subst x; rewrite sstatic_inline, sel_dirs_inline;
           destruct (HA _ _ _ _ sub Esub Hpt Hsub Husub) as [H1 H2]; rewrite H1, H2, Hdirs_ok; split; reflexivity).
    (* a type condition: known and composite *)
    destruct t as [kt at_]. destruct kt; try discriminate Hx.
    destruct at_ as [|[|tn| | | |] rt]; try discriminate Hx. inversion Hx; subst x. clear Hx.
    rewrite sstatic_inline, sel_dirs_inline.
    destruct (cond_ok _ _ _ Hcond) as [Hct Hc]. rewrite Hct in Hsub, Husub.
    destruct (HA _ _ _ _ sub Esub Hc Hsub Husub) as [H1 H2]. rewrite H1, H2, Hdirs_ok. split; reflexivity.
  Qed.

  Theorem selections_sound n : sgoalA n /\ sgoalB n.
  Proof.
    induction n as [k attrs IHn IHl] using node_children_ind. split.
    - destruct k; try (intros p ct fd pt sels Hx; discriminate Hx).
      destruct attrs as [|[| |sels| | |] r]; try (intros p ct fd pt xs Hx; discriminate Hx).
      apply set_from_selections. intros m Hm. apply (IHl O sels eq_refl m Hm).
    - destruct k; try (intros sp ct fd pt x Hx; discriminate Hx).
      + (* field *)
        destruct attrs as [|d [|[|nm| | | |] [|al [|a [|sset r]]]]]; try (intros sp ct fd pt x Hx; discriminate Hx).
        apply field_sound. intros s' ->. apply (IHn 4%nat s' eq_refl).
      + apply spread_sound.
      + (* inline fragment *)
        destruct attrs as [|d [|[|s'| | | |] [|tc r]]]; try (intros sp ct fd pt x Hx; discriminate Hx).
        apply inline_sound. apply (IHn 1%nat s' eq_refl).
  Qed.
End Sound.
