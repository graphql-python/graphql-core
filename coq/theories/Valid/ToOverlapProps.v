(* Properties of the translation Valid/ToOverlap.v: interning is injective; the translated schema
   answers the specification function's queries as the execution model's schema does. *)
From GV Require Import Base.Prelude Exec.Value Exec.Schema Exec.Spec Exec.ValueFacts Exec.Typing
  Valid.ToOverlap.
From GV Require Valid.Overlap Valid.OverlapProps.

Lemma pow2_odd_inj c c' r r' : 2 ^ c * (2 * r + 1) = 2 ^ c' * (2 * r' + 1) -> c = c' /\ r = r'.
Proof.
  assert (Hlt : forall a b x y, a < b -> 2 ^ a * (2 * x + 1) = 2 ^ b * (2 * y + 1) -> False).
  { intros a b x y Hab H.
    assert (Hb : b = a + N.succ (b - a - 1)) by lia. rewrite Hb in H.
    rewrite N.pow_add_r, N.pow_succ_r' in H. rewrite <- N.mul_assoc in H.
    apply N.mul_cancel_l in H; [|apply N.pow_nonzero; discriminate].
    remember (2 ^ (b - a - 1) * (2 * y + 1)) as z. lia. }
  intro H. destruct (N.lt_trichotomy c c') as [Hc|[Hc|Hc]].
  - exfalso. eapply Hlt; eauto.
  - subst c'. split; [reflexivity|]. apply N.mul_cancel_l in H; [lia | apply N.pow_nonzero; discriminate].
  - exfalso. eapply Hlt; [exact Hc | symmetry; exact H].
Qed.

Lemma code_pos c r : code (c :: r) <> 0.
Proof.
  cbn [code]. intro H. apply N.eq_mul_0 in H as [H|H]; [|lia].
  apply N.pow_nonzero in H; [exact H | discriminate].
Qed.

Lemma code_inj a : forall b, code a = code b -> a = b.
Proof.
  induction a as [|c a IH]; intros [|c' b] H.
  - reflexivity.
  - exfalso. symmetry in H. exact (code_pos _ _ H).
  - exfalso. exact (code_pos _ _ H).
  - cbn [code] in H. apply pow2_odd_inj in H as [-> H]. f_equal. apply IH. exact H.
Qed.

Lemma intern_inj a b : intern a = intern b -> a = b.
Proof.
  unfold intern. destruct (str_eqb a n_typename) eqn:Ea, (str_eqb b n_typename) eqn:Eb.
  - apply str_eqb_eq in Ea, Eb. congruence.
  - destruct (str_eqb b n_String); intro H; [discriminate | lia].
  - destruct (str_eqb a n_String); intro H; [discriminate | lia].
  - destruct (str_eqb a n_String) eqn:Sa, (str_eqb b n_String) eqn:Sb; intro H; try lia.
    + apply str_eqb_eq in Sa, Sb. congruence.
    + apply code_inj. lia.
Qed.

Lemma intern_eqb a b : (intern a =? intern b) = str_eqb a b.
Proof.
  destruct (str_eqb a b) eqn:E.
  - apply str_eqb_eq in E. subst. apply N.eqb_refl.
  - apply N.eqb_neq. intro H. apply intern_inj in H. subst. rewrite str_eqb_refl in E. discriminate.
Qed.

Lemma str_eqb_sym a b : str_eqb a b = str_eqb b a.
Proof.
  destruct (str_eqb a b) eqn:E.
  - apply str_eqb_eq in E. subst. symmetry. apply str_eqb_refl.
  - destruct (str_eqb b a) eqn:E'; [|reflexivity]. apply str_eqb_eq in E'. subst. rewrite str_eqb_refl in E. discriminate.
Qed.

Lemma intern_typename : intern n_typename = Overlap.typename_field.
Proof. reflexivity. Qed.
Lemma intern_string : intern n_String = Overlap.string_type.
Proof. reflexivity. Qed.

Lemma intern_typename_iff x : (intern x =? Overlap.typename_field) = str_eqb x n_typename.
Proof. rewrite <- intern_typename. apply intern_eqb. Qed.

Definition o_tdef (n : str) (td : type_def) : Overlap.tdef :=
  match td with
  | TObject fs _ => Overlap.mkTdef (intern n) Overlap.KObject (o_fields fs)
  | TInterface fs => Overlap.mkTdef (intern n) Overlap.KInterface (o_fields fs)
  | TUnion _ => Overlap.mkTdef (intern n) Overlap.KUnion []
  | _ => Overlap.mkTdef (intern n) Overlap.KLeaf []
  end.

Lemma find_app {A} (f : A -> bool) l1 l2 :
  find f (l1 ++ l2) = match find f l1 with Some x => Some x | None => find f l2 end.
Proof. induction l1 as [|a l IH]; cbn; [reflexivity|]. destruct (f a); auto. Qed.

Lemma find_types_user n l :
  find (fun d => Overlap.td_name d =? intern n)
       (flat_map (fun e : str * type_def =>
          match snd e with
          | TObject fs _ => [Overlap.mkTdef (intern (fst e)) Overlap.KObject (o_fields fs)]
          | TInterface fs => [Overlap.mkTdef (intern (fst e)) Overlap.KInterface (o_fields fs)]
          | TUnion _ => [Overlap.mkTdef (intern (fst e)) Overlap.KUnion []]
          | TEnum _ | TScalar _ | TInput _ _ => [Overlap.mkTdef (intern (fst e)) Overlap.KLeaf []]
          end) l)
  = option_map (o_tdef n) (lookup n l).
Proof.
  induction l as [|[k td] l IH]; [reflexivity|]. cbn [flat_map lookup fst snd].
  rewrite find_app.
  assert (Hk : forall dk fl, find (fun d => Overlap.td_name d =? intern n) [Overlap.mkTdef (intern k) dk fl]
                    = if str_eqb n k then Some (Overlap.mkTdef (intern k) dk fl) else None).
  { intros dk fl. cbn. rewrite intern_eqb, (str_eqb_sym k n). reflexivity. }
  destruct td; rewrite Hk; (destruct (str_eqb n k) eqn:E; [apply str_eqb_eq in E; subst k; reflexivity | exact IH]).
Qed.

Lemma find_type_o s n :
  Overlap.find_type (o_schema s) (intern n) = option_map (o_tdef n) (lookup_type s n).
Proof.
  unfold Overlap.find_type, o_schema, lookup_type. rewrite find_app, find_types_user.
  unfold o_scalars. cbn [map find Overlap.td_name]. rewrite !intern_eqb. unfold scalar_of_name.
  rewrite (str_eqb_sym n_Int n), (str_eqb_sym n_Float n), (str_eqb_sym n_String n),
    (str_eqb_sym n_Boolean n), (str_eqb_sym n_ID n).
  destruct (str_eqb n n_Int) eqn:E1; [apply str_eqb_eq in E1; subst; reflexivity|].
  destruct (str_eqb n n_Float) eqn:E2; [apply str_eqb_eq in E2; subst; reflexivity|].
  destruct (str_eqb n n_String) eqn:E3; [apply str_eqb_eq in E3; subst; reflexivity|].
  destruct (str_eqb n n_Boolean) eqn:E4; [apply str_eqb_eq in E4; subst; reflexivity|].
  destruct (str_eqb n n_ID) eqn:E5; [apply str_eqb_eq in E5; subst; reflexivity|].
  reflexivity.
Qed.

Lemma kind_of_o s n :
  Overlap.kind_of (o_schema s) (intern n) = option_map (fun td => Overlap.td_kind (o_tdef n td)) (lookup_type s n).
Proof. unfold Overlap.kind_of. rewrite find_type_o. destruct (lookup_type s n); reflexivity. Qed.

Lemma is_object_o s n : Overlap.is_object (o_schema s) (intern n) = is_object s n.
Proof.
  unfold Overlap.is_object, is_object. rewrite kind_of_o. destruct (lookup_type s n) as [[]|]; reflexivity.
Qed.

Lemma is_composite_o s n :
  Overlap.is_composite (o_schema s) (intern n) =
  match lookup_type s n with Some td => is_composite_def td | None => false end.
Proof.
  unfold Overlap.is_composite. rewrite kind_of_o. destruct (lookup_type s n) as [[]|]; reflexivity.
Qed.

Lemma is_leaf_o s n :
  Overlap.is_leaf (o_schema s) (intern n) =
  match lookup_type s n with Some td => negb (is_composite_def td) | None => false end.
Proof.
  unfold Overlap.is_leaf. rewrite kind_of_o. destruct (lookup_type s n) as [[]|]; reflexivity.
Qed.

Lemma assoc_o_fields nm fs :
  Overlap.assoc (intern nm) (o_fields fs) = option_map (fun f => o_ty (f_type f)) (find_field nm fs).
Proof.
  induction fs as [|f fs IH]; [reflexivity|]. cbn [o_fields map Overlap.assoc find_field].
  rewrite intern_eqb, (str_eqb_sym (f_name f) nm). destruct (str_eqb nm (f_name f)); [reflexivity | exact IH].
Qed.

Lemma field_type_o s pt nm :
  Overlap.field_type (o_schema s) (intern pt) (intern nm) =
  if str_eqb nm n_typename
  then (if match lookup_type s pt with Some td => is_composite_def td | None => false end
        then Some (Overlap.TNonNull (Overlap.TNamed Overlap.string_type)) else None)
  else option_map (fun f => o_ty (f_type f)) (lookup_field s pt nm).
Proof.
  unfold Overlap.field_type. rewrite intern_typename_iff, is_composite_o.
  destruct (str_eqb nm n_typename); [reflexivity|].
  rewrite find_type_o. unfold lookup_field. destruct (lookup_type s pt) as [[]|]; cbn; try reflexivity;
    apply assoc_o_fields.
Qed.

Lemma named_o_ty t : Overlap.named (o_ty t) = intern (named_of t).
Proof. induction t; cbn; auto. Qed.

Lemma o_sel_list : forall l c,
  (fix go (l : list selection) (c : N) {struct l} : Overlap.sels * N :=
     match l with
     | [] => (Overlap.SelNil, c)
     | y :: r => let '(h, c1) := o_sel y c in
                 let '(orest, c2) := go r c1 in (o_cons h orest, c2)
     end) l c = o_sels c l.
Proof. induction l as [|y r IH]; intro c; simpl; [reflexivity|]. destruct (o_sel y c) as [h c1]. rewrite IH. reflexivity. Qed.

Lemma o_sel_field al nm args dirs sub c :
  o_sel (SField al nm args dirs sub) c =
  let '(osub, c1) := o_sels (c + 1) sub in
  (HField (Overlap.mkFld c (intern (response_key al nm)) (intern nm) (o_args args)) osub, c1).
Proof. cbn [o_sel]. rewrite o_sel_list. reflexivity. Qed.

Lemma o_sel_inline tc dirs sub c :
  o_sel (SInline tc dirs sub) c =
  let '(osub, c1) := o_sels (c + 1) sub in (HInline c (option_map intern tc) osub, c1).
Proof. cbn [o_sel]. rewrite o_sel_list. reflexivity. Qed.

Lemma o_sel_spread nm dirs c : o_sel (SSpread nm dirs) c = (HSpread (intern nm), c).
Proof. reflexivity. Qed.

Definition in_range (c c' : N) (l : list N) : Prop := forall i, In i l -> c <= i < c'.

Lemma NoDup_app_ranges (l1 l2 : list N) a b c :
  NoDup l1 -> NoDup l2 -> in_range a b l1 -> in_range b c l2 -> NoDup (l1 ++ l2).
Proof.
  intros H1 H2 R1 R2. induction H1 as [|x l Hx Hl IH]; cbn; [exact H2|].
  constructor.
  - rewrite in_app_iff. intros [H|H]; [contradiction|].
    pose proof (R1 x (or_introl eq_refl)). pose proof (R2 x H). lia.
  - apply IH. intros i Hi. apply R1. right. exact Hi.
Qed.

Definition hfids (h : ohead) : list N := Overlap.fids_sels (o_cons h Overlap.SelNil).

Lemma fids_cons h rest : Overlap.fids_sels (o_cons h rest) = hfids h ++ Overlap.fids_sels rest.
Proof.
  destruct h as [f sub|i tc sub|n]; unfold hfids; cbn [o_cons Overlap.fids_sels]; rewrite ?app_nil_r; reflexivity.
Qed.

Definition ids_ok (c c' : N) (l : list N) : Prop := c <= c' /\ NoDup l /\ in_range c c' l.

Lemma o_sels_ids_from L :
  Forall (fun x => forall c h c', o_sel x c = (h, c') -> ids_ok c c' (hfids h)) L ->
  forall c O c', o_sels c L = (O, c') -> ids_ok c c' (Overlap.fids_sels O).
Proof.
  induction 1 as [|y r Hy Hr IH]; intros c O c' H; cbn [o_sels] in H.
  - inversion H; subst. cbn. split; [lia | split; [constructor | intros i []]].
  - destruct (o_sel y c) as [h c1] eqn:Ey. destruct (o_sels c1 r) as [orest c2] eqn:Er. inversion H; subst.
    destruct (Hy _ _ _ Ey) as (L1 & N1 & R1). destruct (IH _ _ _ Er) as (L2 & N2 & R2).
    rewrite fids_cons. split; [lia|]. split; [eapply NoDup_app_ranges; eauto|].
    intros i Hi. apply in_app_iff in Hi as [Hi|Hi]; [pose proof (R1 i Hi) | pose proof (R2 i Hi)]; lia.
Qed.

Lemma o_sel_ids x : forall c h c', o_sel x c = (h, c') -> ids_ok c c' (hfids h).
Proof.
  induction x as [al nm args dirs sub IH|nm dirs|tc dirs sub IH] using selection_sub_ind; intros c h c' H.
  - rewrite o_sel_field in H. destruct (o_sels (c + 1) sub) as [osub c1] eqn:Es. inversion H; subst.
    destruct (o_sels_ids_from sub IH _ _ _ Es) as (L1 & N1 & R1).
    unfold hfids. cbn [o_cons Overlap.fids_sels Overlap.f_id]. rewrite app_nil_r.
    split; [lia|]. split.
    + constructor; [|exact N1]. intro Hi. pose proof (R1 _ Hi). lia.
    + intros i [<-|Hi]; [lia | pose proof (R1 _ Hi); lia].
  - rewrite o_sel_spread in H. inversion H; subst. unfold hfids. cbn. split; [lia | split; [constructor | intros i []]].
  - rewrite o_sel_inline in H. destruct (o_sels (c + 1) sub) as [osub c1] eqn:Es. inversion H; subst.
    destruct (o_sels_ids_from sub IH _ _ _ Es) as (L1 & N1 & R1).
    unfold hfids. cbn [o_cons Overlap.fids_sels]. rewrite app_nil_r.
    split; [lia|]. split; [exact N1|]. intros i Hi. pose proof (R1 _ Hi). lia.
Qed.

Lemma o_sels_ids L c O c' : o_sels c L = (O, c') -> ids_ok c c' (Overlap.fids_sels O).
Proof.
  apply o_sels_ids_from. apply Forall_forall. intros x _. apply o_sel_ids.
Qed.

Lemma o_frags_ids l : forall c ofr c', o_frags c l = (ofr, c') ->
  ids_ok c c' (flat_map (fun fd => Overlap.fids_sels (Overlap.fr_body fd)) ofr).
Proof.
  induction l as [|f l IH]; intros c ofr c' H; cbn [o_frags] in H.
  - inversion H; subst. cbn. split; [lia | split; [constructor | intros i []]].
  - destruct (o_sels c (fr_sels f)) as [body c1] eqn:Eb. destruct (o_frags c1 l) as [rest c2] eqn:Er.
    inversion H; subst. cbn [flat_map Overlap.fr_body].
    destruct (o_sels_ids _ _ _ _ Eb) as (L1 & N1 & R1). destruct (IH _ _ _ Er) as (L2 & N2 & R2).
    split; [lia|]. split; [eapply NoDup_app_ranges; eauto|].
    intros i Hi. apply in_app_iff in Hi as [Hi|Hi]; [pose proof (R1 i Hi) | pose proof (R2 i Hi)]; lia.
Qed.

Lemma NoDup_nodupb l : NoDup l -> Overlap.nodupb l = true.
Proof.
  induction 1 as [|x l Hx Hl IH]; cbn; [reflexivity|]. rewrite IH, andb_true_r.
  apply negb_true_iff. destruct (Overlap.mem x l) eqn:E; [|reflexivity].
  apply OverlapProps.mem_In in E. contradiction.
Qed.

Theorem o_doc_ids rt d : Overlap.nodupb (Overlap.doc_fids (o_doc rt d)) = true.
Proof.
  apply NoDup_nodupb. unfold o_doc.
  destruct (o_sels 1 (d_sels d)) as [osels c1] eqn:Es. destruct (o_frags c1 (d_frags d)) as [ofr c2] eqn:Ef.
  unfold Overlap.doc_fids. cbn [Overlap.d_ops Overlap.d_frags flat_map snd]. rewrite app_nil_r.
  destruct (o_sels_ids _ _ _ _ Es) as (L1 & N1 & R1). destruct (o_frags_ids _ _ _ _ Ef) as (L2 & N2 & R2).
  eapply NoDup_app_ranges; eauto.
Qed.
