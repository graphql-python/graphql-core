(* NoFragmentCyclesRule: the depth-first search of Valid/Rules.detect.
   - fuel S (number of fragment definitions) is always sufficient (cyclic graphs included);
   - every reported error is a closed chain of fragment spreads (RulesSpec.IsCycle);
   - with unique fragment names: when no error is reported no fragment is cyclic (the converse
     follows from the second point: RulesProps.no_fragment_cycles_nil). *)
From Coq Require Import Relations.
From GV Require Import Base.Prelude Lang.Ast Valid.Rules Valid.RulesBase Valid.RulesSpec
  Valid.RulesGraph.

Section Cycles.
  Variable fs : list fraginfo.

  Definition mono (st st' : cstate) : Prop :=
    (exists new, snd st' = snd st ++ new) /\ incl (fst st) (fst st').

  Lemma mono_refl st : mono st st.
  Proof. split; [exists []; rewrite app_nil_r; reflexivity | apply incl_refl]. Qed.

  Lemma mono_trans a b c : mono a b -> mono b c -> mono a c.
  Proof.
    intros [[n1 H1] I1] [[n2 H2] I2]. split.
    - exists (n1 ++ n2). rewrite H2, H1, app_assoc. reflexivity.
    - eapply incl_tran; eauto.
  Qed.

  Section Loop.
    Variable rec : fraginfo -> list spread -> cstate -> option cstate.
    Variable spath : list spread.
    Variable index' : list (str * nat).
    Hypothesis rec_mono : forall g sp st st', rec g sp st = Some st' -> mono st st'.

    Lemma dloop_mono sps : forall st st',
      dloop rec fs spath index' sps st = Some st' -> mono st st'.
    Proof.
      induction sps as [|s r IH]; intros st st' H; cbn in H.
      - inversion H. apply mono_refl.
      - destruct (lookup (sp_name s) index') as [ci|].
        + apply IH in H. eapply mono_trans; [|exact H]. split; [cbn; eauto | apply incl_refl].
        + destruct (get_fragment fs (sp_name s)) as [g|]; [|apply IH; exact H].
          destruct (rec g (spath ++ [s]) st) as [st1|] eqn:Er; [|discriminate].
          eapply mono_trans; [eapply rec_mono; eauto | apply IH; exact H].
    Qed.

    Variable bound : nat.
    Hypothesis rec_total : forall g sp st, In g fs -> (fresh (map f_name fs) (fst st) < bound)%nat ->
      exists st', rec g sp st = Some st'.

    Lemma dloop_total sps : forall st, (fresh (map f_name fs) (fst st) < bound)%nat ->
      exists st', dloop rec fs spath index' sps st = Some st'.
    Proof.
      induction sps as [|s r IH]; intros st Hb; cbn; [eauto|].
      destruct (lookup (sp_name s) index') as [ci|]; [apply IH; exact Hb|].
      destruct (get_fragment fs (sp_name s)) as [g|] eqn:Eg; [|apply IH; exact Hb].
      apply get_fragment_Some in Eg as [Hg _].
      destruct (rec_total g (spath ++ [s]) st Hg Hb) as [st1 E1]. rewrite E1.
      apply IH. pose proof (fresh_incl (map f_name fs) _ _ (proj2 (rec_mono _ _ _ _ E1))). lia.
    Qed.
  End Loop.

  (* one level of the search; no spreads is the loop over the empty list *)
  Lemma detect_S fuel f spath index st :
    detect (S fuel) fs f spath index st =
    if mem (f_name f) (fst st) then Some st
    else let index' := (f_name f, length spath) :: index in
         dloop (fun g sp st' => detect fuel fs g sp index' st') fs spath index' (f_spreads f)
               (f_name f :: fst st, snd st).
  Proof.
    cbn [detect]. destruct (mem (f_name f) (fst st)); [reflexivity|]. destruct (f_spreads f); reflexivity.
  Qed.

  Lemma detect_mono fuel : forall f spath index st st',
    detect fuel fs f spath index st = Some st' -> mono st st' /\ In (f_name f) (fst st').
  Proof.
    induction fuel as [|fuel IH]; intros f spath index st st' H; [discriminate|].
    rewrite detect_S in H. destruct (mem (f_name f) (fst st)) eqn:Em.
    - inversion H; subst. split; [apply mono_refl | apply mem_In; exact Em].
    - set (st1 := (f_name f :: fst st, snd st)) in *.
      assert (M1 : mono st st1).
      { split; [exists []; cbn; rewrite app_nil_r; reflexivity | cbn; apply incl_tl, incl_refl]. }
      apply dloop_mono in H; [|intros g sp a b Hr; apply (IH _ _ _ _ _ Hr)].
      split; [eapply mono_trans; eauto|]. destruct H as [_ Hi]. apply Hi. cbn. auto.
  Qed.

  Lemma detect_total fuel : forall f spath index st, In f fs -> (fresh (map f_name fs) (fst st) < fuel)%nat ->
    exists st', detect fuel fs f spath index st = Some st'.
  Proof.
    induction fuel as [|fuel IH]; intros f spath index st Hf Hb; [lia|].
    rewrite detect_S. destruct (mem (f_name f) (fst st)) eqn:Em; [eauto|].
    apply dloop_total with (bound := fuel).
    - intros g sp a b Hr. apply (detect_mono _ _ _ _ _ _ Hr).
    - intros g sp a Hg Ha. apply IH; assumption.
    - cbn [fst]. assert (H : In (f_name f) (map f_name fs)) by (apply in_map; exact Hf).
      pose proof (fresh_lt (map f_name fs) (f_name f) (fst st) H Em). lia.
  Qed.

  Lemma detect_all_total todo : forall st, incl todo fs ->
    exists st', detect_all (cycles_fuel fs) fs todo st = Some st'.
  Proof.
    induction todo as [|f r IH]; intros st Hi; cbn [detect_all]; [eauto|].
    destruct (detect_total (cycles_fuel fs) f [] [] st) as [st1 E1].
    - apply Hi. cbn. auto.
    - unfold cycles_fuel. pose proof (fresh_bound (map f_name fs) (fst st)) as Hb. rewrite map_length in Hb. lia.
    - rewrite E1. apply IH. intros x Hx. apply Hi. cbn. auto.
  Qed.

  (* following the spreads c from g leads to the fragment cur *)
  Inductive Leads : fraginfo -> list spread -> fraginfo -> Prop :=
  | Leads_nil g : Leads g [] g
  | Leads_cons g s g' c cur : In s (f_spreads g) -> Resolves fs (sp_name s) g' -> Leads g' c cur ->
                              Leads g (s :: c) cur.

  Lemma Leads_snoc g c cur s g' :
    Leads g c cur -> In s (f_spreads cur) -> Resolves fs (sp_name s) g' -> Leads g (c ++ [s]) g'.
  Proof.
    induction 1; intros Hs Hr; cbn; [|eapply Leads_cons; eauto].
    eapply Leads_cons; eauto. apply Leads_nil.
  Qed.

  Lemma Leads_chain g c cur s : Leads g c cur -> In s (f_spreads cur) -> Chain fs g (c ++ [s]) (sp_name s).
  Proof. induction 1; intro Hs; cbn; [apply Chain_last; exact Hs | eapply Chain_step; eauto]. Qed.

  (* spread_path_index_by_name: an entry (name, i) names a fragment from which the spreads of
     spread_path from position i on lead to the fragment being explored *)
  Definition PathInv (spath : list spread) (index : list (str * nat)) (cur : fraginfo) : Prop :=
    forall name i, In (name, i) index ->
      (i <= length spath)%nat /\ exists g, In g fs /\ f_name g = name /\ Leads g (skipn i spath) cur.

  Lemma PathInv_enter spath index f :
    PathInv spath index f -> In f fs -> PathInv spath ((f_name f, length spath) :: index) f.
  Proof.
    intros HP Hf name i [E|Hin]; [|apply HP; exact Hin]. inversion E; subst. split; [lia|].
    exists f. rewrite skipn_all. repeat split; auto. apply Leads_nil.
  Qed.

  Lemma PathInv_step spath index f s g :
    PathInv spath index f -> In s (f_spreads f) -> Resolves fs (sp_name s) g ->
    PathInv (spath ++ [s]) index g.
  Proof.
    intros HP Hs Hr name i Hin. destruct (HP name i Hin) as (Hi & g0 & Hg0 & Hn & HL).
    split; [rewrite app_length; cbn; lia|]. exists g0. repeat split; auto.
    rewrite skipn_app. replace (i - length spath)%nat with O by lia. eapply Leads_snoc; eauto.
  Qed.

  Lemma back_edge_cycle spath index f s ci :
    PathInv spath index f -> In s (f_spreads f) -> lookup (sp_name s) index = Some ci ->
    IsCycle fs (skipn ci (spath ++ [s])).
  Proof.
    intros HP Hs Hl. apply lookup_Some_In in Hl. destruct (HP _ _ Hl) as (Hci & g & Hg & Hn & HL).
    rewrite skipn_app. replace (ci - length spath)%nat with O by lia. cbn [skipn].
    exists g. split; [exact Hg|]. rewrite Hn. apply (Leads_chain g _ f s HL Hs).
  Qed.

  Definition good (st : cstate) : Prop := forall c, In c (snd st) -> IsCycle fs c.

  Lemma dloop_sound rec spath index' f
    (Hrec : forall g s st st', rec g (spath ++ [s]) st = Some st' ->
            PathInv (spath ++ [s]) index' g -> In g fs -> good st -> good st')
    (HP : PathInv spath index' f) sps : forall st st',
    dloop rec fs spath index' sps st = Some st' ->
    incl sps (f_spreads f) -> good st -> good st'.
  Proof.
    induction sps as [|s r IH]; intros st st' H Hi Hg; cbn in H; [inversion H; subst; exact Hg|].
    assert (Hs : In s (f_spreads f)) by (apply Hi; cbn; auto).
    assert (Hi' : incl r (f_spreads f)) by (intros x Hx; apply Hi; cbn; auto).
    destruct (lookup (sp_name s) index') as [ci|] eqn:El.
    - apply (IH _ _ H Hi'). intros c Hc. cbn in Hc. apply in_app_iff in Hc as [Hc|[<-|[]]]; [auto|].
      eapply back_edge_cycle; eauto.
    - destruct (get_fragment fs (sp_name s)) as [g|] eqn:Eg; [|apply (IH _ _ H Hi' Hg)].
      destruct (rec g (spath ++ [s]) st) as [st1|] eqn:Er; [|discriminate].
      apply (IH _ _ H Hi'). eapply Hrec; eauto.
      + eapply PathInv_step; eauto.
      + apply get_fragment_Some in Eg. tauto.
  Qed.

  Lemma detect_sound fuel : forall f spath index st st',
    detect fuel fs f spath index st = Some st' ->
    PathInv spath index f -> In f fs -> good st -> good st'.
  Proof.
    induction fuel as [|fuel IH]; intros f spath index st st' H HP Hf Hg; [discriminate|].
    rewrite detect_S in H. destruct (mem (f_name f) (fst st)); [inversion H; subst; exact Hg|].
    refine (dloop_sound _ spath _ f _ (PathInv_enter _ _ _ HP Hf) (f_spreads f) _ _ H (incl_refl _) Hg).
    intros g s st0 st0' Hr HP' Hg' Hgood. eapply IH; eauto.
  Qed.

  Lemma detect_all_sound todo : forall st st',
    detect_all (cycles_fuel fs) fs todo st = Some st' -> incl todo fs -> good st -> good st'.
  Proof.
    induction todo as [|f r IH]; intros st st' H Hi Hg; cbn [detect_all] in H; [inversion H; subst; exact Hg|].
    destruct (detect (cycles_fuel fs) fs f [] [] st) as [st1|] eqn:E1; [|discriminate].
    apply (IH _ _ H); [intros x Hx; apply Hi; cbn; auto|].
    apply (detect_sound _ f [] [] st st1 E1); [intros name i [] | apply Hi; cbn; auto | exact Hg].
  Qed.

  (* a closed chain is a cycle of the "spreads" relation on names *)
  Lemma chain_trans g c t : In g fs -> Chain fs g c t -> clos_trans str (Spreads fs) (f_name g) t.
  Proof.
    intros Hg H. induction H as [g s Hs | g s g' c t Hs Hr Hc IH].
    - apply t_step. exists g, s. auto.
    - apply get_fragment_Some in Hr as [Hg' Hn].
      apply t_trans with (sp_name s); [apply t_step; exists g, s; auto|]. rewrite <- Hn. apply IH. exact Hg'.
  Qed.

  Lemma IsCycle_cyclic c : IsCycle fs c -> exists a, Cyclic fs a.
  Proof. intros (g & Hg & Hc). exists (f_name g). apply (chain_trans g c); assumption. Qed.

  Lemma detect_all_mono fuel todo : forall st st',
    detect_all fuel fs todo st = Some st' ->
    mono st st' /\ (forall f, In f todo -> In (f_name f) (fst st')).
  Proof.
    induction todo as [|f r IH]; intros st st' H; cbn [detect_all] in H.
    - inversion H; subst. split; [apply mono_refl | intros f []].
    - destruct (detect fuel fs f [] [] st) as [st1|] eqn:E1; [|discriminate].
      apply detect_mono in E1 as [M1 V1]. apply IH in H as [M2 V2].
      split; [eapply mono_trans; eauto|]. intros g [<-|Hg]; [apply (proj2 M2); exact V1 | auto].
  Qed.

  Lemma app_same_nil {A} (l x : list A) : l ++ x = l -> x = [].
  Proof. intro H. apply (app_inv_head l). rewrite app_nil_r. exact H. Qed.

  Lemma mono_same a b c : mono a b -> mono b c -> snd c = snd a -> snd b = snd a /\ snd c = snd b.
  Proof.
    intros [[n1 H1] _] [[n2 H2] _] H. rewrite H2, H1, <- app_assoc in H.
    apply app_same_nil in H. apply app_eq_nil in H as [-> ->]. rewrite app_nil_r in *. split; congruence.
  Qed.

  Definition Spreads' (a b : str) : Prop := Spreads fs a b /\ Defined fs b.

  (* finished fragments, most recently finished first: every defined fragment a finished fragment
     spreads was finished before it *)
  Inductive Closed : list str -> Prop :=
  | Closed_nil : Closed []
  | Closed_cons a fin : Closed fin -> ~ In a fin -> (forall b, Spreads' a b -> In b fin) ->
                        Closed (a :: fin).

  Lemma closed_succ fin : Closed fin -> forall x y, In x fin -> Spreads' x y -> In y fin.
  Proof.
    induction 1 as [|a fin Hc IH Ha Hs]; intros x y Hx Hxy; [destruct Hx|].
    destruct Hx as [<-|Hx]; [right; apply Hs; exact Hxy | right; eapply IH; eauto].
  Qed.

  Lemma closed_reach fin : Closed fin -> forall x y, clos_trans str Spreads' x y -> In x fin -> In y fin.
  Proof.
    intros Hc x y H. induction H as [x y H | x y z _ IH1 _ IH2]; intro Hx.
    - eapply closed_succ; eauto.
    - auto.
  Qed.

  Lemma closed_acyclic fin : Closed fin -> forall x, In x fin -> ~ clos_trans str Spreads' x x.
  Proof.
    induction 1 as [|a fin Hc IH Ha Hs]; intros x Hx Hcyc; [destruct Hx|].
    destruct Hx as [<-|Hx]; [|apply (IH x Hx Hcyc)].
    apply clos_trans_t1n in Hcyc. inversion Hcyc as [y Hy | y z Hy Hyz]; subst.
    - apply Ha. apply Hs. exact Hy.
    - apply Ha. apply (closed_reach fin Hc y a); [apply clos_t1n_trans; exact Hyz | apply Hs; exact Hy].
  Qed.

  Lemma ct_src_defined a b : clos_trans str (Spreads fs) a b -> Defined fs a.
  Proof.
    induction 1 as [a b (f & s & Hf & Hn & _) | a b c _ IH _ _]; [exists f; auto | exact IH].
  Qed.

  Lemma ct_defined a b : clos_trans str (Spreads fs) a b -> Defined fs b -> clos_trans str Spreads' a b.
  Proof.
    induction 1 as [a b H | a b c H1 IH1 H2 IH2]; intro Hd.
    - apply t_step. split; assumption.
    - apply t_trans with b; [apply IH1; eapply ct_src_defined; eauto | apply IH2; exact Hd].
  Qed.

  Hypothesis Huniq : NoDup (map f_name fs).

  Lemma name_inj f f' : In f fs -> In f' fs -> f_name f = f_name f' -> f = f'.
  Proof.
    revert Huniq. induction fs as [|g l IH]; [intros _ []|]. intros Hnd Hf Hf' He.
    inversion Hnd as [|? ? Hg Hl]; subst. destruct Hf as [<-|Hf], Hf' as [<-|Hf']; auto.
    - exfalso. apply Hg. rewrite He. apply in_map. exact Hf'.
    - exfalso. apply Hg. rewrite <- He. apply in_map. exact Hf.
  Qed.

  Definition gray (index : list (str * nat)) : list str := map fst index.

  Record CInv (vis : list str) (index : list (str * nat)) (fin : list str) : Prop := {
    ci_closed : Closed fin;
    ci_vis : forall x, In x vis <-> In x fin \/ In x (gray index);
    ci_disj : forall x, In x fin -> ~ In x (gray index)
  }.

  Definition complete_post (st st' : cstate) (index : list (str * nat)) (fin fin' : list str) : Prop :=
    CInv (fst st') index fin' /\ incl fin fin' /\ (forall x, In x fin' -> In x fin \/ ~ In x (fst st)).

  Section LoopC.
    Variable rec : fraginfo -> list spread -> cstate -> option cstate.
    Variable spath : list spread.
    Variable index' : list (str * nat).
    Hypothesis rec_mono : forall g sp st st', rec g sp st = Some st' -> mono st st'.
    Hypothesis rec_visits : forall g sp st st', rec g sp st = Some st' -> In (f_name g) (fst st').
    Hypothesis rec_complete : forall g sp st st' fin,
      rec g sp st = Some st' -> snd st' = snd st -> In g fs -> CInv (fst st) index' fin ->
      exists fin', complete_post st st' index' fin fin'.

    Lemma dloop_complete sps : forall st st' fin,
      dloop rec fs spath index' sps st = Some st' -> snd st' = snd st -> CInv (fst st) index' fin ->
      exists fin', complete_post st st' index' fin fin' /\
                   (forall s, In s sps -> Defined fs (sp_name s) -> In (sp_name s) fin').
    Proof.
      induction sps as [|s r IH]; intros st st' fin H He HI; cbn in H.
      - inversion H; subst. exists fin. split; [|intros s []].
        split; [exact HI|]. split; [apply incl_refl | auto].
      - destruct (lookup (sp_name s) index') as [ci|] eqn:El.
        + (* a back edge appends an error, and errors are never withdrawn: the list did not stay as it was *)
          exfalso. apply (dloop_mono rec spath index' rec_mono) in H as [[new Hn] _]. cbn in Hn.
          rewrite He, <- app_assoc in Hn. symmetry in Hn. apply app_same_nil in Hn. discriminate.
        + apply lookup_None in El.
          destruct (get_fragment fs (sp_name s)) as [g|] eqn:Eg.
          * destruct (rec g (spath ++ [s]) st) as [st1|] eqn:Er; [|discriminate].
            pose proof (rec_mono _ _ _ _ Er) as M1.
            pose proof (dloop_mono rec spath index' rec_mono _ _ _ H) as M2.
            destruct (mono_same _ _ _ M1 M2 He) as [E1 E2].
            pose proof (get_fragment_Some _ _ _ Eg) as [Hg Hgn].
            destruct (rec_complete _ _ _ _ fin Er E1 Hg HI) as (fin1 & HI1 & Hi1 & Hn1).
            destruct (IH _ _ fin1 H E2 HI1) as (fin' & (HI' & Hi' & Hn') & Hs').
            exists fin'. split; [split; [exact HI'|]; split|].
            -- eapply incl_tran; eauto.
            -- intros x Hx. destruct (Hn' x Hx) as [Hx1|Hx1].
               ++ apply Hn1. exact Hx1.
               ++ right. intro Hv. apply Hx1. apply (proj2 M1). exact Hv.
            -- intros s' [<-|Hs''] Hd; [|apply Hs'; assumption].
               apply Hi'. pose proof (rec_visits _ _ _ _ Er) as Hv. rewrite Hgn in Hv.
               apply (ci_vis _ _ _ HI1) in Hv as [Hv|Hv]; [exact Hv | contradiction].
          * destruct (IH _ _ fin H He HI) as (fin' & Hp & Hs'). exists fin'. split; [exact Hp|].
            intros s' [<-|Hs''] Hd; [|apply Hs'; assumption].
            apply get_fragment_None in Eg. contradiction.
    Qed.
  End LoopC.

  Lemma detect_complete fuel : forall f spath index st st' fin,
    detect fuel fs f spath index st = Some st' -> snd st' = snd st -> In f fs ->
    CInv (fst st) index fin -> exists fin', complete_post st st' index fin fin'.
  Proof.
    induction fuel as [|fuel IH]; intros f spath index st st' fin H He Hf HI; [discriminate|].
    rewrite detect_S in H. destruct (mem (f_name f) (fst st)) eqn:Em.
    { inversion H; subst. exists fin. split; [exact HI|]. split; [apply incl_refl | auto]. }
    apply mem_false in Em. set (a := f_name f) in *.
    destruct HI as [Hc Hv Hd].
    assert (Hagray : ~ In a (gray index)) by (intro Hx; apply Em; apply Hv; auto).
    set (index' := (a, length spath) :: index) in *.
    set (st1 := (a :: fst st, snd st)) in *.
    assert (HI1 : CInv (fst st1) index' fin).
    { constructor; [exact Hc| |].
      - intro x. unfold st1, index'. cbn [fst gray map In]. rewrite Hv. tauto.
      - intros x Hx [<-|Hg]; [apply Em, Hv; auto | apply (Hd x Hx Hg)]. }
    destruct (dloop_complete (fun g sp st' => detect fuel fs g sp index' st') spath index'
                (fun g sp a0 b Hr => proj1 (detect_mono fuel g sp index' a0 b Hr))
                (fun g sp a0 b Hr => proj2 (detect_mono fuel g sp index' a0 b Hr))
                (fun g sp a0 b fin0 Hr Hs Hg Hi => IH g sp index' a0 b fin0 Hr Hs Hg Hi)
                (f_spreads f) st1 st' fin H He HI1)
      as (fe & ([Hce Hve Hde] & Hie & Hne) & Hse).
    exists (a :: fe). split; [constructor|split].
    - constructor; [exact Hce| |].
      + intro Hx. apply (Hde a Hx). cbn. auto.
      + intros b [(f' & s & Hf' & Hn & Hs & Hb) Hdef]. rewrite (name_inj f' f Hf' Hf Hn) in Hs.
        rewrite <- Hb. apply Hse; [exact Hs | rewrite Hb; exact Hdef].
    - intro x. rewrite Hve. unfold index'. cbn [fst gray map In]. tauto.
    - intros x [<-|Hx]; [exact Hagray|]. intro Hg. apply (Hde x Hx). cbn. auto.
    - apply incl_tl. exact Hie.
    - intros x [<-|Hx]; [auto|]. destruct (Hne x Hx) as [H1|H1]; [auto|].
      right. intro Hx'. apply H1. cbn. auto.
  Qed.

  Lemma detect_all_complete todo : forall st st' fin,
    detect_all (cycles_fuel fs) fs todo st = Some st' -> snd st' = snd st -> incl todo fs ->
    CInv (fst st) [] fin -> exists fin', CInv (fst st') [] fin'.
  Proof.
    induction todo as [|f r IH]; intros st st' fin H He Hi HI; cbn [detect_all] in H.
    - inversion H; subst. eauto.
    - destruct (detect (cycles_fuel fs) fs f [] [] st) as [st1|] eqn:E1; [|discriminate].
      pose proof (proj1 (detect_mono _ _ _ _ _ _ E1)) as M1.
      pose proof (proj1 (detect_all_mono _ _ _ _ H)) as M2.
      destruct (mono_same _ _ _ M1 M2 He) as [Ea Eb].
      destruct (detect_complete _ _ _ _ _ _ fin E1 Ea (Hi f (or_introl eq_refl)) HI) as (fin1 & HI1 & _).
      apply (IH _ _ fin1 H Eb); [intros x Hx; apply Hi; cbn; auto | exact HI1].
  Qed.

  Theorem no_error_acyclic st' :
    detect_all (cycles_fuel fs) fs fs ([], []) = Some st' -> snd st' = [] ->
    forall a, ~ Cyclic fs a.
  Proof.
    intros H He a Hcyc.
    destruct (detect_all_complete fs ([], []) st' [] H He (incl_refl _)) as (fin & [Hc Hv Hd]).
    { constructor; [constructor | cbn; tauto | cbn; tauto]. }
    pose proof (ct_src_defined _ _ Hcyc) as (f & Hf & Hn).
    apply (closed_acyclic fin Hc a).
    - assert (Hin : In a (fst st')).
      { rewrite <- Hn. apply (proj2 (detect_all_mono _ _ _ _ H)). exact Hf. }
      apply Hv in Hin as [Hin|[]]. exact Hin.
    - apply ct_defined; [exact Hcyc | exists f; auto].
  Qed.
End Cycles.
