(* Soundness of the typing judgment w.r.t. the execution model (proofs for C13). *)
From GV Require Import Base.Prelude Base.ListFacts Exec.Value Exec.Schema Exec.Spec Exec.SpecProps Exec.Typing Exec.ValueFacts.

Lemma find_field_In n fs fd : find_field n fs = Some fd -> In fd fs /\ f_name fd = n.
Proof. apply (find_named_In f_name find_field); reflexivity. Qed.

Lemma find_var_In x l vd : find_var x l = Some vd -> In vd l /\ v_name vd = x.
Proof. apply (find_named_In v_name find_var); reflexivity. Qed.

Lemma find_arg_In n l ad : find_arg n l = Some ad -> In ad l /\ a_name ad = n.
Proof. apply (find_named_In a_name find_arg); reflexivity. Qed.

Lemma nodup_names_head x r : nodup_names (x :: r) = true -> ~ In x r /\ nodup_names r = true.
Proof.
  cbn. intro H. apply andb_true_iff in H. destruct H as [H1 H2]. split; [|exact H2].
  apply negb_true_iff in H1. apply mem_not_In. exact H1.
Qed.

Lemma coerce_leaf_lit_nonnull s n v c : coerce_leaf_lit s n v = Some c -> c <> VNull.
Proof.
  unfold coerce_leaf_lit. destruct (lookup_type s n) as [[[]|vals| | | |]|]; try discriminate;
    destruct v; try discriminate; intro H; try (inversion H; subst; discriminate).
  - destruct (in_int_range z); inversion H; subst; discriminate.
  - destruct (mem s0 vals); inversion H; subst; discriminate.
Qed.

Lemma coerce_scalar_lit_nonnull s v t c : coerce_scalar_lit s v t = Some c -> c <> VNull.
Proof.
  revert c. induction t as [n|it IH|t' IH]; intros c; cbn.
  - apply coerce_leaf_lit_nonnull.
  - destruct (coerce_scalar_lit s v it); cbn; [|discriminate]. intro H; inversion H; discriminate.
  - apply IH.
Qed.

Lemma wrap_list_nonnull k c : c <> VNull -> wrap_list k c <> VNull.
Proof. destruct k; cbn; [auto | discriminate]. Qed.

(* a literal that is neither null nor a variable, or any literal at a non-null type *)
Lemma coerce_lit_nonnull s dflt cv v t c :
  is_nonnull t = true \/ (v <> VNull /\ forall x, v <> VVar x) ->
  coerce_lit s dflt cv v t = Some c -> c <> VNull.
Proof.
  intros Hn. destruct v; cbn [coerce_lit]; try (apply coerce_scalar_lit_nonnull).
  - destruct Hn as [Hn|[Hn _]]; [rewrite Hn; discriminate | congruence].
  - destruct Hn as [Hn|[_ Hn]]; [|exfalso; eapply Hn; reflexivity].
    destruct (lookup x cv) as [[]|]; try rewrite Hn; try discriminate;
      intro H; inversion H; subst; discriminate.
  - destruct (list_item_type t); [|discriminate].
    match goal with |- option_map VList ?g = _ -> _ => destruct g end; cbn; [|discriminate].
    intro H; inversion H; discriminate.
  - destruct (unwrap_named t) as [depth n].
    destruct (lookup_type s n) as [[| | | | |defs oneof]|]; try discriminate.
    destruct (pre_fields _ defs fields) as [pre|]; [|discriminate].
    destruct (assemble dflt defs (get_pre pre)) as [out|]; [|discriminate].
    destruct (oneof && negb (one_of_ok fields out)); [discriminate|].
    intro H; inversion H; subst. apply wrap_list_nonnull. discriminate.
Qed.

Lemma coerce_leaf_val_nonnull s n v c : coerce_leaf_val s n v = Some c -> c <> VNull.
Proof.
  unfold coerce_leaf_val. destruct (lookup_type s n) as [[[]|vals| | | |]|]; try discriminate;
    destruct v; try discriminate; intro H; try (inversion H; subst; discriminate).
  - destruct (in_int_range z); inversion H; subst; discriminate.
  - destruct (mem s0 vals); inversion H; subst; discriminate.
Qed.

Lemma coerce_scalar_val_nonnull s v t c : coerce_scalar_val s v t = Some c -> c <> VNull.
Proof.
  revert c. induction t as [n|it IH|t' IH]; intros c; cbn.
  - apply coerce_leaf_val_nonnull.
  - destruct (coerce_scalar_val s v it); cbn; [|discriminate]. intro H; inversion H; discriminate.
  - apply IH.
Qed.

Lemma coerce_val_nonnull s dflt v t c :
  is_nonnull t = true -> coerce_val s dflt v t = Some c -> c <> VNull.
Proof.
  intros Hn. destruct v; cbn [coerce_val]; try (apply coerce_scalar_val_nonnull); try discriminate.
  - rewrite Hn. discriminate.
  - destruct (list_item_type t); [|discriminate].
    match goal with |- option_map VList ?g = _ -> _ => destruct g end; cbn; [|discriminate].
    intro H; inversion H; discriminate.
  - destruct (unwrap_named t) as [depth n].
    destruct (lookup_type s n) as [[| | | | |defs oneof]|]; try discriminate.
    destruct (pre_fields _ defs fields) as [pre|]; [|discriminate].
    destruct (assemble dflt defs (get_pre pre)) as [out|]; [|discriminate].
    destruct (oneof && negb (one_of_ok fields out)); [discriminate|].
    intro H; inversion H; subst. apply wrap_list_nonnull. discriminate.
Qed.

(* what variable coercion guarantees about the coerced map *)
Definition cv_ok (vdefs : list var_def) (cv : list (str * value)) : Prop :=
  forall vd, In vd vdefs ->
    (is_nonnull (v_type vd) = true -> exists c, lookup (v_name vd) cv = Some c /\ c <> VNull) /\
    (has_nonnull_default (v_default vd) = true -> exists c, lookup (v_name vd) cv = Some c).

Lemma coerce_vars_ok s vdefs given cv :
  nodup_names (map v_name vdefs) = true ->
  coerce_variable_values s vdefs given = Some cv -> cv_ok vdefs cv.
Proof.
  revert cv. induction vdefs as [|vd rest IH]; intros cv Hnd H.
  - intros vd [].
  - cbn [map] in Hnd. apply nodup_names_head in Hnd. destruct Hnd as [Hnotin Hnd].
    cbn [coerce_variable_values] in H.
    destruct (negb (is_input_type s (v_type vd))); [discriminate|].
    destruct (coerce_variable_values s rest given) as [cr|] eqn:Er.
    2:{ destruct (match lookup (v_name vd) given with Some _ => _ | None => _ end) as [[?|]|]; discriminate. }
    specialize (IH cr Hnd eq_refl).
    assert (Htail : forall c0 vd', In vd' rest ->
              lookup (v_name vd') ((v_name vd, c0) :: cr) = lookup (v_name vd') cr).
    { intros c0 vd' Hin. cbn. destruct (str_eqb (v_name vd') (v_name vd)) eqn:E; [|reflexivity].
      apply str_eqb_eq in E. exfalso. apply Hnotin. rewrite <- E. apply in_map. exact Hin. }
    destruct (lookup (v_name vd) given) as [gv|] eqn:Eg.
    + (* provided *)
      destruct (coerce_val s (coerce_const s) gv (v_type vd)) as [c|] eqn:Ec; cbn in H; [|discriminate].
      inversion H; subst; clear H. intros vd' [<-|Hin].
      * split; intros Hx; exists c; cbn; rewrite str_eqb_refl; [split; [reflexivity|] | reflexivity].
        eapply coerce_val_nonnull; [exact Hx | exact Ec].
      * rewrite (Htail c vd' Hin). apply IH. exact Hin.
    + destruct (v_default vd) as [lit|] eqn:Ed.
      * destruct (coerce_const s (v_type vd) lit) as [c|] eqn:Ec; cbn in H; [|discriminate].
        inversion H; subst; clear H. intros vd' [<-|Hin].
        -- split; intros Hx; exists c; cbn; rewrite str_eqb_refl; [split; [reflexivity|] | reflexivity].
           unfold coerce_const in Ec. cbn [coerce_default] in Ec.
           eapply coerce_lit_nonnull; [left; exact Hx | exact Ec].
        -- rewrite (Htail c vd' Hin). apply IH. exact Hin.
      * destruct (is_nonnull (v_type vd)) eqn:En; cbn in H; [discriminate|].
        inversion H; subst; clear H. intros vd' [<-|Hin].
        -- split; intro Hx; [congruence|]. rewrite Ed in Hx. discriminate.
        -- apply IH. exact Hin.
Qed.

(* argument defaults of a valid schema coerce *)
Lemma schema_defaults s rt name fd :
  schema_ok s = true -> lookup_field s rt name = Some fd -> defaults_ok s (f_args fd) = true.
Proof.
  intros Hs Hl.
  assert (Hfs : exists fs, fields_defaults_ok s fs = true /\ In fd fs).
  { unfold lookup_field, lookup_type in Hl.
    destruct (scalar_of_name rt); [discriminate|].
    destruct (lookup rt (s_types s)) as [td|] eqn:El; [|discriminate].
    apply lookup_In in El. unfold schema_ok in Hs. rewrite forallb_forall in Hs.
    specialize (Hs _ El). cbn in Hs.
    destruct td as [| |fs ifs|fs| |]; try discriminate;
      exists fs; (split; [exact Hs | apply find_field_In in Hl; apply Hl]). }
  destruct Hfs as [fs [Hok Hfd]]. unfold fields_defaults_ok in Hok.
  rewrite forallb_forall in Hok. exact (Hok _ Hfd).
Qed.

(* input object types of a valid schema *)
Lemma schema_input s n defs oneof :
  schema_ok s = true -> lookup_type s n = Some (TInput defs oneof) ->
  nodup_names (map a_name defs) = true /\ defaults_ok s defs = true /\
  (oneof = true ->
   forall ad, In ad defs -> is_nonnull (a_type ad) = false /\ a_default ad = None).
Proof.
  intros Hs Hl. unfold lookup_type in Hl. destruct (scalar_of_name n); [discriminate|].
  apply lookup_In in Hl. unfold schema_ok in Hs. rewrite forallb_forall in Hs.
  specialize (Hs _ Hl). cbn in Hs. apply andb_true_iff in Hs. destruct Hs as [Hs Ho].
  apply andb_true_iff in Hs. destruct Hs as [Hnd Hd].
  split; [exact Hnd|]. split; [exact Hd|]. intros -> ad Hin. cbn in Ho. rewrite forallb_forall in Ho.
  specialize (Ho _ Hin). apply andb_true_iff in Ho. destruct Ho as [H1 H2].
  apply negb_true_iff in H1. split; [exact H1|].
  unfold has_default in H2. destruct (a_default ad); [discriminate | reflexivity].
Qed.

Lemma find_arg_self defs ad :
  nodup_names (map a_name defs) = true -> In ad defs -> find_arg (a_name ad) defs = Some ad.
Proof.
  induction defs as [|a r IH]; intros Hnd Hin; [destruct Hin|].
  cbn [map] in Hnd. apply nodup_names_head in Hnd. destruct Hnd as [Hnot Hnd].
  cbn [find_arg]. destruct Hin as [->|Hin]; [rewrite str_eqb_refl; reflexivity|].
  destruct (str_eqb (a_name ad) (a_name a)) eqn:E; [|apply IH; assumption].
  apply str_eqb_eq in E. exfalso. apply Hnot. rewrite <- E. apply in_map. exact Hin.
Qed.

Lemma assemble_some dflt defs get :
  (forall ad, In ad defs ->
     match get ad with
     | PAbsent => required_arg ad = false /\
                  (forall lit, a_default ad = Some lit -> dflt (a_type ad) lit <> None)
     | PValue c => c <> None
     end) ->
  exists r, assemble dflt defs get = Some r.
Proof.
  induction defs as [|ad rest IH]; intros H; [eexists; reflexivity|].
  destruct (IH (fun ad' Hin => H ad' (or_intror Hin))) as [cr Hcr].
  cbn [assemble]. rewrite Hcr. specialize (H ad (or_introl eq_refl)).
  destruct (get ad) as [|c].
  - destruct H as [Hr Hd]. rewrite Hr. destruct (a_default ad) as [lit|].
    + destruct (dflt (a_type ad) lit) eqn:E; [eexists; reflexivity|]. exfalso. eapply Hd; [reflexivity|exact E].
    + eexists; reflexivity.
  - destruct c as [c|]; [eexists; reflexivity | congruence].
Qed.

Lemma defaults_ok_In s defs ad lit :
  defaults_ok s defs = true -> In ad defs -> a_default ad = Some lit ->
  coerce_const s (a_type ad) lit <> None.
Proof.
  unfold defaults_ok. rewrite forallb_forall. intros H Hin Hd. specialize (H _ Hin).
  rewrite Hd in H. destruct (coerce_const s (a_type ad) lit); [discriminate | discriminate H].
Qed.

(* a OneOf object with one provided field yields exactly that entry *)
Lemma assemble_oneof dflt defs k c :
  nodup_names (map a_name defs) = true ->
  (forall ad, In ad defs -> is_nonnull (a_type ad) = false /\ a_default ad = None) ->
  assemble dflt defs (get_pre [(k, PValue (Some c))])
  = Some (if mem k (map a_name defs) then [(k, c)] else []).
Proof.
  induction defs as [|ad rest IH]; intros Hnd H; [reflexivity|].
  cbn [map] in Hnd. apply nodup_names_head in Hnd. destruct Hnd as [Hnot Hnd].
  specialize (IH Hnd (fun ad' Hin => H ad' (or_intror Hin))).
  cbn [assemble]. rewrite IH. destruct (H ad (or_introl eq_refl)) as [Hn Hd].
  unfold get_pre at 1. cbn [lookup].
  replace (mem k (map a_name (ad :: rest))) with (str_eqb k (a_name ad) || mem k (map a_name rest))
    by reflexivity.
  destruct (str_eqb (a_name ad) k) eqn:E.
  - apply str_eqb_eq in E. subst k. rewrite str_eqb_refl. apply mem_not_In in Hnot. rewrite Hnot.
    reflexivity.
  - assert (E' : str_eqb k (a_name ad) = false).
    { apply str_eqb_neq. apply str_eqb_neq in E. congruence. }
    rewrite E'. cbn [orb]. unfold required_arg. rewrite Hn, Hd. cbn.
    destruct (mem k (map a_name rest)); reflexivity.
Qed.

Lemma pre_fields_keys co defs flds pre :
  pre_fields co defs flds = Some pre -> forall k, lookup k pre = None <-> lookup k flds = None.
Proof.
  revert pre. induction flds as [|[k0 x] r IH]; intros pre H k.
  - inversion H; subst. split; reflexivity.
  - cbn [pre_fields] in H. destruct (find_arg k0 defs) as [ad|]; [|discriminate].
    destruct (pre_fields co defs r) as [pr|] eqn:Er; [|discriminate]. inversion H; subst.
    cbn [lookup]. destruct (str_eqb k k0); [split; discriminate | apply IH; reflexivity].
Qed.

Section Args.
  Variable s : schema.
  Variable vdefs : list var_def.
  Variable cv : list (str * value).
  Hypothesis Hschema : schema_ok s = true.
  Hypothesis Hcv : cv_ok vdefs cv.
  Let nulls := nulls_of vdefs cv.

  Lemma null_var_in_nulls vd :
    In vd vdefs -> is_nonnull (v_type vd) = false -> lookup (v_name vd) cv = Some VNull ->
    mem (v_name vd) nulls = true.
  Proof.
    intros Hin Ht Hl. apply mem_In. unfold nulls, nulls_of. apply in_flat_map.
    exists vd. split; [exact Hin|]. rewrite Ht, Hl. left. reflexivity.
  Qed.

  (* a variable allowed at a location has a usable value there, or has no value at all where the
     location can do without *)
  Lemma var_usage x vd t dflt :
    find_var x vdefs = Some vd ->
    allowed_usage (v_type vd) (v_default vd) t dflt && negb (is_nonnull t && mem x nulls) = true ->
    match lookup x cv with
    | None => is_nonnull t = false \/ dflt = true
    | Some c => is_nonnull t = true -> c <> VNull
    end.
  Proof.
    intros Hf Ha. apply find_var_In in Hf. destruct Hf as [Hin <-].
    apply andb_true_iff in Ha. destruct Ha as [Ha Hnl].
    destruct (Hcv vd Hin) as [P1 P2].
    destruct t as [n|it|lt]; cbn [is_nonnull].
    1,2: destruct (lookup (v_name vd) cv); [discriminate | left; reflexivity].
    cbn [allowed_usage] in Ha.
    destruct (is_nonnull (v_type vd)) eqn:En.
    - destruct (P1 eq_refl) as [c [-> Hc]]. intros _. exact Hc.
    - apply andb_true_iff in Ha. destruct Ha as [Ha _].
      destruct (lookup (v_name vd) cv) as [c|] eqn:El.
      + intros _ ->. rewrite (null_var_in_nulls vd Hin En El) in Hnl. discriminate.
      + apply orb_true_iff in Ha. destruct Ha as [Ha|Ha]; [|right; exact Ha].
        destruct (P2 Ha) as [c Hc]. congruence.
  Qed.

  Definition lit_result (v : value) (t : ty) (dflt : bool) : Prop :=
    (exists c, coerce_lit s (coerce_const s) cv v t = Some c) \/
    (exists x, v = VVar x /\ lookup x cv = None /\ (is_nonnull t = false \/ dflt = true)).

  (* what a literal with a result provides for the argument or input field [ad] *)
  Lemma lit_result_provided v ad :
    lit_result v (a_type ad) (has_default ad) ->
    match (if missing_var cv v then PAbsent
           else PValue (coerce_lit s (coerce_const s) cv v (a_type ad))) with
    | PValue c => c <> None
    | PAbsent => required_arg ad = false
    end.
  Proof.
    intros [[c Hc]|[y [-> [Hy Hor]]]].
    - destruct (missing_var cv v) eqn:Em; [|rewrite Hc; discriminate].
      (* a variable without value that nevertheless coerces: impossible *)
      destruct v; try discriminate. cbn in Em, Hc. destruct (lookup x cv); discriminate.
    - cbn [missing_var]. rewrite Hy. unfold required_arg, has_default in *.
      destruct Hor as [Hi|Hi]; [rewrite Hi; reflexivity|].
      destruct (a_default ad); [apply andb_false_r | discriminate].
  Qed.

  (* the test [lit_ok] applies to the fields of an object literal *)
  Definition obj_fields_ok (defs : list arg_def) : list (str * value) -> bool :=
    fix all (l : list (str * value)) : bool :=
      match l with
      | [] => true
      | (k, x) :: r =>
        match find_arg k defs with
        | Some ad => lit_ok s vdefs nulls x (a_type ad) (has_default ad)
        | None => false
        end && all r
      end.

  Lemma pre_fields_sound defs flds :
    Forall (fun kv => forall t dflt, lit_ok s vdefs nulls (snd kv) t dflt = true ->
                                     lit_result (snd kv) t dflt) flds ->
    obj_fields_ok defs flds = true ->
    exists pre,
      pre_fields (fun x t' => if missing_var cv x then PAbsent
                              else PValue (coerce_lit s (coerce_const s) cv x t')) defs flds = Some pre /\
      forall k p, lookup k pre = Some p ->
        match p with
        | PValue c => c <> None
        | PAbsent => forall ad, find_arg k defs = Some ad -> required_arg ad = false
        end.
  Proof.
    induction flds as [|[k x] r IH]; intros HF H.
    - exists []. split; [reflexivity|]. intros k p Hl. discriminate.
    - inversion HF as [|? ? Hx HF']; subst. cbn [snd] in Hx. cbn [obj_fields_ok] in H.
      destruct (find_arg k defs) as [ad|] eqn:Ea; [|discriminate].
      apply andb_true_iff in H. destruct H as [H1 H2].
      destruct (IH HF' H2) as [pre [Hp Hall]]. cbn [pre_fields]. rewrite Ea, Hp.
      eexists. split; [reflexivity|]. intros k' p Hl. cbn [lookup] in Hl.
      destruct (str_eqb k' k) eqn:Ek; [|apply Hall; exact Hl].
      apply str_eqb_eq in Ek. subst k'. inversion Hl; subst; clear Hl.
      pose proof (lit_result_provided x ad (Hx _ _ H1)) as Hp'.
      destruct (missing_var cv x); [|exact Hp'].
      intros ad' Ha'. rewrite Ea in Ha'. injection Ha' as <-. exact Hp'.
  Qed.

  (* a literal that is neither null, a variable, a list nor an object is coerced as a scalar *)
  Lemma scalar_lit_sound v t dflt :
    coerce_lit s (coerce_const s) cv v t = coerce_scalar_lit s v t ->
    match coerce_scalar_lit s v t with Some _ => true | None => false end = true -> lit_result v t dflt.
  Proof.
    intros E H. left. rewrite E. destruct (coerce_scalar_lit s v t) as [c|]; [exists c; reflexivity | discriminate].
  Qed.

  Lemma lit_sound : forall v t dflt,
    lit_ok s vdefs nulls v t dflt = true -> lit_result v t dflt.
  Proof.
    induction v as [ | z | n d | x | b | x | x | l IHl | l IHl] using value_ind';
      intros t dflt H; cbn [lit_ok] in H.
    - left. cbn. apply negb_true_iff in H. rewrite H. eexists; reflexivity.
    - exact (scalar_lit_sound (VInt z) t dflt eq_refl H).
    - exact (scalar_lit_sound (VFloat n d) t dflt eq_refl H).
    - exact (scalar_lit_sound (VStr x) t dflt eq_refl H).
    - exact (scalar_lit_sound (VBool b) t dflt eq_refl H).
    - exact (scalar_lit_sound (VEnum x) t dflt eq_refl H).
    - destruct (find_var x vdefs) as [vd|] eqn:Ef; [|discriminate].
      pose proof (var_usage x vd t dflt Ef H) as Hu. unfold lit_result. cbn [coerce_lit].
      destruct (lookup x cv) as [c|] eqn:El.
      + left. destruct c; try (eexists; reflexivity).
        destruct (is_nonnull t) eqn:En; [exfalso; apply (Hu eq_refl); reflexivity | eexists; reflexivity].
      + right. exists x. split; [reflexivity | split; [first [reflexivity | exact El] | exact Hu]].
    - left. cbn [coerce_lit]. destruct (list_item_type t) as [it|]; [|discriminate].
      match goal with |- exists c, option_map VList ?g = Some c =>
        assert (Hg : exists r, g = Some r); [|destruct Hg as [r ->]; eexists; reflexivity] end.
      induction l as [|y r IHr].
      + eexists; reflexivity.
      + inversion IHl as [|? ? Hy Hr]; subst. apply andb_true_iff in H. destruct H as [H1 H2].
        destruct (IHr Hr H2) as [cr ->].
        destruct (Hy it false H1) as [[c ->]|[z [-> [Hz [Hi|Hi]]]]].
        * eexists; reflexivity.
        * cbn [coerce_lit]. rewrite Hz, Hi. eexists; reflexivity.
        * discriminate.
    - left. cbn [coerce_lit]. destruct (unwrap_named t) as [depth n].
      destruct (lookup_type s n) as [[| | | | |defs oneof]|] eqn:El; try discriminate.
      apply andb_true_iff in H. destruct H as [H Hone].
      apply andb_true_iff in H. destruct H as [H Hreq].
      apply andb_true_iff in H. destruct H as [_ Hall].
      destruct (schema_input s n defs oneof Hschema El) as [Hnd [Hdef Hoo]].
      destruct (pre_fields_sound defs l IHl Hall) as [pre [Hp Hpre]]. rewrite Hp.
      destruct (assemble_some (coerce_const s) defs (get_pre pre)) as [out Hout].
      { intros ad Hin. unfold get_pre. destruct (lookup (a_name ad) pre) as [p|] eqn:Elp.
        - specialize (Hpre _ _ Elp). destruct p as [|c]; [|exact Hpre].
          split; [|intros lit Hl; eapply defaults_ok_In; eassumption].
          apply Hpre. apply find_arg_self; assumption.
        - split; [|intros lit Hl; eapply defaults_ok_In; eassumption].
          apply (pre_fields_keys _ _ _ _ Hp) in Elp.
          rewrite forallb_forall in Hreq. specialize (Hreq _ Hin). unfold has_key in Hreq.
          rewrite Elp in Hreq. cbn in Hreq. apply negb_true_iff in Hreq. exact Hreq. }
      rewrite Hout.
      destruct oneof; cbn [andb]; [|eexists; reflexivity].
      (* OneOf: exactly one field, whose value is not null *)
      cbn [negb orb] in Hone.
      destruct l as [|[k x] [|? ?]]; try discriminate.
      apply andb_true_iff in Hone. destruct Hone as [Hnx Hvar].
      cbn [pre_fields] in Hp. destruct (find_arg k defs) as [ad|] eqn:Ea; [|discriminate].
      assert (Hc : exists c, missing_var cv x = false /\
                             coerce_lit s (coerce_const s) cv x (a_type ad) = Some c /\ c <> VNull).
      { inversion IHl as [|? ? Hx _]; subst. cbn [snd] in Hx.
        cbn in Hall. apply andb_true_iff in Hall. destruct Hall as [Hlx _].
        destruct x as [ | z | n0 d | x0 | b | x0 | y | l0 | l0];
          try (destruct (Hx _ _ Hlx) as [[c Hc]|[y0 [Hy0 _]]]; [|discriminate Hy0];
               exists c; split; [reflexivity|]; split; [exact Hc|];
               eapply coerce_lit_nonnull; [|exact Hc]; right; split; [discriminate | intros ?; discriminate]).
        all: try (cbn in Hnx; discriminate Hnx).
        (* a variable: a OneOf field is a non-null position *)
        destruct (find_var y vdefs) as [vd|] eqn:Ev; [|discriminate].
        pose proof (var_usage y vd (TNonNull (a_type ad)) false Ev Hvar) as Hu.
        cbn [missing_var coerce_lit]. destruct (lookup y cv) as [c0|] eqn:Ely.
        * specialize (Hu eq_refl). exists c0. split; [reflexivity|]. split; [|exact Hu].
          destruct c0; try reflexivity. congruence.
        * destruct Hu; discriminate. }
      destruct Hc as [c [Hm [Hc Hcn]]]. rewrite Hm, Hc in Hp. inversion Hp; subst pre; clear Hp.
      rewrite (assemble_oneof (coerce_const s) defs k c Hnd (Hoo eq_refl)) in Hout.
      assert (Hk : mem k (map a_name defs) = true).
      { apply mem_In. apply find_arg_In in Ea. destruct Ea as [Hin <-]. apply in_map. exact Hin. }
      rewrite Hk in Hout. inversion Hout; subst out. cbn [one_of_ok].
      rewrite Hnx. destruct c; try (eexists; reflexivity). congruence.
  Qed.

  Lemma args_sound defs args :
    defaults_ok s defs = true ->
    forallb (fun ad =>
       match lookup (a_name ad) args with
       | None => negb (required_arg ad)
       | Some v => lit_ok s vdefs nulls v (a_type ad) (has_default ad)
       end) defs = true ->
    exists r, coerce_args s cv defs args = Some r.
  Proof.
    intros Hd H. unfold coerce_args. apply assemble_some. intros ad Hin.
    rewrite forallb_forall in H. specialize (H _ Hin).
    destruct (lookup (a_name ad) args) as [v|].
    - pose proof (lit_result_provided v ad (lit_sound v _ _ H)) as Hp.
      destruct (missing_var cv v); [|exact Hp].
      split; [exact Hp | intros lit Hl; eapply defaults_ok_In; eassumption].
    - split; [apply negb_true_iff in H; exact H | intros lit Hl; eapply defaults_ok_In; eassumption].
  Qed.
End Args.

Section Reach.
  Variable s : schema.
  Variable frags : list fragment.
  Variable rt : str.

  Lemma reach_incl sels sels' k f :
    (forall x, In x sels' -> In x sels) -> reach s frags rt sels' k f -> reach s frags rt sels k f.
  Proof.
    intros Hi H. destruct H.
    - eapply r_field. apply Hi. eassumption.
    - eapply r_inline; [apply Hi; eassumption | assumption | assumption].
    - eapply r_spread; [apply Hi; eassumption | eassumption | assumption | assumption].
  Qed.

  Lemma reach_merged_inv fs k f :
    reach s frags rt (merged_sels fs) k f -> exists f0, In f0 fs /\ reach s frags rt (fs_sels f0) k f.
  Proof.
    unfold merged_sels. intro H.
    inversion H as [sels al name args dirs sub Hin
                   | sels tc dirs sub k0 f1 Hin Hc Hr
                   | sels name dirs fr k0 f1 Hin Hf Hc Hr]; subst.
    - apply in_flat_map in Hin. destruct Hin as [f0 [H0 H1]]. exists f0. split; [exact H0|].
      eapply r_field. exact H1.
    - apply in_flat_map in Hin. destruct Hin as [f0 [H0 H1]]. exists f0. split; [exact H0|].
      eapply r_inline; eassumption.
    - apply in_flat_map in Hin. destruct Hin as [f0 [H0 H1]]. exists f0. split; [exact H0|].
      eapply r_spread; eassumption.
  Qed.

  Lemma reach_merged fs f0 k f :
    In f0 fs -> reach s frags rt (fs_sels f0) k f -> reach s frags rt (merged_sels fs) k f.
  Proof.
    intros Hin. apply reach_incl. intros x Hx. unfold merged_sels. apply in_flat_map.
    exists f0. split; assumption.
  Qed.
End Reach.

Lemma set_typed_mono s frags vdefs nulls rt sels sels' :
  (forall k f, reach s frags rt sels' k f -> reach s frags rt sels k f) ->
  set_typed s frags vdefs nulls rt sels -> set_typed s frags vdefs nulls rt sels'.
Proof.
  intros Hi H. inversion H as [rt0 sels0 H1 H2 H3]; subst. constructor.
  - intros k f Hr. eapply H1. apply Hi. exact Hr.
  - intros k f1 f2 Hr1 Hr2. eapply H2; apply Hi; eassumption.
  - intros k fs f1 fd rt' Hall Hin Hl Hrt. eapply H3; try eassumption.
    intros f Hf. apply Hi. apply Hall. exact Hf.
Qed.

(* With ARBITRARY data: the arguments of every field that execution can reach coerce - a field error
   is never due to an argument, a variable or an unknown field of a well-typed operation. *)
Theorem arguments_coerce s frags vdefs cv rt top k f :
  schema_ok s = true -> cv_ok vdefs cv ->
  set_typed s frags vdefs (nulls_of vdefs cv) rt top ->
  reach s frags rt top k f ->
  str_eqb (fs_name f) n_typename = false ->
  exists fd args, lookup_field s rt (fs_name f) = Some fd /\
                  coerce_args s cv (f_args fd) (fs_args f) = Some args.
Proof.
  intros Hs Hcv Hty Hr Hn. inversion Hty as [rt0 top0 T1 _ _]; subst.
  pose proof (T1 k f Hr) as Hf. unfold field_ok in Hf. rewrite Hn in Hf.
  destruct (lookup_field s rt (fs_name f)) as [fd|] eqn:El; [|discriminate].
  apply andb_true_iff in Hf. destruct Hf as [Hargs _].
  unfold args_ok in Hargs. apply andb_true_iff in Hargs. destruct Hargs as [_ Hargs].
  destruct (args_sound s vdefs cv Hs Hcv (f_args fd) (fs_args f)
              (schema_defaults s rt (fs_name f) fd Hs El) Hargs) as [args Ha].
  exists fd, args. split; [reflexivity | exact Ha].
Qed.

Definition in_group (g : grouped) (k : str) (f : fieldsel) : Prop :=
  exists fs, In (k, fs) g /\ In f fs.

Lemma in_group_cons k0 fs0 r k f :
  in_group ((k0, fs0) :: r) k f <-> (k = k0 /\ In f fs0) \/ in_group r k f.
Proof.
  unfold in_group. split.
  - intros [fs [[E|Hin] Hf]]; [inversion E; subst; left; auto | right; exists fs; auto].
  - intros [[-> Hf]|[fs [Hin Hf]]]; [exists fs0 | exists fs]; (split; [|exact Hf]); [left; reflexivity | right; exact Hin].
Qed.

Lemma add_field_in_group k f g k' f' :
  in_group (add_field k f g) k' f' <-> in_group g k' f' \/ (k' = k /\ f' = f).
Proof.
  induction g as [|[k0 fs0] r IH]; cbn [add_field].
  - rewrite in_group_cons. cbn [In]. intuition (subst; auto).
  - destruct (str_eqb k k0) eqn:E.
    + apply str_eqb_eq in E. subst k0. rewrite !in_group_cons, in_app_iff. cbn [In]. intuition (subst; auto).
    + rewrite !in_group_cons, IH. tauto.
Qed.

Lemma group_in_gen fl : forall g k f,
  in_group (fold_left (fun g kf => add_field (fst kf) (snd kf) g) fl g) k f <->
  in_group g k f \/ In (k, f) fl.
Proof.
  induction fl as [|[k0 f0] r IH]; intros g k f; cbn [fold_left fst snd].
  - split; [intro H; left; exact H | intros [H|[]]; exact H].
  - rewrite IH. rewrite add_field_in_group. split.
    + intros [[H|[-> ->]]|H]; [left; exact H | right; left; reflexivity | right; right; exact H].
    + intros [H|[Heq|H]]; [left; left; exact H | inversion Heq; subst; left; right; split; reflexivity
                           | right; exact H].
Qed.

Lemma group_in fl k f : in_group (group fl) k f <-> In (k, f) fl.
Proof.
  unfold group. rewrite group_in_gen. split; [intros [[fs [[] _]]|H]; exact H | intro H; right; exact H].
Qed.

Section CollectReach.
  Variable s : schema.
  Variable frags : list fragment.
  Variable cv : list (str * value).
  Variable rt : str.
  Variable top : list selection.

  Definition greach (g : grouped) : Prop := forall k f, in_group g k f -> reach s frags rt top k f.

  Definition sub_reach (cur : list selection) : Prop :=
    forall k f, reach s frags rt cur k f -> reach s frags rt top k f.

  Lemma sub_reach_tail x rest : sub_reach (x :: rest) -> sub_reach rest.
  Proof. intros H k f Hr. apply H. eapply reach_incl; [|exact Hr]. intros y Hy. right. exact Hy. Qed.

  Lemma collect_list_reach rec :
    (forall cur v g v' g', sub_reach cur -> greach g -> rec cur (v, g) = Some (v', g') -> greach g') ->
    forall cur v g v' g', sub_reach cur -> greach g ->
      collect_list s frags cv rt grouped add_field rec cur (v, g) = Some (v', g') -> greach g'.
  Proof.
    intros Hrec. induction cur as [|x rest IH]; intros v g v' g' Hsub Hg H.
    - cbn in H. inversion H; subst. exact Hg.
    - pose proof (sub_reach_tail _ _ Hsub) as Hsub'.
      destruct x as [al name args dirs sub | name dirs | tc dirs sub]; cbn [collect_list fst snd] in H.
      + destruct (should_include cv dirs); [|eapply IH; eassumption].
        eapply IH; [exact Hsub' | | exact H].
        intros k f Hin. apply add_field_in_group in Hin. destruct Hin as [Hin|[-> ->]]; [apply Hg; exact Hin|].
        apply Hsub. eapply r_field. left. reflexivity.
      + destruct (negb (should_include cv dirs)); [eapply IH; eassumption|].
        destruct (mem name v); [eapply IH; eassumption|].
        destruct (find_frag name frags) as [fr|] eqn:Ef; [|eapply IH; eassumption].
        destruct (cond_matches s (fr_cond fr) rt) eqn:Ec; [|eapply IH; eassumption].
        destruct (rec (fr_sels fr) (name :: v, g)) as [[v1 g1]|] eqn:Er; [|discriminate].
        eapply IH; [exact Hsub' | | exact H].
        eapply Hrec; [|exact Hg|exact Er].
        intros k f Hr. apply Hsub. eapply r_spread; [left; reflexivity | exact Ef | exact Ec | exact Hr].
      + destruct (should_include cv dirs && match tc with Some c => cond_matches s c rt | None => true end) eqn:Ec;
          [|eapply IH; eassumption].
        apply andb_true_iff in Ec. destruct Ec as [_ Ec].
        destruct (rec sub (v, g)) as [[v1 g1]|] eqn:Er; [|discriminate].
        eapply IH; [exact Hsub' | | exact H].
        eapply Hrec; [|exact Hg|exact Er].
        intros k f Hr. apply Hsub. eapply r_inline; [left; reflexivity | exact Ec | exact Hr].
  Qed.

  Lemma collect_gen_reach fuel : forall cur v g v' g', sub_reach cur -> greach g ->
    collect s frags cv rt fuel cur (v, g) = Some (v', g') -> greach g'.
  Proof.
    induction fuel as [|f IH]; intros cur v g v' g' Hsub Hg H; [discriminate|].
    unfold collect in H. cbn [collect_gen] in H. eapply collect_list_reach; try eassumption.
  Qed.
End CollectReach.

Lemma collect_reach s frags cv rt fuel sels v g :
  collect s frags cv rt fuel sels ([], []) = Some (v, g) ->
  forall k fs f, In (k, fs) g -> In f fs -> reach s frags rt sels k f.
Proof.
  intros H k fs f H1 H2.
  eapply (collect_gen_reach s frags cv rt sels fuel sels [] [] v g); try exact H.
  - intros k0 f0 Hr. exact Hr.
  - intros k0 f0 [fs0 [[] _]].
  - exists fs. split; assumption.
Qed.

Section Conf.
  Variable s : schema.

  Definition obj_conf (rt : str) (obj : list (str * data)) : Prop :=
    forall name fd, lookup_field s rt name = Some fd ->
      conforms s (match lookup name obj with Some d => d | None => DNull end) (f_type fd) = true.

  Lemma conforms_nonnull_inv d t' :
    d <> DNull -> conforms s d (TNonNull t') = true -> conforms s d t' = true.
  Proof.
    intros Hd H. destruct d; [congruence| | | |discriminate H];
      destruct t'; first [exact H | cbn in H; discriminate H].
  Qed.

  Lemma conforms_list_inv items it :
    conforms s (DList items) (TList it) = true -> Forall (fun x => conforms s x it = true) items.
  Proof. cbn [conforms]. intro H. apply Forall_forall. apply forallb_forall. exact H. Qed.

  Lemma lookup_field_object rt name fd :
    is_object s rt = true -> lookup_field s rt name = Some fd ->
    In fd (fields_of s rt) /\ f_name fd = name.
  Proof.
    unfold is_object, lookup_field, fields_of.
    destruct (lookup_type s rt) as [[| |fs ifs| | |]|]; try discriminate.
    intros _ H. apply find_field_In. exact H.
  Qed.

  Lemma conforms_obj_inv tn flds n :
    conforms s (DObj tn flds) (TNamed n) = true ->
    exists rt, ((is_object s n = true /\ rt = n) \/
                (is_object s n = false /\ is_object s tn = true /\ possible s n tn = true /\ rt = tn)) /\
               is_object s rt = true /\ obj_conf rt flds.
  Proof.
    cbn [conforms].
    set (rto := if is_object s n then Some n
                else if is_object s tn && possible s n tn then Some tn else None).
    destruct rto as [rt|] eqn:Ert; [|discriminate]. intro H.
    apply andb_true_iff in H. destruct H as [H1 H2].
    assert (Hrt : ((is_object s n = true /\ rt = n) \/
                   (is_object s n = false /\ is_object s tn = true /\ possible s n tn = true /\ rt = tn))
                  /\ is_object s rt = true).
    { subst rto. destruct (is_object s n) eqn:E1.
      - inversion Ert; subst. split; [left; split; reflexivity | exact E1].
      - destruct (is_object s tn && possible s n tn) eqn:E2; [|discriminate].
        inversion Ert; subst. apply andb_true_iff in E2. destruct E2 as [E2 E3].
        split; [right; repeat split; assumption | exact E2]. }
    destruct Hrt as [Hrt Hobj]. exists rt. split; [exact Hrt|]. split; [exact Hobj|].
    intros name fd Hl. destruct (lookup name flds) as [d|] eqn:El.
    - apply lookup_In in El. rewrite forallb_forall in H1. specialize (H1 _ El). cbn in H1.
      rewrite Hl in H1. exact H1.
    - destruct (lookup_field_object rt name fd Hobj Hl) as [Hin Hn].
      rewrite forallb_forall in H2. specialize (H2 _ Hin). unfold has_key in H2. rewrite Hn, El in H2.
      cbn in H2. cbn [conforms]. exact H2.
  Qed.

End Conf.

Definition errs_all (P : cause -> Prop) (es : list err) : Prop := Forall (fun e : err => P (snd e)) es.
Definition out_errs (o : out) : list err := snd (fst o).

Lemma errs_all_pre P seg es : errs_all P es -> errs_all P (pre_errs seg es).
Proof. unfold errs_all, pre_errs. rewrite Forall_map. exact (fun H => H). Qed.

Lemma catch_errs t o : out_errs (catch t o) = out_errs o.
Proof. destruct o as [[[j|] es] cs]; cbn [catch]; [|destruct (is_nonnull t)]; reflexivity. Qed.

(* the errors of a selection set are those of its fields, of a list those of its items *)
Lemma exec_groups_errs P ef : forall g r es cs,
  (forall k fs o, In (k, fs) g -> ef fs = Some (FRes o) -> errs_all P (out_errs o)) ->
  exec_groups ef g = Some (r, es, cs) -> errs_all P es.
Proof.
  induction g as [|[k fs] rest IH]; intros r es cs Hf H; cbn [exec_groups] in H.
  - injection H as _ <- _. constructor.
  - specialize (fun r es cs => IH r es cs (fun k' fs' o Hin => Hf k' fs' o (or_intror Hin))).
    destruct (ef fs) as [[|[[rx esx] csx]]|] eqn:Ef; [exact (IH _ _ _ H)| |discriminate].
    pose proof (errs_all_pre P (PKey k) _ (Hf k fs _ (or_introl eq_refl) Ef)) as Hx.
    destruct rx as [j|]; [|injection H as _ <- _; exact Hx].
    destruct (exec_groups ef rest) as [[[r' es'] cs']|]; [|discriminate].
    injection H as _ <- _. apply Forall_app. split; [exact Hx | exact (IH _ _ _ eq_refl)].
Qed.

Lemma complete_items_errs P cf : forall items i r es cs,
  (forall x o, In x items -> cf x = Some o -> errs_all P (out_errs o)) ->
  complete_items cf items i = Some (r, es, cs) -> errs_all P es.
Proof.
  induction items as [|x rest IH]; intros i r es cs Hf H; cbn [complete_items] in H.
  - injection H as _ <- _. constructor.
  - specialize (fun i r es cs => IH i r es cs (fun y o Hin => Hf y o (or_intror Hin))).
    destruct (cf x) as [[[rx esx] csx]|] eqn:Ex; [|discriminate].
    pose proof (errs_all_pre P (PIdx i) _ (Hf x _ (or_introl eq_refl) Ex)) as Hx.
    destruct rx as [j|]; [|injection H as _ <- _; exact Hx].
    destruct (complete_items cf rest (S i)) as [[[r' es'] cs']|] eqn:Er; [|discriminate].
    injection H as _ <- _. apply Forall_app. split; [exact Hx | exact (IH _ _ _ _ Er)].
Qed.

Definition no_args (c : cause) : Prop := c <> CauseArgs.
Definition only_args (c : cause) : Prop := c = CauseArgs.

Lemma errs_none es : errs_all no_args es -> errs_all only_args es -> es = [].
Proof.
  destruct es as [|e es]; [reflexivity|]. intros H1 H2. inversion H1; inversion H2; subst. contradiction.
Qed.

Section Attrib.
  Variable s : schema.
  Variable frags : list fragment.
  Variable vdefs : list var_def.
  Variable cv : list (str * value).
  Hypothesis Hschema : schema_ok s = true.
  Hypothesis Hcv : cv_ok vdefs cv.

  Let nulls := nulls_of vdefs cv.
  Let styped := set_typed s frags vdefs nulls.

  Definition sub_ok (t : ty) (sels : list selection) : Prop :=
    forall rt', runtime_of_b s (named_of t) rt' = true -> styped rt' sels.

  Lemma runtime_self n : is_object s n = true -> runtime_of_b s n n = true.
  Proof. intro H. unfold runtime_of_b. rewrite H, str_eqb_refl. reflexivity. Qed.

  (* over a typed selection set no error is due to argument coercion *)
  Theorem exec_attrib : forall fuel,
    (forall rt obj sels o, exec_sels s frags cv fuel rt obj sels = Some o ->
        styped rt sels -> errs_all no_args (out_errs o)) /\
    (forall rt obj fs x, exec_field s frags cv fuel rt obj fs = Some x ->
        forall top k, styped rt top -> (forall f, In f fs -> reach s frags rt top k f) ->
        match x with FRes o => errs_all no_args (out_errs o) | FSkip => True end) /\
    (forall t sels d o, complete s frags cv fuel t sels d = Some o ->
        sub_ok t sels -> errs_all no_args (out_errs o)).
  Proof.
    apply (exec_ind s frags cv
      (fun rt _ sels o => styped rt sels -> errs_all no_args (out_errs o))
      (fun rt _ fs x => forall top k, styped rt top -> (forall f, In f fs -> reach s frags rt top k f) ->
         match x with FRes o => errs_all no_args (out_errs o) | FSkip => True end)
      (fun t sels _ o => sub_ok t sels -> errs_all no_args (out_errs o))).
    - intros rt obj sels f v g ef r es cs Ec Hef Eg Hty.
      eapply exec_groups_errs; [|exact Eg]. intros k fs o Hin Hx.
      apply (Hef fs _ Hx sels k Hty). intros f0 Hf0. eapply collect_reach; eassumption.
    - intros; exact I.
    - intros rt obj f1 fs _ top k _ _. constructor.
    - intros; exact I.
    - (* the arguments of a reachable field coerce *)
      intros rt obj f1 fs fd Et El Ea top k Hty Hr. exfalso.
      destruct (arguments_coerce s frags vdefs cv rt top k f1 Hschema Hcv Hty (Hr f1 (or_introl eq_refl)) Et)
        as (fd' & args & El' & Ea'). congruence.
    - intros rt obj f1 fs fd args r es cs Et El Ea Hc top k Hty Hr. rewrite catch_errs. apply Hc.
      intros rt' Hrt'. inversion Hty as [? ? _ _ T3]; subst.
      eapply (T3 k (f1 :: fs) f1 fd rt'); try eassumption. left. reflexivity.
    - intros c t sels d Hf _. constructor; [destruct Hf; discriminate | constructor].
    - intros; constructor.
    - intros f t' sels d es cs _ Hp Hsub. apply Forall_app. split; [exact (Hp Hsub)|].
      constructor; [discriminate | constructor].
    - intros t' sels d o _ Hp Hsub. exact (Hp Hsub).
    - intros it sels items cf r es cs Hcf Ei Hsub. eapply complete_items_errs; [|exact Ei].
      intros x o _ Hx. destruct (Hcf x o Hx) as (o' & -> & Ho'). rewrite catch_errs. exact (Ho' Hsub).
    - intros n ofs ifs sels d o El _ Ho Hsub. apply Ho, Hsub, runtime_self.
      eapply is_object_of_lookup. exact El.
    - intros n td sels rt flds o _ _ Ep Ho Hsub. apply Ho, Hsub.
      unfold runtime_of_b. cbn [named_of]. rewrite Ep. apply orb_true_r.
    - intros; constructor.
  Qed.
End Attrib.

Section Conforming.
  Variable s : schema.
  Variable frags : list fragment.
  Variable cv : list (str * value).

  Lemma fault_not_conforms c t d : fault s c t d -> conforms s d t = false.
  Proof.
    assert (Hno : forall n, is_object s n = false -> forall tn, possible s n tn = false ->
              forall flds, conforms s (DObj tn flds) (TNamed n) = false).
    { intros n Hn tn Hp flds. cbn [conforms]. rewrite Hn, Hp, andb_false_r. reflexivity. }
    destruct 1 as [t|it d Hd|n td d El Ht Hd|n td d El Ht Hd|n d El Hd].
    - reflexivity.
    - destruct d; try contradiction; reflexivity.
    - destruct d as [|l|tn flds|items|]; try contradiction; [|apply Hno|reflexivity].
      + cbn [conforms]. rewrite El, Hd. apply andb_false_r.
      + unfold is_object. rewrite El. destruct td; try contradiction; reflexivity.
      + unfold possible. rewrite El. destruct td; try contradiction; reflexivity.
    - destruct d as [|l|tn flds|items|]; try contradiction; [| |reflexivity].
      + cbn [conforms]. rewrite El. destruct td; try contradiction; reflexivity.
      + cbn [conforms]. replace (is_object s n) with false
          by (unfold is_object; rewrite El; destruct td; try contradiction; reflexivity).
        rewrite Hd. reflexivity.
    - assert (Hn : is_object s n = false) by (unfold is_object; rewrite El; reflexivity).
      assert (Hp : forall tn, possible s n tn = false) by (intro tn; unfold possible; rewrite El; reflexivity).
      destruct d as [|l|tn flds|items|]; try contradiction; [|apply Hno; auto|reflexivity].
      cbn [conforms]. rewrite El. reflexivity.
  Qed.

  (* the object a conforming value of a composite type is executed on *)
  Lemma conforms_object n ofs ifs d :
    lookup_type s n = Some (TObject ofs ifs) -> live_data d -> conforms s d (TNamed n) = true ->
    obj_conf s n (data_fields d).
  Proof.
    intros El Hd Hc. assert (Ho : is_object s n = true) by (eapply is_object_of_lookup; exact El).
    destruct d as [|l|tn flds|items|]; try destruct Hd; try discriminate Hc.
    - cbn [conforms] in Hc. rewrite El in Hc. discriminate Hc.
    - destruct (conforms_obj_inv s tn flds n Hc) as [rt [[[_ ->]|[Hn _]] [_ Hoc]]]; [exact Hoc | congruence].
  Qed.

  Lemma conforms_abstract n td rt flds :
    lookup_type s n = Some td -> abstract_def td -> conforms s (DObj rt flds) (TNamed n) = true ->
    obj_conf s rt flds.
  Proof.
    intros El Ht Hc.
    destruct (conforms_obj_inv s rt flds n Hc) as [rt' [[[Ho _]|[_ [_ [_ ->]]]] [_ Hoc]]]; [|exact Hoc].
    unfold is_object in Ho. rewrite El in Ho. destruct td; try destruct Ht; discriminate.
  Qed.

  Theorem conforming_errors : forall fuel,
    (forall rt obj sels o, exec_sels s frags cv fuel rt obj sels = Some o ->
        obj_conf s rt obj -> errs_all only_args (out_errs o)) /\
    (forall rt obj fs x, exec_field s frags cv fuel rt obj fs = Some x -> obj_conf s rt obj ->
        match x with FRes o => errs_all only_args (out_errs o) | FSkip => True end) /\
    (forall t sels d o, complete s frags cv fuel t sels d = Some o ->
        conforms s d t = true -> errs_all only_args (out_errs o)).
  Proof.
    apply (exec_ind s frags cv
      (fun rt obj _ o => obj_conf s rt obj -> errs_all only_args (out_errs o))
      (fun rt obj _ x => obj_conf s rt obj ->
         match x with FRes o => errs_all only_args (out_errs o) | FSkip => True end)
      (fun t _ d o => conforms s d t = true -> errs_all only_args (out_errs o))).
    - intros rt obj sels f v g ef r es cs _ Hef Eg Hconf.
      eapply exec_groups_errs; [|exact Eg]. intros k fs o _ Hx. exact (Hef fs _ Hx Hconf).
    - intros; exact I.
    - intros; constructor.
    - intros; exact I.
    - intros rt obj f1 fs fd _ _ _ _. rewrite catch_errs. constructor; [reflexivity | constructor].
    - intros rt obj f1 fs fd args r es cs _ El _ Hc Hconf. rewrite catch_errs. exact (Hc (Hconf _ _ El)).
    - intros c t sels d Hf Hc. rewrite (fault_not_conforms c t d Hf) in Hc. discriminate Hc.
    - intros; constructor.
    - (* a conforming value at a non-null type is not null, so its completion is not *)
      intros f t' sels d es cs Ecp _ Hc. apply complete_null in Ecp as [-> _]. discriminate Hc.
    - intros t' sels d o _ Hp Hc. apply Hp, conforms_nonnull_inv; [intros ->; discriminate Hc | exact Hc].
    - intros it sels items cf r es cs Hcf Ei Hc. eapply complete_items_errs; [|exact Ei].
      pose proof (conforms_list_inv s items it Hc) as Hall. rewrite Forall_forall in Hall.
      intros x o Hin Hx. destruct (Hcf x o Hx) as (o' & -> & Ho'). rewrite catch_errs. exact (Ho' (Hall x Hin)).
    - intros n ofs ifs sels d o El Hd Ho Hc. exact (Ho (conforms_object n ofs ifs d El Hd Hc)).
    - intros n td sels rt flds o El Ht _ Ho Hc. exact (Ho (conforms_abstract n td rt flds El Ht Hc)).
    - intros; constructor.
  Qed.
End Conforming.

Section ExecSound.
  Variable s : schema.
  Variable frags : list fragment.
  Variable vdefs : list var_def.
  Variable cv : list (str * value).
  Hypothesis Hschema : schema_ok s = true.
  Hypothesis Hcv : cv_ok vdefs cv.

  (* a value, no errors *)
  Definition clean (P : json -> Prop) (o : out) : Prop :=
    exists j cs, o = (CVal j, [], cs) /\ P j.

  Lemma out_ok_clean P o : out_ok s cv P o -> out_errs o = [] -> clean P o.
  Proof.
    destruct o as [[[j|] es] cs]; cbn; intros [_ H] ->.
    - exists j, cs. split; [reflexivity | apply H].
    - destruct (H eq_refl).
  Qed.

  (* no argument errors (typing) and only argument errors (conformance): no errors *)
  Theorem exec_sound : forall fuel,
    (forall rt obj sels o,
        set_typed s frags vdefs (nulls_of vdefs cv) rt sels -> obj_conf s rt obj ->
        exec_sels s frags cv fuel rt obj sels = Some o -> clean (fun j => j <> JNull) o) /\
    (forall t sels d o, sub_ok s frags vdefs cv t sels -> conforms s d t = true ->
        complete s frags cv fuel t sels d = Some o -> clean (fun j => d <> DNull -> j <> JNull) o).
  Proof.
    intro fuel. destruct (exec_attrib s frags vdefs cv Hschema Hcv fuel) as [As [_ Ac]].
    destruct (conforming_errors s frags cv fuel) as [Bs [_ Bc]].
    destruct (exec_invariants s frags cv fuel) as [Is [_ Ic]]. split.
    - intros rt obj sels o Hty Hconf H.
      destruct (out_ok_clean _ _ (Is _ _ _ _ H) (errs_none _ (As _ _ _ _ H Hty) (Bs _ _ _ _ H Hconf)))
        as (j & cs & -> & kvs & -> & _).
      exists (JObj kvs), cs. split; [reflexivity | discriminate].
    - intros t sels d o Hsub Hc H.
      destruct (out_ok_clean _ _ (Ic _ _ _ _ H) (errs_none _ (Ac _ _ _ _ H Hsub) (Bc _ _ _ _ H Hc)))
        as (j & cs & -> & _).
      exists j, cs. split; [reflexivity|]. intros Hd ->. apply complete_null in H as [-> _]. exact (Hd eq_refl).
  Qed.
End ExecSound.

Section Checker.
  Variable s : schema.
  Variable frags : list fragment.
  Variable vdefs : list var_def.
  Variable nulls : list str.

  Lemma reach_sels_complete rt rec :
    (forall sub fl, rec sub = Some fl -> forall k f, reach s frags rt sub k f -> In (k, f) fl) ->
    forall sels fl, reach_sels s frags rec rt sels = Some fl ->
                    forall k f, reach s frags rt sels k f -> In (k, f) fl.
  Proof.
    intros Hrec. induction sels as [|x rest IH]; intros fl H k f Hr.
    - inversion Hr; subst; match goal with Hin : In _ [] |- _ => destruct Hin end.
    - cbn [reach_sels] in H.
      match type of H with match ?h with Some _ => _ | None => _ end = _ => destruct h as [a|] eqn:Ea end;
        [|discriminate].
      destruct (reach_sels s frags rec rt rest) as [b|] eqn:Eb; [|discriminate].
      inversion H; subst; clear H. apply in_app_iff.
      inversion Hr as [sels al name args dirs sub Hin
                      | sels tc dirs sub k0 f0 Hin Hc Hr'
                      | sels name dirs fr k0 f0 Hin Hf Hc Hr']; subst.
      + destruct Hin as [->|Hin].
        * left. inversion Ea; subst. left. reflexivity.
        * right. eapply IH; [reflexivity|]. eapply r_field. exact Hin.
      + destruct Hin as [->|Hin].
        * left. rewrite Hc in Ea. eapply Hrec; eassumption.
        * right. eapply IH; [reflexivity|]. eapply r_inline; eassumption.
      + destruct Hin as [->|Hin].
        * left. rewrite Hf, Hc in Ea. eapply Hrec; eassumption.
        * right. eapply IH; [reflexivity|]. eapply r_spread; eassumption.
  Qed.

  Lemma reach_list_complete rt fuel : forall sels fl,
    reach_list s frags fuel rt sels = Some fl ->
    forall k f, reach s frags rt sels k f -> In (k, f) fl.
  Proof.
    induction fuel as [|n IH]; intros sels fl H; [discriminate|].
    cbn [reach_list] in H. eapply reach_sels_complete; [|exact H]. exact IH.
  Qed.

  Lemma runtime_in_objects n rt' : runtime_of_b s n rt' = true -> In rt' (object_names s).
  Proof.
    intro H. assert (Ho : is_object s rt' = true).
    { unfold runtime_of_b in H. apply orb_true_iff in H. destruct H as [H|H];
        apply andb_true_iff in H; destruct H as [H1 H2].
      - apply str_eqb_eq in H2. subst. exact H1.
      - exact H1. }
    unfold is_object, lookup_type in Ho. destruct (scalar_of_name rt'); [discriminate|].
    destruct (lookup rt' (s_types s)) as [td|] eqn:El; [|discriminate].
    destruct td as [| |fs ifs| | |]; try discriminate.
    apply lookup_In in El. unfold object_names. apply in_flat_map.
    exists (rt', TObject fs ifs). split; [exact El | left; reflexivity].
  Qed.

  Theorem check_set_sound : forall fuel rt sels,
    check_set s frags vdefs nulls fuel rt sels = true -> set_typed s frags vdefs nulls rt sels.
  Proof.
    induction fuel as [|n IH]; intros rt sels H; [discriminate|].
    cbn [check_set] in H.
    destruct (reach_list s frags n rt sels) as [fl|] eqn:Er; [|discriminate].
    apply andb_true_iff in H. destruct H as [H1 H2].
    rewrite forallb_forall in H1. rewrite forallb_forall in H2.
    pose proof (reach_list_complete rt n sels fl Er) as Hcomp.
    (* the static group of a reachable field *)
    assert (Hgrp : forall k f, reach s frags rt sels k f ->
              exists f0 fs, In (k, f0 :: fs) (group fl) /\ In f (f0 :: fs) /\
                (forall f', In f' (f0 :: fs) -> fs_name f' = fs_name f0) /\
                (forall fd rt', lookup_field s rt (fs_name f0) = Some fd ->
                                runtime_of_b s (named_of (f_type fd)) rt' = true ->
                                set_typed s frags vdefs nulls rt' (merged_sels (f0 :: fs)))).
    { intros k f Hr. apply Hcomp in Hr. apply group_in in Hr. destruct Hr as [fs [Hin Hf]].
      destruct fs as [|f0 fs]; [destruct Hf|]. exists f0, fs. split; [exact Hin|]. split; [exact Hf|].
      specialize (H2 _ Hin). cbn [snd] in H2. apply andb_true_iff in H2. destruct H2 as [Hn Hrec].
      split.
      - intros f' Hf'. rewrite forallb_forall in Hn. specialize (Hn _ Hf'). apply str_eqb_eq in Hn. exact Hn.
      - intros fd rt' Hl Hrt. rewrite Hl in Hrec. rewrite forallb_forall in Hrec.
        specialize (Hrec rt' (runtime_in_objects _ _ Hrt)). rewrite Hrt in Hrec. cbn in Hrec.
        apply IH. exact Hrec. }
    constructor.
    - intros k f Hr. apply Hcomp in Hr. exact (H1 _ Hr).
    - intros k f1 f2 Hr1 Hr2.
      destruct (Hgrp k f1 Hr1) as [a [fsa [Ha [Hfa [Hna _]]]]].
      destruct (Hgrp k f2 Hr2) as [b [fsb [Hb [Hfb [Hnb _]]]]].
      pose proof (NoDup_fst_inj _ _ _ _ (group_nodup fl) Ha Hb) as E. inversion E; subst.
      rewrite (Hna _ Hfa), (Hnb _ Hfb). reflexivity.
    - intros k fs f1 fd rt' Hall Hin Hl Hrt.
      destruct (Hgrp k f1 (Hall f1 Hin)) as [a [fsa [Ha [Hfa [Hna Hrec]]]]].
      rewrite (Hna _ Hfa) in Hl. specialize (Hrec fd rt' Hl Hrt).
      eapply set_typed_mono; [|exact Hrec].
      intros k' f' Hr. apply reach_merged_inv in Hr. destruct Hr as [f0 [Hf0 Hr]].
      eapply reach_merged; [|exact Hr].
      destruct (Hgrp k f0 (Hall f0 Hf0)) as [b [fsb [Hb [Hfb _]]]].
      pose proof (NoDup_fst_inj _ _ _ _ (group_nodup fl) Ha Hb) as E. inversion E; subst. exact Hfb.
  Qed.
End Checker.

Lemma conforms_root_inv s rt root :
  conforms_root s rt root = true ->
  exists tn flds, root = DObj tn flds /\ is_object s rt = true /\ obj_conf s rt flds.
Proof.
  unfold conforms_root. destruct root as [|l|tn flds|items|]; try discriminate.
  intro H. apply andb_true_iff in H. destruct H as [Ho Hc].
  destruct (conforms_obj_inv s tn flds rt Hc) as [rt' [[[_ ->]|[Hn _]] [_ Hoc]]]; [|congruence].
  exists tn, flds. split; [reflexivity|]. split; assumption.
Qed.

Lemma well_typed_with_inv nulls s d :
  well_typed_with nulls s d = true ->
  nodup_names (map v_name (d_vars d)) = true /\
  exists rt, root_type s (d_kind d) = Some rt /\ is_object s rt = true /\
             set_typed s (d_frags d) (d_vars d) nulls rt (d_sels d).
Proof.
  unfold well_typed_with. intro H.
  apply andb_true_iff in H. destruct H as [H Hroot].
  apply andb_true_iff in H. destruct H as [H _].
  apply andb_true_iff in H. destruct H as [Hv _].
  unfold vars_ok in Hv. apply andb_true_iff in Hv. destruct Hv as [Hnd _].
  split; [exact Hnd|].
  destruct (root_type s (d_kind d)) as [rt|]; [|discriminate].
  apply andb_true_iff in Hroot. destruct Hroot as [Ho Hc].
  exists rt. split; [reflexivity|]. split; [exact Ho|]. eapply check_set_sound. exact Hc.
Qed.

(* what a response of a well-typed operation is made of *)
Lemma typed_run fuel s d vars root cv j es cs :
  coerce_variable_values s (d_vars d) vars = Some cv -> well_typed_at s d cv = true ->
  execute_fuel fuel s d vars root = Resp j es cs ->
  exists rt r, root_type s (d_kind d) = Some rt /\ is_object s rt = true /\
    set_typed s (d_frags d) (d_vars d) (nulls_of (d_vars d) cv) rt (d_sels d) /\ cv_ok (d_vars d) cv /\
    exec_sels s (d_frags d) cv fuel rt (match root with DObj _ f => f | _ => [] end) (d_sels d)
      = Some (r, es, cs) /\
    j = match r with CVal j' => j' | CErr => JNull end.
Proof.
  intros Hcv Hwt Hex.
  apply well_typed_with_inv in Hwt. destruct Hwt as [Hnd [rt [Hrt [Hobj Hty]]]].
  apply execute_fuel_resp in Hex. destruct Hex as [cv' [tn' [r [Hcv' [Hrt' [_ [He ->]]]]]]].
  rewrite Hcv in Hcv'. injection Hcv' as <-. rewrite Hrt in Hrt'. injection Hrt' as <-.
  exists rt, r. exact (conj Hrt (conj Hobj (conj Hty (conj (coerce_vars_ok _ _ _ _ Hnd Hcv) (conj He eq_refl))))).
Qed.

(* A well-typed operation over conforming data, on a schema whose argument defaults are valid,
   with accepted variables none of which is a null sitting in a non-null position: no errors, and
   data is not null. *)
Theorem soundness fuel s d vars root cv rt j es cs :
  schema_ok s = true ->
  coerce_variable_values s (d_vars d) vars = Some cv ->
  well_typed_at s d cv = true ->
  root_type s (d_kind d) = Some rt ->
  conforms_root s rt root = true ->
  execute_fuel fuel s d vars root = Resp j es cs ->
  es = [] /\ j <> JNull.
Proof.
  intros Hs Hcv Hwt Hrt Hconf Hex.
  destruct (typed_run _ _ _ _ _ _ _ _ _ Hcv Hwt Hex) as (rt' & r & Hrt' & _ & Hty & Hok & He & ->).
  rewrite Hrt in Hrt'. injection Hrt' as <-.
  apply conforms_root_inv in Hconf. destruct Hconf as [tn [flds [-> [_ Hoc]]]].
  destruct (proj1 (exec_sound s (d_frags d) (d_vars d) cv Hs Hok fuel) _ _ _ _ Hty Hoc He)
    as [j' [cs' [[= -> -> _] Hj]]].
  split; [reflexivity | exact Hj].
Qed.

Section ShapeSound.
  Variable s : schema.
  Variable frags : list fragment.
  Variable cv : list (str * value).

  Lemma json_eqb_str_eq j x : json_eqb_str j x = true -> j = JStr x.
  Proof. destruct j; cbn; try discriminate. intro H. apply str_eqb_eq in H. congruence. Qed.

  Lemma fields_shape_ok_sound (chk : ty -> list selection -> json -> bool) rt :
    (forall t sels j, chk t sels j = true -> shaped s frags cv t sels j) ->
    forall g kvs, fields_shape_ok s chk rt g kvs = true -> shaped_fields s frags cv rt g kvs.
  Proof.
    intros Hchk. induction g as [|[k fs] rest IH]; intros kvs H; cbn [fields_shape_ok] in H.
    - destruct kvs; [constructor | discriminate].
    - destruct fs as [|f1 fs'].
      + apply shf_empty. apply IH. exact H.
      + destruct (str_eqb (fs_name f1) n_typename) eqn:Et.
        * destruct kvs as [|[k' j] kvs']; [discriminate|].
          apply andb_true_iff in H. destruct H as [H H3]. apply andb_true_iff in H. destruct H as [H1 H2].
          apply str_eqb_eq in H1. subst k'. apply json_eqb_str_eq in H2. subst j.
          apply shf_typename; [exact Et | apply IH; exact H3].
        * destruct (lookup_field s rt (fs_name f1)) as [fd|] eqn:El.
          -- destruct kvs as [|[k' j] kvs']; [discriminate|].
             apply andb_true_iff in H. destruct H as [H H3]. apply andb_true_iff in H. destruct H as [H1 H2].
             apply str_eqb_eq in H1. subst k'.
             eapply shf_field; [exact Et | exact El | apply Hchk; exact H2 | apply IH; exact H3].
          -- apply shf_unknown; [exact Et | exact El | apply IH; exact H].
  Qed.

  (* [shape_ok] at a value that is not null, by the type *)
  Lemma shape_ok_value f t sels j : j <> JNull ->
    shape_ok s frags cv (S f) t sels j =
    match t with
    | TNonNull t' => shape_ok s frags cv f t' sels j
    | TList it => match j with JList js => forallb (shape_ok s frags cv f it sels) js | _ => false end
    | TNamed n =>
        match lookup_type s n with
        | Some (TObject _ _) =>
            match j with JObj kvs => obj_shape_ok s frags cv f n sels kvs | _ => false end
        | Some (TInterface _) | Some (TUnion _) =>
            match j with
            | JObj kvs => existsb (fun rt => possible s n rt && obj_shape_ok s frags cv f rt sels kvs)
                                  (object_names s)
            | _ => false
            end
        | Some td => leaf_json td j
        | None => false
        end
    end.
  Proof. destruct j; [congruence|reflexivity..]. Qed.

  Lemma obj_shape_ok_S f rt sels kvs :
    obj_shape_ok s frags cv (S f) rt sels kvs =
    match collect s frags cv rt f sels ([], []) with
    | None => false
    | Some (_, g) => fields_shape_ok s (shape_ok s frags cv f) rt g kvs
    end.
  Proof. reflexivity. Qed.

  Lemma possible_is_object a o : possible s a o = true -> is_object s o = true.
  Proof.
    unfold possible, is_object. destruct (lookup_type s a) as [[| | | | |]|]; try discriminate;
      destruct (lookup_type s o) as [[| | | | |]|]; try discriminate; reflexivity.
  Qed.

  Theorem shape_ok_sound : forall fuel,
    (forall t sels j, shape_ok s frags cv fuel t sels j = true -> shaped s frags cv t sels j) /\
    (forall rt sels kvs, obj_shape_ok s frags cv fuel rt sels kvs = true -> shaped_obj s frags cv rt sels kvs).
  Proof.
    induction fuel as [|f [IHv IHo]]; [split; intros; discriminate|]. split.
    - intros t sels j H.
      assert (Hj : j = JNull \/ j <> JNull) by (destruct j; auto; right; discriminate).
      destruct Hj as [->|Hj]; [apply sh_null; apply negb_true_iff in H; exact H|].
      rewrite (shape_ok_value f t sels j Hj) in H. destruct t as [n|it|t'].
      + destruct (lookup_type s n) as [td|] eqn:El; [|discriminate].
        assert (Hobj : forall rt kvs, runtime_of s n rt -> j = JObj kvs ->
                        obj_shape_ok s frags cv f rt sels kvs = true -> shaped s frags cv (TNamed n) sels j).
        { intros rt kvs Hrt -> Ho. eapply sh_obj; [exact Hrt | apply IHo; exact Ho]. }
        assert (Habs : forall kvs, j = JObj kvs ->
                        existsb (fun rt => possible s n rt && obj_shape_ok s frags cv f rt sels kvs)
                                (object_names s) = true -> shaped s frags cv (TNamed n) sels j).
        { intros kvs Hjk He. apply existsb_exists in He. destruct He as [rt [_ He]].
          apply andb_true_iff in He. destruct He as [Hp Ho].
          eapply Hobj; [|exact Hjk|exact Ho]. right. split; [eapply possible_is_object; exact Hp | exact Hp]. }
        destruct td as [sc|vals|ofs ifs|ifs|ms|idefs ioo].
        * eapply sh_leaf; eassumption.
        * eapply sh_leaf; eassumption.
        * destruct j; try discriminate. eapply Hobj; [|reflexivity|exact H].
          left. split; [unfold is_object; rewrite El; reflexivity | reflexivity].
        * destruct j; try discriminate. eapply Habs; [reflexivity | exact H].
        * destruct j; try discriminate. eapply Habs; [reflexivity | exact H].
        * destruct j; cbn in H; discriminate H.
      + destruct j; try discriminate. apply sh_list. apply Forall_forall. intros x Hx.
        rewrite forallb_forall in H. apply IHv. apply H. exact Hx.
      + apply sh_nonnull; [exact Hj | apply IHv; exact H].
    - intros rt sels kvs H. rewrite obj_shape_ok_S in H.
      destruct (collect s frags cv rt f sels ([], [])) as [[v g]|] eqn:Ec; [|discriminate].
      eapply sho; [exact Ec|]. eapply fields_shape_ok_sound; [|exact H]. exact IHv.
  Qed.
End ShapeSound.
