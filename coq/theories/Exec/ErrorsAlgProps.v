(* The collected errors: everything attempted is covered by a kept position, and the outermost
   kept positions depend only on the set of attempts (C03). *)
From GV Require Import Base.Prelude Exec.ErrorsAlg.

Lemma prefixb_refl p : prefixb p p = true.
Proof. induction p as [|x p IH]; cbn; [reflexivity|]. rewrite N.eqb_refl. exact IH. Qed.

Lemma prefixb_trans a b c : prefixb a b = true -> prefixb b c = true -> prefixb a c = true.
Proof.
  revert b c; induction a as [|x a IH]; intros b c H1 H2; [reflexivity|].
  destruct b as [|y b]; [discriminate|]. destruct c as [|z c]; [discriminate|].
  cbn in *. apply andb_true_iff in H1 as [E1 H1]. apply andb_true_iff in H2 as [E2 H2].
  apply N.eqb_eq in E1, E2. subst. rewrite N.eqb_refl. cbn. eapply IH; eauto.
Qed.

Lemma prefixb_antisym a b : prefixb a b = true -> prefixb b a = true -> a = b.
Proof.
  revert b; induction a as [|x a IH]; intros [|y b] H1 H2; cbn in *; try discriminate; [reflexivity|].
  apply andb_true_iff in H1 as [E1 H1]. apply andb_true_iff in H2 as [_ H2].
  apply N.eqb_eq in E1. subst. f_equal. apply IH; assumption.
Qed.

Lemma prefixb_strict_shorter q x : prefixb q x = true -> prefixb x q = false -> (length q < length x)%nat.
Proof.
  revert x. induction q as [|a q IH]; intros [|b x] H1 H2; cbn in *; try discriminate; [lia|].
  apply andb_true_iff in H1 as [E H1]. apply N.eqb_eq in E. subst.
  rewrite N.eqb_refl in H2. specialize (IH x H1 H2). lia.
Qed.

Lemma nulled_iff P p : nulled P p = true <-> exists a, In a P /\ prefixb a p = true.
Proof. apply existsb_exists. Qed.

Lemma nulled_mono P a p : nulled P p = true -> nulled (a :: P) p = true.
Proof. unfold nulled. cbn. intros ->. apply orb_true_r. Qed.

Lemma nulled_below P a p : nulled P a = true -> prefixb a p = true -> nulled P p = true.
Proof.
  rewrite !nulled_iff. intros (q & Hin & Hq) Hp. exists q. split; [exact Hin|]. eapply prefixb_trans; eauto.
Qed.

(* invariant of run_from: positions only grow; everything added so far is covered *)
Lemma run_from_covers adds : forall st i p,
  (nulled (fst st) p = true \/ In p adds) -> nulled (fst (run_from st i adds)) p = true.
Proof.
  induction adds as [|a r IH]; intros st i p H; cbn.
  - destruct H as [H|[]]. exact H.
  - apply IH. unfold add. destruct H as [H|[->|H]].
    + left. destruct (nulled (fst st) a); [exact H|apply nulled_mono; exact H].
    + left. destruct (nulled (fst st) p) eqn:E; [exact E|].
      cbn. unfold nulled. cbn. rewrite prefixb_refl. reflexivity.
    + right. exact H.
Qed.

Theorem covered adds p : In p adds -> nulled (kept_positions adds) p = true.
Proof. intros H. apply run_from_covers. right. exact H. Qed.

Lemma run_from_subset adds : forall st i q,
  In q (fst (run_from st i adds)) -> In q (fst st) \/ In q adds.
Proof.
  induction adds as [|a r IH]; intros st i q H; cbn in *; [left; exact H|].
  apply IH in H as [H|H]; [|right; right; exact H].
  unfold add in H. destruct (nulled (fst st) a); [left; exact H|].
  cbn in H. destruct H as [<-|H]; [right; left; reflexivity|left; exact H].
Qed.

Theorem kept_subset adds q : In q (kept_positions adds) -> In q adds.
Proof. intros H. apply run_from_subset in H as [[]|H]. exact H. Qed.

(* outermost (minimal w.r.t. the prefix order) positions *)
Definition outermost (P : list pos) (p : pos) : Prop :=
  In p P /\ forall q, In q P -> prefixb q p = true -> q = p.

(* below every position of P lies an outermost one: induction on the length, going to a proper
   prefix in P as long as there is one *)
Lemma outermost_below P : forall x, In x P -> exists m, outermost P m /\ prefixb m x = true.
Proof.
  assert (G : forall n x, (length x <= n)%nat -> In x P -> exists m, outermost P m /\ prefixb m x = true).
  { induction n as [|n IHn]; intros x Hl Hx.
    - destruct x; [|cbn in Hl; lia]. exists []. split; [split; [exact Hx|]|reflexivity].
      intros q _ Hq. destruct q; [reflexivity|discriminate].
    - destruct (existsb (fun q => prefixb q x && negb (prefixb x q)) P) eqn:E.
      + apply existsb_exists in E as (q & Hq & Hc). apply andb_true_iff in Hc as [H1 H2].
        apply negb_true_iff in H2. pose proof (prefixb_strict_shorter q x H1 H2).
        destruct (IHn q ltac:(lia) Hq) as (m & Hm & Hmq).
        exists m. split; [exact Hm|eapply prefixb_trans; eauto].
      + exists x. split; [|apply prefixb_refl]. split; [exact Hx|].
        intros q Hq Hpre. apply prefixb_antisym; [exact Hpre|].
        destruct (prefixb x q) eqn:Exq; [reflexivity|].
        assert (existsb (fun q => prefixb q x && negb (prefixb x q)) P = true); [|congruence].
        apply existsb_exists. exists q. split; [exact Hq|]. rewrite Hpre, Exq. reflexivity. }
  intros x. exact (G (length x) x (le_n _)).
Qed.

Theorem outermost_kept adds p : outermost adds p <-> outermost (kept_positions adds) p.
Proof.
  split; intros [Hin Hmin].
  - split.
    + (* p is covered by some kept q <= p; q is an attempted add, so q = p *)
      destruct (proj1 (nulled_iff _ _) (covered adds p Hin)) as (q & Hq & Hpre).
      rewrite (Hmin q (kept_subset adds q Hq) Hpre) in Hq. exact Hq.
    + intros q Hq Hpre. apply Hmin; [apply kept_subset; exact Hq|exact Hpre].
  - split; [apply kept_subset; exact Hin|].
    intros q Hq Hpre.
    destruct (proj1 (nulled_iff _ _) (covered adds q Hq)) as (k & Hk & Hkq).
    assert (k = p) as -> by (apply Hmin; [exact Hk|eapply prefixb_trans; eauto]).
    apply prefixb_antisym; assumption.
Qed.

(* the outermost nulled positions do not depend on the order in which errors arrive,
   nor on dropping (cancelling) attempts that lie strictly below another attempt *)
Theorem outermost_order_independent adds adds' p :
  (forall q, In q adds' -> In q adds) ->
  (forall q, outermost adds q -> In q adds') ->
  (outermost (kept_positions adds) p <-> outermost (kept_positions adds') p).
Proof.
  intros Hsub Hkeep. rewrite <- !outermost_kept. split; intros [Hin Hmin].
  - split; [apply Hkeep; split; assumption|]. intros q Hq. apply Hmin. apply Hsub. exact Hq.
  - destruct (outermost_below adds p (Hsub p Hin)) as (m & Hm & Hmp).
    assert (m = p) as -> by (apply Hmin; [apply Hkeep; exact Hm|exact Hmp]).
    exact Hm.
Qed.

