(* Properties of the specification model Exec/Spec.v: CollectFields as grouping of the visited
   fields, the executor rule by rule with the induction principle over a run that the later files
   share, the response invariants of C02, fuel independence. *)
From GV Require Import Base.Prelude Base.ListFacts Exec.Value Exec.Schema Exec.Spec Exec.ValueFacts.

Definition keys {A} (g : list (str * A)) : list str := map fst g.

Lemma add_field_keys k f g :
  keys (add_field k f g) = if mem k (keys g) then keys g else keys g ++ [k].
Proof.
  induction g as [|[k' fs] r IH]; cbn [add_field keys map fst mem existsb app].
  - reflexivity.
  - destruct (str_eqb k k') eqn:E; cbn [orb map fst].
    + reflexivity.
    + fold (keys (add_field k f r)). rewrite IH. fold (keys r). fold (mem k (keys r)).
      destruct (mem k (keys r)); reflexivity.
Qed.

(* the keys of the grouped field set are the response keys in order of first appearance *)
Lemma group_keys_gen fl : forall g,
  keys (fold_left (fun g kf => add_field (fst kf) (snd kf) g) fl g)
  = fold_left (fun acc k => if mem k acc then acc else acc ++ [k]) (map fst fl) (keys g).
Proof.
  induction fl as [|[k f] r IH]; intro g; cbn [fold_left map fst snd].
  - reflexivity.
  - rewrite IH. rewrite add_field_keys. reflexivity.
Qed.

Lemma group_keys fl : keys (group fl) = first_occ (map fst fl).
Proof. unfold group, first_occ. rewrite group_keys_gen. reflexivity. Qed.

Lemma add_field_nodup k f g : NoDup (keys g) -> NoDup (keys (add_field k f g)).
Proof.
  intro H. rewrite add_field_keys. destruct (mem k (keys g)) eqn:E; [exact H|].
  apply mem_not_In in E. apply NoDup_snoc; assumption.
Qed.

Lemma group_snoc fl k f : group (fl ++ [(k, f)]) = add_field k f (group fl).
Proof. unfold group. rewrite fold_left_app. reflexivity. Qed.

Lemma group_nodup fl : NoDup (keys (group fl)).
Proof.
  induction fl as [|[k f] r IH] using rev_ind; [constructor|].
  rewrite group_snoc. apply add_field_nodup. exact IH.
Qed.

Section CollectSim.
  Variable s : schema.
  Variable frags : list fragment.
  Variable cv : list (str * value).
  Variable tn : str.
  Variables A B : Type.
  Variable addA : str -> fieldsel -> A -> A.
  Variable addB : str -> fieldsel -> B -> B.
  Variable R : A -> B -> Prop.
  Hypothesis Radd : forall k f a b, R a b -> R (addA k f a) (addB k f b).

  (* where the first walk returns, so does the second, with the same visited set *)
  Definition walk_rel (x : option (list str * A)) (y : option (list str * B)) : Prop :=
    match x with
    | None => True
    | Some (v, a) => match y with Some (v', b) => v = v' /\ R a b | None => False end
    end.

  Lemma collect_list_sim recA recB :
    (forall sels v a b, R a b -> walk_rel (recA sels (v, a)) (recB sels (v, b))) ->
    forall sels v a b, R a b ->
      walk_rel (collect_list s frags cv tn A addA recA sels (v, a))
          (collect_list s frags cv tn B addB recB sels (v, b)).
  Proof.
    intros Hrec.
    assert (Hsub : forall sub rest v a b,
      (forall v a b, R a b -> walk_rel (collect_list s frags cv tn A addA recA rest (v, a))
                                  (collect_list s frags cv tn B addB recB rest (v, b))) -> R a b ->
      walk_rel (match recA sub (v, a) with None => None
           | Some st' => collect_list s frags cv tn A addA recA rest st' end)
          (match recB sub (v, b) with None => None
           | Some st' => collect_list s frags cv tn B addB recB rest st' end)).
    { intros sub rest v a b IH HR. specialize (Hrec sub v a b HR).
      destruct (recA sub (v, a)) as [[v1 a1]|]; [|exact I].
      destruct (recB sub (v, b)) as [[v2 b1]|]; [|contradiction].
      destruct Hrec as [-> HR1]. apply IH. exact HR1. }
    induction sels as [|sel rest IH]; intros v a b HR.
    - cbn. split; [reflexivity|exact HR].
    - destruct sel as [al name args dirs sub | name dirs | tc dirs sub]; cbn [collect_list fst snd].
      + destruct (should_include cv dirs); [apply IH; apply Radd; exact HR | apply IH; exact HR].
      + destruct (negb (should_include cv dirs)); [apply IH; exact HR|].
        destruct (mem name v); [apply IH; exact HR|].
        destruct (find_frag name frags) as [fr|]; [|apply IH; exact HR].
        destruct (cond_matches s (fr_cond fr) tn); [|apply IH; exact HR].
        apply Hsub; assumption.
      + destruct (should_include cv dirs && match tc with Some c => cond_matches s c tn | None => true end);
          [apply Hsub; assumption | apply IH; exact HR].
  Qed.

  Lemma collect_gen_sim f : forall f', (f <= f')%nat -> forall sels v a b, R a b ->
    walk_rel (collect_gen s frags cv tn A addA f sels (v, a))
        (collect_gen s frags cv tn B addB f' sels (v, b)).
  Proof.
    induction f as [|f IH]; intros f' Hle sels v a b HR; [exact I|].
    destruct f' as [|f']; [lia|]. cbn [collect_gen].
    apply collect_list_sim; [apply IH; lia | exact HR].
  Qed.
End CollectSim.

(* CollectFields = grouping, in order, of the sequence of fields it visits *)
Lemma collect_is_group_of_flat s frags cv tn fuel sels v g :
  collect s frags cv tn fuel sels ([], []) = Some (v, g) ->
  exists fl, collect_flat s frags cv tn fuel sels ([], []) = Some (v, fl) /\ g = group fl.
Proof.
  intro E. unfold collect in E.
  pose proof (collect_gen_sim s frags cv tn _ _ add_field (fun k f l => l ++ [(k, f)])
                (fun g fl => g = group fl)
                (fun k f a b Hab => eq_trans (f_equal (add_field k f) Hab) (eq_sym (group_snoc b k f)))
                fuel fuel (le_n _) sels [] [] [] eq_refl) as H.
  unfold grouped in *. rewrite E in H. unfold collect_flat.
  destruct (collect_gen s frags cv tn (list (str * fieldsel)) _ fuel sels ([], [])) as [[v' fl]|]; [|destruct H].
  destruct H as [<- ->]. exists fl. split; reflexivity.
Qed.

Lemma collect_nodup s frags cv tn fuel sels v g :
  collect s frags cv tn fuel sels ([], []) = Some (v, g) -> NoDup (keys g).
Proof.
  intro H. apply collect_is_group_of_flat in H as (fl & _ & ->). apply group_nodup.
Qed.

(* a resolved value that is neither null nor a raised exception *)
Definition live_data (d : data) : Prop := match d with DNull | DRaise => False | _ => True end.

Definition abstract_def (td : type_def) : Prop :=
  match td with TInterface _ | TUnion _ => True | _ => False end.

(* the types [complete] treats as leaves (an input object type serialises nothing) *)
Definition leaf_def (td : type_def) : Prop :=
  match td with TScalar _ | TEnum _ | TInput _ _ => True | _ => False end.

Lemma data_cases d : d = DNull \/ d = DRaise \/ live_data d.
Proof. destruct d; auto; right; right; exact I. Qed.

Lemma type_def_cases td : (exists ofs ifs, td = TObject ofs ifs) \/ abstract_def td \/ leaf_def td.
Proof. destruct td; eauto; right; (left; exact I) || (right; exact I). Qed.

Section ExecRules.
  Variable s : schema.
  Variable frags : list fragment.
  Variable cv : list (str * value).

  (* unfolding equations of the mutually recursive functions *)
  Lemma exec_sels_S f tn obj sels :
    exec_sels s frags cv (S f) tn obj sels =
    match collect s frags cv tn f sels ([], []) with
    | None => None
    | Some (_, g) =>
      match exec_groups (exec_field s frags cv f tn obj) g with
      | None => None
      | Some (Some kvs, es, cs) => Some (CVal (JObj kvs), es, cs)
      | Some (None, es, cs) => Some (CErr, es, cs)
      end
    end.
  Proof. reflexivity. Qed.

  Lemma exec_field_S f tn obj fs :
    exec_field s frags cv (S f) tn obj fs =
    match fs with
    | [] => Some FSkip
    | f1 :: _ =>
      if str_eqb (fs_name f1) n_typename then Some (FRes (CVal (JStr tn), [], []))
      else
        match lookup_field s tn (fs_name f1) with
        | None => Some FSkip
        | Some fd =>
          match coerce_args s cv (f_args fd) (fs_args f1) with
          | None => Some (FRes (catch (f_type fd) (raise_here CauseArgs)))
          | Some args =>
            match complete s frags cv f (f_type fd) (merged_sels fs)
                    match lookup (fs_name f1) obj with Some d => d | None => DNull end with
            | None => None
            | Some (r, es, cs) =>
                Some (FRes (catch (f_type fd) (r, es, ([], fs_name f1, args) :: cs)))
            end
          end
        end
    end.
  Proof. reflexivity. Qed.

  Lemma complete_S f t sels d :
    complete s frags cv (S f) t sels d =
    match d with
    | DRaise => Some (raise_here CauseRaise)
    | _ =>
      match t with
      | TNonNull t' =>
          match complete s frags cv f t' sels d with
          | None => None
          | Some (CVal JNull, es, cs) => Some (CErr, es ++ [([], CauseNull)], cs)
          | Some o => Some o
          end
      | TList it =>
          match d with
          | DNull => Some (CVal JNull, [], [])
          | DList items =>
              match complete_items (fun x => option_map (catch it) (complete s frags cv f it sels x)) items O with
              | None => None
              | Some (Some js, es, cs) => Some (CVal (JList js), es, cs)
              | Some (None, es, cs) => Some (CErr, es, cs)
              end
          | _ => Some (raise_here CauseNonList)
          end
      | TNamed n =>
          match d with
          | DNull => Some (CVal JNull, [], [])
          | _ =>
            match lookup_type s n with
            | Some (TObject _ _) => exec_sels s frags cv f n (data_fields d) sels
            | Some (TInterface _) | Some (TUnion _) =>
                match d with
                | DObj rt flds =>
                    if is_object s rt && possible s n rt then exec_sels s frags cv f rt flds sels
                    else Some (raise_here CauseType)
                | _ => Some (raise_here CauseType)
                end
            | Some td =>
                match d with
                | DLeaf l =>
                    match complete_leaf td l with
                    | Some j => Some (CVal j, [], [])
                    | None => Some (raise_here CauseLeaf)
                    end
                | _ => Some (raise_here CauseLeaf)
                end
            | None => Some (raise_here CauseType)
            end
          end
      end
    end.
  Proof. reflexivity. Qed.

  (* [complete] by the type, for a value that did not raise *)
  Lemma complete_nonnull f t' sels d : d <> DRaise ->
    complete s frags cv (S f) (TNonNull t') sels d =
    match complete s frags cv f t' sels d with
    | None => None
    | Some (CVal JNull, es, cs) => Some (CErr, es ++ [([], CauseNull)], cs)
    | Some o => Some o
    end.
  Proof. destruct d; try reflexivity. congruence. Qed.

  Lemma complete_object f n ofs ifs sels d :
    lookup_type s n = Some (TObject ofs ifs) -> live_data d ->
    complete s frags cv (S f) (TNamed n) sels d = exec_sels s frags cv f n (data_fields d) sels.
  Proof. intros El Hd. rewrite complete_S, El. destruct d; try destruct Hd; reflexivity. Qed.

  Lemma complete_abstract f n td sels d :
    lookup_type s n = Some td -> abstract_def td -> live_data d ->
    complete s frags cv (S f) (TNamed n) sels d =
    match d with
    | DObj rt flds =>
        if is_object s rt && possible s n rt then exec_sels s frags cv f rt flds sels
        else Some (raise_here CauseType)
    | _ => Some (raise_here CauseType)
    end.
  Proof.
    intros El Ht Hd. rewrite complete_S, El.
    destruct td; try destruct Ht; destruct d; try destruct Hd; reflexivity.
  Qed.

  Lemma complete_leaf_type f n td sels d :
    lookup_type s n = Some td -> leaf_def td -> live_data d ->
    complete s frags cv (S f) (TNamed n) sels d =
    match d with
    | DLeaf l =>
        match complete_leaf td l with
        | Some j => Some (CVal j, [], [])
        | None => Some (raise_here CauseLeaf)
        end
    | _ => Some (raise_here CauseLeaf)
    end.
  Proof.
    intros El Ht Hd. rewrite complete_S, El.
    destruct td; try destruct Ht; destruct d; try destruct Hd; reflexivity.
  Qed.

  Lemma complete_notype f n sels d :
    lookup_type s n = None -> live_data d ->
    complete s frags cv (S f) (TNamed n) sels d = Some (raise_here CauseType).
  Proof. intros El Hd. rewrite complete_S, El. destruct d; try destruct Hd; reflexivity. Qed.

  (* the field errors [complete] raises itself, and when: a property of the value and its type *)
  Inductive fault : cause -> ty -> data -> Prop :=
  | fault_raise t : fault CauseRaise t DRaise
  | fault_nonlist it d :
      match d with DLeaf _ | DObj _ _ => True | _ => False end -> fault CauseNonList (TList it) d
  | fault_leaf n td d :
      lookup_type s n = Some td -> leaf_def td ->
      match d with DLeaf l => complete_leaf td l = None | _ => live_data d end ->
      fault CauseLeaf (TNamed n) d
  | fault_abstract n td d :
      lookup_type s n = Some td -> abstract_def td ->
      match d with DObj rt _ => is_object s rt && possible s n rt = false | _ => live_data d end ->
      fault CauseType (TNamed n) d
  | fault_notype n d : lookup_type s n = None -> live_data d -> fault CauseType (TNamed n) d.

  (* Induction over a run: a property of all results of [exec_sels], [exec_field] and [complete]
     holds if it is preserved by every rule of the algorithm.  The loops over field groups and
     list items stay abstract in the function they iterate. *)
  Section Ind.
    Variable PS : str -> list (str * data) -> list selection -> out -> Prop.
    Variable PF : str -> list (str * data) -> list fieldsel -> fres -> Prop.
    Variable PC : ty -> list selection -> data -> out -> Prop.

    Hypothesis sels_rule : forall rt obj sels f v g ef r es cs,
      collect s frags cv rt f sels ([], []) = Some (v, g) ->
      (forall fs x, ef fs = Some x -> PF rt obj fs x) ->
      exec_groups ef g = Some (r, es, cs) ->
      PS rt obj sels (match r with Some kvs => CVal (JObj kvs) | None => CErr end, es, cs).

    Hypothesis field_none : forall rt obj, PF rt obj [] FSkip.
    Hypothesis field_typename : forall rt obj f1 fs,
      str_eqb (fs_name f1) n_typename = true -> PF rt obj (f1 :: fs) (FRes (CVal (JStr rt), [], [])).
    Hypothesis field_unknown : forall rt obj f1 fs,
      str_eqb (fs_name f1) n_typename = false -> lookup_field s rt (fs_name f1) = None ->
      PF rt obj (f1 :: fs) FSkip.
    Hypothesis field_args : forall rt obj f1 fs fd,
      str_eqb (fs_name f1) n_typename = false -> lookup_field s rt (fs_name f1) = Some fd ->
      coerce_args s cv (f_args fd) (fs_args f1) = None ->
      PF rt obj (f1 :: fs) (FRes (catch (f_type fd) (raise_here CauseArgs))).
    Hypothesis field_value : forall rt obj f1 fs fd args r es cs,
      str_eqb (fs_name f1) n_typename = false -> lookup_field s rt (fs_name f1) = Some fd ->
      coerce_args s cv (f_args fd) (fs_args f1) = Some args ->
      PC (f_type fd) (merged_sels (f1 :: fs))
         match lookup (fs_name f1) obj with Some d => d | None => DNull end (r, es, cs) ->
      PF rt obj (f1 :: fs) (FRes (catch (f_type fd) (r, es, ([], fs_name f1, args) :: cs))).

    Hypothesis c_fault : forall c t sels d, fault c t d -> PC t sels d (raise_here c).
    Hypothesis c_null : forall t sels, is_nonnull t = false -> PC t sels DNull (CVal JNull, [], []).
    (* the run of the wrapped type is given as well: earlier results about it apply *)
    Hypothesis c_nonnull_null : forall f t' sels d es cs,
      complete s frags cv f t' sels d = Some (CVal JNull, es, cs) -> PC t' sels d (CVal JNull, es, cs) ->
      PC (TNonNull t') sels d (CErr, es ++ [([], CauseNull)], cs).
    Hypothesis c_nonnull : forall t' sels d o,
      (forall es cs, o <> (CVal JNull, es, cs)) -> PC t' sels d o -> PC (TNonNull t') sels d o.
    Hypothesis c_list : forall it sels items cf r es cs,
      (forall x o, cf x = Some o -> exists o', o = catch it o' /\ PC it sels x o') ->
      complete_items cf items O = Some (r, es, cs) ->
      PC (TList it) sels (DList items) (match r with Some js => CVal (JList js) | None => CErr end, es, cs).
    Hypothesis c_object : forall n ofs ifs sels d o,
      lookup_type s n = Some (TObject ofs ifs) -> live_data d ->
      PS n (data_fields d) sels o -> PC (TNamed n) sels d o.
    Hypothesis c_abstract : forall n td sels rt flds o,
      lookup_type s n = Some td -> abstract_def td -> is_object s rt && possible s n rt = true ->
      PS rt flds sels o -> PC (TNamed n) sels (DObj rt flds) o.
    Hypothesis c_leaf : forall n td sels l j,
      lookup_type s n = Some td -> leaf_def td -> complete_leaf td l = Some j ->
      PC (TNamed n) sels (DLeaf l) (CVal j, [], []).

    Lemma nonnull_case f t' sels d o :
      (forall t sels d o, complete s frags cv f t sels d = Some o -> PC t sels d o) ->
      match complete s frags cv f t' sels d with
      | None => None
      | Some (CVal JNull, es, cs) => Some (CErr, es ++ [([], CauseNull)], cs)
      | Some o => Some o
      end = Some o -> PC (TNonNull t') sels d o.
    Proof.
      intros IHc H. destruct (complete s frags cv f t' sels d) as [o'|] eqn:Ecp; [|discriminate].
      pose proof (IHc _ _ _ _ Ecp) as Hp.
      destruct o' as [[[j|] es] cs]; [destruct j|]; injection H as <-;
        try (apply c_nonnull; [discriminate | exact Hp]).
      eapply c_nonnull_null; [exact Ecp | exact Hp].
    Qed.

    Theorem exec_ind : forall fuel,
      (forall rt obj sels o, exec_sels s frags cv fuel rt obj sels = Some o -> PS rt obj sels o) /\
      (forall rt obj fs x, exec_field s frags cv fuel rt obj fs = Some x -> PF rt obj fs x) /\
      (forall t sels d o, complete s frags cv fuel t sels d = Some o -> PC t sels d o).
    Proof.
      induction fuel as [|f [IHs [IHf IHc]]]; [repeat split; intros; discriminate|].
      repeat split.
      - intros rt obj sels o H. rewrite exec_sels_S in H.
        destruct (collect s frags cv rt f sels ([], [])) as [[v g]|] eqn:Ec; [|discriminate].
        destruct (exec_groups (exec_field s frags cv f rt obj) g) as [[[r es] cs]|] eqn:Eg; [|discriminate].
        replace o with (match r with Some kvs => CVal (JObj kvs) | None => CErr end, es, cs)
          by (destruct r; congruence).
        eapply sels_rule; [exact Ec | intros fs x; apply IHf | exact Eg].
      - intros rt obj fs x H. rewrite exec_field_S in H.
        destruct fs as [|f1 fs']; [injection H as <-; apply field_none|].
        destruct (str_eqb (fs_name f1) n_typename) eqn:Et; [injection H as <-; apply field_typename; exact Et|].
        destruct (lookup_field s rt (fs_name f1)) as [fd|] eqn:El;
          [|injection H as <-; apply field_unknown; assumption].
        destruct (coerce_args s cv (f_args fd) (fs_args f1)) as [args|] eqn:Ea;
          [|injection H as <-; apply field_args; assumption].
        destruct (complete s frags cv f (f_type fd) (merged_sels (f1 :: fs')) _) as [[[r es] cs]|] eqn:Ecp;
          [|discriminate].
        injection H as <-. apply field_value; try assumption. apply IHc. exact Ecp.
      - intros t sels d o H.
        destruct (data_cases d) as [->|[->|Hd]].
        { destruct t as [n|it|t']; [injection H as <-; apply c_null; reflexivity..|].
          rewrite complete_nonnull in H by discriminate.
          exact (nonnull_case f t' sels DNull o IHc H). }
        { injection H as <-. apply c_fault, fault_raise. }
        destruct t as [n|it|t'].
        + destruct (lookup_type s n) as [td|] eqn:El.
          2:{ rewrite (complete_notype f n sels d El Hd) in H. injection H as <-.
              apply c_fault, fault_notype; assumption. }
          destruct (type_def_cases td) as [(ofs & ifs & ->)|[Ht|Ht]].
          * rewrite (complete_object f n ofs ifs sels d El Hd) in H.
            eapply c_object; [exact El | exact Hd | apply IHs; exact H].
          * rewrite (complete_abstract f n td sels d El Ht Hd) in H.
            destruct d as [|l|rt flds|items|];
              try (injection H as <-; apply c_fault; eapply fault_abstract; [exact El | exact Ht | exact Hd]).
            destruct (is_object s rt && possible s n rt) eqn:Ep.
            -- eapply c_abstract; [exact El | exact Ht | exact Ep | apply IHs; exact H].
            -- injection H as <-. apply c_fault. eapply fault_abstract; [exact El | exact Ht | exact Ep].
          * rewrite (complete_leaf_type f n td sels d El Ht Hd) in H.
            destruct d as [|l|rt flds|items|];
              try (injection H as <-; apply c_fault; eapply fault_leaf; [exact El | exact Ht | exact Hd]).
            destruct (complete_leaf td l) as [j|] eqn:Ecl; injection H as <-.
            -- eapply c_leaf; eassumption.
            -- apply c_fault. eapply fault_leaf; [exact El | exact Ht | exact Ecl].
        + rewrite complete_S in H.
          destruct d as [|l|rt flds|items|]; try destruct Hd;
            try (injection H as <-; apply c_fault, fault_nonlist; exact I).
          destruct (complete_items _ items O) as [[[r es] cs]|] eqn:Ei; [|discriminate].
          replace o with (match r with Some js => CVal (JList js) | None => CErr end, es, cs)
            by (destruct r; congruence).
          eapply c_list; [|exact Ei]. intros x o' Hx. cbv beta in Hx.
          destruct (complete s frags cv f it sels x) as [o0|] eqn:E0; [|discriminate].
          injection Hx as <-. exists o0. split; [reflexivity | apply IHc; exact E0].
        + rewrite complete_nonnull in H by (intros ->; exact Hd).
          exact (nonnull_case f t' sels d o IHc H).
    Qed.
  End Ind.
End ExecRules.

Lemma lookup_In_keys {A} k (l : list (str * A)) v : lookup k l = Some v -> In k (keys l).
Proof. intro H. apply lookup_In in H. apply (in_map fst) in H. exact H. Qed.

Section Invariants.
  Variable s : schema.
  Variable frags : list fragment.
  Variable cv : list (str * value).

  Definition errs_ok (j : json) (es : list err) : Prop :=
    Forall (fun e : err => hits_null (fst e) j = true) es.

  Definition out_ok (P : json -> Prop) (o : out) : Prop :=
    let '(r, es, cs) := o in
    Forall (call_ok s cv) cs /\
    match r with
    | CVal j => P j /\ errs_ok j es
    | CErr => es <> []
    end.

  Lemma out_ok_weaken (P Q : json -> Prop) o : (forall j, P j -> Q j) -> out_ok P o -> out_ok Q o.
  Proof.
    destruct o as [[r es] cs]. intros H [Hc Hr]. split; [exact Hc|].
    destruct r; [|exact Hr]. destruct Hr as [Hp He]. split; [apply H; exact Hp | exact He].
  Qed.

  Lemma call_ok_pre seg cs : Forall (call_ok s cv) cs -> Forall (call_ok s cv) (pre_calls seg cs).
  Proof.
    unfold pre_calls. intro H. apply Forall_map. eapply Forall_impl; [|exact H].
    intros [[p f] a] Hc. exact Hc.
  Qed.

  Lemma pre_errs_nonempty seg es : es <> [] -> pre_errs seg es <> [].
  Proof. destruct es; cbn; [congruence | discriminate]. Qed.

  (* catching a field error at a nullable position yields a well-shaped null *)
  Lemma catch_ok t sels o :
    out_ok (shaped s frags cv t sels) o -> out_ok (shaped s frags cv t sels) (catch t o).
  Proof.
    destruct o as [[r es] cs]. destruct r as [j|]; cbn [catch]; [trivial|].
    destruct (is_nonnull t) eqn:E; [trivial|].
    intros [Hc _]. split; [exact Hc|]. split.
    - apply sh_null. exact E.
    - apply Forall_forall. intros [p c] _. destruct p; reflexivity.
  Qed.

  Definition hits_from (i : nat) (js : list json) (e : err) : Prop :=
    match fst e with
    | PIdx i' :: r => (i <= i')%nat /\ exists j, nth_error js (i' - i) = Some j /\ hits_null r j = true
    | _ => False
    end.

  Lemma complete_items_ok (P : json -> Prop) cf : forall items i r es cs,
    (forall x o, In x items -> cf x = Some o -> out_ok P o) ->
    complete_items cf items i = Some (r, es, cs) ->
    Forall (call_ok s cv) cs /\
    match r with
    | Some js => Forall P js /\ Forall (hits_from i js) es
    | None => es <> []
    end.
  Proof.
    induction items as [|x rest IH]; intros i r es cs Hcf H; cbn [complete_items] in H.
    - inversion H; subst. repeat split; constructor.
    - destruct (cf x) as [[[rx esx] csx]|] eqn:Ex; [|discriminate].
      pose proof (Hcf x _ (or_introl eq_refl) Ex) as Hx. cbn in Hx. destruct Hx as [Hcx Hrx].
      destruct rx as [j|].
      + destruct (complete_items cf rest (S i)) as [[[r' es'] cs']|] eqn:Er; [|discriminate].
        inversion H; subst; clear H.
        destruct (IH (S i) r' es' cs' (fun y o Hy => Hcf y o (or_intror Hy)) Er) as [Hc' Hr'].
        split; [apply Forall_app; split; [apply call_ok_pre; exact Hcx | exact Hc']|].
        destruct r' as [js|]; cbn [option_map].
        * destruct Hrx as [Hp He]. destruct Hr' as [Hps Hes]. split; [constructor; assumption|].
          apply Forall_app; split.
          -- unfold pre_errs. apply Forall_map. eapply Forall_impl; [|exact He].
             intros e Hn. cbn. split; [lia|]. exists j. rewrite Nat.sub_diag. split; [reflexivity|exact Hn].
          -- eapply Forall_impl; [|exact Hes]. intros e. unfold hits_from.
             destruct e as [[|[k|i'] e'] c]; cbn [fst]; try tauto. intros [Hle [j' [Hn Hh]]].
             split; [lia|]. exists j'. split; [|exact Hh].
             replace (i' - i)%nat with (S (i' - S i)) by lia. exact Hn.
        * intro Hnil. apply app_eq_nil in Hnil. destruct Hnil as [_ Hnil]. apply Hr'. exact Hnil.
      + inversion H; subst; clear H. split; [apply call_ok_pre; exact Hcx|].
        apply pre_errs_nonempty. exact Hrx.
  Qed.

  Definition field_shape (rt : str) (fs : list fieldsel) (j : json) : Prop :=
    match fs with
    | [] => False
    | f1 :: _ =>
      (str_eqb (fs_name f1) n_typename = true /\ j = JStr rt) \/
      (str_eqb (fs_name f1) n_typename = false /\
       exists fd, lookup_field s rt (fs_name f1) = Some fd /\
                  shaped s frags cv (f_type fd) (merged_sels fs) j)
    end.

  Definition skip_ok (rt : str) (fs : list fieldsel) : Prop :=
    match fs with
    | [] => True
    | f1 :: _ => str_eqb (fs_name f1) n_typename = false /\ lookup_field s rt (fs_name f1) = None
    end.

  Lemma errs_ok_cons_other k j kvs es :
    ~ In k (keys kvs) -> errs_ok (JObj kvs) es -> errs_ok (JObj ((k, j) :: kvs)) es.
  Proof.
    intros Hk. unfold errs_ok. apply Forall_impl. intros e.
    destruct e as [[|[k'|i] r] c]; cbn [fst hits_null]; try discriminate.
    - cbn [lookup]. destruct (lookup k' kvs) as [j'|] eqn:El; [|discriminate].
      destruct (str_eqb k' k) eqn:E.
      + apply str_eqb_eq in E. subst. apply lookup_In_keys in El. contradiction.
      + trivial.
  Qed.

  Lemma exec_groups_ok rt ef : forall g r es cs,
    NoDup (keys g) ->
    (forall fs o, ef fs = Some (FRes o) -> out_ok (field_shape rt fs) o) ->
    (forall fs, ef fs = Some FSkip -> skip_ok rt fs) ->
    exec_groups ef g = Some (r, es, cs) ->
    Forall (call_ok s cv) cs /\
    match r with
    | Some kvs => shaped_fields s frags cv rt g kvs /\ errs_ok (JObj kvs) es /\
                  (forall k, In k (keys kvs) -> In k (keys g))
    | None => es <> []
    end.
  Proof.
    induction g as [|[k fs] rest IH]; intros r es cs Hnd Hres Hskip H; cbn [exec_groups] in H.
    - inversion H; subst. split; [constructor|]. split; [constructor|]. split; [constructor|].
      intros k [].
    - cbn [keys map fst] in Hnd. inversion Hnd as [|? ? Hnotin Hnd']; subst.
      destruct (ef fs) as [[|[[rx esx] csx]]|] eqn:Ef; [| |discriminate].
      + (* skipped field *)
        destruct (IH r es cs Hnd' Hres Hskip H) as [Hc Hr]. split; [exact Hc|].
        destruct r as [kvs|]; [|exact Hr]. destruct Hr as [Hsf [He Hk]].
        split; [|split; [exact He | intros k' Hin; right; apply Hk; exact Hin]].
        pose proof (Hskip fs Ef) as Hs. destruct fs as [|f1 fs']; cbn in Hs.
        * apply shf_empty. exact Hsf.
        * destruct Hs as [Hs1 Hs2]. apply shf_unknown; assumption.
      + pose proof (Hres fs _ Ef) as Hx. cbn in Hx. destruct Hx as [Hcx Hrx].
        destruct rx as [j|].
        * destruct (exec_groups ef rest) as [[[r' es'] cs']|] eqn:Er; [|discriminate].
          inversion H; subst; clear H.
          destruct (IH r' es' cs' Hnd' Hres Hskip eq_refl) as [Hc' Hr'].
          split; [apply Forall_app; split; [apply call_ok_pre; exact Hcx | exact Hc']|].
          destruct r' as [kvs|]; cbn [option_map].
          -- destruct Hrx as [Hp He]. destruct Hr' as [Hsf [Hes Hk]].
             assert (Hnk : ~ In k (keys kvs)) by (intro Hin; apply Hnotin; apply Hk; exact Hin).
             split; [|split].
             ++ destruct fs as [|f1 fs']; [destruct Hp|]. cbn in Hp.
                destruct Hp as [[Ht ->]|[Ht [fd [Hl Hsh]]]].
                ** apply shf_typename; assumption.
                ** eapply shf_field; eassumption.
             ++ apply Forall_app; split.
                ** unfold pre_errs. apply Forall_map. eapply Forall_impl; [|exact He].
                   intros e Hn. cbn [fst hits_null lookup]. rewrite str_eqb_refl. exact Hn.
                ** apply errs_ok_cons_other; assumption.
             ++ intros k' [<-|Hin]; [left; reflexivity | right; apply Hk; exact Hin].
          -- intro Hnil. apply app_eq_nil in Hnil. destruct Hnil as [_ Hnil]. apply Hr'. exact Hnil.
        * inversion H; subst; clear H. split; [apply call_ok_pre; exact Hcx|].
          apply pre_errs_nonempty. exact Hrx.
  Qed.

  Lemma raise_ok P c : out_ok P (raise_here c).
  Proof. cbn. split; [constructor | discriminate]. Qed.

  Lemma null_ok t sels : is_nonnull t = false -> out_ok (shaped s frags cv t sels) (CVal JNull, [], []).
  Proof. intro H. cbn. split; [constructor|]. split; [apply sh_null; exact H | constructor]. Qed.

  Lemma complete_leaf_json td l j : complete_leaf td l = Some j -> leaf_json td j = true.
  Proof.
    destruct td as [sc|vals| | | |]; destruct l; cbn; try discriminate;
      try (destruct sc; cbn; try discriminate).
    all: try (intro H; inversion H; subst; reflexivity).
    - destruct (in_int_range z) eqn:E; [|discriminate]. intro H; inversion H; subst. exact E.
    - destruct (mem s0 vals) eqn:E; [|discriminate]. intro H; inversion H; subst. exact E.
  Qed.

  Definition sels_shape (rt : str) (sels : list selection) (j : json) : Prop :=
    exists kvs, j = JObj kvs /\ shaped_obj s frags cv rt sels kvs.

  Lemma hits_from_zero js es : Forall (hits_from 0 js) es -> errs_ok (JList js) es.
  Proof.
    apply Forall_impl. intros e. unfold hits_from. destruct e as [[|[k|i] r] c]; cbn [fst]; try tauto.
    intros [_ [j [Hn Hh]]]. cbn [hits_null]. rewrite Nat.sub_0_r in Hn. rewrite Hn. exact Hh.
  Qed.

  Lemma is_object_of_lookup n fs ifs : lookup_type s n = Some (TObject fs ifs) -> is_object s n = true.
  Proof. unfold is_object. intros ->. reflexivity. Qed.


  Definition field_res_ok (rt : str) (fs : list fieldsel) (x : fres) : Prop :=
    match x with FRes o => out_ok (field_shape rt fs) o | FSkip => skip_ok rt fs end.

  (* a field's completed value, caught at the field's type, is the field's entry *)
  Lemma field_catch_ok rt f1 fs fd o :
    str_eqb (fs_name f1) n_typename = false -> lookup_field s rt (fs_name f1) = Some fd ->
    out_ok (shaped s frags cv (f_type fd) (merged_sels (f1 :: fs))) o ->
    out_ok (field_shape rt (f1 :: fs)) (catch (f_type fd) o).
  Proof.
    intros Et El Ho. apply catch_ok in Ho. eapply out_ok_weaken; [|exact Ho].
    intros j Hj. right. split; [exact Et|]. exists fd. split; [exact El | exact Hj].
  Qed.

  Lemma sels_shape_shaped n rt sels o :
    runtime_of s n rt -> out_ok (sels_shape rt sels) o -> out_ok (shaped s frags cv (TNamed n) sels) o.
  Proof.
    intros Hrt. apply out_ok_weaken. intros j [kvs [-> Hso]]. eapply sh_obj; eassumption.
  Qed.

  Theorem exec_invariants : forall fuel,
    (forall rt obj sels o, exec_sels s frags cv fuel rt obj sels = Some o ->
                           out_ok (sels_shape rt sels) o) /\
    (forall rt obj fs x, exec_field s frags cv fuel rt obj fs = Some x -> field_res_ok rt fs x) /\
    (forall t sels d o, complete s frags cv fuel t sels d = Some o ->
                        out_ok (shaped s frags cv t sels) o).
  Proof.
    apply (exec_ind s frags cv (fun rt _ sels => out_ok (sels_shape rt sels)) (fun rt _ => field_res_ok rt)
             (fun t sels _ => out_ok (shaped s frags cv t sels))).
    - (* selection set *)
      intros rt obj sels f v g ef r es cs Ec Hef Eg.
      destruct (exec_groups_ok rt ef g r es cs (collect_nodup _ _ _ _ _ _ _ _ Ec)) as [Hc Hr];
        [exact (fun fs o => Hef fs (FRes o)) | exact (fun fs => Hef fs FSkip) | exact Eg |].
      split; [exact Hc|]. destruct r as [kvs|]; [|exact Hr]. destruct Hr as [Hsf [He _]].
      split; [|exact He]. exists kvs. split; [reflexivity|]. eapply sho; eassumption.
    - intros rt obj. exact I.
    - intros rt obj f1 fs Et. split; [constructor|]. split; [|constructor].
      left. split; [exact Et | reflexivity].
    - intros rt obj f1 fs Et El. split; assumption.
    - intros rt obj f1 fs fd Et El _. apply (field_catch_ok rt f1 fs fd _ Et El), raise_ok.
    - intros rt obj f1 fs fd args r es cs Et El Ea [Hc Hr]. apply (field_catch_ok rt f1 fs fd _ Et El).
      split; [|exact Hr]. constructor; [|exact Hc]. exists rt, fd, (fs_args f1). split; assumption.
    - intros c t sels d _. apply raise_ok.
    - intros t sels. apply null_ok.
    - intros f t' sels d es cs _ [Hc _]. split; [exact Hc|].
      intro Hnil. apply app_eq_nil in Hnil as [_ Hnil]. discriminate.
    - intros t' sels d [[r es] cs] Hnn [Hc Hr]. split; [exact Hc|].
      destruct r as [j|]; [|exact Hr]. destruct Hr as [Hp He]. split; [|exact He].
      apply sh_nonnull; [|exact Hp]. intros ->. exact (Hnn es cs eq_refl).
    - (* list: every item is completed and caught at the item type *)
      intros it sels items cf r es cs Hcf Ei.
      destruct (complete_items_ok (shaped s frags cv it sels) cf items O r es cs) as [Hc Hr]; [|exact Ei|].
      { intros x o _ Hx. destruct (Hcf x o Hx) as (o' & -> & Ho'). apply catch_ok. exact Ho'. }
      split; [exact Hc|]. destruct r as [js|]; [|exact Hr]. destruct Hr as [Hp He].
      split; [apply sh_list; exact Hp | apply hits_from_zero; exact He].
    - intros n ofs ifs sels d o El _. apply sels_shape_shaped.
      left. split; [eapply is_object_of_lookup; exact El | reflexivity].
    - intros n td sels rt flds o _ _ Ep. apply sels_shape_shaped. right. apply andb_true_iff. exact Ep.
    - intros n td sels l j El _ Ecl. split; [constructor|]. split; [|constructor].
      eapply sh_leaf; [exact El | eapply complete_leaf_json; exact Ecl].
  Qed.
End Invariants.

Definition field_known (s : schema) (rt : str) (e : str * list fieldsel) : bool :=
  match snd e with
  | [] => false
  | f1 :: _ =>
    str_eqb (fs_name f1) n_typename ||
    match lookup_field s rt (fs_name f1) with Some _ => true | None => false end
  end.

(* what a response is made of *)
Lemma execute_fuel_resp fuel s d vars root j es cs :
  execute_fuel fuel s d vars root = Resp j es cs ->
  exists cv tn r,
    coerce_variable_values s (d_vars d) vars = Some cv /\
    root_type s (d_kind d) = Some tn /\ is_object s tn = true /\
    exec_sels s (d_frags d) cv fuel tn (match root with DObj _ f => f | _ => [] end) (d_sels d)
      = Some (r, es, cs) /\
    j = match r with CVal j' => j' | CErr => JNull end.
Proof.
  unfold execute_fuel.
  destruct (coerce_variable_values s (d_vars d) vars) as [cv|]; [|discriminate].
  destruct (root_type s (d_kind d)) as [tn|]; [|discriminate].
  destruct (is_object s tn) eqn:Eo; cbn [negb]; [|discriminate].
  destruct (exec_sels s (d_frags d) cv fuel tn _ (d_sels d)) as [[[r es'] cs']|] eqn:E; [|discriminate].
  intro H. exists cv, tn, r.
  destruct r; inversion H; subst; repeat split; try reflexivity; assumption.
Qed.

Theorem response_invariants fuel s d vars root j es cs :
  execute_fuel fuel s d vars root = Resp j es cs ->
  exists cv tn,
    coerce_variable_values s (d_vars d) vars = Some cv /\ root_type s (d_kind d) = Some tn /\
    (* shape *)
    (j = JNull \/ exists kvs, j = JObj kvs /\ shaped_obj s (d_frags d) cv tn (d_sels d) kvs) /\
    (* every error path leads to a null *)
    Forall (fun e : err => hits_null (fst e) j = true) es /\
    (* a null response has an error *)
    (j = JNull -> es <> []) /\
    (* resolver arguments *)
    Forall (call_ok s cv) cs.
Proof.
  intro H. apply execute_fuel_resp in H. destruct H as [cv [tn [r [Hcv [Hrt [Ho [He ->]]]]]]].
  exists cv, tn. split; [exact Hcv|]. split; [exact Hrt|].
  destruct (exec_invariants s (d_frags d) cv fuel) as [Hs _].
  specialize (Hs _ _ _ _ He). cbn in Hs. destruct Hs as [Hc Hr].
  destruct r as [j|].
  - destruct Hr as [[kvs [-> Hso]] Hes]. repeat split.
    + right. exists kvs. split; [reflexivity | exact Hso].
    + exact Hes.
    + discriminate.
    + exact Hc.
  - repeat split.
    + left. reflexivity.
    + apply Forall_forall. intros [p c] _. destruct p; reflexivity.
    + intros _. exact Hr.
    + exact Hc.
Qed.

(* a field error propagated through the root selection set *)
Definition root_propagated (fuel : nat) (s : schema) (d : document) (vars : list (str * value))
  (root : data) : Prop :=
  exists cv tn es cs,
    coerce_variable_values s (d_vars d) vars = Some cv /\ root_type s (d_kind d) = Some tn /\
    exec_sels s (d_frags d) cv fuel tn (match root with DObj _ f => f | _ => [] end) (d_sels d)
      = Some (CErr, es, cs).

Section FuelMono.
  Variable s : schema.
  Variable frags : list fragment.
  Variable cv : list (str * value).

  Lemma collect_gen_mono tn A add f f' sels st r : (f <= f')%nat ->
    collect_gen s frags cv tn A add f sels st = Some r ->
    collect_gen s frags cv tn A add f' sels st = Some r.
  Proof.
    intros Hle H. destruct st as [v a]. destruct r as [v' a'].
    pose proof (collect_gen_sim s frags cv tn A A add add eq (fun k f a b E => f_equal (add k f) E)
                  f f' Hle sels v a a eq_refl) as G.
    rewrite H in G. cbn in G. destruct (collect_gen s frags cv tn A add f' sels (v, a)) as [[v2 b]|]; [|destruct G].
    destruct G as [-> ->]. reflexivity.
  Qed.

  Lemma exec_groups_mono (ef ef' : list fieldsel -> option fres) :
    (forall fs r, ef fs = Some r -> ef' fs = Some r) ->
    forall g o, exec_groups ef g = Some o -> exec_groups ef' g = Some o.
  Proof.
    intros Hef. induction g as [|[k fs] rest IH]; intros o H; [exact H|].
    cbn [exec_groups] in *. destruct (ef fs) as [r|] eqn:Ef; [|discriminate].
    rewrite (Hef _ _ Ef). destruct r as [|[[[j|] es] cs]].
    - apply IH. exact H.
    - destruct (exec_groups ef rest) as [o'|] eqn:Er; [|discriminate]. rewrite (IH _ eq_refl). exact H.
    - exact H.
  Qed.

  Lemma complete_items_mono (cf cf' : data -> option out) :
    (forall x r, cf x = Some r -> cf' x = Some r) ->
    forall items i o, complete_items cf items i = Some o -> complete_items cf' items i = Some o.
  Proof.
    intros Hcf. induction items as [|x rest IH]; intros i o H; [exact H|].
    cbn [complete_items] in *. destruct (cf x) as [r|] eqn:Ec; [|discriminate].
    rewrite (Hcf _ _ Ec). destruct r as [[[j|] es] cs].
    - destruct (complete_items cf rest (S i)) as [o'|] eqn:Er; [|discriminate].
      rewrite (IH _ _ Er). exact H.
    - exact H.
  Qed.

  (* the non-null wrapper passes a longer run of the wrapped type through *)
  Lemma complete_nonnull_mono f f' t' sels d o : d <> DRaise ->
    (forall o', complete s frags cv f t' sels d = Some o' -> complete s frags cv f' t' sels d = Some o') ->
    complete s frags cv (S f) (TNonNull t') sels d = Some o ->
    complete s frags cv (S f') (TNonNull t') sels d = Some o.
  Proof.
    intros Hd IH. rewrite !complete_nonnull by exact Hd.
    destruct (complete s frags cv f t' sels d) as [o'|] eqn:E; [|discriminate].
    rewrite (IH o' eq_refl). trivial.
  Qed.

  Theorem exec_mono : forall f,
    (forall f', (f <= f')%nat -> forall tn obj sels o,
        exec_sels s frags cv f tn obj sels = Some o -> exec_sels s frags cv f' tn obj sels = Some o) /\
    (forall f', (f <= f')%nat -> forall tn obj fs o,
        exec_field s frags cv f tn obj fs = Some o -> exec_field s frags cv f' tn obj fs = Some o) /\
    (forall f', (f <= f')%nat -> forall t sels d o,
        complete s frags cv f t sels d = Some o -> complete s frags cv f' t sels d = Some o).
  Proof.
    induction f as [|f [IHs [IHf IHc]]].
    { repeat split; intros; discriminate. }
    repeat split; intros f' Hle; (destruct f' as [|f']; [lia|]); assert (Hle' : (f <= f')%nat) by lia.
    - intros tn obj sels o H. rewrite exec_sels_S in *.
      destruct (collect s frags cv tn f sels ([], [])) as [[v g]|] eqn:Ec; [|discriminate].
      unfold collect in *. rewrite (collect_gen_mono tn _ _ f f' _ _ _ Hle' Ec).
      destruct (exec_groups (exec_field s frags cv f tn obj) g) as [o'|] eqn:Eg; [|discriminate].
      rewrite (exec_groups_mono _ (exec_field s frags cv f' tn obj) (fun fs r => IHf f' Hle' tn obj fs r) _ _ Eg).
      exact H.
    - intros tn obj fs o H. rewrite exec_field_S in *.
      destruct fs as [|f1 fs']; [exact H|].
      destruct (str_eqb (fs_name f1) n_typename); [exact H|].
      destruct (lookup_field s tn (fs_name f1)) as [fd|]; [|exact H].
      destruct (coerce_args s cv (f_args fd) (fs_args f1)) as [args|]; [|exact H].
      destruct (complete s frags cv f (f_type fd) (merged_sels (f1 :: fs')) _) as [o'|] eqn:Ecp; [|discriminate].
      rewrite (IHc f' Hle' _ _ _ _ Ecp). exact H.
    - intros t sels d o H. destruct (data_cases d) as [->|[->|Hd]].
      + (* a null value: only a non-null type looks further *)
        destruct t as [n|it|t']; [exact H | exact H |].
        apply (complete_nonnull_mono f f' t' sels DNull o); [discriminate | apply IHc; exact Hle' | exact H].
      + exact H.
      + destruct t as [n|it|t'].
        * (* a named type: only the selection set of an object recurs *)
          destruct (lookup_type s n) as [td|] eqn:El.
          2:{ rewrite (complete_notype s frags cv f n sels d El Hd) in H.
              rewrite (complete_notype s frags cv f' n sels d El Hd). exact H. }
          destruct (type_def_cases td) as [(ofs & ifs & ->)|[Ht|Ht]].
          -- rewrite (complete_object s frags cv f n ofs ifs sels d El Hd) in H.
             rewrite (complete_object s frags cv f' n ofs ifs sels d El Hd). apply IHs; assumption.
          -- rewrite (complete_abstract s frags cv f n td sels d El Ht Hd) in H.
             rewrite (complete_abstract s frags cv f' n td sels d El Ht Hd).
             destruct d as [|l|tn flds|items|]; try exact H.
             destruct (is_object s tn && possible s n tn); [apply IHs; assumption | exact H].
          -- rewrite (complete_leaf_type s frags cv f n td sels d El Ht Hd) in H.
             rewrite (complete_leaf_type s frags cv f' n td sels d El Ht Hd). exact H.
        * rewrite complete_S in *. destruct d as [|l|tn flds|items|]; try exact H.
          destruct (complete_items (fun x => option_map (catch it) (complete s frags cv f it sels x)) items O)
            as [o'|] eqn:Ei; [|discriminate].
          assert (Hcf : forall x r,
                    option_map (catch it) (complete s frags cv f it sels x) = Some r ->
                    option_map (catch it) (complete s frags cv f' it sels x) = Some r).
          { intros x r Hx. destruct (complete s frags cv f it sels x) as [o0|] eqn:E0; [|discriminate].
            rewrite (IHc f' Hle' _ _ _ _ E0). exact Hx. }
          rewrite (complete_items_mono _ (fun x => option_map (catch it) (complete s frags cv f' it sels x))
                     Hcf _ _ _ Ei). exact H.
        * apply (complete_nonnull_mono f f' t' sels d o); [intros ->; exact Hd | apply IHc; exact Hle' | exact H].
  Qed.
End FuelMono.

Theorem execute_fuel_mono f f' s d vars root :
  (f <= f')%nat -> execute_fuel f s d vars root <> OutOfFuelR ->
  execute_fuel f' s d vars root = execute_fuel f s d vars root.
Proof.
  intros Hle. unfold execute_fuel.
  destruct (coerce_variable_values s (d_vars d) vars) as [cv|]; [|reflexivity].
  destruct (root_type s (d_kind d)) as [tn|]; [|reflexivity].
  destruct (negb (is_object s tn)); [reflexivity|].
  destruct (exec_sels s (d_frags d) cv f tn _ (d_sels d)) as [o|] eqn:E; [|congruence].
  intros _. destruct (exec_mono s (d_frags d) cv f) as [Hs _].
  rewrite (Hs f' Hle _ _ _ _ E). reflexivity.
Qed.

Lemma complete_leaf_nonnull td l j : complete_leaf td l = Some j -> j <> JNull.
Proof. intros H ->. apply complete_leaf_json in H. destruct td as [[]| | | | |]; discriminate. Qed.

(* value completion itself yields null only for a null value (errors are caught by the callers) *)
Lemma complete_null s frags cv fuel t sels d es cs :
  complete s frags cv fuel t sels d = Some (CVal JNull, es, cs) -> d = DNull /\ es = [].
Proof.
  intro H. refine (proj2 (proj2 (exec_ind s frags cv
    (fun _ _ _ o => forall es cs, o <> (CVal JNull, es, cs)) (fun _ _ _ _ => True)
    (fun _ _ d o => forall es cs, o = (CVal JNull, es, cs) -> d = DNull /\ es = [])
    _ _ _ _ _ _ _ _ _ _ _ _ _ _ fuel)) t sels d _ H es cs eq_refl); clear; try (intros; exact I).
  - intros rt obj sels f v g ef r es cs _ _ _ es' cs'. destruct r; discriminate.
  - intros c t sels d _ es cs. discriminate.
  - intros t sels _ es cs [= <- _]. split; reflexivity.
  - intros f t' sels d es cs _ _ es' cs'. discriminate.
  - intros t' sels d o Hnn _ es cs ->. destruct (Hnn es cs eq_refl).
  - intros it sels items cf r es cs _ _ es' cs'. destruct r; discriminate.
  - intros n ofs ifs sels d o _ _ Ho es cs ->. destruct (Ho es cs eq_refl).
  - intros n td sels rt flds o _ _ _ Ho es cs ->. destruct (Ho es cs eq_refl).
  - intros n td sels l j _ _ Ecl es cs [= -> _ _]. destruct (complete_leaf_nonnull _ _ _ Ecl eq_refl).
Qed.
