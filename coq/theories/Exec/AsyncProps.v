(* The asynchronous completion model Exec/Async.v: every reachable state represents the tree, runs
   terminate and end in the synchronous result, recorded errors are the raised positions and cover
   what was cancelled, serial fields run one after the other (C03). *)
From GV Require Import Base.Prelude Base.ListFacts Exec.ErrorsAlg Exec.ErrorsAlgProps Exec.Async.

Section NodeInd.
  Variable P : node -> Prop.
  Hypothesis H : forall k nn a o ks, Forall P ks -> P (Node k nn a o ks).
  Fixpoint node_ind' (n : node) : P n :=
    match n with
    | Node k nn a o ks =>
        H k nn a o ks
          ((fix go (l : list node) : Forall P l :=
              match l with
              | [] => Forall_nil P
              | c :: r => Forall_cons c (node_ind' c) (go r)
              end) ks)
    end.
End NodeInd.

Section StInd.
  Variable P : st -> Prop.
  Hypothesis Hp : forall n, P (SPend n).
  Hypothesis Hd : forall k d bg, Forall P bg -> P (SDone k d bg).
  Hypothesis Hr : forall k nn kd sts rest, Forall P sts -> P (SRun k nn kd sts rest).
  Fixpoint st_ind' (s : st) : P s :=
    match s with
    | SPend n => Hp n
    | SDone k d bg =>
        Hd k d bg
          ((fix go (l : list st) : Forall P l :=
              match l with
              | [] => Forall_nil P
              | c :: r => Forall_cons c (st_ind' c) (go r)
              end) bg)
    | SRun k nn kd sts rest =>
        Hr k nn kd sts rest
          ((fix go (l : list st) : Forall P l :=
              match l with
              | [] => Forall_nil P
              | c :: r => Forall_cons c (st_ind' c) (go r)
              end) sts)
    end.
End StInd.

(* [finish] at a composite value runs the loop [start_from] over the children: its inner [fix] is
   that loop (shown for every accumulator) *)
Lemma finish_eq lp k nn a kd ks :
  finish lp (Node k nn a (OKids kd) ks) = finish_kids nn k kd (start_from lp kd [] ks).
Proof.
  cbn [finish]. f_equal.
  match goal with |- ?go [] ks = _ => enough (H : forall acc, go acc ks = start_from lp kd acc ks) by apply H end.
  induction ks as [|c r IH]; intros acc; [reflexivity|].
  cbn [start_from]. unfold start. destruct (blocked kd acc); [reflexivity|].
  destruct (if is_async c then _ else _) as [rc e1]. destruct rc; [|reflexivity].
  rewrite IH. reflexivity.
Qed.

Lemma pend_run k nn kd sts rest : pend (SRun k nn kd sts rest) = pend_list sts.
Proof. reflexivity. Qed.

Lemma pend_done k d bg : pend (SDone k d bg) = pend_list bg.
Proof. reflexivity. Qed.

Lemma live_run k nn kd sts rest : live (SRun k nn kd sts rest) = live_list sts.
Proof. reflexivity. Qed.

Lemma den_kids_eq k nn a kd ks :
  den (Node k nn a (OKids kd) ks) =
  match den_kids ks with
  | Some fs => Some (DKids kd fs)
  | None => if nn then None else Some (DNull true)
  end.
Proof. reflexivity. Qed.

Lemma complete_run k nn kd sts rest pi :
  complete pi (SRun k nn kd sts rest) =
  match pi with
  | [] => None
  | c :: pi' =>
      match complete_kids c pi' sts with
      | CNone => None
      | CSome pre (RFail e zs) post evs =>
          Some (handle nn k (c :: e) (map skel pre ++ ghost c zs :: map skel post)
                  (shift c evs ++ map ECancel (live_list (pre ++ post))))
      | CSome pre (ROk s') post evs =>
          let '(r2, e2) := start_from true kd (pre ++ s' :: post) rest in
          Some (finish_kids nn k kd (r2, shift c evs ++ e2))
      end
  end.
Proof. destruct pi; reflexivity. Qed.

Lemma complete_done k d bg pi :
  complete pi (SDone k d bg) =
  match pi with
  | [] => None
  | c :: pi' =>
      match complete_kids c pi' bg with
      | CNone => None
      | CSome pre rx post evs =>
          Some (ROk (SDone k d (pre ++ settle_res c rx :: post)), map to_bg (shift c evs))
      end
  end.
Proof. destruct pi; reflexivity. Qed.

Lemma complete_kids_spec c pi : forall sts pre r post evs,
  complete_kids c pi sts = CSome pre r post evs ->
  exists x, sts = pre ++ x :: post /\ skey x = c /\ complete pi x = Some (r, evs).
Proof.
  induction sts as [|x l IH]; intros pre r post evs H; cbn in H; [discriminate|].
  destruct (if skey x =? c then complete pi x else None) as [[rx e]|] eqn:E.
  - inversion H; subst. destruct (skey x =? c) eqn:Ek; [|discriminate].
    apply N.eqb_eq in Ek. exists x. repeat split; auto.
  - fold (complete_kids c pi l) in H.
    destruct (complete_kids c pi l) as [|pre' rx post' e] eqn:El; [discriminate|].
    inversion H; subst. destruct (IH _ _ _ _ eq_refl) as (y & -> & Hk & Hc).
    exists y. repeat split; auto.
Qed.

Lemma complete_kids_some c pi : forall sts x r e,
  In x sts -> skey x = c -> complete pi x = Some (r, e) -> complete_kids c pi sts <> CNone.
Proof.
  induction sts as [|y l IH]; intros x r e Hin Hk Hc; [destruct Hin|]. cbn.
  destruct (if skey y =? c then complete pi y else None) as [[ry ey]|] eqn:E; [discriminate|].
  fold (complete_kids c pi l). destruct Hin as [->|Hin].
  - rewrite Hk, N.eqb_refl, Hc in E. discriminate.
  - specialize (IH x r e Hin Hk Hc). destruct (complete_kids c pi l); [contradiction|discriminate].
Qed.

(* One scheduler step, as a relation: the awaitable at [pi] completes inside [s].  Below a done
   position (background work) the result is absorbed; below a running position the child's
   result either lets the parent go on starting children or fails it. *)
Inductive Step : st -> pos -> res -> list ev -> Prop :=
| Step_pend n r e : finish true n = (r, e) -> Step (SPend n) [] r (EDone [] :: e)
| Step_bg k d pre x post pi rx ex :
    Step x pi rx ex ->
    Step (SDone k d (pre ++ x :: post)) (skey x :: pi)
         (ROk (SDone k d (pre ++ settle_res (skey x) rx :: post))) (map to_bg (shift (skey x) ex))
| Step_ok k nn kd pre x post rest pi x' ex r2 e2 r e :
    Step x pi (ROk x') ex ->
    start_from true kd (pre ++ x' :: post) rest = (r2, e2) ->
    finish_kids nn k kd (r2, shift (skey x) ex ++ e2) = (r, e) ->
    Step (SRun k nn kd (pre ++ x :: post) rest) (skey x :: pi) r e
| Step_fail k nn kd pre x post rest pi o zs ex r e :
    Step x pi (RFail o zs) ex ->
    handle nn k (skey x :: o) (map skel pre ++ ghost (skey x) zs :: map skel post)
           (shift (skey x) ex ++ map ECancel (live_list (pre ++ post))) = (r, e) ->
    Step (SRun k nn kd (pre ++ x :: post) rest) (skey x :: pi) r e.

Lemma complete_Step : forall s pi r e, complete pi s = Some (r, e) -> Step s pi r e.
Proof.
  induction s as [m|k d bg IH|k nn kd sts rest IH] using st_ind'; intros pi r e H.
  - destruct pi; cbn in H; [|discriminate]. destruct (finish true m) as [r0 e0] eqn:Ef.
    injection H as <- <-. constructor. exact Ef.
  - rewrite complete_done in H. destruct pi as [|c pi']; [discriminate|].
    destruct (complete_kids c pi' bg) as [|pre rx post ex] eqn:Ek; [discriminate|].
    apply complete_kids_spec in Ek as (x & -> & <- & Hc). injection H as <- <-.
    constructor. rewrite Forall_forall in IH. exact (IH x (in_elt _ _ _) _ _ _ Hc).
  - rewrite complete_run in H. destruct pi as [|c pi']; [discriminate|].
    destruct (complete_kids c pi' sts) as [|pre rx post ex] eqn:Ek; [discriminate|].
    apply complete_kids_spec in Ek as (x & -> & <- & Hc).
    rewrite Forall_forall in IH. apply (IH x (in_elt _ _ _)) in Hc.
    destruct rx as [x'|o zs].
    + destruct (start_from true kd (pre ++ x' :: post) rest) as [r2 e2] eqn:Es.
      injection H as H. eapply Step_ok; eassumption.
    + injection H as H. eapply Step_fail; eassumption.
Qed.

(* induction on a step with the names the proofs use: [Ef]/[Eh] the equation of the finishing or the
   handling call, [Es] that of the loop, [Hx]/[IH] the step of the child [x] *)
Ltac step_induction Hc :=
  induction Hc as [m r e Ef|k d pre x post pi rx ex Hx IH|k nn kd pre x post rest pi x' ex r2 e2 r e Hx IH Es Ef
                  |k nn kd pre x post rest pi o zs ex r e Hx IH Eh].

Inductive Rep : st -> node -> Prop :=
| Rep_pend n : Rep (SPend n) n
| Rep_done n d bg : den n = Some d -> Rep (SDone (key n) d bg) n
| Rep_run k nn a kd ks1 rest sts :
    Forall2 Rep sts ks1 -> all_done sts = false \/ blocked kd sts = true ->
    Rep (SRun k nn kd sts rest) (Node k nn a (OKids kd) (ks1 ++ rest)).

Lemma Rep_done' k d bg n : den n = Some d -> k = key n -> Rep (SDone k d bg) n.
Proof. intros H ->. constructor. exact H. Qed.

Lemma rep_key s n : Rep s n -> skey s = key n.
Proof. destruct 1; reflexivity. Qed.

Lemma rep_keys sts ks : Forall2 Rep sts ks -> map skey sts = map key ks.
Proof. induction 1; cbn; [reflexivity|]. f_equal; [apply rep_key; assumption|assumption]. Qed.

Lemma den_kids_cons c r :
  den_kids (c :: r) = match den c, den_kids r with
                      | Some d, Some fs => Some ((key c, d) :: fs)
                      | _, _ => None
                      end.
Proof. reflexivity. Qed.

Lemma den_kids_app l1 : forall l2,
  den_kids (l1 ++ l2) = match den_kids l1, den_kids l2 with
                        | Some a, Some b => Some (a ++ b)
                        | _, _ => None
                        end.
Proof.
  induction l1 as [|c r IH]; intros l2.
  - cbn [app]. change (den_kids []) with (Some (@nil (N * data))). destruct (den_kids l2); reflexivity.
  - cbn [app]. rewrite !den_kids_cons, IH.
    destruct (den c); [|reflexivity]. destruct (den_kids r); [|reflexivity].
    destruct (den_kids l2); reflexivity.
Qed.

Lemma rep_all_done sts ks :
  Forall2 Rep sts ks -> all_done sts = true -> den_kids ks = Some (map sdata sts).
Proof.
  induction 1 as [|s n sts ks Hs Hr IH]; intros Hd; [reflexivity|].
  cbn in Hd. apply andb_true_iff in Hd as [H1 H2].
  rewrite den_kids_cons, (IH H2). inversion Hs; subst; try discriminate.
  rewrite H. reflexivity.
Qed.

Definition FinishSpec (lp : bool) (c : node) : Prop :=
  match finish lp c with
  | (ROk s, _) => Rep s c
  | (RFail _ _, _) => den c = None
  end.

Lemma start_spec lp c : FinishSpec lp c ->
  match start lp c with
  | (ROk s, _) => Rep s c
  | (RFail _ _, _) => den c = None
  end.
Proof. unfold start, FinishSpec. destruct (is_async c); [constructor|auto]. Qed.

Lemma start_from_rep lp kd : forall rest acc ks1,
  Forall (FinishSpec lp) rest -> Forall2 Rep acc ks1 ->
  match start_from lp kd acc rest with
  | (KOk sts rest', _) =>
      exists ks2, rest = ks2 ++ rest' /\ Forall2 Rep sts (ks1 ++ ks2) /\ (rest' <> [] -> blocked kd sts = true)
  | (KFail _ _, _) => den_kids rest = None
  end.
Proof.
  induction rest as [|c r IH]; intros acc ks1 HF HA; cbn [start_from].
  - exists []. split; [reflexivity|]. split; [rewrite app_nil_r; assumption|]. intros H; exfalso; apply H; reflexivity.
  - destruct (blocked kd acc) eqn:Eb.
    + exists []. split; [reflexivity|]. split; [rewrite app_nil_r; assumption|]. intros _. exact Eb.
    + inversion HF as [|? ? Hc Hr]; subst.
      pose proof (start_spec lp c Hc) as Hs. destruct (start lp c) as [rc e1]. destruct rc as [s|e zs].
      * specialize (IH (acc ++ [s]) (ks1 ++ [c]) Hr (Forall2_snoc _ _ _ _ _ HA Hs)).
        destruct (start_from lp kd (acc ++ [s]) r) as [r2 e2]. destruct r2 as [sts rest'|e zs].
        -- destruct IH as (ks2 & -> & H2 & H3). exists (c :: ks2). repeat split; auto.
           rewrite <- app_assoc in H2. exact H2.
        -- rewrite den_kids_cons, IH. destruct (den c); reflexivity.
      * rewrite den_kids_cons, Hs. reflexivity.
Qed.

Lemma pack_rep k nn a kd ks1 sts rest :
  Forall2 Rep sts ks1 -> (rest <> [] -> blocked kd sts = true) ->
  Rep (pack k nn kd sts rest) (Node k nn a (OKids kd) (ks1 ++ rest)).
Proof.
  intros HF Hd. unfold pack. destruct rest as [|x rest].
  - destruct (all_done sts) eqn:E.
    + apply Rep_done'; [|reflexivity]. rewrite den_kids_eq, app_nil_r, (rep_all_done _ _ HF E). reflexivity.
    + constructor; auto.
  - constructor; [assumption|]. right. apply Hd. discriminate.
Qed.

Lemma handle_rep nn k a kd ks e zs evs r evs' :
  den_kids ks = None -> handle nn k e zs evs = (r, evs') ->
  match r with
  | ROk s => Rep s (Node k nn a (OKids kd) ks)
  | RFail _ _ => den (Node k nn a (OKids kd) ks) = None
  end.
Proof.
  intros H. unfold handle. destruct nn; intros [= <- _].
  - rewrite den_kids_eq, H. reflexivity.
  - apply Rep_done'; [|reflexivity]. rewrite den_kids_eq, H. reflexivity.
Qed.

Lemma finish_spec lp : forall n, FinishSpec lp n.
Proof.
  apply node_ind'. intros k nn a o ks IH. unfold FinishSpec. destruct o.
  - cbn. unfold handle. destruct nn; [reflexivity|]. apply Rep_done'; reflexivity.
  - cbn. destruct nn; [reflexivity|]. apply Rep_done'; reflexivity.
  - cbn. apply Rep_done'; reflexivity.
  - rewrite finish_eq.
    pose proof (start_from_rep lp kd ks [] [] IH (Forall2_nil _)) as H.
    destruct (start_from lp kd [] ks) as [r2 e2]. destruct r2 as [sts rest'|e zs]; cbn [finish_kids].
    + destruct H as (ks2 & -> & H2 & H3). cbn [app] in H2. apply pack_rep; assumption.
    + destruct (handle nn k e zs e2) as [r ev] eqn:Eh. exact (handle_rep _ _ a _ _ _ _ _ _ _ H Eh).
Qed.

Lemma complete_rep : forall s n pi r e, Rep s n -> complete pi s = Some (r, e) ->
  match r with ROk s' => Rep s' n | RFail _ _ => den n = None end.
Proof.
  intros s n pi r e HR Hc. apply complete_Step in Hc. revert n HR.
  step_induction Hc; intros n HR.
  - inversion HR; subst. pose proof (finish_spec true n) as H. unfold FinishSpec in H. rewrite Ef in H. exact H.
  - inversion HR; subst. constructor. assumption.
  - inversion HR as [| |? ? a ? ks1 ? ? HF Hnd]; subst.
    apply Forall2_app_inv_l' in HF as (l1' & y & l2' & -> & H1 & Hxy & H2).
    assert (HF' : Forall2 Rep (pre ++ x' :: post) (l1' ++ y :: l2'))
      by (apply Forall2_app; [assumption|constructor; [exact (IH y Hxy)|assumption]]).
    pose proof (start_from_rep true kd rest _ _ (proj2 (Forall_forall _ _) (fun c _ => finish_spec true c)) HF') as H.
    rewrite Es in H. destruct r2 as [sts' rest'|e0 zs]; cbn [finish_kids] in Ef.
    + injection Ef as <- _. destruct H as (ks2 & -> & H3 & H4). rewrite app_assoc. apply pack_rep; assumption.
    + eapply handle_rep; [|exact Ef]. rewrite den_kids_app, H.
      destruct (den_kids (l1' ++ y :: l2')); reflexivity.
  - inversion HR as [| |? ? a ? ks1 ? ? HF Hnd]; subst.
    apply Forall2_app_inv_l' in HF as (l1' & y & l2' & -> & H1 & Hxy & H2).
    eapply handle_rep; [|exact Eh]. rewrite !den_kids_app, den_kids_cons, (IH y Hxy).
    destruct (den_kids l1'); reflexivity.
Qed.

Lemma run_rep s sched s' evs n : Run s sched s' evs -> Rep s n -> Rep s' n.
Proof.
  induction 1 as [|s pi s1 e1 sched s2 e2 Hc _ IH]; intros HR; [assumption|].
  apply IH. exact (complete_rep _ _ _ _ _ HR Hc).
Qed.

Lemma init_rep lp root :
  match init lp root with (ROk s, _) => Rep s root | (RFail _ _, _) => den root = None end.
Proof. exact (finish_spec lp root). Qed.

Lemma den_nullable n : nonnull n = false -> den n <> None.
Proof.
  destruct n as [k nn a o ks]. cbn [nonnull]. intros ->. destruct o; try discriminate.
  rewrite den_kids_eq. destruct (den_kids ks); discriminate.
Qed.

Lemma exec_rep lp root sched s evs : Exec lp root sched s evs -> Rep s root.
Proof.
  intros (s0 & e0 & e1 & Hi & Hr & _). pose proof (init_rep lp root) as H. rewrite Hi in H.
  eapply run_rep; eauto.
Qed.

Lemma pend_list_cons c r : pend_list (c :: r) = map (cons (skey c)) (pend c) ++ pend_list r.
Proof. reflexivity. Qed.

Lemma pend_list_in x l : In x l -> pend x <> [] -> pend_list l <> [].
Proof.
  induction l as [|c r IH]; intros Hin Hp; [destruct Hin|]. rewrite pend_list_cons.
  destruct Hin as [->|Hin].
  - destruct (pend x); [contradiction|discriminate].
  - intros H. apply app_eq_nil in H as [_ H]. exact (IH Hin Hp H).
Qed.

Lemma rep_pending : forall s n, Rep s n -> is_done s = false -> pend s <> [].
Proof.
  induction s as [m|k d bg _|k nn kd sts rest IH] using st_ind'; intros n HR Hd.
  - discriminate.
  - discriminate.
  - rewrite pend_run. inversion HR as [| |? ? a ? ks1 ? ? HF Hnd]; subst.
    rewrite Forall_forall in IH.
    assert (Hkid : forall x, In x sts -> is_done x = false -> pend x <> []).
    { intros x Hx Hxd. apply in_split in Hx as (pre & post & ->).
      apply Forall2_app_inv_l' in HF as (l1' & y & l2' & _ & _ & Hxy & _).
      exact (IH x (in_elt _ _ _) y Hxy Hxd). }
    destruct Hnd as [Hnd|Hb].
    + apply forallb_false in Hnd as (x & Hx & Hxd). exact (pend_list_in x sts Hx (Hkid x Hx Hxd)).
    + unfold blocked in Hb. destruct kd; try discriminate. apply negb_true_iff in Hb.
      apply forallb_false in Hb as (x & Hx & Hxs). apply (pend_list_in x sts Hx).
      unfold settled in Hxs. destruct (is_done x) eqn:Ed; [|exact (Hkid x Hx Ed)].
      cbn in Hxs. destruct (pend x); [discriminate|discriminate].
Qed.

Definition asyncs_list (l : list node) : nat := fold_right (fun c acc => asyncs c + acc)%nat 0%nat l.
Definition asyncsK (n : node) : nat :=
  match n with Node _ _ _ (OKids _) ks => asyncs_list ks | _ => 0%nat end.

Lemma asyncs_eq n : asyncs n = ((if is_async n then 1 else 0) + asyncsK n)%nat.
Proof.
  destruct n as [k nn a o ks]. cbn [asyncs is_async asyncsK]. destruct o; reflexivity.
Qed.

Fixpoint weight (s : st) : nat :=
  match s with
  | SPend n => S (asyncsK n)
  | SDone _ _ bg =>
      (fix go (l : list st) : nat := match l with [] => 0 | c :: r => weight c + go r end) bg
  | SRun _ _ _ sts rest =>
      (fix go (l : list st) : nat := match l with [] => 0 | c :: r => weight c + go r end) sts
      + asyncs_list rest
  end%nat.
Definition weight_list (l : list st) : nat := fold_right (fun c acc => weight c + acc)%nat 0%nat l.
Definition weight_res (r : res) : nat :=
  match r with ROk s => weight s | RFail _ zs => weight_list zs end.

Lemma weight_run k nn kd sts rest :
  weight (SRun k nn kd sts rest) = (weight_list sts + asyncs_list rest)%nat.
Proof. reflexivity. Qed.

Lemma weight_done k d bg : weight (SDone k d bg) = weight_list bg.
Proof. reflexivity. Qed.

Lemma weight_list_app l1 l2 : weight_list (l1 ++ l2) = (weight_list l1 + weight_list l2)%nat.
Proof. unfold weight_list. induction l1 as [|c r IH]; cbn [app fold_right]; [reflexivity|]. rewrite IH. lia. Qed.

Lemma weight_list_cons c l : weight_list (c :: l) = (weight c + weight_list l)%nat.
Proof. reflexivity. Qed.

Lemma weight_skel : forall s, (weight (skel s) <= weight s)%nat.
Proof.
  induction s as [m|k d bg _|k nn kd sts rest IH] using st_ind'.
  - cbn. lia.
  - cbn [skel]. lia.
  - cbn [skel]. rewrite weight_done, weight_run.
    assert (weight_list (map skel sts) <= weight_list sts)%nat; [|lia].
    induction IH as [|c r Hc _ IHr]; [cbn; lia|]. cbn [map]. rewrite !weight_list_cons. lia.
Qed.

Lemma weight_map_skel l : (weight_list (map skel l) <= weight_list l)%nat.
Proof.
  induction l as [|c r IH]; [cbn; lia|]. cbn [map]. rewrite !weight_list_cons.
  pose proof (weight_skel c). lia.
Qed.

Lemma weight_abandon lp acc k zs :
  (weight_list (abandon lp acc k zs) <= weight_list acc + weight_list zs)%nat.
Proof.
  unfold abandon. destruct lp; [|cbn; lia]. rewrite weight_list_app, weight_list_cons.
  change (weight (ghost k zs)) with (weight_list zs). cbn [weight_list fold_right]. lia.
Qed.

Definition FinishW (lp : bool) (c : node) : Prop :=
  (weight_res (fst (finish lp c)) <= asyncsK c)%nat.

Lemma start_weight lp c : FinishW lp c -> (weight_res (fst (start lp c)) <= asyncs c)%nat.
Proof.
  unfold start, FinishW. rewrite asyncs_eq. destruct (is_async c); [cbn; lia|lia].
Qed.

Definition weight_kres (r : kres) : nat :=
  match r with KOk sts rest => weight_list sts + asyncs_list rest | KFail _ zs => weight_list zs end%nat.

Lemma start_from_weight lp kd : forall rest acc,
  Forall (FinishW lp) rest ->
  (weight_kres (fst (start_from lp kd acc rest)) <= weight_list acc + asyncs_list rest)%nat.
Proof.
  induction rest as [|c r IH]; intros acc HF; cbn [start_from].
  - cbn. lia.
  - destruct (blocked kd acc); [cbn [fst weight_kres]; lia|].
    inversion HF as [|? ? Hc Hr]; subst. pose proof (start_weight lp c Hc) as Hs.
    destruct (start lp c) as [[s|e zs] e1]; cbn [fst weight_res] in Hs.
    + specialize (IH (acc ++ [s]) Hr). destruct (start_from lp kd (acc ++ [s]) r) as [r2 e2].
      cbn [fst] in *. rewrite weight_list_app in IH. cbn in IH. cbn [asyncs_list fold_right]. fold (asyncs_list r). lia.
    + cbn [fst weight_kres]. pose proof (weight_abandon lp acc (key c) zs).
      cbn [asyncs_list fold_right]. fold (asyncs_list r). lia.
Qed.

Lemma pack_weight k nn kd sts rest :
  (weight (pack k nn kd sts rest) <= weight_list sts + asyncs_list rest)%nat.
Proof.
  unfold pack. destruct rest; [destruct (all_done sts)|]; try rewrite weight_run; try rewrite weight_done; cbn; lia.
Qed.

Lemma handle_weight nn k e zs evs : weight_res (fst (handle nn k e zs evs)) = weight_list zs.
Proof. unfold handle. destruct nn; reflexivity. Qed.

Lemma finish_kids_weight nn k kd r evs :
  (weight_res (fst (finish_kids nn k kd (r, evs))) <= weight_kres r)%nat.
Proof.
  destruct r as [sts rest|e zs]; cbn [finish_kids weight_kres].
  - cbn [fst weight_res]. apply pack_weight.
  - rewrite handle_weight. lia.
Qed.

Lemma finish_weight lp : forall n, FinishW lp n.
Proof.
  apply node_ind'. intros k nn a o ks IH. unfold FinishW. destruct o.
  - cbn [finish]. rewrite handle_weight. cbn. lia.
  - cbn [finish]. destruct nn; [rewrite handle_weight|]; cbn; lia.
  - cbn. lia.
  - rewrite finish_eq. pose proof (start_from_weight lp kd ks [] IH) as H.
    destruct (start_from lp kd [] ks) as [r2 e2]. pose proof (finish_kids_weight nn k kd r2 e2).
    cbn [fst] in H. cbn [asyncsK]. cbn in H. lia.
Qed.

Lemma complete_weight : forall s pi r e,
  complete pi s = Some (r, e) -> (weight_res r < weight s)%nat.
Proof.
  intros s pi r e Hc. apply complete_Step in Hc. step_induction Hc.
  - pose proof (finish_weight true m) as Hw. unfold FinishW in Hw. rewrite Ef in Hw. cbn [weight fst] in *. lia.
  - cbn [weight_res] in *. rewrite !weight_done, !weight_list_app, !weight_list_cons.
    assert (weight (settle_res (skey x) rx) = weight_res rx) by (destruct rx; reflexivity). lia.
  - pose proof (start_from_weight true kd rest (pre ++ x' :: post)
                  (proj2 (Forall_forall _ _) (fun c _ => finish_weight true c))) as Hs.
    rewrite Es in Hs. pose proof (finish_kids_weight nn k kd r2 (shift (skey x) ex ++ e2)) as Hf.
    rewrite Ef in Hf. cbn [fst weight_res] in *.
    rewrite weight_run, !weight_list_app, !weight_list_cons in *. lia.
  - pose proof (handle_weight nn k (skey x :: o) (map skel pre ++ ghost (skey x) zs :: map skel post)
                  (shift (skey x) ex ++ map ECancel (live_list (pre ++ post)))) as Hh.
    rewrite Eh in Hh. cbn [fst weight_res] in *.
    rewrite Hh, weight_run, !weight_list_app, !weight_list_cons.
    pose proof (weight_map_skel pre). pose proof (weight_map_skel post).
    change (weight (ghost (skey x) zs)) with (weight_list zs). lia.
Qed.

Lemma run_weight s sched s' evs : Run s sched s' evs -> (length sched + weight s' <= weight s)%nat.
Proof.
  induction 1 as [|s pi s1 e1 sched s2 e2 Hc _ IH]; [cbn; lia|].
  pose proof (complete_weight _ _ _ _ Hc) as H. cbn [weight_res length] in *. lia.
Qed.

Theorem terminates lp root sched s evs :
  Exec lp root sched s evs -> (length sched + weight s <= asyncsK root)%nat.
Proof.
  intros (s0 & e0 & e1 & Hi & Hr & _). apply run_weight in Hr.
  pose proof (finish_weight lp root) as H. unfold FinishW, init in *. rewrite Hi in H. cbn [fst weight_res] in H. lia.
Qed.

Lemma pend_weight : forall s, weight s = 0%nat -> pend s = [].
Proof.
  assert (G : forall l, Forall (fun s => weight s = 0%nat -> pend s = []) l -> weight_list l = 0%nat -> pend_list l = []).
  { induction l as [|c r IHr]; intros HF Hw; [reflexivity|]. inversion HF; subst.
    rewrite weight_list_cons in Hw. rewrite pend_list_cons, H1 by lia. cbn [map app]. apply IHr; [assumption|lia]. }
  induction s as [m|k d bg IH|k nn kd sts rest IH] using st_ind'; intros H.
  - discriminate.
  - rewrite pend_done. apply G; [exact IH|exact H].
  - rewrite pend_run. rewrite weight_run in H. apply G; [exact IH|lia].
Qed.

Lemma desync_key n : key (desync n) = key n.
Proof. destruct n; reflexivity. Qed.

Lemma asyncs_desync : forall n, asyncs (desync n) = 0%nat.
Proof.
  apply node_ind'. intros k nn a o ks IH. rewrite asyncs_eq. cbn [desync is_async asyncsK].
  destruct o; try reflexivity. cbn. induction IH as [|c r Hc _ IHr]; [reflexivity|].
  cbn. rewrite Hc. exact IHr.
Qed.

Lemma den_desync : forall n, den (desync n) = den n.
Proof.
  apply node_ind'. intros k nn a o ks IH. destruct o; try reflexivity.
  cbn [desync]. rewrite !den_kids_eq.
  assert (den_kids (map desync ks) = den_kids ks) as ->; [|reflexivity].
  induction IH as [|c r Hc _ IHr]; [reflexivity|].
  cbn [map]. rewrite !den_kids_cons, Hc, IHr, desync_key. reflexivity.
Qed.

(* the synchronous run has no awaitable to wait for: it is done when it returns *)
Lemma sync_done root s e : sync_result root = (ROk s, e) -> Rep s (desync root) /\ is_done s = true.
Proof.
  unfold sync_result, init. intros H.
  pose proof (finish_spec false (desync root)) as Hs. pose proof (finish_weight false (desync root)) as Hw.
  unfold FinishSpec, FinishW in *. rewrite H in Hs, Hw. cbn [fst weight_res] in Hw.
  split; [exact Hs|]. destruct (is_done s) eqn:Ed; [reflexivity|exfalso].
  apply (rep_pending s _ Hs Ed), pend_weight.
  pose proof (asyncs_desync root) as Ha. rewrite asyncs_eq in Ha. lia.
Qed.

Lemma sync_result_den root d :
  den root = Some d -> exists bg e, sync_result root = (ROk (SDone (key root) d bg), e).
Proof.
  intros Hd. destruct (sync_result root) as [[s|e zs] ev] eqn:E.
  - destruct (sync_done root s ev E) as [Hs Hdone].
    inversion Hs; subst; try discriminate. rewrite den_desync, Hd in H. injection H as <-.
    rewrite desync_key. eauto.
  - pose proof (finish_spec false (desync root)) as Hs. unfold FinishSpec in Hs.
    unfold sync_result, init in E. rewrite E, den_desync in Hs. congruence.
Qed.

Theorem order_independent lp root sched s evs :
  nonnull root = false -> Exec lp root sched s evs -> final s ->
  exists d bg bgs esync,
    s = SDone (key root) d bg /\ den root = Some d /\
    sync_result root = (ROk (SDone (key root) d bgs), esync).
Proof.
  intros Hnn He Hf. pose proof (exec_rep _ _ _ _ _ He) as HR. unfold final in Hf.
  inversion HR; subst; try discriminate.
  destruct (sync_result_den root d H) as (bgs & e & Hs). eauto 10.
Qed.

Lemma in_pend_list p sts :
  In p (pend_list sts) -> exists x p', In x sts /\ p = skey x :: p' /\ In p' (pend x).
Proof.
  unfold pend_list. intros H. apply in_flat_map in H as (x & Hx & Hp).
  apply in_map_iff in Hp as (p' & <- & Hp'). eauto.
Qed.

Lemma enabled : forall s pi, In pi (pend s) -> exists r e, complete pi s = Some (r, e).
Proof.
  induction s as [m|k d bg IH|k nn kd sts rest IH] using st_ind'; intros pi Hp.
  - destruct Hp as [<-|[]]. cbn. destruct (finish true m) as [r e]. eauto.
  - rewrite pend_done in Hp. apply in_pend_list in Hp as (x & p' & Hx & -> & Hp').
    rewrite Forall_forall in IH. destruct (IH x Hx p' Hp') as (r & e & Hc).
    rewrite complete_done. pose proof (complete_kids_some (skey x) p' bg x r e Hx eq_refl Hc) as Hn.
    destruct (complete_kids (skey x) p' bg); [contradiction|eauto].
  - rewrite pend_run in Hp. apply in_pend_list in Hp as (x & p' & Hx & -> & Hp').
    rewrite Forall_forall in IH. destruct (IH x Hx p' Hp') as (r & e & Hc).
    rewrite complete_run. pose proof (complete_kids_some (skey x) p' sts x r e Hx eq_refl Hc) as Hn.
    destruct (complete_kids (skey x) p' sts) as [|pre rx post evs]; [contradiction|].
    destruct rx as [s'|o zs]; [destruct (start_from true kd (pre ++ s' :: post) rest) as [r2 e2]|];
      (eexists; eexists; apply f_equal; apply surjective_pairing).
Qed.

Lemma complete_pending : forall s pi r e, complete pi s = Some (r, e) -> In pi (pend s).
Proof.
  intros s pi r e Hc. apply complete_Step in Hc.
  assert (Hin : forall x pi' pre post, In pi' (pend x) -> In (skey x :: pi') (pend_list (pre ++ x :: post))).
  { intros x pi' pre post H. unfold pend_list. apply in_flat_map. exists x. split; [apply in_elt | apply in_map; exact H]. }
  induction Hc; [left; reflexivity | rewrite pend_done | rewrite pend_run | rewrite pend_run]; apply Hin; assumption.
Qed.

Theorem progress s n pi :
  Rep s n -> nonnull n = false -> In pi (pend s) ->
  exists s' e, complete pi s = Some (ROk s', e).
Proof.
  intros HR Hnn Hp. destruct (enabled s pi Hp) as (r & e & Hc).
  pose proof (complete_rep _ _ _ _ _ HR Hc) as H. destruct r as [s'|o zs]; [eauto|].
  exfalso. exact (den_nullable n Hnn H).
Qed.

Inductive At : node -> pos -> node -> Prop :=
| At_here n : At n [] n
| At_kid n c pi m : In c (kids n) -> At c pi m -> At n (key c :: pi) m.

Definition raises (m : node) : Prop := out m = ORaise \/ (out m = ONull /\ nonnull m = true).

(* the error raised at pi (relative to m) propagates up to m: every position on the way,
   m excluded, is non-null *)
Inductive Bad : node -> pos -> Prop :=
| Bad_here m : raises m -> Bad m []
| Bad_kid m c pi : In c (kids m) -> nonnull c = true -> Bad c pi -> Bad m (key c :: pi).

(* a recorded error: position a is nullable and the error raised at o propagates up to it *)
Definition GoodErr (n : node) (a o : pos) : Prop :=
  exists ma pi, At n a ma /\ nonnull ma = false /\ Bad ma pi /\ o = a ++ pi.

Lemma At_trans n a m : At n a m -> forall b m', At m b m' -> At n (a ++ b) m'.
Proof. induction 1; intros b m' H2; cbn; [assumption|]. constructor; auto. Qed.

Lemma Bad_at m pi : Bad m pi -> exists mo, At m pi mo /\ raises mo.
Proof.
  induction 1 as [m H|m c pi Hin Hnn _ (mo & H1 & H2)]; [exists m; split; [constructor|assumption]|].
  exists mo. split; [constructor; assumption|assumption].
Qed.

Lemma den_kids_none ks c : In c ks -> den c = None -> den_kids ks = None.
Proof.
  induction ks as [|x r IH]; intros Hin Hd; [destruct Hin|]. destruct Hin as [->|Hin]; rewrite den_kids_cons.
  - rewrite Hd. reflexivity.
  - rewrite (IH Hin Hd). destruct (den x); reflexivity.
Qed.

Lemma kids_den n c : In c (kids n) -> den c = None ->
  den n = if nonnull n then None else Some (DNull true).
Proof.
  destruct n as [k nn a o ks]. destruct o; cbn [kids]; try contradiction.
  intros Hin Hd. rewrite den_kids_eq, (den_kids_none ks c Hin Hd). reflexivity.
Qed.

Lemma Bad_den m pi : Bad m pi -> den m = if nonnull m then None else Some (DNull true).
Proof.
  induction 1 as [m H|m c pi Hin Hnn _ IH].
  - destruct m as [k nn a o ks]. destruct H as [H|[H1 H2]]; cbn in *; subst; [reflexivity|reflexivity].
  - rewrite Hnn in IH. exact (kids_den m c Hin IH).
Qed.

Definition ev_good (n : node) (e : ev) : Prop :=
  match e with Ev TErr false a o => GoodErr n a o | _ => True end.

Lemma ev_good_shift n c e : In c (kids n) -> ev_good c e -> ev_good n (ev_shift (key c) e).
Proof.
  destruct e as [t b p o]. destruct t, b; cbn; auto. intros Hin (ma & pi & H1 & H2 & H3 & ->).
  exists ma, pi. repeat split; auto. constructor; assumption.
Qed.

Lemma good_shift n c evs : In c (kids n) -> Forall (ev_good c) evs -> Forall (ev_good n) (shift (key c) evs).
Proof.
  intros Hin H. unfold shift. apply Forall_forall. intros e He. apply in_map_iff in He as (e' & <- & He').
  apply ev_good_shift; [assumption|]. rewrite Forall_forall in H. auto.
Qed.

Lemma good_map n {A} (f : A -> ev) l : (forall x, ev_good n (f x)) -> Forall (ev_good n) (map f l).
Proof. intros Hf. apply Forall_forall. intros e He. apply in_map_iff in He as (p & <- & _). apply Hf. Qed.

Lemma good_bg n e : ev_good n (to_bg e).
Proof. destruct e as [t b p o]. destruct t; exact I. Qed.

Definition FinishGood (lp : bool) (c : node) : Prop :=
  Forall (ev_good c) (snd (finish lp c)) /\
  forall e zs, fst (finish lp c) = RFail e zs -> nonnull c = true /\ Bad c e.

Lemma handle_good n k e zs evs :
  Forall (ev_good n) evs -> Bad n e ->
  Forall (ev_good n) (snd (handle (nonnull n) k e zs evs)) /\
  forall e' zs', fst (handle (nonnull n) k e zs evs) = RFail e' zs' -> nonnull n = true /\ Bad n e'.
Proof.
  intros H1 H2. unfold handle. destruct (nonnull n) eqn:E; cbn [fst snd].
  - split; [assumption|]. intros e' zs' [= <- _]. auto.
  - split; [|discriminate]. apply Forall_app. split; [assumption|]. constructor; [|constructor].
    exists n, e. repeat split; auto. constructor.
Qed.

Lemma start_from_good lp n kd : forall rest acc,
  incl rest (kids n) -> Forall (FinishGood lp) rest ->
  Forall (ev_good n) (snd (start_from lp kd acc rest)) /\
  forall e zs, fst (start_from lp kd acc rest) = KFail e zs -> Bad n e.
Proof.
  induction rest as [|c r IH]; intros acc Hi HF; cbn [start_from].
  - split; [constructor|discriminate].
  - destruct (blocked kd acc); [split; [constructor|discriminate]|].
    inversion HF as [|? ? [Hc1 Hc2] Hr]; subst.
    assert (Hin : In c (kids n)) by (apply Hi; left; reflexivity).
    assert (Hs : Forall (ev_good c) (snd (start lp c)) /\
                 forall e zs, fst (start lp c) = RFail e zs -> nonnull c = true /\ Bad c e).
    { unfold start. destruct (is_async c); [split; [constructor|discriminate]|auto]. }
    destruct (start lp c) as [rc e1]. cbn [fst snd] in Hs. destruct Hs as [Hs1 Hs2].
    assert (Hg1 : Forall (ev_good n) (ECall [key c] :: shift (key c) e1))
      by (constructor; [exact I|apply good_shift; assumption]).
    destruct rc as [s|e zs].
    + specialize (IH (acc ++ [s]) (fun x Hx => Hi x (or_intror Hx)) Hr).
      destruct (start_from lp kd (acc ++ [s]) r) as [r2 e2]. cbn [fst snd] in *.
      split; [apply Forall_app; split; [assumption|apply IH]|apply IH].
    + cbn [fst snd]. destruct (Hs2 e zs eq_refl) as [Hnn Hb]. split.
      * apply Forall_app. split; [assumption|]. apply good_map. intros; exact I.
      * intros e' zs' [= <- _]. constructor; assumption.
Qed.

Lemma finish_kids_good n k kd r evs :
  Forall (ev_good n) evs -> (forall e zs, r = KFail e zs -> Bad n e) ->
  Forall (ev_good n) (snd (finish_kids (nonnull n) k kd (r, evs))) /\
  forall e' zs', fst (finish_kids (nonnull n) k kd (r, evs)) = RFail e' zs' -> nonnull n = true /\ Bad n e'.
Proof.
  intros H1 H2. destruct r as [sts rest|e zs]; cbn [finish_kids].
  - split; [assumption|discriminate].
  - apply handle_good; eauto.
Qed.

Lemma finish_good lp : forall n, FinishGood lp n.
Proof.
  apply node_ind'. intros k nn a o ks IH. unfold FinishGood.
  set (n := Node k nn a o ks).
  destruct o.
  - exact (handle_good n k [] [] [] (Forall_nil _) (Bad_here n (or_introl eq_refl))).
  - cbn [finish]. destruct nn eqn:E.
    + exact (handle_good n k [] [] [] (Forall_nil _) (Bad_here n (or_intror (conj eq_refl eq_refl)))).
    + split; [constructor|discriminate].
  - split; [constructor|discriminate].
  - subst n. rewrite finish_eq.
    destruct (start_from_good lp (Node k nn a (OKids kd) ks) kd ks [] (incl_refl _) IH) as [H1 H2].
    destruct (start_from lp kd [] ks) as [r2 e2]. cbn [fst snd] in *.
    exact (finish_kids_good (Node k nn a (OKids kd) ks) k kd r2 e2 H1 H2).
Qed.

Lemma complete_good : forall s n pi r evs, Rep s n -> complete pi s = Some (r, evs) ->
  Forall (ev_good n) evs /\ forall e zs, r = RFail e zs -> nonnull n = true /\ Bad n e.
Proof.
  intros s n pi r evs HR Hc. apply complete_Step in Hc. revert n HR.
  step_induction Hc; intros n HR.
  - inversion HR; subst. destruct (finish_good true n) as [H1 H2]. rewrite Ef in H1, H2.
    split; [constructor; [exact I|exact H1]|exact H2].
  - split; [apply good_map; apply good_bg|discriminate].
  - inversion HR as [| |? ? a ? ks1 ? ? HF Hnd]; subst.
    set (n := Node k nn a (OKids kd) (ks1 ++ rest)) in *.
    apply Forall2_app_inv_l' in HF as (l1' & y & l2' & Hks1 & H1 & Hxy & H2).
    assert (Hin : In y (kids n)) by (cbn [n kids]; rewrite Hks1; apply in_or_app; left; apply in_elt).
    destruct (IH y Hxy) as [Hg _]. rewrite (rep_key _ _ Hxy) in *.
    destruct (start_from_good true n kd rest (pre ++ x' :: post)) as [G1 G2].
    { cbn [n kids]. apply incl_appr, incl_refl. }
    { apply Forall_forall. intros; apply finish_good. }
    rewrite Es in G1, G2. cbn [fst snd] in G1, G2.
    pose proof (finish_kids_good n k kd r2 (shift (key y) ex ++ e2)) as Hfk. cbn [n nonnull] in Hfk.
    rewrite Ef in Hfk. cbn [fst snd] in Hfk.
    destruct Hfk as [F1 F2]; [apply Forall_app; split; [apply good_shift|]; assumption | exact G2 |].
    split; [exact F1|]. intros e0 zs0 ->. eapply F2. reflexivity.
  - inversion HR as [| |? ? a ? ks1 ? ? HF Hnd]; subst.
    set (n := Node k nn a (OKids kd) (ks1 ++ rest)) in *.
    apply Forall2_app_inv_l' in HF as (l1' & y & l2' & Hks1 & H1 & Hxy & H2).
    assert (Hin : In y (kids n)) by (cbn [n kids]; rewrite Hks1; apply in_or_app; left; apply in_elt).
    destruct (IH y Hxy) as [Hg Hf]. destruct (Hf o zs eq_refl) as [Hnn Hb]. rewrite (rep_key _ _ Hxy) in *.
    pose proof (handle_good n k (key y :: o) (map skel pre ++ ghost (key y) zs :: map skel post)
                  (shift (key y) ex ++ map ECancel (live_list (pre ++ post)))) as Hh.
    cbn [n nonnull] in Hh. rewrite Eh in Hh. cbn [fst snd] in Hh.
    destruct Hh as [F1 F2].
    + apply Forall_app. split; [apply good_shift; assumption|]. apply good_map. intros; exact I.
    + constructor; assumption.
    + split; [exact F1|]. intros e0 zs0 ->. eapply F2. reflexivity.
Qed.

Local Notation NP := nulled_positions.

Lemma errs_app a b : errs (a ++ b) = errs a ++ errs b.
Proof. unfold errs. apply flat_map_app. Qed.

Lemma NP_app a b : NP (a ++ b) = NP a ++ NP b.
Proof. unfold nulled_positions. rewrite errs_app, map_app. reflexivity. Qed.

Lemma errs_shift k evs : errs (shift k evs) = map (fun ao => (k :: fst ao, k :: snd ao)) (errs evs).
Proof.
  induction evs as [|e r IH]; [reflexivity|]. destruct e as [t b p o]. destruct t, b; cbn; try exact IH.
  f_equal. exact IH.
Qed.

Lemma NP_shift k evs : NP (shift k evs) = map (cons k) (NP evs).
Proof. unfold nulled_positions. rewrite errs_shift, !map_map. reflexivity. Qed.

Lemma errs_map_none {A} (f : A -> ev) l :
  (forall x, match f x with Ev TErr false _ _ => False | _ => True end) -> errs (map f l) = [].
Proof.
  intros Hf. induction l as [|p r IH]; [reflexivity|]. cbn [map].
  specialize (Hf p). unfold errs in *. cbn [flat_map]. rewrite IH.
  destruct (f p) as [t b q o]. destruct t, b; try reflexivity. contradiction.
Qed.

Lemma NP_map_none {A} (f : A -> ev) l :
  (forall x, match f x with Ev TErr false _ _ => False | _ => True end) -> NP (map f l) = [].
Proof. intros H. unfold nulled_positions. rewrite errs_map_none by assumption. reflexivity. Qed.

Lemma NP_bg evs : NP (map to_bg evs) = [].
Proof. apply NP_map_none. intros [t b p o]. destruct t; exact I. Qed.

Fixpoint vis (s : st) : list pos :=
  match s with
  | SPend _ => []
  | SDone _ d _ => dnulls d
  | SRun _ _ _ sts _ =>
      (fix go (l : list st) : list pos :=
         match l with
         | [] => []
         | c :: r => map (cons (skey c)) (vis c) ++ go r
         end) sts
  end.
Definition vis_list (l : list st) : list pos := flat_map (fun c => map (cons (skey c)) (vis c)) l.

Lemma vis_run k nn kd sts rest : vis (SRun k nn kd sts rest) = vis_list sts.
Proof. reflexivity. Qed.

Lemma vis_list_app a b : vis_list (a ++ b) = vis_list a ++ vis_list b.
Proof. apply flat_map_app. Qed.

Lemma vis_list_one s : vis_list [s] = map (cons (skey s)) (vis s).
Proof. unfold vis_list. cbn [flat_map]. apply app_nil_r. Qed.

Lemma vis_list_cons s l : vis_list (s :: l) = map (cons (skey s)) (vis s) ++ vis_list l.
Proof. reflexivity. Qed.

Definition dnulls_list (fs : list (N * data)) : list pos :=
  flat_map (fun kx => map (cons (fst kx)) (dnulls (snd kx))) fs.

Lemma dnulls_kids kd fs : dnulls (DKids kd fs) = dnulls_list fs.
Proof.
  cbn [dnulls]. unfold dnulls_list. induction fs as [|[k x] r IH]; [reflexivity|].
  cbn [flat_map fst snd]. rewrite <- IH. reflexivity.
Qed.

Lemma vis_all_done sts : all_done sts = true -> dnulls_list (map sdata sts) = vis_list sts.
Proof.
  induction sts as [|c r IH]; [reflexivity|]. intros H.
  change (is_done c && all_done r = true) in H. apply andb_true_iff in H as [H1 H2].
  destruct c; try discriminate. unfold dnulls_list, vis_list in *. cbn [map flat_map sdata fst snd skey vis].
  rewrite IH by assumption. reflexivity.
Qed.

Lemma pack_vis k nn kd sts rest : vis (pack k nn kd sts rest) = vis_list sts.
Proof.
  unfold pack. destruct rest; [destruct (all_done sts) eqn:E|]; try reflexivity.
  cbn [vis]. rewrite dnulls_kids. apply vis_all_done. exact E.
Qed.

Definition dropped (evs : list ev) : list pos := cancelled evs ++ orphaned evs.
Definition drops_covered (evs : list ev) : Prop := forall p, In p (dropped evs) -> nulled (NP evs) p = true.

Lemma dropped_app a b p : In p (dropped (a ++ b)) <-> In p (dropped a) \/ In p (dropped b).
Proof.
  unfold dropped, cancelled, orphaned. rewrite !flat_map_app, !in_app_iff. tauto.
Qed.

Lemma dropped_shift k evs p : In p (dropped (shift k evs)) -> exists q, p = k :: q /\ In q (dropped evs).
Proof.
  (* event by event: shifting keeps the tag and prefixes the position with k *)
  assert (Hc : forall e, In p (cancelled [ev_shift k e]) -> exists q, p = k :: q /\ In q (cancelled [e])).
  { intros [t b q o] H. destruct t, b; cbn in H; try contradiction. destruct H as [<-|[]]. cbn. eauto. }
  assert (Ho : forall e, In p (orphaned [ev_shift k e]) -> exists q, p = k :: q /\ In q (orphaned [e])).
  { intros [t b q o] H. destruct t, b; cbn in H; try contradiction. destruct H as [<-|[]]. cbn. eauto. }
  unfold dropped, cancelled, orphaned, shift in *. rewrite !in_app_iff, !in_flat_map.
  intros [(e & He & Hp)|(e & He & Hp)]; apply in_map_iff in He as (e' & <- & He').
  - destruct (Hc e') as (q & -> & Hq); [cbn; rewrite app_nil_r; exact Hp|]. cbn in Hq. rewrite app_nil_r in Hq.
    exists q. split; [reflexivity|]. rewrite in_app_iff, !in_flat_map. left. eauto.
  - destruct (Ho e') as (q & -> & Hq); [cbn; rewrite app_nil_r; exact Hp|]. cbn in Hq. rewrite app_nil_r in Hq.
    exists q. split; [reflexivity|]. rewrite in_app_iff, !in_flat_map. right. eauto.
Qed.

Lemma dropped_bg evs : dropped (map to_bg evs) = [].
Proof.
  unfold dropped, cancelled, orphaned. induction evs as [|[t b p o] r IH]; [reflexivity|].
  cbn [map flat_map to_bg]. apply app_eq_nil in IH as [H1 H2]. rewrite H1, H2. destruct t; reflexivity.
Qed.

Lemma nulled_app P Q p : nulled (P ++ Q) p = nulled P p || nulled Q p.
Proof. unfold nulled. apply existsb_app. Qed.

Lemma nulled_shift k P q : nulled (map (cons k) P) (k :: q) = nulled P q.
Proof.
  unfold nulled. induction P as [|a r IH]; [reflexivity|]. cbn [map existsb prefixb].
  rewrite N.eqb_refl, IH. reflexivity.
Qed.

Lemma covered_app a b : drops_covered a -> drops_covered b -> drops_covered (a ++ b).
Proof.
  intros Ha Hb p Hp. apply dropped_app in Hp. rewrite NP_app, nulled_app.
  destruct Hp as [Hp|Hp]; [rewrite (Ha p Hp)|rewrite (Hb p Hp)]; auto using orb_true_r.
Qed.

Lemma covered_shift k evs : drops_covered evs -> drops_covered (shift k evs).
Proof.
  intros H p Hp. apply dropped_shift in Hp as (q & -> & Hq). rewrite NP_shift, nulled_shift. auto.
Qed.

Lemma covered_root evs : In [] (NP evs) -> drops_covered evs.
Proof.
  intros H p _. unfold nulled. apply existsb_exists. exists []. split; [assumption|reflexivity].
Qed.

Lemma covered_nodrop evs : dropped evs = [] -> drops_covered evs.
Proof. intros H p Hp. rewrite H in Hp. destruct Hp. Qed.

(* what is observed of a step that succeeds: every null that error handling placed in the data has
   been recorded (beyond those of [base], there before), and every cancelled or abandoned
   awaitable lies below a recorded position *)
Definition Obs (base : list pos) (r : res * list ev) : Prop :=
  match r with (ROk s, evs) => incl (vis s) (base ++ NP evs) /\ drops_covered evs | _ => True end.

Definition FinishObs (lp : bool) (c : node) : Prop := Obs [] (finish lp c).

Lemma finish_key lp n s e : finish lp n = (ROk s, e) -> skey s = key n.
Proof.
  intros H. pose proof (finish_spec lp n) as Hs. unfold FinishSpec in Hs. rewrite H in Hs. apply rep_key. exact Hs.
Qed.

Lemma start_key lp c s e : start lp c = (ROk s, e) -> skey s = key c.
Proof. unfold start. destruct (is_async c); [intros [= <- _]; reflexivity|apply finish_key]. Qed.

Lemma start_obs lp c : FinishObs lp c -> Obs [] (start lp c).
Proof.
  unfold start, FinishObs. destruct (is_async c); [intros _|auto].
  split; [intros p [] | apply covered_nodrop; reflexivity].
Qed.

Lemma start_from_obs lp kd : forall rest acc,
  Forall (FinishObs lp) rest ->
  match start_from lp kd acc rest with
  | (KOk sts rest', evs) => incl (vis_list sts) (vis_list acc ++ NP evs) /\ drops_covered evs
  | _ => True
  end.
Proof.
  assert (Hnone : forall acc, incl (vis_list acc) (vis_list acc ++ NP []) /\ drops_covered [])
    by (intro acc; split; [cbn; rewrite app_nil_r; apply incl_refl | apply covered_nodrop; reflexivity]).
  induction rest as [|c r IH]; intros acc HF; cbn [start_from]; [apply Hnone|].
  destruct (blocked kd acc); [apply Hnone|].
  inversion HF as [|? ? Hc Hr]; subst. pose proof (start_obs lp c Hc) as Hs.
  destruct (start lp c) as [[s|e zs] e1] eqn:Es; [|exact I]. destruct Hs as [Hs Hcs].
  specialize (IH (acc ++ [s]) Hr). destruct (start_from lp kd (acc ++ [s]) r) as [[sts rest'|e zs] e2]; [|exact I].
  destruct IH as [IH Hc2].
  change (ECall [key c] :: shift (key c) e1) with ([ECall [key c]] ++ shift (key c) e1). split.
  - rewrite vis_list_app, vis_list_one, (start_key _ _ _ _ Es) in IH.
    rewrite !NP_app, NP_shift. change (NP [ECall [key c]]) with (@nil pos). cbn [app].
    intros p Hp. apply IH in Hp. rewrite !in_app_iff in *. destruct Hp as [[Hp|Hp]|Hp]; auto.
    right. left. revert Hp. apply incl_map. exact Hs.
  - apply covered_app; [apply covered_app; [apply covered_nodrop; reflexivity|apply covered_shift; exact Hcs]|exact Hc2].
Qed.

(* a position that handles an error records it: this null is recorded, and what was dropped lies below it *)
Lemma handle_obs nn k e zs evs (base : list pos) : Obs base (handle nn k e zs evs).
Proof.
  unfold handle. destruct nn; [exact I|]. split.
  - rewrite NP_app. cbn. intros p [<-|[]]. rewrite !in_app_iff. right. right. left. reflexivity.
  - apply covered_root. rewrite NP_app, in_app_iff. right. left. reflexivity.
Qed.

Lemma finish_kids_obs nn k kd r evs (base : list pos) :
  match r with KOk sts rest => incl (vis_list sts) (base ++ NP evs) /\ drops_covered evs | _ => True end ->
  Obs base (finish_kids nn k kd (r, evs)).
Proof.
  destruct r as [sts rest|e zs]; cbn [finish_kids]; intros H.
  - unfold Obs. rewrite pack_vis. exact H.
  - apply handle_obs.
Qed.

Lemma finish_obs lp : forall n, FinishObs lp n.
Proof.
  apply node_ind'. intros k nn a o ks IH. unfold FinishObs.
  assert (Hval : forall d, dnulls d = [] -> Obs [] (ROk (SDone k d []), []))
    by (intros d Hd; split; [cbn [vis]; rewrite Hd; intros p [] | apply covered_nodrop; reflexivity]).
  destruct o.
  - exact (handle_obs nn k [] [] [] []).
  - cbn [finish]. destruct nn; [exact (handle_obs true k [] [] [] [])|]. apply Hval. reflexivity.
  - apply Hval. reflexivity.
  - rewrite finish_eq. pose proof (start_from_obs lp kd ks [] IH) as H.
    destruct (start_from lp kd [] ks) as [r2 e2]. exact (finish_kids_obs nn k kd r2 e2 [] H).
Qed.

Lemma step_key s pi s' e : Step s pi (ROk s') e -> skey s' = skey s.
Proof.
  intros Hc. remember (ROk s') as r eqn:Er.
  assert (Hh : forall nn k o zs evs ev', handle nn k o zs evs = (ROk s', ev') -> skey s' = k)
    by (unfold handle; intros [] k o zs evs ev' [= <- _]; reflexivity).
  destruct Hc as [m r e Ef|k d pre x post pi rx ex Hx|k nn kd pre x post rest pi x' ex r2 e2 r e Hx Es Ef
                 |k nn kd pre x post rest pi o zs ex r e Hx Eh]; try subst r.
  - exact (finish_key _ _ _ _ Ef).
  - injection Er as <-. reflexivity.
  - destruct r2 as [sts' rest'|o zs]; cbn [finish_kids] in Ef; [|exact (Hh _ _ _ _ _ _ Ef)].
    injection Ef as <- _. unfold pack. destruct rest'; [destruct (all_done sts')|]; reflexivity.
  - exact (Hh _ _ _ _ _ _ Eh).
Qed.

Lemma complete_key' s pi s' e : complete pi s = Some (ROk s', e) -> skey s' = skey s.
Proof. intro H. exact (step_key _ _ _ _ (complete_Step _ _ _ _ H)). Qed.

Lemma complete_obs : forall s pi r evs, complete pi s = Some (r, evs) -> Obs (vis s) (r, evs).
Proof.
  intros s pi r evs Hc. apply complete_Step in Hc. step_induction Hc.
  - pose proof (finish_obs true m) as H. unfold FinishObs in H. rewrite Ef in H.
    destruct r as [s'|]; [|exact I]. destruct H as [H1 H2]. split; [exact H1|].
    change (EDone [] :: e) with ([EDone []] ++ e). apply covered_app; [apply covered_nodrop; reflexivity|exact H2].
  - split; [cbn [vis]; apply incl_appl, incl_refl | apply covered_nodrop, dropped_bg].
  - pose proof (step_key _ _ _ _ Hx) as Hkk. destruct IH as [IH Hcx].
    pose proof (start_from_obs true kd rest (pre ++ x' :: post)
                  (proj2 (Forall_forall _ _) (fun c _ => finish_obs true c))) as Hs. rewrite Es in Hs.
    rewrite <- Ef, vis_run. apply finish_kids_obs. destruct r2 as [sts' rest'|]; [|exact I].
    destruct Hs as [Hs Hc2]. split; [|apply covered_app; [apply covered_shift; exact Hcx|exact Hc2]].
    rewrite NP_app, NP_shift. intros p Hp. apply Hs in Hp.
    rewrite !vis_list_app, !vis_list_cons in *. rewrite Hkk in Hp. rewrite !in_app_iff in *.
    destruct Hp as [[Hp|[Hp|Hp]]|Hp]; auto.
    apply in_map_iff in Hp as (q & <- & Hq). apply IH in Hq. apply in_app_iff in Hq as [Hq|Hq].
    + left. right. left. apply in_map. exact Hq.
    + right. left. apply in_map. exact Hq.
  - rewrite <- Eh, vis_run. apply handle_obs.
Qed.

Lemma run_obs s sched s' evs : Run s sched s' evs -> incl (vis s') (vis s ++ NP evs) /\ drops_covered evs.
Proof.
  induction 1 as [s|s pi s1 e1 sched s2 e2 Hc _ [IH IHc]].
  - split; [cbn; rewrite app_nil_r; apply incl_refl | apply covered_nodrop; reflexivity].
  - destruct (complete_obs _ _ _ _ Hc) as [H2 Hc2]. split; [|exact (covered_app _ _ Hc2 IHc)].
    rewrite NP_app. intros p Hp. apply IH in Hp. rewrite !in_app_iff in *.
    destruct Hp as [Hp|Hp]; auto. apply H2 in Hp. rewrite in_app_iff in Hp. tauto.
Qed.

Theorem visible_nulls_recorded lp root sched k d bg evs :
  Exec lp root sched (SDone k d bg) evs -> incl (dnulls d) (NP evs).
Proof.
  intros (s0 & e0 & e1 & Hi & Hr & ->).
  destruct (run_obs _ _ _ _ Hr) as [H _]. cbn [vis] in H.
  pose proof (finish_obs lp root) as H0. unfold FinishObs, init in *. rewrite Hi in H0. destruct H0 as [H0 _].
  rewrite NP_app. intros p Hp. apply H in Hp. rewrite !in_app_iff in *. destruct Hp; auto.
Qed.

Theorem dropped_covered lp root sched s evs :
  Exec lp root sched s evs -> forall p, In p (cancelled evs ++ orphaned evs) -> nulled (NP evs) p = true.
Proof.
  intros (s0 & e0 & e1 & Hi & Hr & ->).
  pose proof (finish_obs lp root) as H0. unfold FinishObs, init in *. rewrite Hi in H0.
  exact (covered_app _ _ (proj2 H0) (proj2 (run_obs _ _ _ _ Hr))).
Qed.

(* response keys are unique among siblings *)
Fixpoint wfk (n : node) : Prop :=
  match n with
  | Node _ _ _ o ks =>
      match o with
      | OKids _ =>
          NoDup (map key ks) /\
          (fix go (l : list node) : Prop := match l with [] => True | c :: r => wfk c /\ go r end) ks
      | _ => True
      end
  end.

Lemma wfk_kids k nn a kd ks :
  wfk (Node k nn a (OKids kd) ks) <-> NoDup (map key ks) /\ Forall wfk ks.
Proof.
  cbn [wfk]. split; intros [H1 H2]; (split; [exact H1|]).
  - induction ks as [|c r IH]; constructor; [apply H2|]. apply IH; [inversion H1; assumption|apply H2].
  - induction H2 as [|c r Hc _ IH]; [exact I|]. split; [exact Hc|]. apply IH. inversion H1; assumption.
Qed.


Lemma in_dnulls_list p fs :
  In p (dnulls_list fs) <-> exists k x q, In (k, x) fs /\ p = k :: q /\ In q (dnulls x).
Proof.
  unfold dnulls_list. rewrite in_flat_map. split.
  - intros ([k x] & Hin & Hp). apply in_map_iff in Hp as (q & <- & Hq). exists k, x, q. auto.
  - intros (k & x & q & Hin & -> & Hq). exists (k, x). split; [assumption|]. apply in_map. exact Hq.
Qed.

Lemma den_kids_in ks : forall fs c, den_kids ks = Some fs -> In c ks -> exists x, den c = Some x /\ In (key c, x) fs.
Proof.
  induction ks as [|y r IH]; intros fs c H Hin; [destruct Hin|].
  rewrite den_kids_cons in H. destruct (den y) as [dy|] eqn:Ey; [|discriminate].
  destruct (den_kids r) as [fr|] eqn:Er; [|discriminate]. inversion H; subst.
  destruct Hin as [->|Hin]; [exists dy; split; [assumption|left; reflexivity]|].
  destruct (IH fr c eq_refl Hin) as (x & H1 & H2). exists x. split; [assumption|right; assumption].
Qed.

Lemma den_kids_in_inv ks : forall fs k x, den_kids ks = Some fs -> In (k, x) fs ->
  exists c, In c ks /\ key c = k /\ den c = Some x.
Proof.
  induction ks as [|y r IH]; intros fs k x H Hin.
  - inversion H; subst. destruct Hin.
  - rewrite den_kids_cons in H. destruct (den y) as [dy|] eqn:Ey; [|discriminate].
    destruct (den_kids r) as [fr|] eqn:Er; [|discriminate]. inversion H; subst.
    destruct Hin as [[= <- <-]|Hin]; [exists y; auto using in_eq|].
    destruct (IH fr k x eq_refl Hin) as (c & H1 & H2 & H3). exists c. auto using in_cons.
Qed.

Lemma den_kids_keys ks : forall fs, den_kids ks = Some fs -> map fst fs = map key ks.
Proof.
  induction ks as [|y r IH]; intros fs H.
  - inversion H; reflexivity.
  - rewrite den_kids_cons in H. destruct (den y) as [dy|]; [|discriminate].
    destruct (den_kids r) as [fr|] eqn:Er; [|discriminate]. inversion H; subst.
    cbn. f_equal. apply IH. reflexivity.
Qed.

Lemma nulled_root p : nulled [[]] p = true.
Proof. reflexivity. Qed.

(* a position that fails or is nulled by an error lies at or below a visible null of the data *)
Lemma at_fail_cover n o m : At n o m ->
  (den m = None \/ den m = Some (DNull true)) ->
  forall d, den n = Some d -> nulled (dnulls d) o = true.
Proof.
  induction 1 as [n|n c pi m Hin Hat IH]; intros Hm d Hd.
  - destruct Hm as [Hm|Hm]; rewrite Hm in Hd; [discriminate|]. inversion Hd; subst. reflexivity.
  - destruct n as [k nn a o ks]. destruct o; cbn [kids] in Hin; try contradiction.
    rewrite den_kids_eq in Hd. destruct (den_kids ks) as [fs|] eqn:Ek.
    + inversion Hd; subst. destruct (den_kids_in ks fs c Ek Hin) as (x & Hx & Hfs).
      specialize (IH Hm x Hx). apply nulled_iff in IH as (q & Hq & Hpre).
      rewrite dnulls_kids. apply nulled_iff. exists (key c :: q). split.
      * apply in_dnulls_list. exists (key c), x, q. auto.
      * cbn. rewrite N.eqb_refl. exact Hpre.
    + destruct nn; [discriminate|]. inversion Hd; subst. reflexivity.
Qed.

Lemma raises_den m : raises m -> den m = None \/ den m = Some (DNull true).
Proof.
  intros H. rewrite (Bad_den m [] (Bad_here m H)). destruct (nonnull m); auto.
Qed.

Theorem raised_below_null root d o m :
  den root = Some d -> At root o m -> raises m -> nulled (dnulls d) o = true.
Proof. intros Hd Hat Hr. exact (at_fail_cover root o m Hat (raises_den m Hr) d Hd). Qed.

Lemma gooderr_below_null root d a o :
  den root = Some d -> GoodErr root a o -> nulled (dnulls d) a = true.
Proof.
  intros Hd (ma & pi & Hat & Hnn & Hb & _).
  apply (at_fail_cover root a ma Hat); [|assumption]. right. rewrite (Bad_den _ _ Hb), Hnn. reflexivity.
Qed.

Lemma prefixb_app a pi : prefixb a (a ++ pi) = true.
Proof. induction a as [|x a IH]; [reflexivity|]. cbn. rewrite N.eqb_refl. exact IH. Qed.

Lemma dnulls_antichain : forall n, wfk n -> forall d, den n = Some d ->
  forall p q, In p (dnulls d) -> In q (dnulls d) -> prefixb p q = true -> p = q.
Proof.
  apply (node_ind' (fun n => wfk n -> forall d, den n = Some d ->
    forall p q, In p (dnulls d) -> In q (dnulls d) -> prefixb p q = true -> p = q)).
  intros k nn a o ks IH Hw d Hd p q Hp Hq Hpre.
  assert (Hnull : forall b, d = DNull b -> p = q).
  { intros b ->. destruct b; cbn in Hp, Hq; [|destruct Hp].
    destruct Hp as [<-|[]], Hq as [<-|[]]. reflexivity. }
  destruct o; cbn [den] in Hd.
  - destruct nn; inversion Hd; eauto.
  - destruct nn; inversion Hd; eauto.
  - inversion Hd; subst. destruct Hp.
  - fold (den_kids ks) in Hd. destruct (den_kids ks) as [fs|] eqn:Ek; [|destruct nn; inversion Hd; eauto].
    inversion Hd; subst. rewrite dnulls_kids in Hp, Hq.
    apply in_dnulls_list in Hp as (k1 & x1 & p' & H1 & -> & Hp').
    apply in_dnulls_list in Hq as (k2 & x2 & q' & H2 & -> & Hq').
    cbn in Hpre. apply andb_true_iff in Hpre as [E Hpre]. apply N.eqb_eq in E. subst k2.
    apply wfk_kids in Hw as [Hnd Hwk].
    assert (x1 = x2) as <-.
    { apply (NoDup_fst_inj fs k1); [rewrite (den_kids_keys ks fs Ek)|..]; assumption. }
    destruct (den_kids_in_inv ks fs k1 x1 Ek H1) as (c & Hc & _ & Hdc).
    rewrite Forall_forall in IH, Hwk. f_equal. exact (IH c Hc (Hwk c Hc) x1 Hdc p' q' Hp' Hq' Hpre).
Qed.

Theorem errors_characterised lp root sched s evs :
  Exec lp root sched s evs -> forall a o, In (a, o) (errs evs) -> GoodErr root a o.
Proof.
  intros (s0 & e0 & e1 & Hi & Hr & ->) a o Hin.
  assert (H0 : Forall (ev_good root) e0).
  { destruct (finish_good lp root) as [H _]. unfold init in Hi. rewrite Hi in H. exact H. }
  assert (HR : Rep s0 root) by (pose proof (init_rep lp root) as H; rewrite Hi in H; exact H).
  assert (H1 : Forall (ev_good root) e1).
  { clear Hi H0 Hin. induction Hr as [s0|s0 pi s1 e1 sched s2 e2 Hc _ IH]; [constructor|].
    apply Forall_app. split; [exact (proj1 (complete_good _ _ _ _ _ HR Hc))|].
    apply IH. exact (complete_rep _ _ _ _ _ HR Hc). }
  assert (H : Forall (ev_good root) (e0 ++ e1)) by (apply Forall_app; split; assumption).
  rewrite Forall_forall in H. unfold errs in Hin. apply in_flat_map in Hin as (e & He & Hin).
  specialize (H e He). destruct e as [t b p q]. destruct t, b; cbn in Hin; try contradiction.
  destruct Hin as [[= <- <-]|[]]. exact H.
Qed.

Corollary reported_are_raised lp root sched s evs o :
  Exec lp root sched s evs -> In o (error_paths evs) -> exists m, At root o m /\ raises m.
Proof.
  intros He Hin. unfold error_paths in Hin. apply in_map_iff in Hin as ([a o'] & <- & Hin).
  destruct (errors_characterised _ _ _ _ _ He a o' Hin) as (ma & pi & Hat & _ & Hb & ->).
  destruct (Bad_at _ _ Hb) as (mo & H1 & H2). exists mo. split; [|assumption].
  exact (At_trans _ _ _ Hat _ _ H1).
Qed.

Lemma in_NP a evs : In a (NP evs) <-> exists o, In (a, o) (errs evs).
Proof.
  unfold nulled_positions. rewrite in_map_iff. split.
  - intros ([a' o] & <- & H). eauto.
  - intros (o & H). exists (a, o). auto.
Qed.

Theorem outermost_nulled lp root sched s evs :
  wfk root -> nonnull root = false -> Exec lp root sched s evs -> final s ->
  exists d bg, s = SDone (key root) d bg /\ den root = Some d /\
            forall p, outermost (NP evs) p <-> In p (dnulls d).
Proof.
  intros Hw Hnn He Hf.
  destruct (order_independent _ _ _ _ _ Hnn He Hf) as (d & bg & _ & _ & -> & Hd & _).
  exists d, bg. split; [reflexivity|]. split; [assumption|].
  pose proof (visible_nulls_recorded _ _ _ _ _ _ _ He) as Hrec.
  assert (Hcov : forall a, In a (NP evs) -> nulled (dnulls d) a = true).
  { intros a Ha. apply in_NP in Ha as (o & Ha). eapply gooderr_below_null; [eassumption|].
    exact (errors_characterised _ _ _ _ _ He a o Ha). }
  intros p. split.
  - intros [Hin Hmin]. apply Hcov in Hin as Hc. apply nulled_iff in Hc as (q & Hq & Hpre).
    rewrite <- (Hmin q (Hrec q Hq) Hpre). exact Hq.
  - intros Hin. split; [exact (Hrec p Hin)|]. intros q Hq Hpre.
    apply Hcov in Hq as Hc. apply nulled_iff in Hc as (r & Hr & Hrq).
    (* r and p are both nulls of the data and r is a prefix of p: they are the same position *)
    assert (r = p) as -> by exact (dnulls_antichain root Hw d Hd r p Hr Hin (prefixb_trans _ _ _ Hrq Hpre)).
    apply prefixb_antisym; assumption.
Qed.

Lemma wfk_desync : forall n, wfk n -> wfk (desync n).
Proof.
  apply (node_ind' (fun n => wfk n -> wfk (desync n))). intros k nn a o ks IH Hw.
  destruct o; try exact I. cbn [desync]. apply wfk_kids in Hw as [H1 H2]. apply wfk_kids. split.
  - rewrite map_map. erewrite map_ext; [exact H1|]. intros c. apply desync_key.
  - rewrite Forall_forall in *. intros c Hc. apply in_map_iff in Hc as (c' & <- & Hc'). auto.
Qed.

Lemma sync_is_exec root s e : sync_result root = (ROk s, e) -> Exec false (desync root) [] s e /\ final s.
Proof.
  intros H. split; [|exact (proj2 (sync_done root s e H))].
  exists s, e, []. split; [exact H|]. split; [constructor|]. rewrite app_nil_r. reflexivity.
Qed.

(* no null at a non-null position; the data has the shape of the tree *)
Fixpoint wfd (n : node) (d : data) : bool :=
  match n with
  | Node _ nn _ o ks =>
      match d with
      | DNull _ => negb nn
      | DLeaf _ => match o with OLeaf _ => true | _ => false end
      | DKids _ fs =>
          match o with
          | OKids _ =>
              (fix go (l : list node) (fs : list (N * data)) : bool :=
                 match l, fs with
                 | [], [] => true
                 | c :: r, (k, x) :: fr => (k =? key c) && wfd c x && go r fr
                 | _, _ => false
                 end) ks fs
          | _ => false
          end
      end
  end.

Lemma den_wfd : forall n d, den n = Some d -> wfd n d = true.
Proof.
  apply (node_ind' (fun n => forall d, den n = Some d -> wfd n d = true)).
  intros k nn a o ks IH d Hd. destruct o; cbn [den] in Hd.
  - destruct nn; inversion Hd; reflexivity.
  - destruct nn; inversion Hd; reflexivity.
  - inversion Hd; reflexivity.
  - fold (den_kids ks) in Hd. destruct (den_kids ks) as [fs|] eqn:Ek; [|destruct nn; inversion Hd; reflexivity].
    inversion Hd; subst. cbn [wfd]. clear Hd. revert fs Ek.
    induction IH as [|c r Hc _ IHr]; intros fs Ek.
    + inversion Ek; reflexivity.
    + rewrite den_kids_cons in Ek. destruct (den c) as [dc|] eqn:Ec; [|discriminate].
      destruct (den_kids r) as [fr|] eqn:Er; [|discriminate]. inversion Ek; subst.
      rewrite N.eqb_refl, (Hc dc eq_refl), (IHr fr eq_refl). reflexivity.
Qed.

Theorem response_wellformed lp root sched s evs :
  nonnull root = false -> Exec lp root sched s evs -> final s ->
  exists d bg, s = SDone (key root) d bg /\
    wfd root d = true /\
    (forall o, In o (error_paths evs) -> nulled (dnulls d) o = true) /\
    (forall p, In p (dnulls d) -> exists o, In (p, o) (errs evs) /\ prefixb p o = true) /\
    (d = DNull true <-> In [] (NP evs)).
Proof.
  intros Hnn He Hf.
  destruct (order_independent _ _ _ _ _ Hnn He Hf) as (d & bg & _ & _ & -> & Hd & _).
  exists d, bg. split; [reflexivity|]. split; [exact (den_wfd _ _ Hd)|].
  pose proof (visible_nulls_recorded _ _ _ _ _ _ _ He) as Hrec.
  split; [|split].
  - intros o Ho. destruct (reported_are_raised _ _ _ _ _ _ He Ho) as (m & H1 & H2).
    exact (raised_below_null root d o m Hd H1 H2).
  - intros p Hp. apply Hrec, in_NP in Hp as (o & Ho). exists o. split; [assumption|].
    destruct (errors_characterised _ _ _ _ _ He p o Ho) as (_ & pi & _ & _ & _ & ->). apply prefixb_app.
  - split.
    + intros ->. apply Hrec. left. reflexivity.
    + intros Hin. apply in_NP in Hin as (o & Ho).
      pose proof (gooderr_below_null root d [] o Hd (errors_characterised _ _ _ _ _ He _ _ Ho)) as Hc.
      apply nulled_iff in Hc as (q & Hq & Hpre). destruct q; [|discriminate].
      destruct d as [[|]| |kd fs]; [reflexivity|destruct Hq|destruct Hq|].
      rewrite dnulls_kids in Hq.
      apply in_dnulls_list in Hq as (? & ? & ? & _ & Hbad & _). discriminate.
Qed.

(* root field an event belongs to (none for the root position itself) *)
Definition ev_field (e : ev) : list N := match ev_pos e with k :: _ => [k] | [] => [] end.
Definition fields (evs : list ev) : list N := flat_map ev_field evs.

(* l visits the keys K in order: a block of K's first key, then a block of the next one, ... (blocks may be empty) *)
Inductive Ord : list N -> list N -> Prop :=
| Ord_nil K : Ord K []
| Ord_same k K l : Ord (k :: K) l -> Ord (k :: K) (k :: l)
| Ord_next k K l : Ord K l -> Ord (k :: K) l.

Lemma fields_app a b : fields (a ++ b) = fields a ++ fields b.
Proof. apply flat_map_app. Qed.

Lemma fields_shift k evs : fields (shift k evs) = repeat k (length evs).
Proof.
  induction evs as [|e r IH]; [reflexivity|]. cbn [shift map length repeat fields flat_map].
  fold (shift k r). fold (fields (shift k r)). rewrite IH. destruct e as [t b p o]. destruct t; reflexivity.
Qed.

Lemma fields_bg evs : fields (map to_bg evs) = fields evs.
Proof.
  induction evs as [|e r IH]; [reflexivity|]. cbn [map fields flat_map]. fold (fields (map to_bg r)).
  rewrite IH. destruct e; reflexivity.
Qed.

Definition all_settled (l : list st) : bool := forallb settled l.

Lemma settled_pend s : settled s = true -> pend s = [].
Proof. unfold settled. intros H. apply andb_true_iff in H as [_ H]. destruct (pend s); [reflexivity|discriminate]. Qed.

Lemma settled_done s : settled s = true -> is_done s = true.
Proof. unfold settled. intros H. apply andb_true_iff in H as [H _]. exact H. Qed.

Lemma all_settled_pend l : all_settled l = true -> pend_list l = [].
Proof.
  induction l as [|c r IH]; [reflexivity|]. intros H.
  change (settled c && all_settled r = true) in H. apply andb_true_iff in H as [H1 H2].
  rewrite pend_list_cons, (settled_pend _ H1), (IH H2). reflexivity.
Qed.

Lemma all_settled_live l : all_settled l = true -> live_list l = [].
Proof.
  induction l as [|c r IH]; [reflexivity|]. intros H.
  change (settled c && all_settled r = true) in H. apply andb_true_iff in H as [H1 H2].
  unfold live_list in *. cbn [flat_map]. rewrite (IH H2). apply settled_done in H1. destruct c; try discriminate. reflexivity.
Qed.

Lemma all_settled_skel l : all_settled l = true -> map skel l = l.
Proof.
  induction l as [|c r IH]; [reflexivity|]. intros H.
  change (settled c && all_settled r = true) in H. apply andb_true_iff in H as [H1 H2].
  cbn [map]. rewrite (IH H2). apply settled_done in H1. destruct c; try discriminate. reflexivity.
Qed.

Lemma all_settled_app a b : all_settled (a ++ b) = all_settled a && all_settled b.
Proof. apply forallb_app. Qed.

Lemma all_settled_in l x : all_settled l = true -> In x l -> settled x = true.
Proof. unfold all_settled. rewrite forallb_forall. auto. Qed.

Lemma Ord_nil_inv l : Ord [] l -> l = [].
Proof. inversion 1; reflexivity. Qed.

Lemma Ord_weak K1 K2 l : Ord K2 l -> Ord (K1 ++ K2) l.
Proof. intros H. induction K1 as [|k K1 IH]; [exact H|]. cbn. apply Ord_next. exact IH. Qed.

Lemma Ord_app_r K l : Ord K l -> forall K', Ord (K ++ K') l.
Proof. induction 1; intros K'; cbn; [constructor|apply Ord_same; apply IHOrd|apply Ord_next; apply IHOrd]. Qed.

Lemma Ord_repeat c K l n : Ord (c :: K) l -> Ord (c :: K) (repeat c n ++ l).
Proof. intros H. induction n as [|n IH]; [exact H|]. cbn. apply Ord_same. exact IH. Qed.

Lemma Ord_repeat_only c K n : Ord (c :: K) (repeat c n).
Proof. rewrite <- (app_nil_r (repeat c n)). apply Ord_repeat. constructor. Qed.

Lemma Ord_concat X l1 : Ord X l1 -> forall A c K2 l2,
  X = A ++ [c] -> Ord (c :: K2) l2 -> Ord (A ++ c :: K2) (l1 ++ l2).
Proof.
  induction 1 as [K|k K l H IH|k K l H IH]; intros A c K2 l2 HX H2.
  - cbn. apply Ord_weak. exact H2.
  - destruct A as [|a A]; cbn in HX; inversion HX; subst.
    + cbn. apply Ord_same. exact (IH [] c K2 l2 eq_refl H2).
    + cbn. apply Ord_same. exact (IH (a :: A) c K2 l2 eq_refl H2).
  - destruct A as [|a A]; cbn in HX; inversion HX; subst.
    + apply Ord_nil_inv in H. subst. exact H2.
    + cbn. apply Ord_next. exact (IH A c K2 l2 eq_refl H2).
Qed.

(* all pending awaitables lie below the child c *)
Definition under (c : N) (ps : list pos) : Prop := forall q, In q ps -> exists q', q = c :: q'.

Lemma call_fields c e1 : fields (ECall [c] :: shift c e1) = repeat c (S (length e1)).
Proof.
  change (ECall [c] :: shift c e1) with ([ECall [c]] ++ shift c e1).
  rewrite fields_app, fields_shift. reflexivity.
Qed.

Lemma start_from_ser lp : forall rest acc,
  match start_from lp KSer acc rest with
  | (KOk sts rest', evs) =>
      exists ks2 sts2, rest = ks2 ++ rest' /\ sts = acc ++ sts2 /\ map skey sts2 = map key ks2 /\
        Ord (map key ks2) (fields evs) /\
        (all_settled (removelast acc) = true -> all_settled (removelast sts) = true) /\
        (rest' <> [] -> all_settled sts = false)
  | (KFail _ zs, evs) =>
      exists ks2 c r, rest = ks2 ++ c :: r /\ Ord (map key ks2 ++ [key c]) (fields evs) /\ under (key c) (pend_list zs)
  end.
Proof.
  induction rest as [|c r IH]; intros acc; cbn [start_from].
  - exists [], []. cbn [app map]. rewrite app_nil_r. repeat split; auto; [constructor|intros H; exfalso; apply H; reflexivity].
  - unfold blocked. fold (all_settled acc). destruct (all_settled acc) eqn:Ea; cbn [negb].
    + destruct (start lp c) as [[s|e zs] e1] eqn:Es.
      * specialize (IH (acc ++ [s])). destruct (start_from lp KSer (acc ++ [s]) r) as [[sts rest'|e zs] e2].
        -- destruct IH as (ks2 & sts2 & -> & -> & Hk & Ho & Hd & Hne).
           exists (c :: ks2), (s :: sts2). rewrite <- app_assoc. repeat split; auto.
           ++ cbn [map]. rewrite Hk, (start_key _ _ _ _ Es). reflexivity.
           ++ rewrite fields_app, call_fields. cbn [map]. apply Ord_repeat. apply Ord_next. exact Ho.
           ++ intros _. rewrite app_assoc. apply Hd. rewrite removelast_last. exact Ea.
           ++ rewrite app_assoc. exact Hne.
        -- destruct IH as (ks2 & c' & r' & -> & Ho & Hu). exists (c :: ks2), c', r'.
           split; [reflexivity|]. split; [|exact Hu].
           rewrite fields_app, call_fields. cbn [map app]. apply Ord_repeat. apply Ord_next. exact Ho.
      * exists [], c, r. split; [reflexivity|]. split.
        -- rewrite (all_settled_live _ Ea). cbn [map]. rewrite app_nil_r, call_fields. cbn [map app].
           apply Ord_repeat_only.
        -- unfold abandon. destruct lp; [|intros q []]. intros q Hq. unfold pend_list in Hq.
           rewrite flat_map_app, in_app_iff in Hq. fold (pend_list acc) in Hq.
           rewrite (all_settled_pend _ Ea) in Hq. destruct Hq as [[]|Hq]. cbn in Hq. rewrite app_nil_r in Hq.
           apply in_map_iff in Hq as (q' & <- & _). eauto.
    + exists [], []. cbn [app map]. rewrite app_nil_r. repeat split; auto. constructor.
Qed.


(* a serial node at work: the current (last started) field is c, the fields K2 are not started,
   the earlier fields are done and nothing is pending below them *)
Definition SerInv (c : N) (K2 : list N) (s : st) : Prop :=
  exists k nn pre x rest,
    s = SRun k nn KSer (pre ++ [x]) rest /\ all_settled pre = true /\ skey x = c /\ map key rest = K2.

(* a finished serial node: whatever is still pending (background work) lies below field c *)
Definition DoneInv (c : N) (s : st) : Prop := is_done s = true /\ under c (pend s).

Lemma fields_err_root evs o : fields (evs ++ [EErr [] o]) = fields evs.
Proof. rewrite fields_app. cbn. apply app_nil_r. Qed.

Lemma handle_ok nn k e zs evs s1 e1 :
  handle nn k e zs evs = (ROk s1, e1) -> s1 = SDone k (DNull true) zs /\ fields e1 = fields evs.
Proof.
  unfold handle. destruct nn; [discriminate|]. intros [= <- <-]. split; [reflexivity|apply fields_err_root].
Qed.

Lemma under_app c a b : under c a -> under c b -> under c (a ++ b).
Proof. intros Ha Hb q Hq. apply in_app_iff in Hq as [Hq|Hq]; auto. Qed.

Lemma under_nil c : under c [].
Proof. intros q []. Qed.

Lemma under_map c l : under c (map (cons c) l).
Proof. intros q Hq. apply in_map_iff in Hq as (q' & <- & _). eauto. Qed.

Lemma pend_list_app a b : pend_list (a ++ b) = pend_list a ++ pend_list b.
Proof. apply flat_map_app. Qed.

Lemma pend_list_snoc pre x : all_settled pre = true -> under (skey x) (pend_list (pre ++ [x])).
Proof.
  intros H. rewrite pend_list_app, (all_settled_pend _ H), pend_list_cons. cbn [app pend_list flat_map].
  rewrite app_nil_r. apply under_map.
Qed.

(* a serial node whose started fields are settled up to the last one, [z], which is at work *)
Lemma pack_ser k nn sts z rest' :
  all_settled sts = true ->
  SerInv (skey z) (map key rest') (pack k nn KSer (sts ++ [z]) rest') \/
  DoneInv (skey z) (pack k nn KSer (sts ++ [z]) rest').
Proof.
  intros Hs. unfold pack. destruct rest' as [|r0 rest'].
  - destruct (all_done (sts ++ [z])).
    + right. split; [reflexivity|]. rewrite pend_done. apply pend_list_snoc. exact Hs.
    + left. exists k, nn, sts, z, []. auto.
  - left. exists k, nn, sts, z, (r0 :: rest'). auto.
Qed.

Lemma done_step c s pi s1 e1 :
  DoneInv c s -> complete pi s = Some (ROk s1, e1) ->
  DoneInv c s1 /\ fields e1 = repeat c (length e1).
Proof.
  intros [Hd Hu] Hc. destruct s as [n|k d bg|k nn kd sts rest]; try discriminate.
  pose proof (complete_pending _ _ _ _ Hc) as Hin. destruct (Hu _ Hin) as (pi' & ->).
  rewrite complete_done in Hc.
  destruct (complete_kids c pi' bg) as [|pre rx post ex] eqn:Ek; [discriminate|].
  apply complete_kids_spec in Ek as (x & -> & Hk & Hcx). inversion Hc; subst. clear Hc.
  split; [split; [reflexivity|]|].
  - rewrite pend_done in *. rewrite pend_list_app, pend_list_cons in *.
    intros q Hq. rewrite !in_app_iff in Hq. destruct Hq as [Hq|[Hq|Hq]].
    + apply Hu. rewrite !in_app_iff. auto.
    + assert (Hs : skey (settle_res (skey x) rx) = skey x).
      { destruct rx; [exact (complete_key' _ _ _ _ Hcx)|reflexivity]. }
      rewrite Hs in Hq. apply in_map_iff in Hq as (q' & <- & _). eauto.
    + apply Hu. rewrite !in_app_iff. auto.
  - rewrite fields_bg, fields_shift. unfold shift. rewrite !map_length. reflexivity.
Qed.

(* One step of a serial node at work on field c.  M lists the fields the step finishes (c and those started
   and settled within the step), c' is the field at work afterwards, K2' the fields still not started. *)
Lemma ser_step c K2 s pi s1 e1 :
  SerInv c K2 s -> complete pi s = Some (ROk s1, e1) ->
  exists M c' K2', c :: K2 = M ++ c' :: K2' /\ (SerInv c' K2' s1 \/ DoneInv c' s1) /\ Ord (M ++ [c']) (fields e1).
Proof.
  intros (k & nn & pre & x & rest & -> & Hpre & <- & <-) Hc.
  rewrite complete_run in Hc. destruct pi as [|c0 pi']; [discriminate|].
  destruct (complete_kids c0 pi' (pre ++ [x])) as [|pre0 rx post ex] eqn:Ek; [discriminate|].
  apply complete_kids_spec in Ek as (x0 & Hsplit & <- & Hcx).
  (* the child that completes is the last one: the earlier ones are settled, nothing is pending below them *)
  apply snoc_split in Hsplit as [(-> & -> & ->)|Hin].
  2:{ apply (all_settled_in _ _ Hpre) in Hin. apply settled_pend in Hin.
      apply complete_pending in Hcx. rewrite Hin in Hcx. destruct Hcx. }
  destruct rx as [x'|o zs].
  - pose proof (complete_key' _ _ _ _ Hcx) as Hkx.
    pose proof (start_from_ser true rest (pre ++ [x'])) as Hs.
    destruct (start_from true KSer (pre ++ [x']) rest) as [[sts' rest'|o zs] e2]; cbn [finish_kids] in Hc.
    + destruct Hs as (ks2 & sts2 & -> & -> & Hk & Ho & Hd & _).
      assert (Hp : pack k nn KSer ((pre ++ [x']) ++ sts2) rest' = s1) by congruence.
      assert (He : shift (skey x) ex ++ e2 = e1) by congruence. clear Hc. subst e1.
      assert (Hord : Ord (skey x :: map key ks2) (fields (shift (skey x) ex ++ e2))).
      { rewrite fields_app, fields_shift. apply Ord_repeat. apply Ord_next. exact Ho. }
      assert (Hall : all_settled (removelast ((pre ++ [x']) ++ sts2)) = true)
        by (apply Hd; rewrite removelast_last; exact Hpre).
      destruct sts2 as [|z sts2'] using rev_ind.
      * destruct ks2; [|discriminate]. cbn [app map] in *. rewrite app_nil_r in *.
        exists [], (skey x), (map key rest'). split; [reflexivity|]. split; [|exact Hord].
        subst s1. rewrite <- Hkx. apply pack_ser. exact Hpre.
      * clear IHsts2'. rewrite map_app in Hk. cbn [map] in Hk.
        destruct ks2 as [|cz ks2'] using rev_ind; [destruct (map skey sts2'); discriminate|]. clear IHks2'.
        rewrite map_app in Hk. cbn [map] in Hk. apply app_inj_tail in Hk as [Hk1 Hk2].
        rewrite app_assoc, removelast_last in Hall.
        exists (skey x :: map key ks2'), (key cz), (map key rest'). split; [|split].
        -- rewrite <- app_assoc, !map_app. cbn [map app]. reflexivity.
        -- subst s1. rewrite app_assoc, <- Hk2. apply pack_ser. exact Hall.
        -- rewrite map_app in Hord. cbn [map] in Hord. exact Hord.
    + destruct Hs as (ks2 & c' & r' & -> & Ho & Hu).
      assert (Hc' : handle nn k o zs (shift (skey x) ex ++ e2) = (ROk s1, e1)) by congruence.
      apply handle_ok in Hc' as [-> He'].
      exists (skey x :: map key ks2), (key c'), (map key r'). split; [|split].
      * rewrite map_app. cbn [map]. reflexivity.
      * right. split; [reflexivity|]. rewrite pend_done. exact Hu.
      * rewrite He', fields_app, fields_shift. cbn [app]. apply Ord_repeat. apply Ord_next. exact Ho.
  - assert (Hc' : handle nn k (skey x :: o) (map skel pre ++ ghost (skey x) zs :: map skel [])
                    (shift (skey x) ex ++ map ECancel (live_list (pre ++ []))) = (ROk s1, e1)) by congruence.
    apply handle_ok in Hc' as [-> He'].
    exists [], (skey x), (map key rest). split; [reflexivity|]. split.
    + right. split; [reflexivity|]. rewrite pend_done, (all_settled_skel _ Hpre). cbn [map].
      change (ghost (skey x) zs) with (SDone (skey x) (DNull true) zs).
      exact (pend_list_snoc pre (SDone (skey x) (DNull true) zs) Hpre).
    + rewrite app_nil_r, (all_settled_live _ Hpre) in He'. cbn [map] in He'. rewrite app_nil_r in He'.
      rewrite He', fields_shift. cbn [app]. apply Ord_repeat_only.
Qed.

Lemma run_ser s sched s' evs : Run s sched s' evs -> forall c K2, SerInv c K2 s \/ DoneInv c s ->
  Ord (c :: K2) (fields evs) /\ exists c' K2', SerInv c' K2' s' \/ DoneInv c' s'.
Proof.
  induction 1 as [s|s pi s1 e1 sched s2 e2 Hc Hr IH]; intros c K2 Hi.
  - split; [constructor|]. eauto.
  - rewrite fields_app. destruct Hi as [Hi|Hi].
    + destruct (ser_step _ _ _ _ _ _ Hi Hc) as (M & c' & K2' & HK & Hi' & Ho).
      destruct (IH c' K2' Hi') as [Ho' Hfin]. split; [|exact Hfin].
      rewrite HK. exact (Ord_concat _ _ Ho M c' K2' _ eq_refl Ho').
    + destruct (done_step _ _ _ _ _ Hi Hc) as [Hi' Hf].
      destruct (IH c K2 (or_intror Hi')) as [Ho' Hfin]. split; [|exact Hfin].
      rewrite Hf. apply Ord_repeat. exact Ho'.
Qed.

Lemma run_nostep s sched s' evs : Run s sched s' evs -> pend s = [] -> evs = [] /\ s' = s.
Proof.
  destruct 1 as [s|s pi s1 e1 sched s2 e2 Hc _]; intros H; [auto|].
  apply complete_pending in Hc. rewrite H in Hc. destruct Hc.
Qed.

(* the state a serial root is in after its synchronous part *)
Lemma init_ser lp k nn a ks s0 e0 :
  init lp (Node k nn a (OKids KSer) ks) = (ROk s0, e0) ->
  (pend s0 = [] /\ Ord (map key ks) (fields e0)) \/
  exists M c K2, map key ks = M ++ c :: K2 /\ (SerInv c K2 s0 \/ DoneInv c s0) /\ Ord (M ++ [c]) (fields e0).
Proof.
  unfold init. rewrite finish_eq. intros Hi.
  pose proof (start_from_ser lp ks []) as Hs.
  destruct (start_from lp KSer [] ks) as [[sts rest'|o zs] e2]; cbn [finish_kids] in Hi.
  - destruct Hs as (ks2 & sts2 & -> & -> & Hk & Ho & Hd & Hne). cbn [app] in *. inversion Hi; subst. clear Hi.
    specialize (Hd eq_refl).
    destruct sts2 as [|z sts2'] using rev_ind.
    + left. destruct ks2; [|discriminate]. cbn [app map] in *. unfold pack. destruct rest' as [|r0 rest'].
      * cbn. split; [reflexivity|exact Ho].
      * exfalso. assert (all_settled (@nil st) = false) by (apply Hne; discriminate). discriminate.
    + right. clear IHsts2'. rewrite map_app in Hk. cbn [map] in Hk.
      destruct ks2 as [|cz ks2'] using rev_ind; [destruct (map skey sts2'); discriminate|]. clear IHks2'.
      rewrite map_app in Hk. cbn [map] in Hk. apply app_inj_tail in Hk as [Hk1 Hk2].
      rewrite removelast_last in Hd.
      exists (map key ks2'), (key cz), (map key rest'). split; [|split].
      * rewrite <- app_assoc, !map_app. reflexivity.
      * rewrite <- Hk2. apply pack_ser. exact Hd.
      * rewrite map_app in Ho. exact Ho.
  - destruct Hs as (ks2 & c' & r' & -> & Ho & Hu).
    assert (Hh : handle nn k o zs e2 = (ROk s0, e0)) by exact Hi.
    apply handle_ok in Hh as [-> Hf]. right.
    exists (map key ks2), (key c'), (map key r'). split; [|split].
    + rewrite map_app. reflexivity.
    + right. split; [reflexivity|]. rewrite pend_done. exact Hu.
    + rewrite Hf. exact Ho.
Qed.

(* the events of a serial root are grouped by root field, in document order: every event of field i
   (resolver invocations, completions, recorded errors, cancellations, abandoned awaitables and everything the
   background work below the field does) precedes every event of field i+1 *)
Theorem serial_order lp k nn a ks sched s evs :
  Exec lp (Node k nn a (OKids KSer) ks) sched s evs -> Ord (map key ks) (fields evs).
Proof.
  intros (s0 & e0 & e1 & Hi & Hr & ->). rewrite fields_app.
  destruct (init_ser _ _ _ _ _ _ _ Hi) as [[Hp Ho]|(M & c & K2 & -> & Hinv & Ho)].
  - destruct (run_nostep _ _ _ _ Hr Hp) as [-> _]. rewrite app_nil_r. exact Ho.
  - destruct (run_ser _ _ _ _ Hr c K2 Hinv) as [Ho' _].
    exact (Ord_concat _ _ Ho M c K2 _ eq_refl Ho').
Qed.

Definition before (K : list N) (x y : N) : Prop := exists K1 K2 K3, K = K1 ++ x :: K2 ++ y :: K3.

Lemma Ord_in K l : Ord K l -> forall x, In x l -> In x K.
Proof.
  induction 1 as [K|k K l H IH|k K l H IH]; intros x Hx.
  - destruct Hx.
  - destruct Hx as [<-|Hx]; [left; reflexivity|auto].
  - right. auto.
Qed.

Lemma Ord_before K l : Ord K l -> forall l1 x l2 y l3, l = l1 ++ x :: l2 ++ y :: l3 -> x = y \/ before K x y.
Proof.
  induction 1 as [K|k K l H IH|k K l H IH]; intros l1 x l2 y l3 Hl.
  - destruct l1; discriminate.
  - destruct l1 as [|a l1]; cbn in Hl; inversion Hl; subst.
    + assert (Hy : In y (x :: K)) by (apply (Ord_in _ _ H); apply in_or_app; right; left; reflexivity).
      destruct Hy as [->|Hy]; [left; reflexivity|]. right.
      apply in_split in Hy as (K2 & K3 & ->). exists [], K2, K3. reflexivity.
    + eapply IH. reflexivity.
  - destruct (IH _ _ _ _ _ Hl) as [->|(K1 & K2 & K3 & ->)]; [left; reflexivity|].
    right. exists (k :: K1), K2, K3. reflexivity.
Qed.

(* an event of one root field is never followed by an event of a root field that comes earlier in the document
   (for distinct response keys [before] is a strict order) *)
Corollary serial_no_overlap lp k nn a ks sched s evs l1 x l2 y l3 :
  Exec lp (Node k nn a (OKids KSer) ks) sched s evs ->
  fields evs = l1 ++ x :: l2 ++ y :: l3 -> x = y \/ before (map key ks) x y.
Proof. intros He Hf. exact (Ord_before _ _ (serial_order _ _ _ _ _ _ _ _ He) _ _ _ _ _ Hf). Qed.

(* at most one root field is at work: every reachable state of a serial root is done, or consists of fields that are
   done with nothing pending below them, ONE field at work (running, or done with background work still pending below
   it) and fields that have not been started *)
Theorem serial_one_at_a_time lp k nn a ks sched s evs :
  Exec lp (Node k nn a (OKids KSer) ks) sched s evs ->
  is_done s = true \/
  exists pre x rest, s = SRun k nn KSer (pre ++ [x]) rest /\ all_settled pre = true /\
                     exists ks1, ks = ks1 ++ rest /\ map skey (pre ++ [x]) = map key ks1.
Proof.
  intros He. pose proof (exec_rep _ _ _ _ _ He) as HR.
  assert (H : is_done s = true \/ exists c K2, SerInv c K2 s).
  { destruct He as (s0 & e0 & e1 & Hi & Hr & ->).
    destruct (init_ser _ _ _ _ _ _ _ Hi) as [[Hp Ho]|(M & c & K2 & _ & Hinv & _)].
    - destruct (run_nostep _ _ _ _ Hr Hp) as [_ ->].
      pose proof (init_rep lp (Node k nn a (OKids KSer) ks)) as HR0. rewrite Hi in HR0.
      destruct (is_done s0) eqn:Ed; [left; reflexivity|]. exfalso. exact (rep_pending _ _ HR0 Ed Hp).
    - destruct (run_ser _ _ _ _ Hr c K2 Hinv) as [_ (c' & K2' & [Hs|[Hd _]])]; eauto. }
  destruct H as [H|(c & K2 & k' & nn' & pre & x & rest & -> & Hpre & _)]; [left; exact H|right].
  remember (Node k nn a (OKids KSer) ks) as root eqn:Er.
  remember (SRun k' nn' KSer (pre ++ [x]) rest) as s eqn:Es.
  destruct HR as [n|n d bg Hd|k0 nn0 a0 kd0 ks1 rest0 sts HF Hnd]; try discriminate.
  inversion Er; inversion Es; subst.
  exists pre, x, rest. split; [reflexivity|]. split; [exact Hpre|].
  exists ks1. split; [reflexivity|apply rep_keys; exact HF].
Qed.
