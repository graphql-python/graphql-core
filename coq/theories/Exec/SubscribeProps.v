(* The subscription pipeline: what has been delivered plus what is still due is the specified
   stream, at every step of every interleaving (C07). *)
From GV Require Import Base.Prelude Exec.Subscribe.

Section Props.
  Variable E R : Type.
  Variable exec : E -> R.
  Notation state := (state E).
  Notation run := (run_steps E R exec).
  Notation step := (step E R exec).
  Notation remaining := (remaining E R exec).
  Notation spec_outputs := (spec_outputs E R exec).

  Lemma step_inv (s : state) ev :
    let '(s', o) := step s ev in o ++ remaining s' = remaining s.
  Proof.
    destruct s as [sr st]. unfold Subscribe.step, Subscribe.remaining. cbn [stg src].
    destruct st as [| |e|]; destruct ev; cbn; try reflexivity.
    destruct sr as [|[e|] r]; cbn; reflexivity.
  Qed.

  Lemma run_inv evs : forall (s : state),
    let '(s', o) := run s evs in o ++ remaining s' = remaining s.
  Proof.
    induction evs as [|ev r IH]; intros s; cbn.
    - reflexivity.
    - pose proof (step_inv s ev) as H1. destruct (step s ev) as [s1 o1].
      pose proof (IH s1) as H2. destruct (run s1 r) as [s2 o2].
      rewrite <- app_assoc, H2. exact H1.
  Qed.

  (* Under every interleaving of pulls, source readiness and callback completions, what has
     been delivered so far followed by what is still due is exactly the specified stream. *)
  Theorem delivered_is_prefix src0 evs :
    let '(s', o) := run (mkSt E src0 (Idle E)) evs in
    o ++ remaining s' = spec_outputs src0.
  Proof. exact (run_inv evs (mkSt E src0 (Idle E))). Qed.

  (* the events a source yields before it fails, and whether it fails *)
  Fixpoint events_before_fail (src : list (src_item E)) : list E :=
    match src with Ev _ e :: r => e :: events_before_fail r | _ => [] end.
  Fixpoint has_fail (src : list (src_item E)) : bool :=
    match src with [] => false | Ev _ _ :: r => has_fail r | Fail _ :: _ => true end.

  (* n rounds of pull, source ready, callback done *)
  Fixpoint fair (n : nat) : list step_ev :=
    match n with O => [] | S k => Pull :: SourceReady :: CallbackDone :: fair k end.

  Lemma done_stays evs : forall (st0 : state), stg E st0 = Done E -> stg E (fst (run st0 evs)) = Done E.
  Proof.
    induction evs as [|ev evs IHe]; intros st0 Hs; cbn; [exact Hs|].
    destruct st0 as [sr st]. cbn in Hs. subst st.
    assert (Hstep : step (mkSt E sr (Done E)) ev = (mkSt E sr (Done E), [])) by (destruct ev; reflexivity).
    rewrite Hstep. specialize (IHe (mkSt E sr (Done E)) eq_refl).
    destruct (run (mkSt E sr (Done E)) evs). exact IHe.
  Qed.

End Props.
