(* Strings, membership, association lists, input values and selections: the facts every proof about the
   execution model uses.  Depends on Exec/Value.v and Exec/Schema.v only. *)
From GV Require Import Base.Prelude Exec.Value Exec.Schema.

Lemma str_eqb_eq a b : str_eqb a b = true <-> a = b.
Proof. exact (nat_list_eqb_eq a b). Qed.

Lemma str_eqb_refl a : str_eqb a a = true.
Proof. apply str_eqb_eq. reflexivity. Qed.

Lemma str_eqb_neq a b : str_eqb a b = false <-> a <> b.
Proof.
  rewrite <- str_eqb_eq. destruct (str_eqb a b); split; congruence.
Qed.

Lemma mem_In k l : mem k l = true <-> In k l.
Proof.
  unfold mem. rewrite existsb_exists. split.
  - intros [x [H1 H2]]. apply str_eqb_eq in H2. subst. exact H1.
  - intro H. exists k. split; [exact H | apply str_eqb_refl].
Qed.

Lemma mem_not_In k l : mem k l = false <-> ~ In k l.
Proof.
  rewrite <- mem_In. destruct (mem k l); split; congruence.
Qed.

Lemma lookup_In {A} k (l : list (str * A)) v : lookup k l = Some v -> In (k, v) l.
Proof.
  induction l as [|[k' v'] r IH]; cbn; [discriminate|].
  destruct (str_eqb k k') eqn:E.
  - intro H. inversion H; subst. apply str_eqb_eq in E. subst. left. reflexivity.
  - intro H. right. apply IH. exact H.
Qed.

(* [find_field], [find_arg], [find_var]: the first element whose name is [n] *)
Lemma find_named_In {A} (name : A -> str) (find : str -> list A -> option A) :
  (forall n, find n [] = None) ->
  (forall n a r, find n (a :: r) = if str_eqb n (name a) then Some a else find n r) ->
  forall n l a, find n l = Some a -> In a l /\ name a = n.
Proof.
  intros Hnil Hcons n l a. induction l as [|x r IH]; [rewrite Hnil; discriminate|].
  rewrite Hcons. destruct (str_eqb n (name x)) eqn:E.
  - intro H. inversion H; subst. apply str_eqb_eq in E. split; [left; reflexivity | congruence].
  - intro H. destruct (IH H) as [H1 H2]. split; [right; exact H1 | exact H2].
Qed.

Lemma value_ind' (P : value -> Prop) :
  P VNull -> (forall z, P (VInt z)) -> (forall n d, P (VFloat n d)) -> (forall x, P (VStr x)) ->
  (forall b, P (VBool b)) -> (forall x, P (VEnum x)) -> (forall x, P (VVar x)) ->
  (forall l, Forall P l -> P (VList l)) ->
  (forall l, Forall (fun kv => P (snd kv)) l -> P (VObj l)) -> forall v, P v.
Proof.
  intros Hn Hi Hf Hs Hb He Hv Hl Ho. fix IH 1.
  intros [ | z | n d | x | b | x | x | l | l];
    [exact Hn | apply Hi | apply Hf | apply Hs | apply Hb | apply He | apply Hv | | ].
  - apply Hl. induction l as [|x r IHr]; constructor; [apply IH | exact IHr].
  - apply Ho. induction l as [|[k x] r IHr]; constructor; [apply IH | exact IHr].
Qed.

(* selections nest through lists, like list and object values *)
Lemma selection_sub_ind (P : selection -> Prop) :
  (forall al name args dirs sub, Forall P sub -> P (SField al name args dirs sub)) ->
  (forall name dirs, P (SSpread name dirs)) ->
  (forall tc dirs sub, Forall P sub -> P (SInline tc dirs sub)) ->
  forall x, P x.
Proof.
  intros Hf Hs Hi. fix IH 1. intros [al name args dirs sub | name dirs | tc dirs sub];
    [apply Hf|apply Hs|apply Hi]; induction sub as [|y r IHr]; constructor; auto.
Qed.
