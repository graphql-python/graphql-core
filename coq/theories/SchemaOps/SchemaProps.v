(* The boolean equalities of Schema.v are reflexive and decide equality of names; induction on
   literal trees. *)
From GV Require Import Base.Prelude SchemaOps.Schema.

Lemma text_eqb_refl a : text_eqb a a = true.
Proof. apply nat_list_eqb_eq. reflexivity. Qed.

Lemma text_eqb_true a b : text_eqb a b = true -> a = b.
Proof. apply nat_list_eqb_eq. Qed.

Lemma otext_eqb_refl a : otext_eqb a a = true.
Proof. destruct a; cbn; [apply text_eqb_refl|reflexivity]. Qed.

Lemma tref_eqb_refl t : tref_eqb t t = true.
Proof. induction t; cbn; auto using text_eqb_refl. Qed.

Lemma tref_eqb_true o n : tref_eqb o n = true -> o = n.
Proof.
  revert n. induction o; intros [] E; cbn in E; try discriminate;
    [apply text_eqb_true in E; congruence | f_equal; auto | f_equal; auto].
Qed.

Section ValueInd.
Variable P : value -> Prop.
Hypothesis Hleaf : forall t x, P (VLeaf t x).
Hypothesis Hlist : forall l, Forall P l -> P (VList l).
Hypothesis Hobj : forall l, Forall (fun kv => P (snd kv)) l -> P (VObj l).
Fixpoint value_ind' (v : value) : P v :=
  match v with
  | VLeaf t x => Hleaf t x
  | VList l =>
      Hlist l ((fix go (l : list value) : Forall P l :=
                  match l with
                  | [] => Forall_nil _
                  | a :: r => Forall_cons _ (value_ind' a) (go r)
                  end) l)
  | VObj l =>
      Hobj l ((fix go (l : list (name * value)) : Forall (fun kv => P (snd kv)) l :=
                 match l with
                 | [] => Forall_nil _
                 | kv :: r =>
                     Forall_cons kv
                       (match kv as kv0 return P (snd kv0) with (k, a) => value_ind' a end) (go r)
                 end) l)
  end.
End ValueInd.

Lemma value_eqb_refl v : value_eqb v v = true.
Proof.
  induction v as [t x | l IH | l IH] using value_ind'; cbn [value_eqb].
  - rewrite N.eqb_refl, text_eqb_refl. reflexivity.
  - induction IH as [|a r Ha Hr IHr]; [reflexivity|]. rewrite Ha. exact IHr.
  - induction IH as [|[k a] r Ha Hr IHr]; [reflexivity|]. cbn in Ha. rewrite text_eqb_refl, Ha. exact IHr.
Qed.

