(* Lemmas about Introspect.v: pruning the full entry of every kind gives the entry under the options;
   what the type list and a type entry look like.  Properties/C18.v states the results. *)
From GV Require Import Base.Prelude Base.ListFacts SchemaOps.Schema SchemaOps.Introspect.

Lemma prune_deprecated {A} (b : bool) (dep : A -> bool) (g g' : A -> json) (f : json -> json) l :
  (forall a, f (g a) = g' a) -> (forall a, not_deprecated (g a) = negb (dep a)) ->
  each f (if b then JArr (map g l) else only not_deprecated (JArr (map g l)))
  = JArr (map g' (filter (fun a => b || negb (dep a)) l)).
Proof.
  intros Hf Hd. destruct b; cbn [orb each only].
  - rewrite (filter_true _ l) by reflexivity. rewrite map_map. f_equal. apply map_ext. exact Hf.
  - f_equal. induction l as [|a r IH]; cbn [map filter]; [reflexivity|].
    rewrite Hd. destruct (negb (dep a)); cbn [map]; [rewrite Hf, IH; reflexivity | exact IH].
Qed.

Section Props.
Variable pv : value -> list N.
Variable s : schema.
Variable o : opts.

Lemma prune_input_value_ok a :
  prune_input_value o (input_value pv s full a) = input_value pv s o a.
Proof.
  unfold prune_input_value, input_value, keep_keys, full, kv_if; cbn -[typeref].
  destruct (o_descriptions o), (o_input_value_deprecation o); cbn -[typeref]; reflexivity.
Qed.

Lemma not_deprecated_input_value a :
  not_deprecated (input_value pv s full a) = negb (is_some (a_depr a)).
Proof.
  unfold not_deprecated, input_value, get_key, full, kv_if; cbn -[typeref].
  destruct (a_depr a); reflexivity.
Qed.

Lemma prune_input_values_ok l :
  prune_input_values o (input_values pv s full l) = input_values pv s o l.
Proof.
  unfold prune_input_values, input_values. rewrite (filter_true _ l) by reflexivity.
  apply (prune_deprecated _ (fun a => is_some (a_depr a)));
    [exact prune_input_value_ok | exact not_deprecated_input_value].
Qed.

Lemma prune_field_ok f : prune_field o (field_json pv s full f) = field_json pv s o f.
Proof.
  unfold prune_field, drop_description, field_json, keep_keys, at_key, full, kv_if;
    cbn -[typeref input_values prune_input_values].
  destruct (o_descriptions o); cbn -[typeref input_values prune_input_values];
    rewrite prune_input_values_ok; reflexivity.
Qed.

Lemma drop_description_enum e :
  drop_description o (enum_value_json full e) = enum_value_json o e.
Proof.
  unfold drop_description, enum_value_json, keep_keys, full, kv_if; cbn.
  destruct (o_descriptions o); reflexivity.
Qed.

Lemma each_map (f : json -> json) {A} (g : A -> json) l : each f (JArr (map g l)) = JArr (map (fun x => f (g x)) l).
Proof. cbn. rewrite map_map. reflexivity. Qed.

Lemma each_if (f : json -> json) {A} (g g' : A -> json) (b : bool) l :
  (forall x, f (g x) = g' x) ->
  each f (if b then JArr (map g l) else JNull) = if b then JArr (map g' l) else JNull.
Proof. intro H. destruct b; [|reflexivity]. rewrite each_map. f_equal. apply map_ext. exact H. Qed.

Lemma prune_type_ok t : prune_type o (type_json pv s full t) = type_json pv s o t.
Proof.
  unfold prune_type, type_json, keep_keys, at_key, kv_if.
  assert (Hi : forall b : bool,
             prune_input_values o (if b then input_values pv s full (t_inputs t) else JNull)
             = (if b then input_values pv s o (t_inputs t) else JNull)).
  { intros [|]; [apply prune_input_values_ok|].
    unfold prune_input_values. destruct (o_input_value_deprecation o); reflexivity. }
  unfold full in *.
  destruct (o_descriptions o), (o_specified_by_url o), (o_one_of o);
    cbn -[typeref input_values prune_input_values field_json prune_field enum_value_json drop_description
          possible_types named_ref each];
    rewrite (each_if _ _ _ _ _ prune_field_ok), Hi, (each_if _ _ _ _ _ drop_description_enum); reflexivity.
Qed.

Lemma prune_directive_ok d : prune_directive o (directive_json pv s full d) = directive_json pv s o d.
Proof.
  unfold prune_directive, directive_json, keep_keys, at_key, full, kv_if;
    cbn -[typeref input_values prune_input_values].
  destruct (o_descriptions o), (o_directive_is_repeatable o), (o_directive_deprecation o);
    cbn -[typeref input_values prune_input_values]; rewrite prune_input_values_ok; reflexivity.
Qed.

Lemma not_deprecated_directive d :
  not_deprecated (directive_json pv s full d) = negb (is_some (d_depr d)).
Proof.
  unfold not_deprecated, directive_json, get_key, full, kv_if; cbn -[input_values].
  destruct (d_depr d); reflexivity.
Qed.

Lemma prune_directives_ok l :
  prune_directives o (JArr (map (directive_json pv s full) (filter (fun d => o_directive_deprecation full || negb (is_some (d_depr d))) l)))
  = JArr (map (directive_json pv s o) (filter (fun d => o_directive_deprecation o || negb (is_some (d_depr d))) l)).
Proof.
  unfold prune_directives. rewrite (filter_true _ l) by reflexivity.
  apply (prune_deprecated _ (fun d => is_some (d_depr d)));
    [exact prune_directive_ok | exact not_deprecated_directive].
Qed.

Lemma prune_schema_ok : prune_schema o (schema_json pv s full) = schema_json pv s o.
Proof.
  unfold prune_schema, schema_json, keep_keys, at_key, kv_if.
  change (o_descriptions full && o_schema_description full) with true. cbv iota.
  destruct (o_descriptions o && o_schema_description o);
    cbn -[root_json type_json directive_json prune_type prune_directives each full orb];
    rewrite prune_directives_ok, each_map;
    rewrite (map_ext _ _ prune_type_ok); reflexivity.
Qed.

Lemma name_of_type_json t : get_key k_name (type_json pv s o t) = JStr (t_name t).
Proof. unfold type_json, get_key, kv_if. cbn -[field_json input_values named_ref enum_value_json possible_types]. reflexivity. Qed.

Lemma types_of_introspect :
  get_key k_types (get_key k_schema (introspect pv s o)) = JArr (map (type_json pv s o) (s_types s)).
Proof.
  unfold introspect, schema_json, kv_if.
  destruct (o_descriptions o && o_schema_description o);
    cbn -[root_json type_json directive_json filter]; reflexivity.
Qed.

End Props.
