(* Proofs about Diff.v: reflexivity, order-insensitivity (no changes between a schema and any
   container-wise permutation of it, in particular its sort). *)
From Coq Require Import Permutation.
From GV Require Import Base.Prelude Base.ListFacts SchemaOps.Schema SchemaOps.SchemaProps SchemaOps.Sort
  SchemaOps.SortProps SchemaOps.Diff.

Lemma safe_in_refl t : safe_in t t = true.
Proof. induction t; cbn; auto using text_eqb_refl. Qed.

Lemma safe_out_refl t : safe_out t t = true.
Proof. induction t; cbn; auto using text_eqb_refl. Qed.

Lemma find_by_some {A} (key : A -> name) n l y :
  find_by key n l = Some y -> In y l /\ key y = n.
Proof.
  induction l as [|x r IH]; cbn; [discriminate|].
  destruct (text_eqb (key x) n) eqn:E.
  - intro H. inversion H; subst. split; [left; reflexivity|apply text_eqb_true; exact E].
  - intro H. destruct (IH H). split; [right|]; assumption.
Qed.

Lemma find_by_in {A} (key : A -> name) x l :
  NoDup (map key l) -> In x l -> find_by key (key x) l = Some x.
Proof.
  induction l as [|y r IH]; cbn; [contradiction|].
  intros Hnd [->|Hin].
  - rewrite text_eqb_refl. reflexivity.
  - inversion Hnd as [|? ? Hni Hnd']; subst.
    destruct (text_eqb (key y) (key x)) eqn:E.
    + apply text_eqb_true in E. exfalso. apply Hni. rewrite E. apply in_map. exact Hin.
    + apply IH; assumption.
Qed.

Lemma has_in {A} (key : A -> name) n l : In n (map key l) -> has key n l = true.
Proof.
  unfold has. induction l as [|y r IH]; cbn; [contradiction|].
  intros [<-|Hin].
  - rewrite text_eqb_refl. reflexivity.
  - destruct (text_eqb (key y) n); [reflexivity|apply IH; exact Hin].
Qed.

Lemma absent_nil {A B} (ka : A -> name) (kb : B -> name) l other :
  (forall x, In x l -> In (ka x) (map kb other)) -> absent ka kb l other = [].
Proof.
  intro H. unfold absent. induction l as [|x r IH]; cbn; [reflexivity|].
  rewrite (has_in kb (ka x) other) by (apply H; left; reflexivity). cbn.
  apply IH. intros y Hy. apply H. right. exact Hy.
Qed.

Lemma persisted_in {A} (key : A -> name) old new x y :
  In (x, y) (persisted key old new) -> In x old /\ find_by key (key x) new = Some y.
Proof.
  induction old as [|z r IH]; cbn; [contradiction|].
  destruct (find_by key (key z) new) eqn:E.
  - intros [H|H].
    + inversion H; subst. split; [left; reflexivity|exact E].
    + destruct (IH H). split; [right|]; assumption.
  - intro H. destruct (IH H). split; [right|]; assumption.
Qed.

Lemma mem_name_in n l : In n l -> mem_name n l = true.
Proof.
  unfold mem_name. intro H. apply existsb_exists. exists n. split; [exact H|apply text_eqb_refl].
Qed.

Lemma Forall2_in_l {A} (R : A -> A -> Prop) l m x :
  Forall2 R l m -> In x l -> exists y, In y m /\ R x y.
Proof.
  induction 1 as [|a b l m Hab H IH]; cbn; [contradiction|].
  intros [->|Hin].
  - exists b. split; [left; reflexivity|exact Hab].
  - destruct (IH Hin) as [y [Hy Hr]]. exists y. split; [right|]; assumption.
Qed.

Lemma Forall2_in_r {A} (R : A -> A -> Prop) l m y :
  Forall2 R l m -> In y m -> exists x, In x l /\ R x y.
Proof.
  induction 1 as [|a b l m Hab H IH]; cbn; [contradiction|].
  intros [->|Hin].
  - exists a. split; [left; reflexivity|exact Hab].
  - destruct (IH Hin) as [x [Hx Hr]]. exists x. split; [right|]; assumption.
Qed.

Lemma Forall2_map_key {A} (R : A -> A -> Prop) (key : A -> name) l m :
  (forall x y, R x y -> key x = key y) -> Forall2 R l m -> map key l = map key m.
Proof.
  intros Hk. induction 1 as [|a b l m Hab H IH]; cbn; [reflexivity|].
  rewrite (Hk _ _ Hab), IH. reflexivity.
Qed.

Section Related.
Context {A : Type} (R : A -> A -> Prop) (key : A -> name).
Hypothesis Rkey : forall x y, R x y -> key x = key y.
Variables old new : list A.
Hypothesis Hrel : PermRel R old new.
Hypothesis Hnd : NoDup (map key old).

Lemma related_nodup_new : NoDup (map key new).
Proof.
  destruct Hrel as [m [Hf Hp]].
  apply (Permutation_NoDup (l := map key m)); [apply Permutation_map; exact Hp|].
  rewrite <- (Forall2_map_key R key old m Rkey Hf). exact Hnd.
Qed.

Lemma related_lookup x : In x old -> exists y, find_by key (key x) new = Some y /\ R x y.
Proof.
  intro Hin. destruct Hrel as [m [Hf Hp]].
  destruct (Forall2_in_l R old m x Hf Hin) as [y [Hy Hr]].
  exists y. split; [|exact Hr].
  rewrite (Rkey _ _ Hr). apply find_by_in; [apply related_nodup_new|].
  eapply Permutation_in; eassumption.
Qed.

Lemma related_keys_l x : In x old -> In (key x) (map key new).
Proof.
  intro Hin. destruct (related_lookup x Hin) as [y [Hy _]].
  apply find_by_some in Hy. destruct Hy as [Hy Hk]. rewrite <- Hk. apply in_map. exact Hy.
Qed.

Lemma related_keys_r y : In y new -> In (key y) (map key old).
Proof.
  intro Hin. destruct Hrel as [m [Hf Hp]].
  assert (Hm : In y m) by (eapply Permutation_in; [apply Permutation_sym; exact Hp|exact Hin]).
  destruct (Forall2_in_r R old m y Hf Hm) as [x [Hx Hr]].
  rewrite <- (Rkey _ _ Hr). apply in_map. exact Hx.
Qed.

Lemma related_persisted x y : In (x, y) (persisted key old new) -> In x old /\ R x y.
Proof.
  intro H. apply persisted_in in H. destruct H as [Hin Hf].
  split; [exact Hin|].
  destruct (related_lookup x Hin) as [y' [Hy' Hr]]. rewrite Hf in Hy'. inversion Hy'; subst. exact Hr.
Qed.

(* related containers give rise to no change: nothing is absent on either side, and every
   persisted pair is a related pair *)
Lemma related_quiet {B} (pc : A * A -> list B) :
  (forall x y, In x old -> R x y -> pc (x, y) = []) ->
  absent key key old new = [] /\ absent key key new old = [] /\ flat_map pc (persisted key old new) = [].
Proof.
  intro H. split; [apply absent_nil; exact related_keys_l|]. split; [apply absent_nil; exact related_keys_r|].
  apply flat_map_nil. intros [x y] Hp. apply related_persisted in Hp. destruct Hp as [Hin Hr]. exact (H x y Hin Hr).
Qed.
End Related.

Lemma perm_PermRel {A} (l l' : list A) : Permutation l l' -> PermRel eq l l'.
Proof.
  intro H. exists l. split; [|exact H]. clear H. induction l; constructor; auto.
Qed.

(* a permuted container with unique names: nothing is removed or added, every item meets itself *)
Lemma perm_quiet {A B} (key : A -> name) o n (pc : A * A -> list B) :
  Permutation o n -> NoDup (map key o) -> (forall x, pc (x, x) = []) ->
  absent key key o n = [] /\ absent key key n o = [] /\ flat_map pc (persisted key o n) = [].
Proof.
  intros Hp Hnd H. apply (related_quiet eq key (f_equal key) o n (perm_PermRel _ _ Hp) Hnd).
  intros x y _ <-. apply H.
Qed.

(* well-formedness: names are unique inside every keyed container *)
Definition wf_field (f : field) : Prop := NoDup (map a_name (f_args f)).
Definition wf_type (t : typedef) : Prop :=
  NoDup (map f_name (t_fields t)) /\ Forall wf_field (t_fields t)
  /\ NoDup (map e_name (t_values t)) /\ NoDup (map a_name (t_inputs t)).
Definition wf_dir (d : directive) : Prop := NoDup (map a_name (d_args d)).
Definition wf (s : schema) : Prop :=
  NoDup (map t_name (s_types s)) /\ Forall wf_type (s_types s)
  /\ NoDup (map d_name (s_directives s)) /\ Forall wf_dir (s_directives s).

Section NoChanges.
Variable leb : name -> name -> bool.

Lemma desc_change_refl p a : desc_change p a a = [].
Proof. unfold desc_change. rewrite otext_eqb_refl. reflexivity. Qed.

Lemma arg_pair_refl p a : arg_pair_changes leb p a a = [].
Proof.
  unfold arg_pair_changes. rewrite safe_in_refl, desc_change_refl. cbn.
  destruct (a_default a); [unfold default_eqb; rewrite value_eqb_refl|rewrite tref_eqb_refl]; reflexivity.
Qed.

Lemma args_no_change p o n :
  Permutation o n -> NoDup (map a_name o) -> field_arg_changes leb p o n = [].
Proof.
  intros Hp Hnd. unfold field_arg_changes.
  destruct (perm_quiet a_name o n (fun q => arg_pair_changes leb p (fst q) (snd q)) Hp Hnd)
    as (-> & -> & ->); [|reflexivity].
  intro x. apply arg_pair_refl.
Qed.

Lemma field_pair_no_change tn f f' : field_rel f f' -> wf_field f -> field_pair_changes leb tn f f' = [].
Proof.
  intros (Hn & Ht & Hd & _ & Hp) Hwf. unfold field_pair_changes.
  rewrite (args_no_change _ _ _ Hp Hwf). rewrite <- Ht, <- Hd.
  rewrite safe_out_refl, tref_eqb_refl, desc_change_refl. reflexivity.
Qed.

Lemma field_rel_key x y : field_rel x y -> f_name x = f_name y.
Proof. intros (H & _). exact H. Qed.

Lemma fields_no_change tn o n :
  PermRel field_rel o n -> NoDup (map f_name o) -> Forall wf_field o -> field_changes leb tn o n = [].
Proof.
  intros Hp Hnd Hwf. unfold field_changes.
  destruct (related_quiet field_rel f_name field_rel_key o n Hp Hnd
              (fun q => field_pair_changes leb tn (fst q) (snd q))) as (-> & -> & ->); [|reflexivity].
  intros x y Hin Hr. apply field_pair_no_change; [exact Hr|].
  rewrite Forall_forall in Hwf. apply Hwf. exact Hin.
Qed.

Lemma names_absent o n : Permutation o n -> absent idn idn o n = [].
Proof.
  intro Hp. apply absent_nil. intros x Hx. rewrite map_id. unfold idn.
  eapply Permutation_in; eassumption.
Qed.

(* interfaces and union members: plain names, reported as added or removed *)
Lemma names_no_change (added removed : name -> change) o n : Permutation o n ->
  map added (absent idn idn n o) ++ map removed (absent idn idn o n) = [].
Proof. intro Hp. rewrite (names_absent n o (Permutation_sym Hp)), (names_absent o n Hp). reflexivity. Qed.

Lemma ifaces_no_change tn o n : Permutation o n -> iface_changes tn o n = [].
Proof. apply names_no_change. Qed.

Lemma union_no_change tn o n : Permutation o n -> union_changes tn o n = [].
Proof. apply names_no_change. Qed.

Lemma enum_no_change tn o n :
  Permutation o n -> NoDup (map e_name o) -> enum_changes tn o n = [].
Proof.
  intros Hp Hnd. unfold enum_changes.
  destruct (perm_quiet e_name o n (fun q => desc_change [tn; e_name (fst q)] (e_desc (fst q)) (e_desc (snd q)))
              Hp Hnd) as (-> & -> & ->); [|reflexivity].
  intro x. apply desc_change_refl.
Qed.

Lemma input_no_change tn o n :
  Permutation o n -> NoDup (map a_name o) -> input_changes tn o n = [].
Proof.
  intros Hp Hnd. unfold input_changes.
  destruct (perm_quiet a_name o n (fun q => input_pair_changes tn (fst q) (snd q)) Hp Hnd)
    as (-> & -> & ->); [|reflexivity].
  intro x. unfold input_pair_changes. cbn [fst snd].
  rewrite safe_in_refl, tref_eqb_refl, desc_change_refl. reflexivity.
Qed.

Lemma type_pair_no_change t t' : type_rel t t' -> wf_type t -> type_pair_changes leb t t' = [].
Proof.
  intros (Hk & Hn & Hd & _ & _ & Hf & Hi & Hm & Hv & Hin) (Wf & Wff & Wv & Wi).
  unfold type_pair_changes. rewrite <- Hd, <- Hk, desc_change_refl. cbn [app].
  rewrite (enum_no_change _ _ _ Hv Wv), (union_no_change _ _ _ Hm), (input_no_change _ _ _ Hin Wi),
    (fields_no_change _ _ _ Hf Wf Wff), (ifaces_no_change _ _ _ Hi), N.eqb_refl.
  cbn [app].
  repeat match goal with |- (if ?c then _ else _) = _ => destruct c end; reflexivity.
Qed.

Lemma type_rel_key x y : type_rel x y -> t_name x = t_name y.
Proof. intros (_ & H & _). exact H. Qed.

Lemma types_no_change o n :
  PermRel type_rel o n -> NoDup (map t_name o) -> Forall wf_type o -> type_changes leb o n = [].
Proof.
  intros Hp Hnd Hwf. unfold type_changes.
  destruct (related_quiet type_rel t_name type_rel_key o n Hp Hnd
              (fun q => type_pair_changes leb (fst q) (snd q))) as (-> & -> & ->); [|reflexivity].
  intros x y Hin Hr. apply type_pair_no_change; [exact Hr|].
  rewrite Forall_forall in Hwf. apply Hwf. exact Hin.
Qed.

Lemma locs_filter_nil o n : Permutation o n -> filter (fun l => negb (mem_name l n)) o = [].
Proof.
  intro Hp. apply filter_nil. intros x Hx.
  rewrite mem_name_in; [reflexivity|]. eapply Permutation_in; eassumption.
Qed.

Lemma dir_pair_no_change d d' : dir_rel d d' -> wf_dir d -> directive_pair_changes leb d d' = [].
Proof.
  intros (Hn & Hd & Hr & _ & Ha & Hl) Wa. unfold directive_pair_changes.
  destruct (perm_quiet a_name _ _ (fun q => arg_pair_changes leb [d_name d] (fst q) (snd q)) Ha Wa)
    as (-> & -> & ->).
  { intro x. apply arg_pair_refl. }
  rewrite (locs_filter_nil _ _ Hl), (locs_filter_nil _ _ (Permutation_sym Hl)).
  rewrite <- Hd, <- Hr, desc_change_refl. cbn [map app].
  destruct (d_repeatable d); reflexivity.
Qed.

Lemma dir_rel_key x y : dir_rel x y -> d_name x = d_name y.
Proof. intros (H & _). exact H. Qed.

Lemma dirs_no_change o n :
  PermRel dir_rel o n -> NoDup (map d_name o) -> Forall wf_dir o -> directive_changes leb o n = [].
Proof.
  intros Hp Hnd Hwf. unfold directive_changes.
  destruct (related_quiet dir_rel d_name dir_rel_key o n Hp Hnd
              (fun q => directive_pair_changes leb (fst q) (snd q))) as (-> & -> & ->); [|reflexivity].
  intros x y Hin Hr. apply dir_pair_no_change; [exact Hr|].
  rewrite Forall_forall in Hwf. apply Hwf. exact Hin.
Qed.

(* no change is reported between a schema and a rearrangement of its containers *)
Theorem diff_rel_nil a b : wf a -> schema_rel a b -> diff leb a b = [].
Proof.
  intros (Wt & Wtt & Wd & Wdd) (_ & _ & _ & _ & Ht & Hd). unfold diff.
  rewrite (types_no_change _ _ Ht Wt Wtt), (dirs_no_change _ _ Hd Wd Wdd). reflexivity.
Qed.

Theorem diff_refl s : wf s -> diff leb s s = [].
Proof. intro H. apply diff_rel_nil; [exact H|apply schema_rel_refl]. Qed.

End NoChanges.
