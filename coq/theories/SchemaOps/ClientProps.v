(* build_client (introspect s full) = s. *)
From GV Require Import Base.Prelude Base.ListFacts SchemaOps.Schema SchemaOps.Introspect SchemaOps.Client.

Fixpoint tref_depth (t : tref) : nat :=
  match t with TNamed _ => O | TList i => S (tref_depth i) | TNonNull i => S (tref_depth i) end.

(* [okv]: the default-value literals for which the printer / parser pair of literals round-trips *)
Definition arg_okv (okv : value -> Prop) (a : arg) : Prop :=
  (tref_depth (a_type a) <= TYPE_DEPTH)%nat /\ match a_default a with Some v => okv v | None => True end.
Definition field_okv okv (f : field) : Prop :=
  (tref_depth (f_type f) <= TYPE_DEPTH)%nat /\ Forall (arg_okv okv) (f_args f).

(* containers that do not apply to the kind of a type are empty (introspection cannot carry them) *)
Definition canonical_type (t : typedef) : Prop :=
  t_kind t <= 5
  /\ (t_kind t <> 1 -> t_kind t <> 2 -> t_fields t = [] /\ t_ifaces t = [])
  /\ (t_kind t <> 3 -> t_members t = [])
  /\ (t_kind t <> 4 -> t_values t = [])
  /\ (t_kind t <> 5 -> t_inputs t = [] /\ t_oneof t = false)
  /\ (t_kind t <> 0 -> t_specified_by t = None).

Definition type_okv okv (t : typedef) : Prop :=
  canonical_type t /\ Forall (field_okv okv) (t_fields t) /\ Forall (arg_okv okv) (t_inputs t).
Definition dir_okv okv (d : directive) : Prop := Forall (arg_okv okv) (d_args d).
Definition client_okv okv (s : schema) : Prop :=
  Forall (type_okv okv) (s_types s) /\ Forall (dir_okv okv) (s_directives s).

(* no condition on the literals (for a printer / parser pair that round-trips on every literal) *)
Definition any_value (v : value) : Prop := True.
Definition arg_ok := arg_okv any_value.
Definition field_ok := field_okv any_value.
Definition type_ok := type_okv any_value.
Definition dir_ok := dir_okv any_value.
Definition client_ok := client_okv any_value.

Lemma mapM_map {A B} (f : B -> option A) (g : A -> B) l :
  (forall x, In x l -> f (g x) = Some x) -> mapM f (map g l) = Some l.
Proof.
  induction l as [|x r IH]; intro H; cbn; [reflexivity|].
  rewrite (H x) by (left; reflexivity). rewrite IH; [reflexivity|].
  intros y Hy. apply H. right. exact Hy.
Qed.

Lemma jotext_jopt d : jotext (jopt d) = d.
Proof. destruct d; reflexivity. Qed.

Lemma kind_name_not_wrapper k :
  nat_list_eqb (kind_name k) k_LIST = false /\ nat_list_eqb (kind_name k) k_NON_NULL = false.
Proof.
  unfold kind_name.
  destruct (k =? 0); [split; reflexivity|]. destruct (k =? 1); [split; reflexivity|].
  destruct (k =? 2); [split; reflexivity|]. destruct (k =? 3); [split; reflexivity|].
  destruct (k =? 4); split; reflexivity.
Qed.

Section Props.
Variable pv : value -> list N.
Variable parse : list N -> option value.
Variable okv : value -> Prop.
Hypothesis parse_print : forall v, okv v -> parse (pv v) = Some v.
Variable s : schema.

(* a named type is read back by its name; its kind string is never that of a wrapper *)
Lemma named_roundtrip d n : tref_of (S d) (typeref s d (TNamed n)) = Some (TNamed n).
Proof.
  destruct d; cbn [typeref tref_of]; cbn -[kind_name tref_of]; unfold kind_of_named.
  all: destruct (find_by t_name n (s_types s)) as [t|]; cbn -[kind_name tref_of]; [|reflexivity].
  all: unfold text_eqb; destruct (kind_name_not_wrapper (t_kind t)) as [H1 H2]; rewrite H1, H2; reflexivity.
Qed.

Lemma tref_roundtrip d t : (tref_depth t <= d)%nat -> tref_of (S d) (typeref s d t) = Some t.
Proof.
  revert t. induction d as [|d IH]; intros [n|i|i] Hd; try apply named_roundtrip; cbn in Hd; try lia.
  - cbn -[tref_of typeref].
    change (option_map TList (tref_of (S d) (typeref s d i)) = Some (TList i)).
    rewrite IH by lia. reflexivity.
  - cbn -[tref_of typeref].
    change (option_map TNonNull (tref_of (S d) (typeref s d i)) = Some (TNonNull i)).
    rewrite IH by lia. reflexivity.
Qed.

Lemma arg_roundtrip a : (arg_okv okv) a -> arg_of parse (input_value pv s full a) = Some a.
Proof.
  intros [H Hv]. unfold arg_of, input_value, full, kv_if. cbn -[typeref tref_of REF_FUEL TYPE_DEPTH].
  change REF_FUEL with (S TYPE_DEPTH). rewrite (tref_roundtrip TYPE_DEPTH (a_type a) H).
  destruct a as [n t [v|] ds dp]; cbn -[typeref tref_of] in *.
  - rewrite (parse_print v Hv), !jotext_jopt. reflexivity.
  - rewrite !jotext_jopt. reflexivity.
Qed.

Lemma args_roundtrip l : Forall (arg_okv okv) l -> args_of parse (input_values pv s full l) = Some l.
Proof.
  intro H. unfold args_of, input_values. rewrite (filter_true _ l) by (intro; reflexivity). cbn [jitems].
  apply mapM_map. intros a Ha. apply arg_roundtrip. rewrite Forall_forall in H. apply H. exact Ha.
Qed.

Lemma field_roundtrip f : (field_okv okv) f -> field_of parse (field_json pv s full f) = Some f.
Proof.
  intros [Ht Ha]. unfold field_of, field_json, full, kv_if.
  cbn -[typeref tref_of REF_FUEL TYPE_DEPTH input_values args_of].
  change (mkOpts true true true true true true true) with full.
  rewrite (args_roundtrip _ Ha). change REF_FUEL with (S TYPE_DEPTH).
  rewrite (tref_roundtrip TYPE_DEPTH (f_type f) Ht), !jotext_jopt. destruct f; reflexivity.
Qed.

Lemma enumval_roundtrip e : enumval_of (enum_value_json full e) = Some e.
Proof. unfold enumval_of, enum_value_json, full, kv_if. cbn. rewrite !jotext_jopt. destruct e; reflexivity. Qed.

Lemma ref_name_named n : ref_name (named_ref s n) = Some n.
Proof. unfold ref_name, named_ref. cbn. reflexivity. Qed.

Lemma names_roundtrip l : names_of (JArr (map (named_ref s) l)) = Some l.
Proof. unfold names_of. cbn [jitems]. apply mapM_map. intros n _. apply ref_name_named. Qed.

Lemma fields_roundtrip l :
  Forall (field_okv okv) l -> mapM (field_of parse) (map (field_json pv s full) l) = Some l.
Proof.
  intro H. apply mapM_map. intros f Hf. apply field_roundtrip. rewrite Forall_forall in H. apply H. exact Hf.
Qed.

Lemma enumvals_roundtrip l : mapM enumval_of (map (enum_value_json full) l) = Some l.
Proof. apply mapM_map. intros e _. apply enumval_roundtrip. Qed.

Lemma type_roundtrip t : (type_okv okv) t -> type_of parse (type_json pv s full t) = Some t.
Proof.
  intros [(Hk & Hf & Hm & Hv & Hi & Hs) [Hfo Hio]].
  destruct t as [k n ds fs ifs ms vs ins sb oo]; cbn [t_kind t_name t_desc t_fields t_ifaces t_members t_values
    t_inputs t_specified_by t_oneof] in *.
  assert (Hcases : k = 0 \/ k = 1 \/ k = 2 \/ k = 3 \/ k = 4 \/ k = 5) by lia.
  unfold type_of, type_json, possible_types, full, kv_if.
  cbn [t_kind t_name t_desc t_fields t_ifaces t_members t_values t_inputs t_specified_by t_oneof
       o_descriptions o_specified_by_url o_one_of].
  change (mkOpts true true true true true true true) with full.
  destruct Hcases as [E|[E|[E|[E|[E|E] ] ] ] ]; subst k;
    cbn -[field_json input_values named_ref enum_value_json args_of names_of field_of enumval_of filter full].
  (* whatever the kind: the containers that do not apply to it are empty, the others round-trip *)
  all: try (destruct Hf as [-> ->]; [discriminate|discriminate|]).
  all: try rewrite Hm by discriminate.
  all: try rewrite Hv by discriminate.
  all: try rewrite Hs by discriminate.
  all: try (destruct Hi as [-> ->]; [discriminate|]).
  all: rewrite ?(fields_roundtrip _ Hfo), ?names_roundtrip, ?enumvals_roundtrip, ?(args_roundtrip _ Hio), ?jotext_jopt.
  all: cbn; rewrite ?jotext_jopt; reflexivity.
Qed.

Lemma directive_roundtrip d : (dir_okv okv) d -> directive_of parse (directive_json pv s full d) = Some d.
Proof.
  intro H. unfold directive_of, directive_json, full, kv_if.
  cbn -[input_values args_of mapM].
  change (mkOpts true true true true true true true) with full.
  rewrite (args_roundtrip _ H), !jotext_jopt.
  rewrite (mapM_map jstr JStr (d_locs d)) by reflexivity. destruct d; reflexivity.
Qed.

Lemma root_roundtrip r : root_of_json (root_json s r) = Some r.
Proof. destruct r; reflexivity. Qed.

Theorem client_roundtrip : (client_okv okv) s -> build_client parse (introspect pv s full) = Some s.
Proof.
  intros [Ht Hd]. unfold build_client, introspect, schema_json, full, kv_if.
  cbn -[root_json type_json directive_json filter mapM type_of directive_of root_of_json].
  change (mkOpts true true true true true true true) with full.
  rewrite !root_roundtrip. rewrite (filter_true _ (s_directives s)) by (intro; reflexivity).
  rewrite (mapM_map (type_of parse) (type_json pv s full) (s_types s)).
  - rewrite (mapM_map (directive_of parse) (directive_json pv s full) (s_directives s)).
    + rewrite jotext_jopt. destruct s; reflexivity.
    + intros d Hin. apply directive_roundtrip. rewrite Forall_forall in Hd. apply Hd. exact Hin.
  - intros t Hin. apply type_roundtrip. rewrite Forall_forall in Ht. apply Ht. exact Hin.
Qed.

(* introspecting the client schema gives the same result again *)
Corollary reintrospect : (client_okv okv) s ->
  exists c, build_client parse (introspect pv s full) = Some c /\ introspect pv c full = introspect pv s full.
Proof. intro H. exists s. split; [apply client_roundtrip; exact H|reflexivity]. Qed.

End Props.
