(* Default-value literals as const-value trees of the language model: the printer of literals is
   Lang/Printer.pp (print_ast), the parser is Lang/Parser.parse_text EConstValue
   (parse_const_value); their round trip is the theorem C08_print_parse_roundtrip of Properties/C08printer.v.  This instantiates the
   printer / parser parameters of Introspect.v / Client.v. *)
From GV Require Import Base.Prelude Lang.Lexer Lang.Ast Lang.Parser Lang.Wf Lang.Printer Lang.PrinterProps
  Lang.ParserProps Lang.UnparseProps SchemaOps.Schema SchemaOps.SchemaProps.

(* the const-value node of a literal tree (strings are printed in the quoted form) *)
Fixpoint to_node (v : value) : node :=
  match v with
  | VLeaf t x =>
      if t =? 0 then Nd KNullValue []
      else if t =? 1 then Nd KIntValue [AStr x]
      else if t =? 2 then Nd KFloatValue [AStr x]
      else if t =? 4 then Nd KBooleanValue [ABool (match x with [0] => false | _ => true end)]
      else if t =? 5 then Nd KEnumValue [AStr x]
      else Nd KStringValue [AStr x; ABool false]
  | VList l => Nd KListValue [AList (map to_node l)]
  | VObj fs =>
      Nd KObjectValue
        [AList ((fix go (fs : list (name * value)) : list node :=
                   match fs with
                   | [] => []
                   | (k, x) :: r => Nd KObjectField [ANode (mk_name k); ANode (to_node x)] :: go r
                   end) fs)]
  end.

(* the literal tree of a const-value node (the block flag of a string is not part of a value) *)
Fixpoint of_node (n : node) : option value :=
  match n with
  | Nd KNullValue [] => Some (VLeaf 0 [])
  | Nd KIntValue [AStr s] => Some (VLeaf 1 s)
  | Nd KFloatValue [AStr s] => Some (VLeaf 2 s)
  | Nd KStringValue [AStr s; ABool _] => Some (VLeaf 3 s)
  | Nd KBooleanValue [ABool b] => Some (VLeaf 4 [if b then 1 else 0])
  | Nd KEnumValue [AStr s] => Some (VLeaf 5 s)
  | Nd KListValue [AList l] =>
      option_map VList
        ((fix go (l : list node) : option (list value) :=
            match l with
            | [] => Some []
            | x :: r => match of_node x, go r with Some v, Some vs => Some (v :: vs) | _, _ => None end
            end) l)
  | Nd KObjectValue [AList fs] =>
      option_map VObj
        ((fix go (fs : list node) : option (list (name * value)) :=
            match fs with
            | [] => Some []
            | Nd KObjectField [ANode (Nd KName [AStr k]); ANode x] :: r =>
                match of_node x, go r with Some v, Some vs => Some ((k, v) :: vs) | _, _ => None end
            | _ => None
            end) fs)
  | _ => None
  end.

(* leaves in normal form: tag 0 null (no text), 1 int, 2 float, 3 string, 4 boolean ([0] / [1]), 5 enum *)
Fixpoint canon (v : value) : Prop :=
  match v with
  | VLeaf t x => (t = 0 /\ x = []) \/ t = 1 \/ t = 2 \/ t = 3 \/ (t = 4 /\ (x = [0] \/ x = [1])) \/ t = 5
  | VList l => (fix go (l : list value) : Prop := match l with [] => True | x :: r => canon x /\ go r end) l
  | VObj fs => (fix go (fs : list (name * value)) : Prop :=
                  match fs with [] => True | (k, x) :: r => canon x /\ go r end) fs
  end.

Lemma of_to v : canon v -> of_node (to_node v) = Some v.
Proof.
  induction v as [t x | l IH | fs IH] using value_ind'; intro Hc.
  - cbn in Hc. destruct Hc as [[E1 E2]|[E1|[E1|[E1|[[E1 Hx]|E1] ] ] ] ]; subst; try reflexivity.
    destruct Hx as [E|E]; subst; reflexivity.
  - cbn [to_node of_node]. 
    assert (H : (fix go (l : list node) : option (list value) :=
                   match l with
                   | [] => Some []
                   | x :: r => match of_node x, go r with Some v, Some vs => Some (v :: vs) | _, _ => None end
                   end) (map to_node l) = Some l).
    { cbn in Hc. induction IH as [|a r Ha Hr IHr]; [reflexivity|].
      destruct Hc as [Hca Hcr]. cbn [map]. rewrite (Ha Hca), (IHr Hcr). reflexivity. }
    rewrite H. reflexivity.
  - cbn [to_node of_node].
    match goal with |- option_map VObj ?e = _ => assert (H : e = Some fs) end.
    { cbn in Hc. induction IH as [|[k a] r Ha Hr IHr]; [reflexivity|].
      destruct Hc as [Hca Hcr]. cbn in Ha. specialize (Ha Hca). specialize (IHr Hcr).
      cbn. cbn in IHr. rewrite Ha, IHr. reflexivity. }
    rewrite H. reflexivity.
Qed.

(* the literals that print_ast / parse_const_value carry faithfully: normal-form trees whose node
   is a parser output for a const value (enum names are not true/false/null) and whose leaves are
   lexically possible (names are Name lexemes, numbers Int / Float lexemes, strings consist of
   Unicode scalar values) *)
Definition literal_ok (v : value) : Prop :=
  canon v /\ wf_value true (to_node v) /\ lex_ok (to_node v).

Definition lit_opts : options := mkOpts None false false.

(* print_ast of a default-value literal *)
Definition print_literal (v : value) : list N := pp (to_node v).

(* parse_const_value *)
Definition parse_literal (txt : list N) : option value :=
  match parse_text EConstValue lit_opts txt with
  | Ok (x, _) => of_node x
  | _ => None
  end.

Theorem literal_roundtrip v : literal_ok v -> parse_literal (print_literal v) = Some v.
Proof.
  intros (Hc & Hw & Hl). unfold parse_literal, print_literal.
  (* the printed text lexes to the tree's tokens, which parse back to the tree (C08) *)
  assert (He : EConstValue <> ECoordinate) by discriminate.
  destruct (print_lexes EConstValue (exp_fragment_arguments lit_opts)
              (exp_directives_on_directive_definitions lit_opts) (to_node v) He Hw Hl) as (ts & El & Hs).
  rewrite (parse_text_lex EConstValue lit_opts _ ts He El),
          (parse_entry_roundtrip EConstValue lit_opts (significant ts) (to_node v) [] eq_refl Hw Hs).
  apply of_to. exact Hc.
Qed.
