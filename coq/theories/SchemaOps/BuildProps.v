(* Proofs about Sdl.v / Build.v: what build makes of a printed schema, the extend laws. *)
From GV Require Import Base.Prelude Base.ListFacts SchemaOps.Schema SchemaOps.Build SchemaOps.Sdl SchemaOps.SchemaProps.

Lemma type_defs_app a b : type_defs (a ++ b) = type_defs a ++ type_defs b.
Proof. apply flat_map_app. Qed.
Lemma type_exts_app a b : type_exts (a ++ b) = type_exts a ++ type_exts b.
Proof. apply flat_map_app. Qed.
Lemma dir_defs_app a b : dir_defs (a ++ b) = dir_defs a ++ dir_defs b.
Proof. apply flat_map_app. Qed.
Lemma schema_defs_app a b : schema_defs (a ++ b) = schema_defs a ++ schema_defs b.
Proof. apply flat_map_app. Qed.
Lemma schema_ext_ops_app a b : schema_ext_ops (a ++ b) = schema_ext_ops a ++ schema_ext_ops b.
Proof. apply flat_map_app. Qed.

Lemma map_apply_exts_nil l : map (apply_exts []) l = l.
Proof. induction l; cbn; [reflexivity|]. f_equal. exact IHl. Qed.

Lemma oname_eqb_true a b : oname_eqb a b = true -> a = b.
Proof.
  destruct a, b; cbn; try discriminate; try reflexivity.
  intro H. apply text_eqb_true in H. congruence.
Qed.

Lemma oname_eqb_refl a : oname_eqb a a = true.
Proof. destruct a; cbn; [apply text_eqb_refl|reflexivity]. Qed.

Lemma set_roots_root_ops s :
  set_roots (mkRoots None None None) (root_ops s) = mkRoots (s_query s) (s_mutation s) (s_subscription s).
Proof.
  unfold root_ops. destruct (s_query s), (s_mutation s), (s_subscription s); reflexivity.
Qed.

(* the schema that build makes of a print without schema definition *)
Definition by_convention (s : schema) : schema :=
  mkSchema None (conv nQuery (s_types s) None) (conv nMutation (s_types s) None)
    (conv nSubscription (s_types s) None) (s_types s) (s_directives s).

Lemma doc_facts hd ds ts :
  type_defs hd = [] -> type_exts hd = [] -> dir_defs hd = [] -> schema_ext_ops hd = [] ->
  let doc := hd ++ map DDirective ds ++ map DType ts in
  type_defs doc = ts /\ type_exts doc = [] /\ dir_defs doc = ds /\ schema_ext_ops doc = []
  /\ schema_defs doc = schema_defs hd.
Proof.
  intros H1 H2 H3 H4 doc. subst doc.
  rewrite !type_defs_app, !type_exts_app, !dir_defs_app, !schema_ext_ops_app, !schema_defs_app, H1, H2, H3, H4.
  unfold type_defs, type_exts, dir_defs, schema_ext_ops, schema_defs.
  rewrite !flat_map_map. cbn [app]. rewrite !flat_map_single, !flat_map_none, !app_nil_r. auto.
Qed.

Lemma build_sdl_of_cases s :
  build (sdl_of s) = Some (if omit_schema_def s then by_convention s else s).
Proof.
  unfold sdl_of. destruct (omit_schema_def s) eqn:Eo.
  - destruct (doc_facts [] (s_directives s) (s_types s) eq_refl eq_refl eq_refl eq_refl)
      as (F1 & F2 & F3 & F4 & F5).
    unfold build, extend_args. rewrite F1, F2, F3, F4, F5. cbn.
    rewrite map_apply_exts_nil. reflexivity.
  - destruct (doc_facts [DSchema (s_desc s) (root_ops s)] (s_directives s) (s_types s)
                eq_refl eq_refl eq_refl eq_refl) as (F1 & F2 & F3 & F4 & F5).
    unfold build, extend_args. rewrite F1, F2, F3, F4, F5.
    cbn [schema_defs flat_map app map last empty_schema s_query s_mutation s_subscription s_desc s_types
         s_directives set_roots fold_left].
    rewrite set_roots_root_ops. cbn. rewrite map_apply_exts_nil.
    destruct s as [d q m sb ts ds]; cbn. destruct d; reflexivity.
Qed.

Lemma is_conv_spec root n ts : is_conv root n ts = true <-> root = conv n ts None.
Proof.
  unfold is_conv, conv. split; [apply oname_eqb_true|]. intros ->. apply oname_eqb_refl.
Qed.

Lemma default_roots_spec s :
  default_roots s = true <->
  s_query s = conv nQuery (s_types s) None /\ s_mutation s = conv nMutation (s_types s) None
  /\ s_subscription s = conv nSubscription (s_types s) None.
Proof. unfold default_roots. rewrite !andb_true_iff, !is_conv_spec. tauto. Qed.

Lemma omit_schema_def_spec s : s_query s <> None ->
  (omit_schema_def s = true <-> s_desc s = None /\ default_roots s = true).
Proof.
  intro Hq. unfold omit_schema_def, no_roots. destruct (s_query s); [|contradiction].
  destruct (s_desc s); cbn; intuition discriminate.
Qed.

Lemma omit_by_convention s : omit_schema_def (by_convention s) = true.
Proof.
  unfold omit_schema_def. cbn [by_convention s_desc].
  assert (default_roots (by_convention s) = true) as -> by (apply default_roots_spec; repeat split).
  apply orb_true_r.
Qed.

Lemma no_defs_of_executable ds :
  forallb is_executable ds = true ->
  type_defs ds = [] /\ type_exts ds = [] /\ dir_defs ds = [] /\ schema_defs ds = [] /\ schema_ext_ops ds = [].
Proof.
  induction ds as [|d r IH]; cbn; [auto|].
  intro H. apply andb_true_iff in H. destruct H as [Hd Hr]. destruct d; try discriminate. cbn. apply IH. exact Hr.
Qed.

Lemma extend_args_noop s ds : forallb is_executable ds = true -> extend_args s ds = s.
Proof.
  intro H. destruct (no_defs_of_executable ds H) as (H1 & H2 & H3 & H4 & H5).
  unfold extend_args. rewrite H1, H2, H3, H4, H5. cbn. rewrite map_apply_exts_nil, !app_nil_r.
  destruct s; reflexivity.
Qed.

Lemma extend_is_extend_args s ds : extend s ds = extend_args s ds.
Proof.
  unfold extend. destruct (forallb is_executable ds) eqn:E; [|reflexivity].
  symmetry. apply extend_args_noop. exact E.
Qed.

(* B without schema definition / schema extension *)
Definition members_only (ds : list definition) : bool :=
  forallb (fun d => match d with DSchema _ _ | DSchemaExt _ => false | _ => true end) ds.

Lemma members_only_no_schema ds : members_only ds = true -> schema_defs ds = [] /\ schema_ext_ops ds = [].
Proof.
  induction ds as [|d r IH]; cbn; [auto|].
  intro H. apply andb_true_iff in H. destruct H as [Hd Hr]. destruct d; try discriminate; cbn; apply IH; exact Hr.
Qed.

Lemma apply_ext_name t e : t_name (apply_ext t e) = t_name t.
Proof. unfold apply_ext. destruct (_ && _); reflexivity. Qed.

Lemma apply_exts_name es t : t_name (apply_exts es t) = t_name t.
Proof.
  unfold apply_exts. revert t. induction es as [|e r IH]; intro t; cbn; [reflexivity|].
  rewrite IH. apply apply_ext_name.
Qed.

Lemma apply_exts_app a b t : apply_exts (a ++ b) t = apply_exts b (apply_exts a t).
Proof. unfold apply_exts. apply fold_left_app. Qed.

Lemma apply_exts_foreign es t :
  (forall e, In e es -> t_name e <> t_name t) -> apply_exts es t = t.
Proof.
  unfold apply_exts. revert t. induction es as [|e r IH]; intros t H; cbn; [reflexivity|].
  assert (He : apply_ext t e = t).
  { unfold apply_ext. destruct (text_eqb (t_name e) (t_name t)) eqn:E.
    - apply text_eqb_true in E. exfalso. apply (H e); [left; reflexivity|exact E].
    - rewrite andb_false_r. reflexivity. }
  rewrite He. apply IH. intros e' Hin. apply H. right. exact Hin.
Qed.

Lemma find_by_app {A} (key : A -> name) n l l' :
  find_by key n (l ++ l') = match find_by key n l with Some x => Some x | None => find_by key n l' end.
Proof. induction l as [|x r IH]; cbn; [reflexivity|]. destruct (text_eqb (key x) n); [reflexivity|exact IH]. Qed.

Lemma find_by_none_map n es l :
  (forall t, In t l -> t_name t <> n) -> find_by t_name n (map (apply_exts es) l) = None.
Proof.
  induction l as [|x r IH]; intro H; cbn; [reflexivity|].
  rewrite apply_exts_name. destruct (text_eqb (t_name x) n) eqn:E.
  - apply text_eqb_true in E. exfalso. apply (H x); [left; reflexivity|exact E].
  - apply IH. intros t Ht. apply H. right. exact Ht.
Qed.

Lemma has_type_app_foreign n es l l' :
  (forall t, In t l' -> t_name t <> n) -> has_type n (l ++ map (apply_exts es) l') = has_type n l.
Proof.
  intro H. unfold has_type. rewrite find_by_app, (find_by_none_map n es l' H).
  destruct (find_by t_name n l); reflexivity.
Qed.

Lemma has_type_map n es l : has_type n (map (apply_exts es) l) = has_type n l.
Proof.
  unfold has_type. induction l as [|x r IH]; cbn; [reflexivity|].
  rewrite apply_exts_name. destruct (text_eqb (t_name x) n); [reflexivity|exact IH].
Qed.

Lemma apply_exts_split A B :
  (forall e t, In e (type_exts A) -> In t (type_defs B) -> t_name e <> t_name t) ->
  map (apply_exts (type_exts A ++ type_exts B)) (type_defs A ++ type_defs B)
  = map (apply_exts (type_exts B)) (map (apply_exts (type_exts A)) (type_defs A))
    ++ map (apply_exts (type_exts B)) (type_defs B).
Proof.
  intro H1. rewrite map_app, map_map. f_equal.
  - apply map_ext. intro t. apply apply_exts_app.
  - apply map_ext_in. intros t Ht. rewrite apply_exts_app. f_equal.
    apply apply_exts_foreign. intros e He. apply (H1 e t He Ht).
Qed.

Definition root_of (k : N) (s : schema) : option name :=
  if k =? 0 then s_query s else if k =? 1 then s_mutation s else s_subscription s.

(* the last operation of kind k in a list of operation types *)
Fixpoint last_op (k : N) (ops : list (N * name)) (cur : option name) : option name :=
  match ops with
  | [] => cur
  | (k', n) :: r => last_op k r (if (if k' =? 0 then 0 else if k' =? 1 then 1 else 2) =? k then Some n else cur)
  end.

Lemma set_roots_components r ops :
  set_roots r ops = mkRoots (last_op 0 ops (r_query r)) (last_op 1 ops (r_mutation r)) (last_op 2 ops (r_subscription r)).
Proof.
  unfold set_roots. revert r. induction ops as [|[k n] rest IH]; intro r; cbn [fold_left last_op].
  - destruct r; reflexivity.
  - rewrite IH. unfold set_root.
    destruct (k =? 0) eqn:E0; [cbn; reflexivity|]. destruct (k =? 1) eqn:E1; cbn; reflexivity.
Qed.

Definition ops_wellformed (ops : list (N * name)) : Prop :=
  forall k n, In (k, n) ops -> k = 0 \/ k = 1 \/ k = 2.

Lemma last_op_none k ops cur :
  (forall n, ~ In (k, n) ops) -> ops_wellformed ops -> last_op k ops cur = cur.
Proof.
  revert cur. induction ops as [|[k' n] rest IH]; intros cur Hn Hops; cbn [last_op]; [reflexivity|].
  assert (Hne : k' <> k) by (intro; subst; apply (Hn n); left; reflexivity).
  rewrite IH.
  - assert (Hnorm : (if k' =? 0 then 0 else if k' =? 1 then 1 else 2) = k')
      by (destruct (Hops k' n (or_introl eq_refl)) as [E|[E|E]]; subst k'; reflexivity).
    apply N.eqb_neq in Hne. rewrite Hnorm, Hne. reflexivity.
  - intros m Hm. apply (Hn m). right. exact Hm.
  - intros k2 n2 H2. apply (Hops k2 n2). right. exact H2.
Qed.

Lemma last_op_app k a b c : last_op k (a ++ b) c = last_op k b (last_op k a c).
Proof. revert c. induction a as [|[k' n] a IH]; intro c; cbn [app last_op]; [reflexivity|apply IH]. Qed.

(* conv after adding B's operations = adding B's operations after conv, when B only fills empty
   roots: either no type carries the conventional name and conv does nothing, or B has no
   operation of this kind *)
Lemma conv_last_op k nk ts opsA opsB r0 :
  ops_wellformed opsB ->
  ((exists n, In (k, n) opsB) -> conv nk ts (last_op k opsA r0) = None) ->
  conv nk ts (last_op k (opsA ++ opsB) r0) = last_op k opsB (conv nk ts (last_op k opsA r0)).
Proof.
  intros Hwf H4. rewrite last_op_app. unfold conv in *. destruct (has_type nk ts); [|reflexivity].
  rewrite (last_op_none k opsB); [reflexivity| |exact Hwf].
  intros n Hn. discriminate (H4 (ex_intro _ n Hn)).
Qed.

Theorem extend_hom_ops A B sA :
  build A = Some sA ->
  schema_defs B = [] ->
  ops_wellformed (schema_ext_ops B) ->
  (* B's schema extensions only fill operation types that the schema does not have yet *)
  (forall k n, In (k, n) (schema_ext_ops B) -> root_of k sA = None) ->
  (forall e t, In e (type_exts A) -> In t (type_defs B) -> t_name e <> t_name t) ->
  (forall t, In t (type_defs B) -> t_name t <> nQuery /\ t_name t <> nMutation /\ t_name t <> nSubscription) ->
  build (A ++ B) = Some (extend sA B).
Proof.
  intros HA HsB Hwf Hfill Hext Hconv. rewrite extend_is_extend_args.
  pose proof (apply_exts_split A B Hext) as Htypes.
  unfold build in *. rewrite schema_defs_app, HsB, app_nil_r.
  destruct (schema_defs A) as [|x [|y r]] eqn:EA; [| |discriminate].
  all: inversion HA; subst sA; clear HA.
  all: unfold extend_args; cbn [s_types s_directives s_query s_mutation s_subscription s_desc empty_schema].
  all: rewrite schema_defs_app, HsB, EA, schema_ext_ops_app, type_exts_app, type_defs_app, dir_defs_app.
  all: cbn [app map last]; rewrite Htypes.
  - (* no schema definition in A: the roots are those of the extensions, completed by convention *)
    rewrite !set_roots_components. cbn [r_query r_mutation r_subscription].
    unfold conv at 1 2 3.
    rewrite !(has_type_app_foreign _ (type_exts B) _ (type_defs B)) by (intros t Ht; apply (Hconv t Ht)).
    rewrite !has_type_map.
    set (tsA := map (apply_exts (type_exts A)) (type_defs A)).
    assert (HQ := conv_last_op 0 nQuery tsA (schema_ext_ops A) (schema_ext_ops B) None Hwf).
    assert (HM := conv_last_op 1 nMutation tsA (schema_ext_ops A) (schema_ext_ops B) None Hwf).
    assert (HS := conv_last_op 2 nSubscription tsA (schema_ext_ops A) (schema_ext_ops B) None Hwf).
    unfold conv in HQ, HM, HS. subst tsA. rewrite !has_type_map in HQ, HM, HS.
    unfold extend_args, root_of in Hfill. rewrite EA in Hfill. cbn [map last] in Hfill.
    rewrite set_roots_components in Hfill. unfold conv in Hfill. cbn in Hfill. rewrite !has_type_map in Hfill.
    rewrite HQ, HM, HS.
    + unfold conv. rewrite !has_type_map. reflexivity.
    + intros [n Hn]. exact (Hfill 2 n Hn).
    + intros [n Hn]. exact (Hfill 1 n Hn).
    + intros [n Hn]. exact (Hfill 0 n Hn).
  - unfold set_roots. rewrite fold_left_app. cbn.
    destruct x as [[d|] ops]; cbn;
      match goal with |- context [fold_left set_root (schema_ext_ops B) ?r] =>
        destruct (fold_left set_root (schema_ext_ops A) (fold_left set_root ops (mkRoots None None None))) end;
      reflexivity.
Qed.

(* extending the schema built from A with B = building A and B together, for documents B that
   add members / new types / new directives (no schema definition or schema extension in B),
   whose new types are not extended inside A and do not carry a conventional root name *)
Theorem extend_hom A B sA :
  build A = Some sA ->
  members_only B = true ->
  (forall e t, In e (type_exts A) -> In t (type_defs B) -> t_name e <> t_name t) ->
  (forall t, In t (type_defs B) -> t_name t <> nQuery /\ t_name t <> nMutation /\ t_name t <> nSubscription) ->
  build (A ++ B) = Some (extend sA B).
Proof.
  intros HA HB H1 H3. destruct (members_only_no_schema B HB) as [Hs He].
  apply extend_hom_ops; auto; unfold ops_wellformed; rewrite He; intros ? ? [].
Qed.
