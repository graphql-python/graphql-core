(* Soundness of the change detector: every reported change has a decidable witness in the two
   schemas (the element it names is present / absent / different as the change kind says). *)
From GV Require Import Base.Prelude SchemaOps.Schema SchemaOps.SchemaProps SchemaOps.Sort SchemaOps.Diff
  SchemaOps.DiffProps.

Definition in_not_in {A} (key : A -> name) (n : name) (l l' : list A) : bool :=
  has key n l && negb (has key n l').

(* both containers have an element of that name, and the two elements satisfy f *)
Definition with2 {A} (key : A -> name) (n : name) (l l' : list A) (f : A -> A -> bool) : bool :=
  match find_by key n l, find_by key n l' with
  | Some x, Some y => f x y
  | _, _ => false
  end.

Section Witness.
Variable leb : name -> name -> bool.

(* witness of a change between two persisted arguments *)
Definition arg_witness (k : N) (o n : arg) : bool :=
  match k with
  | 42 | 79 => negb (tref_eqb (a_type o) (a_type n))           (* ARG_CHANGED_KIND(_SAFE) *)
  | 65 => match a_default o, a_default n with                  (* ARG_DEFAULT_VALUE_CHANGE *)
          | Some _, None => true
          | Some x, Some y => negb (default_eqb leb x y)
          | _, _ => false
          end
  | 80 => match a_default o, a_default n with None, Some _ => true | _, _ => false end
  | 81 => negb (otext_eqb (a_desc o) (a_desc n))
  | _ => false
  end.

Definition witness (c : change) (a b : schema) : bool :=
  let T := with2 t_name in
  let ta := s_types a in let tb := s_types b in
  let da := s_directives a in let db := s_directives b in
  match c_kind c, c_path c with
  | 10, [t] => in_not_in t_name t ta tb                                        (* TYPE_REMOVED *)
  | 70, [t] => in_not_in t_name t tb ta                                        (* TYPE_ADDED *)
  | 50, [d] => in_not_in d_name d da db                                        (* DIRECTIVE_REMOVED *)
  | 73, [d] => in_not_in d_name d db da                                        (* DIRECTIVE_ADDED *)
  | 11, [t] => T t ta tb (fun x y => negb (t_kind x =? t_kind y))              (* TYPE_CHANGED_KIND *)
  | 30, [t; f] => T t ta tb (fun x y =>                                        (* FIELD_REMOVED *)
                    in_not_in f_name f (t_fields x) (t_fields y) || in_not_in a_name f (t_inputs x) (t_inputs y))
  | 74, [t; f] => T t ta tb (fun x y => in_not_in f_name f (t_fields y) (t_fields x))     (* FIELD_ADDED *)
  | 21, [t; v] => T t ta tb (fun x y => in_not_in e_name v (t_values x) (t_values y))     (* VALUE_REMOVED_FROM_ENUM *)
  | 60, [t; v] => T t ta tb (fun x y => in_not_in e_name v (t_values y) (t_values x))     (* VALUE_ADDED_TO_ENUM *)
  | 20, [t; m] => T t ta tb (fun x y => in_not_in idn m (t_members x) (t_members y))      (* TYPE_REMOVED_FROM_UNION *)
  | 61, [t; m] => T t ta tb (fun x y => in_not_in idn m (t_members y) (t_members x))      (* TYPE_ADDED_TO_UNION *)
  | 23, [t; i] => T t ta tb (fun x y => in_not_in idn i (t_ifaces x) (t_ifaces y))        (* IMPLEMENTED_INTERFACE_REMOVED *)
  | 64, [t; i] => T t ta tb (fun x y => in_not_in idn i (t_ifaces y) (t_ifaces x))        (* IMPLEMENTED_INTERFACE_ADDED *)
  | 22, [t; f] | 62, [t; f] =>                                                 (* REQUIRED/OPTIONAL_INPUT_FIELD_ADDED *)
      T t ta tb (fun x y => in_not_in a_name f (t_inputs y) (t_inputs x))
  | 31, [t; f] | 78, [t; f] =>                                                 (* FIELD_CHANGED_KIND(_SAFE) *)
      T t ta tb (fun x y =>
        with2 f_name f (t_fields x) (t_fields y) (fun p q => negb (tref_eqb (f_type p) (f_type q)))
        || with2 a_name f (t_inputs x) (t_inputs y) (fun p q => negb (tref_eqb (a_type p) (a_type q))))
  | 41, [t; f; g] =>                                                           (* ARG_REMOVED *)
      T t ta tb (fun x y => with2 f_name f (t_fields x) (t_fields y) (fun p q =>
        in_not_in a_name g (f_args p) (f_args q)))
  | 40, [t; f; g] | 63, [t; f; g] =>                                           (* REQUIRED/OPTIONAL_ARG_ADDED *)
      T t ta tb (fun x y => with2 f_name f (t_fields x) (t_fields y) (fun p q =>
        in_not_in a_name g (f_args q) (f_args p)))
  | 42, [t; f; g] | 79, [t; f; g] | 65, [t; f; g] | 80, [t; f; g] | 81, [t; f; g] =>  (* argument of a field changed *)
      T t ta tb (fun x y => with2 f_name f (t_fields x) (t_fields y) (fun p q =>
        with2 a_name g (f_args p) (f_args q) (arg_witness (c_kind c))))
  | 42, [d; g] | 79, [d; g] | 65, [d; g] | 80, [d; g] =>                         (* argument of a directive changed *)
      with2 d_name d da db (fun o n => with2 a_name g (d_args o) (d_args n) (arg_witness (c_kind c)))
  | 51, [d; g] => with2 d_name d da db (fun o n => in_not_in a_name g (d_args o) (d_args n))   (* DIRECTIVE_ARG_REMOVED *)
  | 52, [d; g] | 77, [d; g] =>                                                 (* REQUIRED/OPTIONAL_DIRECTIVE_ARG_ADDED *)
      with2 d_name d da db (fun o n => in_not_in a_name g (d_args n) (d_args o))
  | 53, [d] => with2 d_name d da db (fun o n => d_repeatable o && negb (d_repeatable n))
  | 75, [d] => with2 d_name d da db (fun o n => d_repeatable n && negb (d_repeatable o))
  | 54, [d; l] => with2 d_name d da db (fun o n => mem_name l (d_locs o) && negb (mem_name l (d_locs n)))
  | 76, [d; l] => with2 d_name d da db (fun o n => mem_name l (d_locs n) && negb (mem_name l (d_locs o)))
  | 81, [t] =>                                                                 (* DESCRIPTION_CHANGED: type / directive *)
      T t ta tb (fun x y => negb (otext_eqb (t_desc x) (t_desc y)))
      || with2 d_name t da db (fun o n => negb (otext_eqb (d_desc o) (d_desc n)))
  | 81, [t; f] =>                                (* field / input field / enum value / directive argument *)
      T t ta tb (fun x y =>
        with2 f_name f (t_fields x) (t_fields y) (fun p q => negb (otext_eqb (f_desc p) (f_desc q)))
        || with2 a_name f (t_inputs x) (t_inputs y) (fun p q => negb (otext_eqb (a_desc p) (a_desc q)))
        || with2 e_name f (t_values x) (t_values y) (fun p q => negb (otext_eqb (e_desc p) (e_desc q))))
      || with2 d_name t da db (fun o n => with2 a_name f (d_args o) (d_args n) (arg_witness 81))
  | _, _ => false
  end.

Lemma safe_false_neq (safe : tref -> tref -> bool) o n :
  (forall t, safe t t = true) -> safe o n = false -> tref_eqb o n = false.
Proof.
  intros Hrefl H. destruct (tref_eqb o n) eqn:E; [|reflexivity].
  apply tref_eqb_true in E. subst. rewrite Hrefl in H. discriminate.
Qed.

Definition safe_in_false_neq o n := safe_false_neq safe_in o n safe_in_refl.
Definition safe_out_false_neq o n := safe_false_neq safe_out o n safe_out_refl.

Lemma with2_ext {A} (key : A -> name) n l l' (f g : A -> A -> bool) :
  (forall x y, f x y = g x y) -> with2 key n l l' f = with2 key n l l' g.
Proof. intro H. unfold with2. destruct (find_by key n l), (find_by key n l'); auto. Qed.

Section Sound.
Variables a b : schema.

(* every change of the list has its witness; the lemmas below follow the way Diff.v builds its lists *)
Definition sound (l : list change) : Prop := forall c, In c l -> witness c a b = true.

Lemma sound_nil : sound [].
Proof. intros c []. Qed.

Lemma sound_one c : witness c a b = true -> sound [c].
Proof. intros H c' [<-|[]]. exact H. Qed.

Lemma sound_app l1 l2 : sound l1 -> sound l2 -> sound (l1 ++ l2).
Proof. intros H1 H2 c Hc. apply in_app_or in Hc. destruct Hc; auto. Qed.

Lemma sound_absent {A} (key : A -> name) (mk : A -> change) l other :
  (forall x, in_not_in key (key x) l other = true -> witness (mk x) a b = true) ->
  sound (map mk (absent key key l other)).
Proof.
  intros H c Hc. apply in_map_iff in Hc. destruct Hc as [x [<- Hx]]. apply H.
  unfold absent in Hx. apply filter_In in Hx. destruct Hx as [Hin Hn].
  unfold in_not_in. rewrite (has_in key (key x) l) by (apply in_map; exact Hin). exact Hn.
Qed.

(* a persisted pair is found under its name in both containers *)
Lemma sound_persisted {A} (key : A -> name) (pc : A * A -> list change) l l' :
  NoDup (map key l) ->
  (forall o n, In o l -> (forall f, with2 key (key o) l l' f = f o n) -> sound (pc (o, n))) ->
  sound (flat_map pc (persisted key l l')).
Proof.
  intros Hnd H c Hc. apply in_flat_map in Hc. destruct Hc as [[o n] [Hp Hc]].
  apply persisted_in in Hp. destruct Hp as [Hin Hf]. refine (H o n Hin _ c Hc).
  intro f. unfold with2. rewrite (find_by_in key o l Hnd Hin), Hf. reflexivity.
Qed.

Lemma sound_desc p x y :
  (otext_eqb x y = false -> witness (mkChange DESCRIPTION_CHANGED p) a b = true) -> sound (desc_change p x y).
Proof.
  intro H. unfold desc_change. destruct (otext_eqb x y) eqn:E; [apply sound_nil|]. apply sound_one, H. reflexivity.
Qed.

(* the type of a persisted field / input field / argument changed: unsafely (k1) or safely (k2) *)
Lemma sound_kind (safe : tref -> tref -> bool) k1 k2 p o n :
  (safe o n = false -> tref_eqb o n = false) ->
  (tref_eqb o n = false -> witness (mkChange k1 p) a b = true /\ witness (mkChange k2 p) a b = true) ->
  sound (if negb (safe o n) then [mkChange k1 p] else if tref_eqb o n then [] else [mkChange k2 p]).
Proof.
  intros Hs H. destruct (safe o n) eqn:Es; cbn [negb].
  - destruct (tref_eqb o n) eqn:Et; [apply sound_nil|]. apply sound_one, H. reflexivity.
  - apply sound_one, H, Hs. reflexivity.
Qed.

(* a persisted argument pair under the path p of its owner *)
Lemma arg_pair_sound p o n :
  (forall k, k = 42 \/ k = 79 \/ k = 65 \/ k = 80 \/ k = 81 -> arg_witness k o n = true ->
             witness (mkChange k (p ++ [a_name o])) a b = true) ->
  sound (arg_pair_changes leb p o n).
Proof.
  intro H. unfold arg_pair_changes. apply sound_app.
  - destruct (safe_in (a_type o) (a_type n)) eqn:Es; cbn [negb].
    + destruct (a_default o) as [x|] eqn:Eo, (a_default n) as [y|] eqn:En.
      * destruct (default_eqb leb x y) eqn:Ed; [apply sound_nil|].
        apply sound_one, H; [right; right; left; reflexivity|]. cbn. rewrite Eo, En, Ed. reflexivity.
      * apply sound_one, H; [right; right; left; reflexivity|]. cbn. rewrite Eo, En. reflexivity.
      * apply sound_one, H; [right; right; right; left; reflexivity|]. cbn. rewrite Eo, En. reflexivity.
      * destruct (tref_eqb (a_type o) (a_type n)) eqn:Et; [apply sound_nil|].
        apply sound_one, H; [right; left; reflexivity|]. cbn. rewrite Et. reflexivity.
    + apply sound_one, H; [left; reflexivity|]. cbn. rewrite (safe_in_false_neq _ _ Es). reflexivity.
  - apply sound_desc. intro Hd. apply H; [do 4 right; reflexivity|]. cbn. rewrite Hd. reflexivity.
Qed.

Hypothesis Hwf : wf a.

Section Types.
(* x / y : a persisted pair of types *)
Variables x y : typedef.
Hypothesis WT : forall f, with2 t_name (t_name x) (s_types a) (s_types b) f = f x y.
Hypothesis Wx : wf_type x.

Lemma field_pair_sound o n : In o (t_fields x) ->
  (forall f, with2 f_name (f_name o) (t_fields x) (t_fields y) f = f o n) ->
  sound (field_pair_changes leb (t_name x) o n).
Proof.
  intros Hin WF. destruct Wx as (_ & Wff & _ & _). rewrite Forall_forall in Wff. pose proof (Wff o Hin) as Wo.
  unfold field_pair_changes. apply sound_app; [|apply sound_app].
  - unfold field_arg_changes. apply sound_app; [|apply sound_app].
    + apply sound_absent. intros g Hg. unfold witness; cbn. rewrite WT, WF. exact Hg.
    + apply sound_persisted; [exact Wo|]. intros ao an _ WA. cbn [fst snd]. apply arg_pair_sound.
      intros k [->|[->|[->|[->| ->] ] ] ] Hw; unfold witness; cbn; rewrite WT, WF, WA; exact Hw.
    + apply sound_absent. intros g Hg. destruct (required g); unfold witness; cbn; rewrite WT, WF; exact Hg.
  - apply sound_kind; [apply safe_out_false_neq|].
    intro Et. split; unfold witness; cbn; rewrite WT, WF, Et; reflexivity.
  - apply sound_desc. intro Hd. unfold witness; cbn. rewrite WT, WF, Hd. reflexivity.
Qed.

Lemma type_pair_sound : sound (type_pair_changes leb x y).
Proof.
  unfold type_pair_changes. destruct Wx as (Wf & Wff & Wv & Wi). apply sound_app.
  { apply sound_desc. intro Hd. unfold witness; cbn. rewrite WT, Hd. reflexivity. }
  destruct ((t_kind x =? 4) && (t_kind y =? 4)).
  { unfold enum_changes. apply sound_app; [|apply sound_app].
    - apply sound_absent. intros v Hv. unfold witness; cbn. rewrite WT. exact Hv.
    - apply sound_absent. intros v Hv. unfold witness; cbn. rewrite WT. exact Hv.
    - apply sound_persisted; [exact Wv|]. intros vo vn _ WV. cbn [fst snd]. apply sound_desc. intro Hd.
      unfold witness; cbn. rewrite WT, WV, Hd. cbn. rewrite !orb_true_r. reflexivity. }
  destruct ((t_kind x =? 3) && (t_kind y =? 3)).
  { unfold union_changes. apply sound_app; apply sound_absent; intros v Hv; unfold witness; cbn; rewrite WT; exact Hv. }
  destruct ((t_kind x =? 5) && (t_kind y =? 5)).
  { unfold input_changes. apply sound_app; [|apply sound_app].
    - apply sound_absent. intros v Hv. destruct (required v); unfold witness; cbn; rewrite WT; exact Hv.
    - apply sound_absent. intros v Hv. unfold witness; cbn. rewrite WT, Hv. apply orb_true_r.
    - apply sound_persisted; [exact Wi|]. intros io inn _ WI. cbn [fst snd]. unfold input_pair_changes. apply sound_app.
      + apply sound_kind; [apply safe_in_false_neq|].
        intro Et. split; unfold witness; cbn; rewrite WT, WI, Et; apply orb_true_r.
      + apply sound_desc. intro Hd. unfold witness; cbn. rewrite WT, WI, Hd. cbn. rewrite orb_true_r. reflexivity. }
  destruct (((t_kind x =? 1) && (t_kind y =? 1)) || ((t_kind x =? 2) && (t_kind y =? 2))).
  { apply sound_app.
    - unfold field_changes. apply sound_app; [|apply sound_app].
      + apply sound_absent. intros v Hv. unfold witness; cbn. rewrite WT, Hv. reflexivity.
      + apply sound_absent. intros v Hv. unfold witness; cbn. rewrite WT. exact Hv.
      + apply sound_persisted; [exact Wf|]. intros fo fn Hin WF. cbn [fst snd]. apply field_pair_sound; assumption.
    - unfold iface_changes. apply sound_app; apply sound_absent; intros v Hv; unfold witness; cbn; rewrite WT; exact Hv. }
  destruct (t_kind x =? t_kind y) eqn:E; [apply sound_nil|].
  apply sound_one. unfold witness; cbn. rewrite WT, E. reflexivity.
Qed.
End Types.

Lemma directive_pair_sound o n : wf_dir o ->
  (forall f, with2 d_name (d_name o) (s_directives a) (s_directives b) f = f o n) ->
  sound (directive_pair_changes leb o n).
Proof.
  intros Wo WD. unfold directive_pair_changes. repeat apply sound_app.
  - apply sound_absent. intros g Hg. destruct (required g); unfold witness; cbn; rewrite WD; exact Hg.
  - apply sound_absent. intros g Hg. unfold witness; cbn. rewrite WD. exact Hg.
  - apply sound_persisted; [exact Wo|]. intros ao an _ WA. cbn [fst snd]. apply arg_pair_sound.
    intros k [->|[->|[->|[->| ->] ] ] ] Hw; unfold witness; cbn; rewrite WD, WA; try exact Hw.
    rewrite Hw. apply orb_true_r.
  - destruct (d_repeatable o && negb (d_repeatable n)) eqn:E1.
    + apply sound_one. unfold witness; cbn. rewrite WD. exact E1.
    + destruct (d_repeatable n && negb (d_repeatable o)) eqn:E2; [|apply sound_nil].
      apply sound_one. unfold witness; cbn. rewrite WD. exact E2.
  - apply sound_desc. intro Hd. unfold witness; cbn. rewrite WD, Hd. apply orb_true_r.
  - intros c Hc. apply in_map_iff in Hc. destruct Hc as [l [<- Hl]]. apply filter_In in Hl. destruct Hl as [Hin Hn].
    unfold witness; cbn. rewrite WD, (mem_name_in l (d_locs o) Hin), Hn. reflexivity.
  - intros c Hc. apply in_map_iff in Hc. destruct Hc as [l [<- Hl]]. apply filter_In in Hl. destruct Hl as [Hin Hn].
    unfold witness; cbn. rewrite WD, (mem_name_in l (d_locs n) Hin), Hn. reflexivity.
Qed.

Theorem diff_sound_all : sound (diff leb a b).
Proof.
  destruct Hwf as (Wt & Wtt & Wd & Wdd). rewrite Forall_forall in Wtt, Wdd.
  unfold diff. apply sound_app.
  - unfold type_changes. apply sound_app; [|apply sound_app].
    + apply sound_absent. intros t Ht. exact Ht.
    + apply sound_absent. intros t Ht. exact Ht.
    + apply sound_persisted; [exact Wt|]. intros x y Hin WT. cbn [fst snd]. apply type_pair_sound; auto.
  - unfold directive_changes. apply sound_app; [|apply sound_app].
    + apply sound_absent. intros t Ht. exact Ht.
    + apply sound_absent. intros t Ht. exact Ht.
    + apply sound_persisted; [exact Wd|]. intros o n Hin WD. cbn [fst snd]. apply directive_pair_sound; auto.
Qed.
End Sound.

Theorem diff_sound a b c : wf a -> In c (diff leb a b) -> witness c a b = true.
Proof. intros Hwf Hc. exact (diff_sound_all a b Hwf c Hc). Qed.

End Witness.
