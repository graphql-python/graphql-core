(* Lemmas about Sort.v: the insertion sort permutes, sorts and is idempotent on each container; the
   relation [schema_rel] (same schema up to the order of every container).  Properties/C19.v states the results. *)
From Coq Require Import Permutation.
From GV Require Import Base.Prelude SchemaOps.Schema SchemaOps.Sort.

Section SortProps.
Variable leb : name -> name -> bool.

Lemma insert_perm {A} (key : A -> name) x l : Permutation (x :: l) (insert leb key x l).
Proof.
  induction l as [|y r IH]; cbn [insert].
  - apply Permutation_refl.
  - destruct (leb (key x) (key y)).
    + apply Permutation_refl.
    + eapply Permutation_trans; [apply perm_swap|]. apply perm_skip. exact IH.
Qed.

Lemma isort_perm {A} (key : A -> name) l : Permutation l (isort leb key l).
Proof.
  induction l as [|x r IH]; cbn [isort].
  - apply Permutation_refl.
  - eapply Permutation_trans; [apply perm_skip; exact IH|]. apply insert_perm.
Qed.

Fixpoint sorted {A} (key : A -> name) (l : list A) : Prop :=
  match l with
  | [] => True
  | x :: r => match r with
              | [] => True
              | y :: _ => leb (key x) (key y) = true
              end /\ sorted key r
  end.

Hypothesis leb_total : forall a b, leb a b = false -> leb b a = true.

Lemma insert_sorted {A} (key : A -> name) x l : sorted key l -> sorted key (insert leb key x l).
Proof.
  induction l as [|y r IH]; cbn [insert]; intro H.
  - cbn. auto.
  - destruct (leb (key x) (key y)) eqn:E.
    + cbn [sorted]. split; [exact E|]. exact H.
    + destruct H as [Hy Hr]. specialize (IH Hr).
      cbn [sorted]. split; [|exact IH].
      destruct r as [|z r']; cbn [insert].
      * apply leb_total. exact E.
      * destruct (leb (key x) (key z)); [apply leb_total; exact E | exact Hy].
Qed.

Lemma isort_sorted {A} (key : A -> name) l : sorted key (isort leb key l).
Proof.
  induction l as [|x r IH]; cbn [isort].
  - exact I.
  - apply insert_sorted. exact IH.
Qed.

Lemma isort_id {A} (key : A -> name) l : sorted key l -> isort leb key l = l.
Proof.
  induction l as [|x r IH]; cbn [isort]; intro H.
  - reflexivity.
  - destruct H as [Hx Hr]. rewrite (IH Hr).
    destruct r as [|y r']; cbn [insert].
    + reflexivity.
    + rewrite Hx. reflexivity.
Qed.

Lemma isort_idem {A} (key : A -> name) l : isort leb key (isort leb key l) = isort leb key l.
Proof. apply isort_id. apply isort_sorted. Qed.

Lemma insert_map {A B} (ka : A -> name) (kb : B -> name) (g : A -> B) x l :
  (forall a, kb (g a) = ka a) ->
  insert leb kb (g x) (map g l) = map g (insert leb ka x l).
Proof.
  intro Hk. induction l as [|y r IH]; cbn [insert map].
  - reflexivity.
  - rewrite !Hk. destruct (leb (ka x) (ka y)); cbn [map].
    + reflexivity.
    + rewrite IH. reflexivity.
Qed.

Lemma isort_map {A B} (ka : A -> name) (kb : B -> name) (g : A -> B) l :
  (forall a, kb (g a) = ka a) ->
  isort leb kb (map g l) = map g (isort leb ka l).
Proof.
  intro Hk. induction l as [|x r IH]; cbn [isort map].
  - reflexivity.
  - rewrite IH. apply insert_map. exact Hk.
Qed.

(* sort (map g) twice = once, for a key-preserving idempotent g *)
Lemma isort_map_idem {A} (key : A -> name) (g : A -> A) l :
  (forall a, key (g a) = key a) -> (forall a, g (g a) = g a) ->
  isort leb key (map g (isort leb key (map g l))) = isort leb key (map g l).
Proof.
  intros Hk Hg.
  rewrite <- (isort_map key key g (map g l) Hk).
  rewrite map_map. rewrite (map_ext (fun x => g (g x)) g Hg).
  apply isort_idem.
Qed.

Lemma sort_field_idem f : sort_field leb (sort_field leb f) = sort_field leb f.
Proof. destruct f; unfold sort_field; cbn. rewrite isort_idem. reflexivity. Qed.

Lemma sort_type_idem t : sort_type leb (sort_type leb t) = sort_type leb t.
Proof.
  destruct t; unfold sort_type; cbn.
  rewrite (isort_map_idem f_name (sort_field leb)); [|intros []; reflexivity|apply sort_field_idem].
  rewrite !isort_idem. reflexivity.
Qed.

Lemma sort_directive_idem d : sort_directive leb (sort_directive leb d) = sort_directive leb d.
Proof. destruct d; unfold sort_directive; cbn. rewrite !isort_idem. reflexivity. Qed.

End SortProps.

(* the same schema up to the order of every container *)

Definition PermRel {A} (R : A -> A -> Prop) (l l' : list A) : Prop :=
  exists m, Forall2 R l m /\ Permutation m l'.

Definition field_rel (f f' : field) : Prop :=
  f_name f = f_name f' /\ f_type f = f_type f' /\ f_desc f = f_desc f' /\ f_depr f = f_depr f'
  /\ Permutation (f_args f) (f_args f').

Definition type_rel (t t' : typedef) : Prop :=
  t_kind t = t_kind t' /\ t_name t = t_name t' /\ t_desc t = t_desc t'
  /\ t_specified_by t = t_specified_by t' /\ t_oneof t = t_oneof t'
  /\ PermRel field_rel (t_fields t) (t_fields t')
  /\ Permutation (t_ifaces t) (t_ifaces t') /\ Permutation (t_members t) (t_members t')
  /\ Permutation (t_values t) (t_values t') /\ Permutation (t_inputs t) (t_inputs t').

Definition dir_rel (d d' : directive) : Prop :=
  d_name d = d_name d' /\ d_desc d = d_desc d' /\ d_repeatable d = d_repeatable d' /\ d_depr d = d_depr d'
  /\ Permutation (d_args d) (d_args d') /\ Permutation (d_locs d) (d_locs d').

Definition schema_rel (s s' : schema) : Prop :=
  s_desc s = s_desc s' /\ s_query s = s_query s' /\ s_mutation s = s_mutation s'
  /\ s_subscription s = s_subscription s'
  /\ PermRel type_rel (s_types s) (s_types s') /\ PermRel dir_rel (s_directives s) (s_directives s').

Lemma Forall2_map_r {A} (R : A -> A -> Prop) (g : A -> A) l :
  (forall x, R x (g x)) -> Forall2 R l (map g l).
Proof. intro H. induction l; cbn; constructor; auto. Qed.

Lemma PermRel_sort_map {A} leb (R : A -> A -> Prop) (key : A -> name) (g : A -> A) l :
  (forall x, R x (g x)) -> PermRel R l (isort leb key (map g l)).
Proof.
  intro H. exists (map g l). split; [apply Forall2_map_r; exact H|apply isort_perm].
Qed.

Lemma sort_field_rel leb f : field_rel f (sort_field leb f).
Proof. unfold field_rel, sort_field; cbn. repeat split; try reflexivity. apply isort_perm. Qed.

Lemma sort_type_rel leb t : type_rel t (sort_type leb t).
Proof.
  unfold type_rel, sort_type; cbn. repeat split; try reflexivity; try apply isort_perm.
  apply PermRel_sort_map. apply sort_field_rel.
Qed.

Lemma sort_directive_rel leb d : dir_rel d (sort_directive leb d).
Proof.
  unfold dir_rel, sort_directive; cbn. repeat split; try reflexivity; apply isort_perm.
Qed.

Theorem sort_perm leb s : schema_rel s (sort leb s).
Proof.
  unfold schema_rel, sort; cbn. repeat split; try reflexivity.
  - apply PermRel_sort_map. apply sort_type_rel.
  - apply PermRel_sort_map. apply sort_directive_rel.
Qed.

Lemma PermRel_refl {A} (R : A -> A -> Prop) l : (forall x, R x x) -> PermRel R l l.
Proof.
  intro H. exists l. split; [|apply Permutation_refl].
  induction l; constructor; auto.
Qed.

Lemma schema_rel_refl s : schema_rel s s.
Proof.
  unfold schema_rel. repeat split; try reflexivity.
  - apply PermRel_refl. intro t. unfold type_rel. repeat split; try reflexivity; try apply Permutation_refl.
    apply PermRel_refl. intro f. unfold field_rel. repeat split; reflexivity.
  - apply PermRel_refl. intro d. unfold dir_rel. repeat split; reflexivity.
Qed.
